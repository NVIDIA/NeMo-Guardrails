(* Proofs about the matcher model: soundness/completeness w.r.t. MatchSpec.Matches,
   score exponent range, harmlessness of unmentioned parameters, the event level.
   The set and dict branches of `score` are one loop (`sum_res`: add up the items' exponents,
   stop at the first item that fails or raises) over different item scores; the three container
   branches share their frame (`guarded`: length guard, then the length-difference factor);
   `Matches_iff` reads the specification along the case distinction `score` makes, so that the
   main theorem compares like with like. *)
From Coq Require Import ZArith List String Bool Lia.
From NG Require Import Gen.MatchConsts Val.Value Val.Match Val.MatchSpec.
Open Scope string_scope.
Import ListNotations.
Open Scope Z_scope.

Arguments too_long : simpl never.
Arguments add_len_diff : simpl never.

Definition is_yes (r : res) : Prop := exists k, r = RYes k.

Lemma is_yes_RYes k : is_yes (RYes k).
Proof. exists k; reflexivity. Qed.

Lemma not_yes_RNo : ~ is_yes RNo.
Proof. intros [k H]; discriminate. Qed.

Lemma not_yes_RErr : ~ is_yes RErr.
Proof. intros [k H]; discriminate. Qed.

Lemma yes_RNo : is_yes RNo <-> False.
Proof. split; [apply not_yes_RNo|intros []]. Qed.

Lemma yes_RYes k : is_yes (RYes k) <-> True.
Proof. split; [trivial|intros _; apply is_yes_RYes]. Qed.

Lemma yes_if_yes b : is_yes (yes_if b) <-> b = true.
Proof. destruct b; simpl; [rewrite yes_RYes|rewrite yes_RNo]; intuition discriminate. Qed.

Lemma yes_if_k b k : yes_if b = RYes k -> k = 0.
Proof. destruct b; simpl; intro H; inversion H; reflexivity. Qed.

Lemma cmp_res_k op n v k : cmp_res op n v = RYes k -> k = 0.
Proof. unfold cmp_res. destruct n, v; try discriminate; apply yes_if_k. Qed.

Lemma cmp_res_yes op n v : is_yes (cmp_res op n v) <-> cmp_res op n v = RYes 0.
Proof.
  split; [|intro H; rewrite H; apply is_yes_RYes].
  intros [k H]. rewrite H. f_equal. exact (cmp_res_k _ _ _ _ H).
Qed.

(* `if len(ref_args) > len(args): return 0.0` (when the branch has the guard), then
   `score *= factor ** (len(args) - len(ref_args))`.  `score` spells this expression out in each
   container branch, so the lemmas below apply to its goals by conversion: no goal shows `guarded`. *)
Definition guarded (g : bool) (r : res) (np nv : nat) : res :=
  if too_long g np nv then RNo else add_len_diff r np nv.

Lemma too_long_spec g np nv : too_long g np nv = false <-> (g = true -> (np <= nv)%nat).
Proof.
  unfold too_long. destruct g; cbn [andb]; [|split; [discriminate|reflexivity]].
  destruct (Z.gtb_spec (Z.of_nat np) (Z.of_nat nv)) as [Hgt|Hle]; split;
    try reflexivity; try discriminate.
  - intro Hg. specialize (Hg eq_refl). lia.
  - intros _ _. lia.
Qed.

Lemma guarded_RYes g r np nv k :
  guarded g r np nv = RYes k <->
  exists k0, r = RYes k0 /\ k = k0 + (Z.of_nat nv - Z.of_nat np) /\ (g = true -> (np <= nv)%nat).
Proof.
  unfold guarded. destruct (too_long g np nv) eqn:E.
  - split; [discriminate|]. intros [k0 [_ [_ H]]]. apply too_long_spec in H. congruence.
  - rewrite too_long_spec in E. unfold add_len_diff. destruct r as [| |k0]; split;
      try discriminate; try (intros [k1 [H _]]; discriminate).
    + intros [= <-]. eauto.
    + intros [k1 [[= <-] [-> _]]]. reflexivity.
Qed.

Lemma guarded_nonneg r np nv k :
  guarded true r np nv = RYes k -> (forall k0, r = RYes k0 -> 0 <= k0) -> 0 <= k.
Proof.
  intros H Hr. apply guarded_RYes in H. destruct H as [k0 [-> [-> Hle]]].
  specialize (Hr _ eq_refl). specialize (Hle eq_refl). lia.
Qed.

Lemma guarded_spec r np nv (P : Prop) :
  guarded true r np nv <> RErr -> (r <> RErr -> (is_yes r <-> P)) ->
  (is_yes (guarded true r np nv) <-> (np <= nv)%nat /\ P).
Proof.
  intros Hne HP. unfold is_yes. setoid_rewrite guarded_RYes.
  split.
  - intros [k [k0 [Hr [_ Hle]]]]. split; [auto|]. subst r. apply HP; [discriminate|apply is_yes_RYes].
  - intros [Hle HPp]. destruct r as [| |k0].
    + destruct Hne. unfold guarded. rewrite (proj2 (too_long_spec _ _ _)); auto.
    + apply HP in HPp; [destruct (not_yes_RNo HPp)|discriminate].
    + exists (k0 + (Z.of_nat nv - Z.of_nat np)), k0. auto.
Qed.

Lemma Embeds_tail R p ps vs : Embeds R (p :: ps) vs -> Embeds R ps vs.
Proof.
  intro H. remember (p :: ps) as l eqn:El. revert p ps El.
  induction H as [vs|p' ps' v vs Hr He IH|ps' v vs He IH]; intros p0 ps0 El.
  - discriminate.
  - inversion El; subst. apply E_skip. exact He.
  - apply E_skip. eapply IH. exact El.
Qed.

Lemma Embeds_length R ps vs : Embeds R ps vs -> (List.length ps <= List.length vs)%nat.
Proof. induction 1; simpl; lia. Qed.

Section Spec.
  Variable re_search : string -> string -> bool.
  Variable str_of : value -> string.
  Notation Matches' := (Matches re_search str_of).

  Lemma Matches_iff p v :
    Matches' p v <->
    match p, v with
    | VRegex r, VRegex r' => r' = r
    | VRegex r, (VStr _ | VInt _ | VFloat _ | VBool _) => re_search r (str_of v) = true
    | VCmp op n, _ => cmp_res op n v = RYes 0
    | VNone, VNone => True
    | VBool b, VBool b' => b' = b
    | VBool b, VInt z => z = Z_of_bool b
    | VInt z, VInt z' => z' = z
    | VFloat q, VFloat q' => q' = q
    | VStr s, VStr s' => s' = s
    | VList ps, VList vs => (List.length ps <= List.length vs)%nat /\ Embeds Matches' ps vs
    | VSet ps, VSet vs =>
        (List.length ps <= List.length vs)%nat /\ Forall (fun p => Exists (Matches' p) vs) ps
    | VDict pkvs, VDict vkvs =>
        (List.length pkvs <= List.length vkvs)%nat /\
        Forall (fun kp => in_filter (fst kp) = true \/
                          exists v, lookup (fst kp) vkvs = Some v /\ Matches' (snd kp) v) pkvs
    | _, _ => False
    end.
  Proof.
    split.
    - destruct 1 as [r v Hs Hr| | | | | | | | |ps vs He| |]; auto.
      + destruct v; try discriminate; exact Hr.
      + split; [exact (Embeds_length _ _ _ He)|exact He].
    - destruct p, v; intro H; try contradiction; subst;
        try (apply M_regex; [reflexivity|exact H]); constructor; apply H.
  Qed.
End Spec.

Fixpoint sum_res {A} (f : A -> res) (l : list A) (k : Z) : res :=
  match l with
  | [] => RYes k
  | a :: l' =>
      match f a with
      | RErr => RErr
      | RNo => RNo
      | RYes k0 => sum_res f l' (k + k0)
      end
  end.

Section SumRes.
  Context {A : Type} (f : A -> res).

  Lemma sum_res_spec (P : A -> Prop) l :
    Forall (fun a => f a <> RErr -> (is_yes (f a) <-> P a)) l ->
    forall k, sum_res f l k <> RErr -> (is_yes (sum_res f l k) <-> Forall P l).
  Proof.
    induction 1 as [|a l Ha _ IH]; intros k Hne; simpl in *.
    - rewrite yes_RYes. intuition constructor.
    - rewrite Forall_cons_iff. destruct (f a) as [| |k0]; [congruence| |].
      + rewrite <- Ha, !yes_RNo by discriminate. tauto.
      + rewrite <- Ha, yes_RYes, (IH _ Hne) by discriminate. tauto.
  Qed.

  Lemma sum_res_mono l :
    Forall (fun a => forall k0, f a = RYes k0 -> 0 <= k0) l ->
    forall k k', sum_res f l k = RYes k' -> k <= k'.
  Proof.
    induction 1 as [|a l Ha _ IH]; intros k k' H; simpl in H; [inversion H; lia|].
    destruct (f a) as [| |k0]; try discriminate.
    specialize (Ha _ eq_refl). apply IH in H. lia.
  Qed.

  Lemma sum_res_items l k k' : sum_res f l k = RYes k' -> Forall (fun a => is_yes (f a)) l.
  Proof.
    intro H. apply (sum_res_spec _ l) with (k := k); [apply Forall_forall; intros; reflexivity| |];
      rewrite H; [discriminate|apply is_yes_RYes].
  Qed.

  Lemma sum_res_ext (g : A -> res) l :
    Forall (fun a => forall k0, f a = RYes k0 -> g a = RYes k0) l ->
    forall k k', sum_res f l k = RYes k' -> sum_res g l k = RYes k'.
  Proof.
    induction 1 as [|a l Ha _ IH]; intros k k' H; simpl in *; [exact H|].
    destruct (f a) as [| |k0]; try discriminate. rewrite (Ha _ eq_refl). apply IH, H.
  Qed.
End SumRes.

Section LoopLemmas.
  Variable sc : value -> value -> res.

  Lemma all_found_sum ps vs : forall k,
    all_found sc ps vs k = sum_res (fun p => find_first sc p vs) ps k.
  Proof.
    induction ps as [|p0 ps IH]; intro k; simpl; [reflexivity|].
    destruct (find_first sc p0 vs); auto.
  Qed.

  (* one dict entry: filtered keys count as matching with exponent 0 *)
  Definition entry (vkvs : list (string * value)) (kp : string * value) : res :=
    if in_filter (fst kp) then RYes 0 else
    match lookup (fst kp) vkvs with
    | None => RNo
    | Some v0 => sc (snd kp) v0
    end.

  Lemma dict_all_sum pkvs vkvs : forall k,
    dict_all sc pkvs vkvs k = sum_res (entry vkvs) pkvs k.
  Proof.
    induction pkvs as [|[key p0] rest IH]; intro k; simpl; [reflexivity|].
    unfold entry at 1. simpl. destruct (in_filter key); [rewrite Z.add_0_r; apply IH|].
    destruct (lookup key vkvs) as [v0|]; [|reflexivity]. destruct (sc p0 v0); auto.
  Qed.

  Variable R : value -> value -> Prop.

  Definition agrees (p : value) : Prop :=
    forall v, sc p v <> RErr -> (is_yes (sc p v) <-> R p v).

  Lemma agrees_yes p v k : agrees p -> sc p v = RYes k -> R p v.
  Proof. intros Hp E. apply Hp; rewrite E; [discriminate|apply is_yes_RYes]. Qed.

  Lemma agrees_no p v : agrees p -> sc p v = RNo -> ~ R p v.
  Proof. intros Hp E Hr. apply Hp in Hr; rewrite E in *; [exact (not_yes_RNo Hr)|discriminate]. Qed.

  (* the greedy scan is complete: if p0 can take v0, an embedding that skips v0 can be
     changed to take it (Embeds_tail) *)
  Lemma scan_spec ps :
    Forall agrees ps ->
    forall vs k, scan sc ps vs k <> RErr -> (is_yes (scan sc ps vs k) <-> Embeds R ps vs).
  Proof.
    induction 1 as [|p0 ps Hp0 _ IHps]; intros vs k.
    - intros _. split; intros _; [apply E_nil | apply is_yes_RYes].
    - induction vs as [|v0 vs IHvs]; simpl; intro Hne.
      + split; intro H; [destruct (not_yes_RNo H) | inversion H].
      + destruct (sc p0 v0) as [| |k0] eqn:E0; [congruence| |].
        * rewrite (IHvs Hne). split; [apply E_skip|]. intro H.
          inversion H; subst; [destruct (agrees_no _ _ Hp0 E0); assumption|assumption].
        * rewrite (IHps _ _ Hne). split; [apply E_take, (agrees_yes _ _ _ Hp0 E0)|]. intro H.
          inversion H; subst; [assumption | eapply Embeds_tail; eassumption].
  Qed.

  Lemma find_first_spec p0 :
    agrees p0 ->
    forall vs, find_first sc p0 vs <> RErr -> (is_yes (find_first sc p0 vs) <-> Exists (R p0) vs).
  Proof.
    intros Hp0 vs. induction vs as [|v0 vs IH]; simpl; intro Hne; rewrite ?Exists_nil, ?Exists_cons.
    - apply yes_RNo.
    - destruct (sc p0 v0) as [| |k0] eqn:E0; [congruence| |].
      + rewrite (IH Hne). pose proof (agrees_no _ _ Hp0 E0). tauto.
      + rewrite yes_RYes. pose proof (agrees_yes _ _ _ Hp0 E0). tauto.
  Qed.

  Lemma entry_spec vkvs kp :
    agrees (snd kp) -> entry vkvs kp <> RErr ->
    (is_yes (entry vkvs kp) <->
     in_filter (fst kp) = true \/ exists v, lookup (fst kp) vkvs = Some v /\ R (snd kp) v).
  Proof.
    unfold entry. intros Hp Hne. destruct (in_filter (fst kp)); [rewrite yes_RYes; tauto|].
    destruct (lookup (fst kp) vkvs) as [v0|].
    - rewrite (Hp v0 Hne). split; [eauto|]. intros [H|[v [[= <-] H]]]; [discriminate|exact H].
    - rewrite yes_RNo. split; [tauto|]. intros [H|[v [H _]]]; discriminate.
  Qed.

  Definition nonneg (p : value) : Prop := forall v k, sc p v = RYes k -> 0 <= k.

  Lemma scan_mono ps : Forall nonneg ps -> forall vs k k', scan sc ps vs k = RYes k' -> k <= k'.
  Proof.
    induction 1 as [|p0 ps Hp0 _ IH]; intros vs k k' H; [inversion H; lia|].
    induction vs as [|v0 vs IHvs]; simpl in H; [discriminate|].
    destruct (sc p0 v0) as [| |k0] eqn:E0; [discriminate | apply IHvs; exact H |].
    apply Hp0 in E0. apply IH in H. lia.
  Qed.

  Lemma find_first_nonneg p0 : nonneg p0 -> forall vs k, find_first sc p0 vs = RYes k -> 0 <= k.
  Proof.
    intros Hp0 vs. induction vs as [|v0 vs IH]; simpl; intros k H; [discriminate|].
    destruct (sc p0 v0) as [| |k0] eqn:E0; [discriminate | apply IH; exact H |].
    inversion H; subst. eapply Hp0; eassumption.
  Qed.

  Lemma entry_nonneg vkvs kp : nonneg (snd kp) -> forall k, entry vkvs kp = RYes k -> 0 <= k.
  Proof.
    intros Hp k. unfold entry. destruct (in_filter (fst kp)); [intros [= <-]; lia|].
    destruct (lookup (fst kp) vkvs); [apply Hp|discriminate].
  Qed.
End LoopLemmas.

Section Correct.
  Variable re_search : string -> string -> bool.
  Variable str_of : value -> string.

  Notation score3 := (score re_search str_of true true true).
  Notation Matches' := (Matches re_search str_of).

  Theorem score_sound_complete :
    forall p v, score3 p v <> RErr -> (is_yes (score3 p v) <-> Matches' p v).
  Proof.
    induction p as [ |b|z|q|s|ps IH|ps IH|pkvs IH|r|op n] using value_ind'; intros v Hne;
      rewrite Matches_iff.
    (* a payload of another type: RNo against False *)
    - destruct v; simpl; try exact yes_RNo. exact (yes_RYes 0).
    - (* a bool pattern also takes the int it is *)
      destruct v; simpl; try exact yes_RNo; rewrite yes_if_yes;
        [apply Bool.eqb_true_iff | apply Z.eqb_eq].
    - destruct v; simpl; try exact yes_RNo. rewrite yes_if_yes. apply Z.eqb_eq.
    - destruct v; simpl; try exact yes_RNo. rewrite yes_if_yes. apply Z.eqb_eq.
    - destruct v; simpl; try exact yes_RNo. rewrite yes_if_yes. apply String.eqb_eq.
    - destruct v; simpl; try exact yes_RNo.
      apply guarded_spec; [exact Hne|]. apply scan_spec, IH.
    - destruct v; simpl; try exact yes_RNo.
      apply guarded_spec; [exact Hne|]. rewrite all_found_sum. apply sum_res_spec.
      eapply Forall_impl; [|exact IH]. intros p Hp. apply (find_first_spec _ _ p Hp).
    - destruct v; simpl; try exact yes_RNo.
      apply guarded_spec; [exact Hne|]. rewrite dict_all_sum. apply sum_res_spec.
      eapply Forall_impl; [|exact IH]. intros kp Hp. apply (entry_spec _ _ _ kp Hp).
    - (* a regex: searched in str() of a scalar, compared with another regex *)
      destruct v; simpl; try exact yes_RNo; rewrite yes_if_yes;
        [reflexivity | reflexivity | reflexivity | reflexivity | apply String.eqb_eq].
    - apply cmp_res_yes.
  Qed.

  (* a positive score is factor^k with k >= 0, i.e. it never exceeds 1 (and k counts
     unmentioned members) *)
  Theorem score_exponent_nonneg : forall p v k, score3 p v = RYes k -> 0 <= k.
  Proof.
    induction p as [ |b|z|q|s|ps IH|ps IH|pkvs IH|r|op n] using value_ind'; intros v k H;
      try (apply cmp_res_k in H; lia);
      destruct v; simpl in H; try discriminate; try (apply yes_if_k in H; lia).
    - inversion H; lia.
    - eapply guarded_nonneg; [exact H|]. intro k0. apply scan_mono, IH.
    - eapply guarded_nonneg; [exact H|]. intro k0. rewrite all_found_sum. apply sum_res_mono.
      eapply Forall_impl; [|exact IH]. intros p Hp. apply (find_first_nonneg _ p Hp).
    - eapply guarded_nonneg; [exact H|]. intro k0. rewrite dict_all_sum. apply sum_res_mono.
      eapply Forall_impl; [|exact IH]. intros kp Hp. apply (entry_nonneg _ _ kp Hp).
  Qed.
End Correct.

Section Unmentioned.
  Variable re_search : string -> string -> bool.
  Variable str_of : value -> string.
  Variables gd gl gs : bool.
  Notation sc := (score re_search str_of gd gl gs).

  Lemma lookup_app_some key kvs extra v :
    lookup key kvs = Some v -> lookup key (kvs ++ extra) = Some v.
  Proof.
    induction kvs as [|[k' v'] rest IH]; simpl; [discriminate|].
    destruct (String.eqb key k'); [trivial | exact IH].
  Qed.

  Lemma lookup_In key kvs v : lookup key kvs = Some v -> In (key, v) kvs.
  Proof.
    induction kvs as [|[k' v'] rest IH]; simpl; [discriminate|].
    destruct (String.eqb_spec key k'); intro H; [inversion H; subst; left; reflexivity | right; auto].
  Qed.

  (* Adding any parameters to a received event never turns a match into a non-match; the
     score is multiplied by factor once per added parameter. *)
  Theorem unmentioned_harmless pkvs vkvs extra k :
    sc (VDict pkvs) (VDict vkvs) = RYes k ->
    sc (VDict pkvs) (VDict (vkvs ++ extra)) = RYes (k + Z.of_nat (List.length extra)).
  Proof.
    intro H. apply guarded_RYes in H. destruct H as [k0 [H [-> Hle]]]. apply guarded_RYes.
    exists k0. rewrite app_length. split; [|split; [lia|intro Hg; specialize (Hle Hg); lia]].
    rewrite dict_all_sum in *. revert H. apply sum_res_ext.
    apply Forall_forall. intros kp _ k1. unfold entry. destruct (in_filter (fst kp)); [trivial|].
    destruct (lookup (fst kp) vkvs) as [v0|] eqn:El; [|discriminate].
    rewrite (lookup_app_some _ _ extra _ El). trivial.
  Qed.

  (* every mentioned, unfiltered parameter must be present with a matching value *)
  Theorem mentioned_param_required pkvs vkvs k key p :
    sc (VDict pkvs) (VDict vkvs) = RYes k ->
    lookup key pkvs = Some p -> in_filter key = false ->
    exists v, lookup key vkvs = Some v /\ is_yes (sc p v).
  Proof.
    intros H Hl Hf. apply guarded_RYes in H. destruct H as [k0 [H _]].
    rewrite dict_all_sum in H. apply sum_res_items in H.
    rewrite Forall_forall in H. specialize (H _ (lookup_In _ _ _ Hl)).
    unfold entry in H. simpl in H. rewrite Hf in H.
    destruct (lookup key vkvs) as [v0|]; [eauto|destruct (not_yes_RNo H)].
  Qed.
End Unmentioned.

Section EventLevel.
  Variable re_search : string -> string -> bool.
  Variable str_of : value -> string.
  Variables gd gl gs : bool.
  Variable action_args : string -> option (list (string * value)).
  Notation esc := (event_score re_search str_of gd gl gs action_args).
  Notation sc := (score re_search str_of gd gl gs).

  Definition umim (ev ref : event) : Prop :=
    (is_internal (e_name ev) && is_internal (e_name ref)) = false.

  Lemma start_flow_internal : is_internal ev_start_flow = true.
  Proof. reflexivity. Qed.

  (* under umim, event_score takes its last branch (the one for UMIM events) *)
  Lemma umim_branch ev ref (a b c : eres) :
    umim ev ref ->
    (if String.eqb (e_name ev) ev_start_flow && String.eqb (e_name ref) ev_start_flow then a
     else if is_internal (e_name ev) && is_internal (e_name ref) then b else c) = c.
  Proof.
    unfold umim. intro H. rewrite H.
    destruct (String.eqb_spec (e_name ev) ev_start_flow) as [E1|]; [|reflexivity].
    destruct (String.eqb_spec (e_name ref) ev_start_flow) as [E2|]; [|reflexivity].
    rewrite E1, E2, start_flow_internal in H. discriminate.
  Qed.

  (* a non-internal event with another name never matches *)
  Theorem event_name_mismatch ev ref :
    umim ev ref -> e_name ref <> e_name ev -> esc ev ref = ENo.
  Proof.
    intros Hu Hn. unfold event_score.
    destruct (negb (kind_compatible _ _)); [reflexivity|].
    rewrite (umim_branch _ _ _ _ _ Hu).
    destruct (String.eqb_spec (e_name ref) (e_name ev)); [contradiction | reflexivity].
  Qed.

  (* a statement that refers to a specific action instance matches only that instance's
     events.  The received event is an ActionEvent: run_to_completion converts every dict
     event whose type contains "Action" with ActionEvent.from_umim_event, and the name must
     equal the statement's (event_name_mismatch).  (A hand-built plain flows.Event object
     of the same name has no action_uid attribute and skips the instance rule - see
     Example plain_event_skips_instance_rule in Match_examples.v.) *)
  Theorem event_action_instance ev ref r eu :
    umim ev ref -> e_kind ref = KAction (Some r) ->
    e_kind ev = KAction eu -> eu <> Some r -> esc ev ref = ENo.
  Proof.
    intros Hu Hr He Hne. unfold event_score.
    destruct (negb (kind_compatible (e_kind ev) (e_kind ref))) eqn:Ek; [reflexivity|].
    rewrite (umim_branch _ _ _ _ _ Hu).
    destruct (negb (String.eqb (e_name ref) (e_name ev))); [reflexivity|].
    rewrite Hr, He. destruct eu as [e|]; [|reflexivity].
    destruct (String.eqb_spec r e); [subst; contradiction | reflexivity].
  Qed.

  Lemma lookup_dict_set_other key key' v kvs :
    key <> key' -> lookup key (dict_set key' v kvs) = lookup key kvs.
  Proof.
    intro Hne. induction kvs as [|[k0 v0] rest IH]; simpl.
    - destruct (String.eqb_spec key key'); [contradiction | reflexivity].
    - destruct (String.eqb_spec key' k0) as [E|E]; simpl.
      + subst. destruct (String.eqb_spec key k0); [contradiction | reflexivity].
      + destruct (String.eqb key k0); [reflexivity | exact IH].
  Qed.

  (* a positive event score has passed every guard: the leaves ENo, EErr are not EYes *)
  Lemma if_ENo_yes (b : bool) e k : (if b then ENo else e) = EYes k -> e = EYes k.
  Proof. destruct b; [discriminate|trivial]. Qed.

  Lemma guard_yes (c : option bool) e k :
    match c with None => EErr | Some true => ENo | Some false => e end = EYes k -> e = EYes k.
  Proof. destruct c as [[|]|]; (discriminate || trivial). Qed.

  Lemma eres_of_res_yes r k : eres_of_res r = EYes k -> r = RYes k.
  Proof. destruct r; (discriminate || intros [= ->]; reflexivity). Qed.

  (* outside the StartFlow/StartFlow branch (there the code replaces the argument score by the
     comparison of flow_id alone) a positive event score is the argument score against the
     event's arguments, action arguments possibly injected *)
  Lemma event_yes_args ev ref k :
    e_name ref <> ev_start_flow -> esc ev ref = EYes k ->
    exists args', sc (VDict (e_args ref)) (VDict args') = RYes k /\
                  forall key, key <> "action_arguments" -> lookup key args' = lookup key (e_args ev).
  Proof.
    intros Hns H. unfold event_score, args_score in H. apply if_ENo_yes in H.
    rewrite (proj2 (String.eqb_neq _ _) Hns), andb_false_r in H.
    destruct (is_internal (e_name ev) && is_internal (e_name ref)).
    - apply guard_yes, guard_yes in H.
      destruct (sc (VDict (e_args ref)) (VDict (e_args ev))) as [| |k0] eqn:Es; try discriminate.
      destruct (has_key _ _ && cross_failure _ _); [discriminate|].
      apply if_ENo_yes in H. injection H as ->. eauto.
    - apply if_ENo_yes in H.
      destruct (e_kind ev) as [| |eu]; [| |destruct (e_kind ref) as [| |ru]];
        try (apply eres_of_res_yes in H; eauto).
      apply if_ENo_yes, eres_of_res_yes in H. eexists. split; [exact H|]. intros key Hkey.
      destruct eu as [e|]; [destruct (action_args e)|]; trivial. apply lookup_dict_set_other, Hkey.
  Qed.

  (* whatever the statement mentions (unfiltered, not the injected action_arguments) the event
     must carry with a matching value, at event level too *)
  Theorem event_param_required ev ref k key p :
    in_filter key = false -> key <> "action_arguments" -> e_name ref <> ev_start_flow ->
    lookup key (e_args ref) = Some p -> esc ev ref = EYes k ->
    exists v, lookup key (e_args ev) = Some v /\ is_yes (sc p v).
  Proof.
    intros Hf Hk Hns Hr Hyes. destruct (event_yes_args _ _ _ Hns Hyes) as [args' [Hs Hl]].
    rewrite <- (Hl key Hk). exact (mentioned_param_required _ _ _ _ _ _ _ _ _ _ Hs Hr Hf).
  Qed.

  (* a statement that names a flow instance (flow_instance_uid) never advances on an event
     of another instance (StartFlow events create instances, they are not events "of" one) *)
  Theorem event_flow_instance ev ref u u' k :
    in_filter "flow_instance_uid" = false ->
    e_name ref <> ev_start_flow ->
    lookup "flow_instance_uid" (e_args ref) = Some (VStr u) ->
    lookup "flow_instance_uid" (e_args ev) = Some (VStr u') ->
    u <> u' -> esc ev ref <> EYes k.
  Proof.
    intros Hf Hns Hr He Hne Hyes.
    destruct (event_param_required _ _ _ _ _ Hf ltac:(discriminate) Hns Hr Hyes) as [v [Hv Hy]].
    rewrite He in Hv. injection Hv as <-. apply yes_if_yes, String.eqb_eq in Hy. congruence.
  Qed.

  (* UMIM events: the event-level score is the argument score (name equal, no instance rule
     in the way, no action arguments injected) *)
  Theorem event_umim_args ev ref :
    umim ev ref -> e_name ref = e_name ev -> e_kind ev = KPlain ->
    esc ev ref = eres_of_res (sc (VDict (e_args ref)) (VDict (e_args ev))).
  Proof.
    intros Hu Hn Hk. unfold event_score, args_score. rewrite Hk. cbn [kind_compatible negb].
    rewrite (umim_branch _ _ _ _ _ Hu).
    rewrite Hn, String.eqb_refl. cbn [negb]. destruct (e_kind ref); reflexivity.
  Qed.
End EventLevel.

Lemma matches_no_smaller_container :
  forall re_search str_of,
    (forall ps vs, Matches re_search str_of (VList ps) (VList vs) -> (List.length ps <= List.length vs)%nat) /\
    (forall ps vs, Matches re_search str_of (VSet ps) (VSet vs) -> (List.length ps <= List.length vs)%nat) /\
    (forall ps vs, Matches re_search str_of (VDict ps) (VDict vs) -> (List.length ps <= List.length vs)%nat).
Proof. intros rs so. repeat split; intros ps vs H; apply Matches_iff in H; apply H. Qed.

(* The matcher as the current source has it: guards and factor from Gen.MatchConsts. *)
From Coq Require Import QArith.
From NG Require Import Val.ScoreQ.

Lemma factor_pos : (0 < factor)%Q. Proof. reflexivity. Qed.
Lemma factor_lt_1 : (factor < 1)%Q. Proof. reflexivity. Qed.

Lemma score_now_range :
  forall re_search str_of p v k,
    score_now re_search str_of p v = RYes k ->
    (0 <= k)%Z /\ (0 < factor ^ k /\ factor ^ k <= 1 /\ factor ^ (k + 1) < factor ^ k)%Q.
Proof.
  intros rs so p v k H.
  assert (Hk : (0 <= k)%Z) by (eapply score_exponent_nonneg; exact H).
  split; [exact Hk|].
  destruct (Qpower_unit_interval factor factor_pos factor_lt_1 k Hk) as [H1 H2].
  repeat split; [exact H1 | exact H2 |].
  apply Qpower_decreasing; [exact factor_pos | exact factor_lt_1 | lia].
Qed.
