(* Non-vacuity examples and the refutation witness for a matcher whose set branch lacks the
   length guard (the C04 entry of KNOWN_FINDINGS.txt). *)
From Coq Require Import ZArith List String.
From NG Require Import Val.Value Val.Match Val.MatchSpec Val.Match_proofs Val.MatchRun.
Import ListNotations.
Open Scope string_scope.
Open Scope Z_scope.

(* without the set guard: a set pattern LARGER than the received set matches with factor^-1 > 1 *)
Example set_guard_missing_refuted :
  score re_search_c str_of_c true true false
        (VSet [VRegex "a"; VRegex "."]) (VSet [VStr "a"]) = RYes (-1).
Proof. vm_compute. reflexivity. Qed.

Example set_guard_missing_not_documented :
  ~ Matches re_search_c str_of_c (VSet [VRegex "a"; VRegex "."]) (VSet [VStr "a"]).
Proof. intro H. apply Matches_iff in H. exact (Nat.nle_succ_diag_l 1 (proj1 H)). Qed.

(* with the guard the same pair does not match *)
Example set_guard_present :
  score re_search_c str_of_c true true true
        (VSet [VRegex "a"; VRegex "."]) (VSet [VStr "a"]) = RNo.
Proof. vm_compute. reflexivity. Qed.

(* a non-trivial nested match: hypotheses of the theorems are inhabited *)
Example nested_match :
  score re_search_c str_of_c true true true
        (VDict [("text", VRegex "^hi"); ("tags", VList [VStr "a"; VStr "c"]); ("n", VCmp OpGt (NInt 2))])
        (VDict [("n", VInt 5); ("text", VStr "hi there"); ("tags", VList [VStr "a"; VStr "b"; VStr "c"]); ("extra", VNone)])
  = RYes 2.
Proof. vm_compute. reflexivity. Qed.

(* a hand-built plain Event of an action-event name skips the instance rule *)
Example plain_event_skips_instance_rule :
  event_score re_search_c str_of_c true true true (fun _ => None)
    {| e_name := "XActionFinished"; e_args := []; e_kind := KPlain |}
    {| e_name := "XActionFinished"; e_args := []; e_kind := KAction (Some "a1") |} = EYes 0.
Proof. vm_compute. reflexivity. Qed.

Example action_instance_mismatch :
  event_score re_search_c str_of_c true true true (fun _ => None)
    {| e_name := "XActionFinished"; e_args := []; e_kind := KAction (Some "a2") |}
    {| e_name := "XActionFinished"; e_args := []; e_kind := KAction (Some "a1") |} = ENo.
Proof. vm_compute. reflexivity. Qed.

Lemma set_guard_missing_witness :
  exists re_search str_of p v k,
    score re_search str_of true true false p v = RYes k /\ (k < 0)%Z /\ ~ Matches re_search str_of p v.
Proof.
  exists re_search_c, str_of_c, (VSet [VRegex "a"; VRegex "."]), (VSet [VStr "a"]), (-1).
  split; [exact set_guard_missing_refuted|]. split; [reflexivity | exact set_guard_missing_not_documented].
Qed.
