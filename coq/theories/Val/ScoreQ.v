(* The rational value of a model score is factor^k, 0 < factor < 1: powers of such a base. *)
From Coq Require Import ZArith QArith Qpower Lia.
Open Scope Q_scope.

Section Base.
  Variable f : Q.
  Hypothesis Hpos : 0 < f.
  Hypothesis Hlt : f < 1.

  (* through 1 < /f, for which the library has the facts *)
  Lemma Qpower_lt_1 (d : Z) : (0 < d)%Z -> f ^ d < 1.
  Proof.
    intro Hd. apply (Qinv_lt_contravar (f ^ d) 1); [apply Qpower_0_lt; exact Hpos|reflexivity|].
    rewrite <- Qinv_power. apply Qpower_1_lt; [|exact Hd].
    apply (Qinv_lt_contravar f 1 Hpos eq_refl). exact Hlt.
  Qed.

  Lemma Qpower_decreasing (k1 k2 : Z) : (k1 < k2)%Z -> f ^ k2 < f ^ k1.
  Proof.
    intro Hk. replace k2 with (k1 + (k2 - k1))%Z by ring.
    rewrite Qpower_plus by (intro E; rewrite E in Hpos; discriminate).
    rewrite <- (Qmult_1_r (f ^ k1)) at 2.
    apply Qmult_lt_l; [apply Qpower_0_lt; exact Hpos|]. apply Qpower_lt_1. lia.
  Qed.

  Lemma Qpower_unit_interval (k : Z) : (0 <= k)%Z -> 0 < f ^ k /\ f ^ k <= 1.
  Proof.
    intro Hk. split; [apply Qpower_0_lt; exact Hpos|].
    destruct (Z.eq_dec k 0) as [->|Hne]; [apply Qle_refl|].
    apply Qlt_le_weak, Qpower_lt_1. lia.
  Qed.
End Base.
