(* V1.Stack_proofs - compute_next_steps on the compiled code of a structured program equals the
   reference semantics Structured.next_steps (compile_correct_all): simulation between the
   interpreter's State and the specification's state, event by event.
   Inside one flow body slide follows the source (Slide_proofs.v); `do` pushes an interrupted
   caller (sws_gen); the specification's call stack corresponds to a chain of flow states that sit
   in State.flow_states in any order among dead ones (stack_in); the resume loop of
   compute_next_state unwinds it wherever the flow states sit (abort_unwind, resume_unwind). *)
From Coq Require Import ZArith QArith List Permutation String Lia.
From NG Require Import V1.Expr V1.Elems V1.Slide V1.Interp V1.Structured V1.Interp_proofs
                       V1.Code_proofs V1.Slide_proofs.
Import ListNotations.
Open Scope list_scope.
Open Scope Z_scope.

Section Decomp.
  Variable subs : list (string * list stmt).

  (* what exec does with the result of the frame-local run *)
  Definition after_local (m : nat) (lr : lres) (r : xres) : Prop :=
    match lr with
    | LWait w k c u => r = XWait w k [] c u
    | LEnd c u => r = XEnd c u
    | LExc => r = XExc
    | LFuel => False
    | LCallR name k c u =>
        exists rest k', k = KSeq rest k' /\
          r = match lookup name subs with
              | None => XExc
              | Some body =>
                  match exec subs m c u body KDone with
                  | XEnd c' u' => exec subs m c' u' rest k'
                  | XWait w kw stk c' u' => XWait w kw (stk ++ [KSeq rest k']) c' u'
                  | r' => r'
                  end
              end
    end.

  Lemma exec_decomp : forall n c u blk k r,
    exec subs n c u blk k = r -> r <> XFuel ->
    exists m, (m < n)%nat /\ after_local m (lexec n c u blk k) r.
  Proof.
    induction n as [|n IH]; intros c u blk k r Hr Hnf; [simpl in Hr; congruence|].
    assert (Hlift : forall c' u' blk' k', exec subs n c' u' blk' k' = r ->
              exists m, (m < S n)%nat /\ after_local m (lexec n c' u' blk' k') r).
    { intros c' u' blk' k' H. destruct (IH _ _ _ _ _ H Hnf) as (m & Hm & Ha). exists m. split; [lia|exact Ha]. }
    destruct blk as [|s rest].
    - simpl in Hr |- *. destruct k; [exists n; split; [lia|exact (eq_sym Hr)]| |]; apply Hlift; exact Hr.
    - destruct s; simpl in Hr |- *.
      + exists n. split; [lia|exact (eq_sym Hr)].
      + exists n. split; [lia|exact (eq_sym Hr)].
      + exists n. split; [lia|exact (eq_sym Hr)].
      + destruct (eval c e); [apply Hlift; exact Hr|exists n; split; [lia|exact (eq_sym Hr)]].
      + destruct (eval c c0) as [v|]; [apply Hlift; exact Hr|exists n; split; [lia|exact (eq_sym Hr)]].
      + destruct (eval c c0) as [v|]; [|exists n; split; [lia|exact (eq_sym Hr)]].
        destruct (truthy v); apply Hlift; exact Hr.
      + destruct (unwind k) as [[[cnd b] k']|]; [apply Hlift; exact Hr|exists n; split; [lia|exact (eq_sym Hr)]].
      + destruct (unwind k) as [[[cnd b] k']|]; [apply Hlift; exact Hr|exists n; split; [lia|exact (eq_sym Hr)]].
      + exists n. split; [lia|]. exists rest, k. split; [reflexivity|exact (eq_sym Hr)].
  Qed.
End Decomp.

Lemma list_set_length : forall {A} (l : list A) i a, List.length (list_set l i a) = List.length l.
Proof. induction l; intros [|i] x; simpl; auto. Qed.

Lemma list_set_nth_same : forall {A} (l : list A) i a, (i < List.length l)%nat ->
  nth_error (list_set l i a) i = Some a.
Proof. induction l; intros [|i] x H; simpl in *; try lia; [reflexivity|apply IHl; lia]. Qed.

Lemma list_set_nth_other : forall {A} (l : list A) i j a, i <> j ->
  nth_error (list_set l i a) j = nth_error l j.
Proof. induction l; intros [|i] [|j] x H; simpl; auto; try congruence. Qed.

Lemma list_set_app_l : forall {A} (l m : list A) i a, (i < List.length l)%nat ->
  list_set (l ++ m) i a = list_set l i a ++ m.
Proof. induction l; intros m [|i] x H; simpl in *; try lia; [reflexivity|f_equal; apply IHl; lia]. Qed.

Lemma list_set_twice : forall {A} (l : list A) j a b, list_set (list_set l j a) j b = list_set l j b.
Proof. induction l; intros [|j] x y; simpl; auto. f_equal. apply IHl. Qed.

Lemma list_set_map : forall {A B} (g : A -> B) (l : list A) i a x,
  nth_error l i = Some x -> g a = g x -> map g (list_set l i a) = map g l.
Proof.
  induction l; intros [|i] a0 x H Hg; simpl in *; try discriminate.
  - inversion H; subst. rewrite Hg. reflexivity.
  - f_equal. apply (IHl _ _ x); assumption.
Qed.

Lemma find_uid_in : forall l g, NoDup (map f_uid l) -> In g l -> find_uid l (f_uid g) = Some g.
Proof.
  induction l as [|x l IH]; intros g Hnd Hin; [contradiction|].
  inversion Hnd as [|? ? Hnotin Hnd']; subst. simpl. destruct Hin as [E|Hin].
  - subst. rewrite N.eqb_refl. reflexivity.
  - destruct (N.eqb (f_uid x) (f_uid g)) eqn:E.
    + apply N.eqb_eq in E. exfalso. apply Hnotin. rewrite E. apply in_map. exact Hin.
    + apply IH; assumption.
Qed.

Lemma find_uid_none : forall l u, ~ In u (map f_uid l) -> find_uid l u = None.
Proof.
  induction l as [|x l IH]; intros u H; [reflexivity|]. simpl in *.
  destruct (N.eqb (f_uid x) u) eqn:E; [apply N.eqb_eq in E; exfalso; apply H; left; exact E|].
  apply IH. intros Hin. apply H. right. exact Hin.
Qed.

Lemma NoDup_app_disj : forall {A} (a b : list A),
  NoDup a -> NoDup b -> (forall x, In x a -> ~ In x b) -> NoDup (a ++ b).
Proof.
  induction a as [|x a IH]; intros b Ha Hb Hd; simpl; [exact Hb|]. inversion Ha; subst. constructor.
  - intros Hin. apply in_app_or in Hin. destruct Hin; [contradiction|]. apply (Hd x); [left; reflexivity|assumption].
  - apply IH; auto. intros y Hy. apply Hd. right; exact Hy.
Qed.

(* flow states created with uids taken from the supply, which went from n to n' *)
Definition fresh (n n' : N) (l : list fstate) : Prop :=
  (n <= n')%N /\ Forall (fun f => (n <= f_uid f < n')%N) l /\ NoDup (map f_uid l).

Lemma fresh_nil : forall n, fresh n n [].
Proof. intros n. split; [apply N.le_refl|]. split; constructor. Qed.

Lemma fresh_mono : forall n0 n n' l, (n0 <= n)%N -> fresh n n' l -> fresh n0 n' l.
Proof.
  intros n0 n n' l H (Hn & Hb & Hnd). split; [lia|]. split; [|exact Hnd].
  eapply Forall_impl; [|exact Hb]. simpl. intros a Ha. lia.
Qed.

(* fresh uids are apart from those handed out before *)
Lemma fresh_apart : forall n n' l (old : list N),
  fresh n n' l -> NoDup old -> (forall a, In a old -> (a < n)%N) -> NoDup (map f_uid l ++ old).
Proof.
  intros n n' l old (_ & Hb & Hnd) Hold Hlt. apply NoDup_app_disj; [exact Hnd|exact Hold|].
  intros a Ha Ha'. apply in_map_iff in Ha. destruct Ha as (y & E & Hy).
  rewrite Forall_forall in Hb. specialize (Hb y Hy). specialize (Hlt a Ha'). lia.
Qed.

Lemma fresh_snoc_nodup : forall n n' l x, fresh n n' l -> (f_uid x < n)%N -> NoDup (map f_uid (l ++ [x])).
Proof.
  intros n n' l x H Hx. rewrite map_app. apply (fresh_apart n n' l _ H); [constructor; [intros []|constructor]|].
  intros a [E|[]]. subst a. exact Hx.
Qed.

Lemma fresh_snoc : forall n n' l x, fresh (N.succ n) n' l -> f_uid x = n -> fresh n n' (l ++ [x]).
Proof.
  intros n n' l x H Hx. pose proof (fresh_snoc_nodup _ _ _ x H) as Hnd.
  destruct (fresh_mono n _ _ _ (N.le_succ_diag_r n) H) as (Hn & Hb & _). destruct H as (Hn' & _).
  split; [exact Hn|]. split; [|apply Hnd; lia].
  apply Forall_app. split; [exact Hb|]. constructor; [lia|constructor].
Qed.

Lemma last_app_cons : forall {A} (l : list A) x m d, last (l ++ x :: m) d = last (x :: m) d.
Proof.
  induction l as [|y l IH]; intros x m d; [reflexivity|].
  simpl app. destruct (l ++ x :: m) eqn:E; [destruct l; discriminate|]. rewrite <- E.
  change (last (y :: l ++ x :: m) d) with (match l ++ x :: m with [] => y | _ => last (l ++ x :: m) d end).
  rewrite E. rewrite <- E. apply IH.
Qed.

Lemma NoDup_map_filter : forall {A B} (g : A -> B) (P : A -> bool) (l : list A),
  NoDup (map g l) -> NoDup (map g (filter P l)).
Proof.
  induction l as [|x l IH]; intros H; simpl in *; [constructor|]. inversion H; subst.
  destruct (P x); simpl; [constructor|]; auto.
  intros Hin. apply in_map_iff in Hin. destruct Hin as (y & E & Hy). apply filter_In in Hy. destruct Hy as [Hy _].
  match goal with Hn : ~ In _ _ |- _ => apply Hn end. rewrite <- E. apply in_map. exact Hy.
Qed.

Lemma NoDup_mid : forall {A} (a m b : list A),
  NoDup (a ++ b) -> NoDup m -> (forall x, In x m -> ~ In x (a ++ b)) -> NoDup (a ++ m ++ b).
Proof.
  intros A a m b Hab Hm Hd. apply (Permutation_NoDup (Permutation_app_swap_app m a b)), NoDup_app_disj; assumption.
Qed.

Lemma list_set_mid : forall {A} (a b : list A) x y, list_set (a ++ x :: b) (List.length a) y = a ++ y :: b.
Proof. induction a as [|z a IH]; intros b x y; simpl; [reflexivity|]. f_equal. apply IH. Qed.

Lemma xres_fuel_dec : forall r : xres, r = XFuel \/ r <> XFuel.
Proof. intros [| | |]; try (right; congruence). left; reflexivity. Qed.

(* "eventually": for all sufficiently large fuel *)
Definition evl {A} (g : nat -> res A) (r : res A) : Prop := exists F, forall f, (F <= f)%nat -> g f = r.

Lemma evl_const : forall {A} (g : nat -> res A) r, (forall f, g f = r) -> evl g r.
Proof. intros A g r H. exists 0%nat. intros f _. apply H. Qed.

Lemma evl_bind : forall {A B} (g : nat -> res A) (h : A -> nat -> res B) a r,
  evl g (Ok a) -> evl (h a) r -> evl (fun f => bind (g f) (fun x => h x f)) r.
Proof.
  intros A B g h a r (F1 & H1) (F2 & H2). exists (Nat.max F1 F2). intros f Hf.
  rewrite H1 by lia. simpl. apply H2. lia.
Qed.

Lemma evl_bind_exc : forall {A B} (g : nat -> res A) (h : A -> nat -> res B),
  evl g Exc -> evl (fun f => bind (g f) (fun x => h x f)) Exc.
Proof. intros A B g h (F1 & H1). exists F1. intros f Hf. rewrite H1 by lia. reflexivity. Qed.

Lemma evl_ext : forall {A} (g g' : nat -> res A) r F0,
  (forall f, (F0 <= f)%nat -> g f = g' f) -> evl g' r -> evl g r.
Proof.
  intros A g g' r F0 He (F & H). exists (Nat.max F0 F). intros f Hf. rewrite He by lia. apply H. lia.
Qed.

Lemma evl_S : forall {A} (g : nat -> res A) r, evl g r -> evl (fun f => g (S f)) r.
Proof. intros A g r (F & H). exists F. intros f Hf. apply H. lia. Qed.

Lemma evl_pred : forall {A} (g : nat -> res A) r, evl (fun f => g (S f)) r -> evl g r.
Proof.
  intros A g r (F & H). exists (S F). intros f Hf. destruct f as [|f]; [lia|]. apply H. lia.
Qed.

Section ProgS.
  Variable p : prog.
  Variable o : opts.
  Hypothesis Hwf : wf_prog p = true.
  Hypothesis Hmark : o_mark o = true.
  Hypothesis Hguard : o_guard o = true.

  Let cs : configs := compile_prog p.

  Definition flow_body (fl : string) : option (list stmt) := lookup fl (all_flows p).

  Definition code (b : list stmt) : list elem := compile_block None b.

  Definition cfg_of (fl : string) (b : list stmt) : flow_config :=
    mk_config fl (code b) (negb (String.eqb fl (p_id p))).

  Lemma wf_parts :
    (exists i0 rest0, p_main p = SUser i0 :: rest0 /\ wf_block false rest0 = true) /\
    Forall (fun nb => snd nb <> [] /\ wf_block false (snd nb) = true) (p_subs p) /\
    ~ In (p_id p) (map fst (p_subs p)).
  Proof.
    pose proof Hwf as W. unfold wf_prog in W.
    apply andb_true_iff in W. destruct W as [W W4].
    apply andb_true_iff in W. destruct W as [W W3].
    apply andb_true_iff in W. destruct W as [W1 W2].
    split; [|split].
    - destruct (p_main p) as [|s rest0]; [discriminate|]. destruct s; try discriminate.
      exists intent, rest0. split; [reflexivity|]. simpl in W2. exact W2.
    - apply Forall_forall. intros nb Hin. rewrite forallb_forall in W3. specialize (W3 _ Hin).
      apply andb_true_iff in W3. destruct W3 as [Wa Wb]. split; [|exact Wb].
      destruct (snd nb); [discriminate|congruence].
    - simpl in W4. apply andb_true_iff in W4. destruct W4 as [W4 _]. apply negb_true_iff in W4.
      intros Hin. unfold string_in in W4.
      assert (existsb (String.eqb (p_id p)) (map fst (p_subs p)) = true).
      { apply existsb_exists. exists (p_id p). split; [exact Hin|apply String.eqb_refl]. }
      congruence.
  Qed.

  Lemma lookup_in : forall {A} k (l : list (string * A)) v, lookup k l = Some v -> In (k, v) l.
  Proof.
    induction l as [|[k' v'] l IH]; intros v H; simpl in *; [discriminate|].
    destruct (String.eqb k k') eqn:E.
    - inversion H; subst. apply String.eqb_eq in E. subst. left; reflexivity.
    - right. apply IH. exact H.
  Qed.

  Lemma flow_body_wf : forall fl b, flow_body fl = Some b -> wf_block false b = true /\ 0 < zlen (code b).
  Proof.
    intros fl b H. unfold flow_body, all_flows in H. simpl in H.
    destruct wf_parts as ((i0 & rest0 & Em & Hr) & Hs & _).
    destruct (String.eqb fl (p_id p)).
    - inversion H; subst b. rewrite Em. split; [simpl; exact Hr|].
      unfold code. simpl compile_block. rewrite zlen_cons.
      pose proof (zlen_nonneg (compile_block None rest0)). lia.
    - apply lookup_in in H. rewrite Forall_forall in Hs. destruct (Hs _ H) as [Hne Hb]. simpl in *.
      split; [exact Hb|]. unfold code. rewrite compile_block_length.
      destruct b as [|s r]; [congruence|]. rewrite bsize_cons.
      pose proof (size_pos s). pose proof (bsize_nonneg r). lia.
  Qed.

  Lemma find_cfg_eq : forall fl, find_config cs fl = option_map (cfg_of fl) (flow_body fl).
  Proof.
    intros fl. unfold flow_body, all_flows, cs, compile_prog, cfg_of. simpl.
    rewrite (String.eqb_sym (p_id p) fl). destruct (String.eqb fl (p_id p)) eqn:E.
    - apply String.eqb_eq in E. subst fl. reflexivity.
    - simpl. induction (p_subs p) as [|[k v] l IH]; simpl; [reflexivity|].
      rewrite (String.eqb_sym k fl). destruct (String.eqb fl k) eqn:E2; [|exact IH].
      apply String.eqb_eq in E2. subst. reflexivity.
  Qed.

  Lemma find_cfg : forall fl b, flow_body fl = Some b -> find_config cs fl = Some (cfg_of fl b).
  Proof. intros fl b H. rewrite find_cfg_eq, H. reflexivity. Qed.

  Lemma main_body : flow_body (p_id p) = Some (p_main p).
  Proof. unfold flow_body, all_flows. simpl. rewrite String.eqb_refl. reflexivity. Qed.

  Lemma cs_eq : cs = mk_config (p_id p) (code (p_main p)) false
                     :: map (fun nb => mk_config (fst nb) (code (snd nb)) true) (p_subs p).
  Proof. reflexivity. Qed.

  Lemma subs_all_subflow :
    Forall (fun c => fc_subflow c = true) (map (fun nb => mk_config (fst nb) (code (snd nb)) true) (p_subs p)).
  Proof. apply Forall_forall. intros c Hin. apply in_map_iff in Hin. destruct Hin as (nb & E & _). subst. reflexivity. Qed.

  (* the start loop when the dialog flow already has an instance *)
  Lemma phase2_present : forall fuel ev s,
    has_flow (st_fss s) (p_id p) = true -> phase2 o fuel cs ev cs s = Ok s.
  Proof.
    intros fuel ev s H. rewrite cs_eq at 2. simpl. rewrite H. simpl.
    apply phase2_subflows. apply subs_all_subflow.
  Qed.

  Definition active_at (fs : fstate) (w : wait) (kw : kont) : Prop :=
    f_status fs = Active /\ f_intby fs = None /\
    exists b lp, flow_body (f_flow fs) = Some b /\ instr (code b) (f_head fs) = Some (elem_of_wait w) /\
                 wf_wait w /\ kmatch (code b) kw (f_head fs + 1) lp.

  Definition interrupted_at (fs : fstate) (k : kont) (u : N) : Prop :=
    f_status fs = Interrupted /\ f_intby fs = Some u /\
    exists b lp, flow_body (f_flow fs) = Some b /\ kmatch (code b) k (f_head fs) lp.

  (* chain l w kw stk top: l = [f0; f1; ...; fm], f0 waits on w with continuation kw, f(i+1) is
     interrupted by fi with continuation stk[i]; top = uid of fm *)
  Inductive chain : list fstate -> wait -> kont -> list kont -> N -> Prop :=
  | chain_one : forall f0 w kw, active_at f0 w kw -> chain [f0] w kw [] (f_uid f0)
  | chain_snoc : forall l fi w kw stk ki top,
      chain l w kw stk top -> interrupted_at fi ki top ->
      chain (l ++ [fi]) w kw (stk ++ [ki]) (f_uid fi).

  Lemma chain_nonempty : forall l w kw stk top, chain l w kw stk top -> l <> [].
  Proof. induction 1; [discriminate|]. destruct l; discriminate. Qed.

  Lemma chain_last : forall l x w kw stk top,
    chain (l ++ [x]) w kw stk top ->
    top = f_uid x /\
    ((l = [] /\ stk = [] /\ active_at x w kw) \/
     (exists stk0 ki top0, stk = stk0 ++ [ki] /\ chain l w kw stk0 top0 /\ interrupted_at x ki top0)).
  Proof.
    intros l x w kw stk top H. inversion H; subst.
    - destruct l; [|destruct l; discriminate]. simpl in *. inversion H0; subst. split; [reflexivity|].
      left. auto.
    - match goal with E : _ ++ [_] = _ ++ [_] |- _ => apply app_inj_tail in E; destruct E; subst end.
      split; [reflexivity|]. right. do 3 eexists. split; [reflexivity|]. split; eassumption.
  Qed.

  Lemma chain_last_head : forall l x w kw stk top, chain (l ++ [x]) w kw stk top -> 0 <= f_head x.
  Proof.
    intros l x w kw stk top H. destruct (chain_last _ _ _ _ _ _ H) as (_ & [(_ & _ & Ha)|(stk0 & ki & top0 & _ & _ & Hi)]).
    - destruct Ha as (_ & _ & b & lp & _ & Hi & _). apply instr_lt in Hi. lia.
    - destruct Hi as (_ & _ & b & lp & _ & Hk). apply kmatch_range in Hk. lia.
  Qed.

  Lemma chain_flows : forall l w kw stk top, chain l w kw stk top ->
    Forall (fun t => exists b, flow_body (f_flow t) = Some b) l.
  Proof.
    induction 1.
    - constructor; [|constructor]. destruct H as (_ & _ & b & lp & Hb & _). eauto.
    - apply Forall_app. split; [exact IHchain|]. constructor; [|constructor].
      destruct H0 as (_ & _ & b & lp & Hb & _). eauto.
  Qed.

  Lemma chain_last_flow : forall l x w kw stk top, chain (l ++ [x]) w kw stk top ->
    exists b, flow_body (f_flow x) = Some b.
  Proof.
    intros l x w kw stk top H. pose proof (chain_flows _ _ _ _ _ H) as Hf.
    apply Forall_app in Hf. destruct Hf as [_ Hf]. inversion Hf; assumption.
  Qed.

  Definition end_state (s : state) (c u : ctx) (n : N) : state :=
    {| st_ctx := c; st_fss := st_fss s; st_next := st_next s; st_by := st_by s; st_prio := st_prio s;
       st_upd := u; st_uid := n |}.

  Definition wait_state (s : state) (c u : ctx) (n : N) (pushed : list fstate) (w : wait) (u0 : N) : state :=
    {| st_ctx := c; st_fss := st_fss s ++ pushed;
       st_next := if actionable w then Some (elem_of_wait w) else st_next s;
       st_by := if actionable w then Some u0 else st_by s;
       st_prio := if actionable w then Qred (1 * 1) else st_prio s;
       st_upd := u; st_uid := n |}.

  (* fs has run and blocked: it has become fs' (same uid and flow), below the flow states `pushed` of
     the subflows it called, whose uids were taken from the supply as it went from n to n' *)
  Definition blocked_on (fs : fstate) (n n' : N) (pushed : list fstate) (fs' : fstate)
                        (w : wait) (kw : kont) (stk : list kont) : Prop :=
    chain (pushed ++ [fs']) w kw stk (f_uid fs) /\ f_uid fs' = f_uid fs /\ f_flow fs' = f_flow fs /\
    fresh n n' pushed.

  Lemma blocked_head : forall fs n n' pushed fs' w kw stk,
    blocked_on fs n n' pushed fs' w kw stk -> (f_head fs' <? 0) = false.
  Proof. intros fs n n' pushed fs' w kw stk (Hch & _). apply Z.ltb_ge. exact (chain_last_head _ _ _ _ _ _ Hch). Qed.

  Lemma blocked_flows : forall fs n n' pushed fs' w kw stk,
    blocked_on fs n n' pushed fs' w kw stk -> Forall (fun x => exists b, flow_body (f_flow x) = Some b) pushed.
  Proof.
    intros fs n n' pushed fs' w kw stk (Hch & _). pose proof (chain_flows _ _ _ _ _ Hch) as H.
    apply Forall_app in H. exact (proj1 H).
  Qed.

  (* what sws returns on the flow state fs, facing the outcome of the structured run *)
  Inductive sws_post (s : state) (fs : fstate) : xres -> res (state * fstate) -> Prop :=
  | post_wait : forall w kw stk c u pushed fs' n' u0, blocked_on fs (st_uid s) n' pushed fs' w kw stk ->
      sws_post s fs (XWait w kw stk c u) (Ok (wait_state s c u n' pushed w u0, fs'))
  | post_end : forall c u h n', h < 0 -> (st_uid s <= n')%N ->
      sws_post s fs (XEnd c u) (Ok (end_state s c u n', fs_head fs h))
  | post_exc : sws_post s fs XExc Exc.

  Lemma wait_state_nil : forall s c u w u0,
    (if actionable w then st_set_next (st_set_ctx s c u) (Some (elem_of_wait w)) (Some u0) (Qred (1 * 1))
     else st_set_ctx s c u) = wait_state s c u (st_uid s) [] w u0.
  Proof.
    intros. unfold wait_state. rewrite app_nil_r. destruct (actionable w); destruct s; reflexivity.
  Qed.

  Lemma wait_state_push : forall s c u n l w u0 x,
    st_push (wait_state s c u n l w u0) x = wait_state s c u n (l ++ [x]) w u0.
  Proof.
    intros. unfold wait_state, st_push, st_set_fss. simpl. rewrite <- app_assoc. reflexivity.
  Qed.

  (* the second _record_next_step of _call_subflow never changes anything *)
  Lemma second_record_noop : forall s c u n l w u0 x b,
    st_next s = None ->
    flow_body (f_flow x) = Some b -> instr (code b) (f_head x) = Some (elem_of_wait w) -> wf_wait w ->
    record_next_step (wait_state s c u n l w u0) x (cfg_of (f_flow x) b) 1 = Ok (wait_state s c u n l w u0).
  Proof.
    intros s c u n l w u0 x b Hn Hb Hi Hw.
    pose proof (instr_pyidx _ _ _ Hi) as Hpy.
    unfold record_next_step, wait_state. destruct (actionable w) eqn:Ea; cbn [st_next st_prio].
    - reflexivity.
    - rewrite Hn. cbn [orb]. change (fc_elems (cfg_of (f_flow x) b)) with (code b). rewrite Hpy. cbn [of_opt bind].
      rewrite (is_actionable_wait _ Hw), Ea. reflexivity.
  Qed.

  (* _call_subflow once the subflow's own _slide_with_subflows has returned (s3, sub'); fs2 is the
     caller, already moved past the call *)
  Definition after_call (f : nat) (fs2 : fstate) (r0 : state * fstate) : res (state * fstate) :=
    let '(s3, sub') := r0 in
    if f_head sub' <? 0 then sws o f cs s3 fs2
    else
      bind (of_opt (find_config cs (f_flow sub'))) (fun scfg =>
      bind (if o_guard o && negb (status_eqb (f_status sub') Active) then Ok (st_push s3 sub')
            else record_next_step (st_push s3 sub') sub' scfg 1) (fun s5 =>
      Ok (s5, fs_intby (fs_status fs2 Interrupted) (Some (f_uid sub'))))).

  (* the subflow blocks: the caller is interrupted by it, the subflow is pushed; its head is proposed
     a second time only if it is itself active (the guard), and then nothing changes *)
  Lemma after_call_blocked : forall f fs2 s0 c u n pushed w u0 sub' kw stk top body,
    st_next s0 = None -> chain (pushed ++ [sub']) w kw stk top -> flow_body (f_flow sub') = Some body ->
    after_call f fs2 (wait_state s0 c u n pushed w u0, sub') =
    Ok (wait_state s0 c u n (pushed ++ [sub']) w u0, fs_intby (fs_status fs2 Interrupted) (Some (f_uid sub'))).
  Proof.
    intros f fs2 s0 c u n pushed w u0 sub' kw stk top body Hn Hch Hbody. cbn [after_call].
    replace (f_head sub' <? 0) with false by (symmetry; apply Z.ltb_ge; exact (chain_last_head _ _ _ _ _ _ Hch)).
    rewrite (find_cfg _ _ Hbody). cbn [of_opt bind]. rewrite Hguard. cbn [andb]. rewrite wait_state_push.
    destruct (chain_last _ _ _ _ _ _ Hch) as (_ & [(_ & _ & Ha)|(stk0 & ki & top0 & _ & _ & (Hs' & _))]).
    - destruct Ha as (Hs' & _ & b' & lp2 & Hb' & Hi2 & Hw2 & _). rewrite Hs'. cbn [status_eqb negb].
      rewrite Hbody in Hb'. inversion Hb'; subst b'. rewrite second_record_noop; auto.
    - rewrite Hs'. reflexivity.
  Qed.

  (* _slide_with_subflows on a flow of the program once slide has returned sr, by the element there *)
  Definition after_slide (f : nat) (s : state) (fs : fstate) (b : list stmt) (sr : sres) : res (state * fstate) :=
    match sr with
    | SOk h c1 u1 =>
        if h >=? 0 then
          bind (of_opt (pyidx (code b) h)) (fun el =>
          match el with
          | LFlow name =>
              let s1 := st_set_ctx s c1 u1 in
              bind (sws o f cs (st_bump_uid s1) (new_fstate (st_uid s1) name 0))
                   (after_call f (fs_head (fs_head fs h) (h + 1)))
          | _ => bind (record_next_step (st_set_ctx s c1 u1) (fs_head fs h) (cfg_of (f_flow fs) b) 1)
                      (fun s2 => Ok (s2, fs_head fs h))
          end)
        else Ok (st_set_ctx s c1 u1, fs_head fs h)
    | SFuel => Fuel
    | _ => Exc
    end.

  Lemma sws_slid : forall f s fs b, flow_body (f_flow fs) = Some b ->
    sws o (S f) cs s fs = after_slide f s fs b (slide f (code b) (f_head fs) (st_ctx s) (st_upd s)).
  Proof. intros f s fs b Hb. rewrite sws_S, (find_cfg _ _ Hb). reflexivity. Qed.

  Lemma sws_evl : forall s fs b sr F res, flow_body (f_flow fs) = Some b ->
    (forall f, (F <= f)%nat -> slide f (code b) (f_head fs) (st_ctx s) (st_upd s) = sr) ->
    evl (fun f => after_slide f s fs b sr) res -> evl (fun f => sws o f cs s fs) res.
  Proof.
    intros s fs b sr F res Hb HF H. apply evl_pred. refine (evl_ext _ _ _ F _ H).
    intros f Hf. rewrite (sws_slid _ _ _ _ Hb), (HF f Hf). reflexivity.
  Qed.

  Lemma after_slide_wait : forall f s fs b h c1 u1 w, instr (code b) h = Some (elem_of_wait w) ->
    after_slide f s fs b (SOk h c1 u1) =
    bind (record_next_step (st_set_ctx s c1 u1) (fs_head fs h) (cfg_of (f_flow fs) b) 1)
         (fun s2 => Ok (s2, fs_head fs h)).
  Proof.
    intros f s fs b h c1 u1 w Hi. cbn [after_slide]. rewrite (instr_geb _ _ _ Hi), (instr_pyidx _ _ _ Hi).
    destruct w; reflexivity.
  Qed.

  Lemma sws_gen : forall n blk k r b lp s fs,
    exec (all_flows p) n (st_ctx s) (st_upd s) blk k = r -> r <> XFuel ->
    flow_body (f_flow fs) = Some b ->
    code_at (code b) (f_head fs) (compile_block (rel lp (f_head fs)) blk) ->
    wf_block (inl lp) blk = true ->
    kmatch (code b) k (f_head fs + bsize blk) lp ->
    st_next s = None -> f_status fs = Active -> f_intby fs = None ->
    exists res, sws_post s fs r res /\ evl (fun f => sws o f cs s fs) res.
  Proof.
    induction n as [n IH] using lt_wf_ind.
    intros blk k r b lp s fs Hr Hnf Hb Hcode Hwfb Hk Hn Hst Hib.
    destruct (exec_decomp _ _ _ _ _ _ _ Hr Hnf) as (m & Hm & Hal).
    destruct (flow_body_wf _ _ Hb) as (Hwfbody & Hlen).
    remember (lexec n (st_ctx s) (st_upd s) blk k) as lr eqn:Elr. symmetry in Elr.
    assert (Hlnf : lr <> LFuel) by (intros E; rewrite E in Hal; exact Hal).
    destruct (lexec_slide (code b) n _ _ blk k lr _ lp Elr Hlnf Hcode Hwfb Hk Hlen) as (sr & Hpost & F & HF).
    pose proof (fun res => sws_evl s fs b sr F res Hb HF) as Hsl.
    clear Hr.
    destruct lr as [w k' c' u'|name kk c' u'|c' u'| |]; cbn [after_local slide_post] in Hal, Hpost; try contradiction.
    - (* blocks in this frame *)
      subst r. destruct Hpost as (pw & lp' & Esr & Hi & Hw & Hk'). subst sr.
      exists (Ok (wait_state s c' u' (st_uid s) [] w (f_uid fs), fs_head fs pw)). split.
      + apply post_wait. split; [|split; [reflexivity|split; [reflexivity|apply fresh_nil]]].
        simpl app. change (f_uid fs) with (f_uid (fs_head fs pw)). constructor.
        unfold active_at. simpl. repeat split; auto. exists b, lp'. repeat split; auto.
      + apply Hsl, evl_const. intros f. rewrite (after_slide_wait _ _ _ _ _ _ _ w Hi).
        rewrite (record_next_step_fresh _ _ _ _ (elem_of_wait w)); [|exact Hn|exact (instr_pyidx _ _ _ Hi)].
        rewrite (is_actionable_wait _ Hw), wait_state_nil. reflexivity.
    - (* a call *)
      destruct Hal as (rest & k' & Ekk & Er). subst kk.
      destruct Hpost as (pw & lp' & rest' & k'' & Ekk & Esr & Hi & Hcrest & Hwrest & Hk''). subst sr.
      inversion Ekk; subst rest' k''. clear Ekk.
      set (s1 := st_set_ctx s c' u') in *.
      set (sub := new_fstate (st_uid s1) name 0).
      set (s2 := st_bump_uid s1).
      set (fs2 := fs_head (fs_head fs pw) (pw + 1)).
      assert (Hvia : forall res, evl (fun f => bind (sws o f cs s2 sub) (fun x => after_call f fs2 x)) res ->
                                 evl (fun f => sws o f cs s fs) res).
      { intros res H. apply Hsl. cbn [after_slide]. rewrite (instr_geb _ _ _ Hi), (instr_pyidx _ _ _ Hi). exact H. }
      change (lookup name (all_flows p)) with (flow_body name) in Er.
      destruct (flow_body name) as [body|] eqn:Ebody.
      2:{ (* unknown flow *)
        subst r. exists Exc. split; [constructor|]. apply Hvia, evl_bind_exc, evl_pred, evl_const.
        intros f. rewrite sws_S. change (f_flow sub) with name. rewrite find_cfg_eq, Ebody. reflexivity. }
      destruct (flow_body_wf _ _ Ebody) as (Hwfsub & Hlensub).
      remember (exec (all_flows p) m c' u' body KDone) as r1 eqn:Er1. symmetry in Er1.
      assert (Hr1nf : r1 <> XFuel) by (intros E; subst r1; rewrite E in Er; congruence).
      assert (Hsubcode : code_at (code body) 0 (compile_block (rel None 0) body)) by apply code_at_whole.
      assert (Hsubk : kmatch (code body) KDone (0 + bsize body) None).
      { apply km_done. unfold code. rewrite compile_block_length. lia. }
      destruct (IH m Hm body KDone r1 body None s2 sub Er1 Hr1nf Ebody Hsubcode Hwfsub Hsubk Hn eq_refl eq_refl)
        as (res1 & Hpost1 & Hev1).
      destruct Hpost1 as [w kw stk1 c2 u2 pushed1 sub' n2 u0 (Hch1 & Hu1 & Hf1 & Hfr1)|c2 u2 h1 n2 Hneg1 Hn2|].
      + (* the callee blocks *)
        subst r.
        set (fs3 := fs_intby (fs_status fs2 Interrupted) (Some (f_uid sub'))).
        exists (Ok (wait_state s c2 u2 n2 (pushed1 ++ [sub']) w u0, fs3)). split.
        * apply post_wait. split; [|split; [reflexivity|split; [reflexivity|apply fresh_snoc; assumption]]].
          change (f_uid fs) with (f_uid fs3). apply chain_snoc with (top := f_uid sub); [exact Hch1|].
          unfold interrupted_at, fs3. simpl. split; [reflexivity|]. split; [rewrite Hu1; reflexivity|].
          exists b, lp'. split; [exact Hb|]. apply km_seq; assumption.
        * apply Hvia. apply (evl_bind _ (fun x f => after_call f fs2 x) _ _ Hev1), evl_const.
          intros f. apply (after_call_blocked f fs2 s2 c2 u2 n2 pushed1 w u0 sub' kw stk1 _ body Hn Hch1).
          rewrite Hf1. exact Ebody.
      + (* the callee ran to its end: continue after the call *)
        set (s3 := end_state s2 c2 u2 n2) in *.
        destruct (IH m Hm rest k' r b lp' s3 fs2 (eq_sym Er) Hnf Hb Hcrest Hwrest Hk'' Hn Hst Hib)
          as (res2 & Hpost2 & Hev2).
        exists res2. split.
        * (* the same outcome for the caller; only the uid supply had moved on *)
          simpl in Hn2. destruct Hpost2 as [w kw stk c3 u3 pushed fs' n3 u0 (Hch & Hu' & Hf' & Hfr)|c3 u3 h n3 Hneg Hn3|].
          -- apply (post_wait s fs w kw stk c3 u3 pushed fs' n3 u0). split; [exact Hch|]. split; [exact Hu'|]. split; [exact Hf'|].
             apply (fresh_mono _ n2); [lia|exact Hfr].
          -- apply (post_end s fs c3 u3 h n3 Hneg). simpl in Hn3. lia.
          -- constructor.
        * apply Hvia. apply (evl_bind _ (fun x f => after_call f fs2 x) _ _ Hev1).
          cbn [after_call].
          replace (f_head (fs_head sub h1) <? 0) with true by (symmetry; apply Z.ltb_lt; simpl; lia).
          exact Hev2.
      + (* exception in the callee *)
        subst r. exists Exc. split; [constructor|]. exact (Hvia _ (evl_bind_exc _ _ Hev1)).
    - (* the body ends *)
      subst r. destruct Hpost as (h & Esr & Hneg). subst sr.
      exists (Ok (end_state s c' u' (st_uid s), fs_head fs h)). split.
      + apply post_end; [exact Hneg|apply N.le_refl].
      + apply Hsl, evl_const. intros f. cbn [after_slide].
        replace (h >=? 0) with false by (symmetry; rewrite Z.geb_leb; apply Z.leb_gt; lia).
        unfold end_state. destruct s; reflexivity.
    - (* exception *)
      subst r sr. exists Exc. split; [constructor|]. apply Hsl, evl_const. reflexivity.
  Qed.

  Lemma sws_resume : forall n k r b lp s fs,
    exec (all_flows p) n (st_ctx s) (st_upd s) [] k = r -> r <> XFuel ->
    flow_body (f_flow fs) = Some b -> kmatch (code b) k (f_head fs) lp ->
    st_next s = None -> f_status fs = Active -> f_intby fs = None ->
    exists res, sws_post s fs r res /\ evl (fun f => sws o f cs s fs) res.
  Proof.
    intros n k r b lp s fs Hr Hnf Hb Hk Hn Hst Hib.
    apply (sws_gen n [] k r b lp s fs Hr Hnf Hb); auto.
    - simpl. apply code_at_nil. apply kmatch_range in Hk. exact Hk.
    - simpl bsize. replace (f_head fs + 0) with (f_head fs) by lia. exact Hk.
  Qed.

  (* the verdict of the resume loop on an interrupted flow state *)
  Definition verdict (l : list fstate) (x : fstate) : bool * bool :=
    match f_intby x with
    | None => (true, false)
    | Some u =>
        match find_uid l u with
        | Some g => (status_eqb (f_status g) Completed, status_eqb (f_status g) Aborted)
        | None => (false, false)
        end
    end.

  (* a flow state the resume loop leaves alone *)
  Definition quiet_fs (l : list fstate) (x : fstate) : Prop :=
    status_eqb (f_status x) Interrupted = false \/ verdict l x = (false, false).

  (* what the loop does to a flow state it picks up: it resumes it, aborts it or leaves it *)
  Definition resumed (f : nat) (s : state) (j : nat) (x : fstate) : res state :=
    let fs1 := fs_intby (fs_status x Active) None in
    bind (sws o f cs (st_set_fss s (list_set (st_fss s) j fs1)) fs1) (fun r =>
    let '(s2, fs2) := r in
    Ok (st_set_fss s2 (list_set (st_fss s2) j (if f_head fs2 <? 0 then fs_status fs2 Completed else fs2)))).

  Definition process (f : nat) (s : state) (j : nat) (x : fstate) : res state :=
    let '(sr, sa) := verdict (st_fss s) x in
    if sr then resumed f s j x
    else if sa then Ok (st_set_fss s (list_set (st_fss s) j (fs_intby (fs_status x Aborted) None)))
    else Ok s.

  Lemma verdict_none : forall l x, f_intby x = None -> verdict l x = (true, false).
  Proof. intros l x H. unfold verdict. rewrite H. reflexivity. Qed.

  Lemma verdict_by : forall l x u g, f_intby x = Some u -> find_uid l u = Some g ->
    verdict l x = (status_eqb (f_status g) Completed, status_eqb (f_status g) Aborted).
  Proof. intros l x u g H1 H2. unfold verdict. rewrite H1, H2. reflexivity. Qed.

  Lemma process_resumes : forall f s j x sa, verdict (st_fss s) x = (true, sa) ->
    process f s j x = resumed f s j x.
  Proof. intros f s j x sa H. unfold process. rewrite H. reflexivity. Qed.

  Lemma process_aborts : forall f s j x, verdict (st_fss s) x = (false, true) ->
    process f s j x = Ok (st_set_fss s (list_set (st_fss s) j (fs_intby (fs_status x Aborted) None))).
  Proof. intros f s j x H. unfold process. rewrite H. reflexivity. Qed.

  Lemma resume_pass_quiet_step : forall f s i ch x,
    nth_error (st_fss s) i = Some x -> quiet_fs (st_fss s) x ->
    resume_pass o (S f) cs s i ch = resume_pass o f cs s (S i) ch.
  Proof.
    intros f s i ch x Hn Hq. rewrite resume_pass_S, Hn.
    destruct Hq as [Hq|Hq].
    - rewrite Hq. reflexivity.
    - destruct (status_eqb (f_status x) Interrupted); [|reflexivity].
      unfold verdict in Hq. rewrite Hq. reflexivity.
  Qed.

  Lemma resume_pass_hit_step : forall f s i ch x,
    nth_error (st_fss s) i = Some x -> status_eqb (f_status x) Interrupted = true ->
    verdict (st_fss s) x <> (false, false) ->
    resume_pass o (S f) cs s i ch = bind (process f s i x) (fun s2 => resume_pass o f cs s2 (S i) true).
  Proof.
    intros f s i ch x Hn Hi Hv. rewrite resume_pass_S, Hn, Hi. unfold process, resumed.
    unfold verdict in *. destruct (f_intby x) as [u|].
    - destruct (find_uid (st_fss s) u) as [g|]; [|congruence].
      destruct (status_eqb (f_status g) Completed); cbv iota beta.
      + destruct (sws o f cs _ _) as [[s2 fs2]| |]; reflexivity.
      + destruct (status_eqb (f_status g) Aborted); [reflexivity|congruence].
    - cbv iota beta. destruct (sws o f cs _ _) as [[s2 fs2]| |]; reflexivity.
  Qed.

  Definition quiet_from (s : state) (i : nat) : Prop :=
    forall j x, (i <= j)%nat -> nth_error (st_fss s) j = Some x -> quiet_fs (st_fss s) x.

  Lemma dead_not_interrupted : forall x, dead x -> status_eqb (f_status x) Interrupted = false.
  Proof. intros x [E|E]; rewrite E; reflexivity. Qed.

  Lemma quiet_dead : forall s i, Forall dead (st_fss s) -> quiet_from s i.
  Proof.
    intros s i H j x _ Hx. left. apply dead_not_interrupted.
    rewrite Forall_forall in H. apply H. apply (nth_error_In _ _ Hx).
  Qed.

  Lemma resume_pass_quiet : forall s i f ch,
    quiet_from s i -> (List.length (st_fss s) - i < f)%nat -> resume_pass o f cs s i ch = Ok (s, ch).
  Proof.
    intros s i f. revert i. induction f as [|f IH]; intros i ch Hq Hf; [lia|].
    destruct (nth_error (st_fss s) i) as [x|] eqn:E.
    - rewrite (resume_pass_quiet_step f s i ch x E (Hq i x (le_n _) E)).
      assert (i < List.length (st_fss s))%nat by (apply nth_error_Some; congruence).
      apply IH; [|lia]. intros j y Hj. apply Hq. lia.
    - rewrite resume_pass_S, E. reflexivity.
  Qed.

  Lemma resume_pass_skip : forall s d i f ch,
    (forall j x, (i <= j < i + d)%nat -> nth_error (st_fss s) j = Some x -> quiet_fs (st_fss s) x) ->
    (i + d <= List.length (st_fss s))%nat ->
    resume_pass o (d + f) cs s i ch = resume_pass o f cs s (i + d) ch.
  Proof.
    intros s. induction d as [|d IH]; intros i f ch Hq Hlen.
    - simpl. replace (i + 0)%nat with i by lia. reflexivity.
    - destruct (nth_error (st_fss s) i) as [x|] eqn:E.
      2:{ apply nth_error_None in E. lia. }
      change (S d + f)%nat with (S (d + f)).
      rewrite (resume_pass_quiet_step (d + f) s i ch x E); [|apply (Hq i x); [lia|exact E]].
      rewrite IH; [f_equal; lia| |lia]. intros j y Hj. apply Hq. lia.
  Qed.

  (* the rest of the loop from position (i, ch) of a pass *)
  Definition finish (f1 f2 : nat) (s : state) (i : nat) (ch : bool) : res state :=
    bind (resume_pass o f1 cs s i ch) (fun r =>
    let '(s', ch') := r in if ch' then resume_loop o f2 cs s' else Ok s').

  Definition loops_to (s : state) (i : nat) (ch : bool) (r : res state) : Prop :=
    exists F, forall f1 f2, (F <= f1)%nat -> (F <= f2)%nat -> finish f1 f2 s i ch = r.

  Lemma resume_loop_finish : forall f s, resume_loop o (S f) cs s = finish (S f) f s 0 false.
  Proof. intros. rewrite resume_loop_S. reflexivity. Qed.

  Lemma loops_to_loop : forall s r, loops_to s 0 false r -> evl (fun f => resume_loop o f cs s) r.
  Proof.
    intros s r (F & H). exists (S F). intros f Hf. destruct f as [|f]; [lia|].
    rewrite resume_loop_finish. apply H; lia.
  Qed.

  Lemma loops_quiet : forall s i ch, quiet_from s 0 -> loops_to s i ch (Ok s).
  Proof.
    intros s i ch Hq. exists (List.length (st_fss s) + 2)%nat. intros f1 f2 H1 H2. unfold finish.
    rewrite (resume_pass_quiet s i f1 ch); [|intros j x _; apply Hq; lia|lia].
    cbn [bind]. destruct ch; [|reflexivity].
    destruct f2 as [|f2]; [lia|]. rewrite resume_loop_finish. unfold finish.
    rewrite (resume_pass_quiet s 0 (S f2) false); [reflexivity|exact Hq|lia].
  Qed.

  (* the loop goes on behind position j with what processing the flow state there gave *)
  Definition then_loops (pr : res state) (j : nat) (r : res state) : Prop :=
    match pr with Ok s2 => loops_to s2 (S j) true r | Exc => r = Exc | Fuel => False end.

  (* the loop picks up the only flow state that is not quiet, wherever it sits *)
  Lemma loops_step : forall s j x pr r i ch,
    nth_error (st_fss s) j = Some x ->
    status_eqb (f_status x) Interrupted = true -> verdict (st_fss s) x <> (false, false) ->
    (forall j' y, j' <> j -> nth_error (st_fss s) j' = Some y -> quiet_fs (st_fss s) y) ->
    ((j < i)%nat -> ch = true) ->
    evl (fun g => process g s j x) pr -> then_loops pr j r ->
    loops_to s i ch r.
  Proof.
    intros s j x pr r i ch Hn Hi Hv Hq Hch (F1 & Hp) Hthen.
    assert (HF : exists F, forall f1 f2, (F <= f1)%nat -> (F <= f2)%nat ->
                   bind (process f1 s j x) (fun s2 => finish f1 f2 s2 (S j) true) = r).
    { destruct pr as [s2| |]; [destruct Hthen as (F2 & Hl)| |contradiction].
      - exists (Nat.max F1 F2). intros f1 f2 Hf1 Hf2. rewrite Hp by lia. apply Hl; lia.
      - exists F1. intros f1 f2 Hf1 _. rewrite (Hp f1 Hf1). symmetry. exact Hthen. }
    destruct HF as (F & HF).
    assert (Hjl : (j < List.length (st_fss s))%nat) by (apply nth_error_Some; congruence).
    exists (F + List.length (st_fss s) + 3)%nat. intros f1 f2 H1 H2.
    (* a pass that has not reached j yet skips to it and processes x *)
    assert (Hreach : forall i0 ch0 g1 g2, (i0 <= j)%nat -> (F + j + 1 <= g1)%nat -> (F <= g2)%nat ->
              finish g1 g2 s i0 ch0 = r).
    { intros i0 ch0 g1 g2 Hij G1 G2. unfold finish.
      replace g1 with ((j - i0) + (g1 - (j - i0)))%nat by lia.
      rewrite (resume_pass_skip s (j - i0) i0 (g1 - (j - i0)) ch0); [|intros j' y Hj'; apply Hq; lia|lia].
      replace (i0 + (j - i0))%nat with j by lia.
      destruct (g1 - (j - i0))%nat as [|g] eqn:Eg; [lia|].
      rewrite (resume_pass_hit_step g s j ch0 x Hn Hi Hv).
      specialize (HF g g2). unfold finish in HF.
      destruct (process g s j x) as [s2| |] eqn:Ep; cbn [bind] in *; apply HF; lia. }
    destruct (Nat.le_gt_cases i j) as [Hij|Hij]; [apply Hreach; lia|].
    (* the pass is already beyond j: it ends, and the next pass finds x *)
    rewrite (Hch Hij). unfold finish.
    rewrite (resume_pass_quiet s i f1 true); [|intros j' y Hj'; apply Hq; lia|lia].
    cbn [bind]. destruct f2 as [|f2]; [lia|]. rewrite resume_loop_finish. apply Hreach; lia.
  Qed.

  (* itail a tl ks: the callers above a flow state with uid a, innermost first *)
  Inductive itail : N -> list fstate -> list kont -> Prop :=
  | it_nil : forall a, itail a [] []
  | it_cons : forall a t k tl ks, interrupted_at t k a -> itail (f_uid t) tl ks -> itail a (t :: tl) (k :: ks).

  (* a chain followed by the callers above its last flow state: one stack, innermost first *)
  Lemma chain_itail : forall l w kw stk top, chain l w kw stk top -> forall tl ks, itail top tl ks ->
    exists f0 tl0, l ++ tl = f0 :: tl0 /\ active_at f0 w kw /\ itail (f_uid f0) tl0 (stk ++ ks).
  Proof.
    induction 1 as [f0 w kw Ha|l fi w kw stk ki top _ IH Hi]; intros tl ks Hit.
    - exists f0, tl. split; [reflexivity|]. split; [exact Ha|exact Hit].
    - rewrite <- !app_assoc. exact (IH (fi :: tl) (ki :: ks) (it_cons _ _ _ _ _ Hi Hit)).
  Qed.

  Lemma itail_statuses : forall a tl ks, itail a tl ks -> Forall (fun t => f_status t = Interrupted) tl.
  Proof. induction 1; constructor; auto. destruct H as (Hs & _). exact Hs. Qed.

  Lemma itail_flows : forall a tl ks, itail a tl ks -> Forall (fun t => exists b, flow_body (f_flow t) = Some b) tl.
  Proof. induction 1; constructor; auto. destruct H as (_ & _ & b & lp & Hb & _). eauto. Qed.

  Lemma itail_links : forall a tl ks, itail a tl ks ->
    forall t, In t tl -> exists u, f_intby t = Some u /\ (u = a \/ exists t', In t' tl /\ f_uid t' = u).
  Proof.
    induction 1; intros x Hin; [contradiction|]. destruct Hin as [E|Hin].
    - subst x. destruct H as (_ & Hib & _). exists a. split; [exact Hib|left; reflexivity].
    - destruct (IHitail _ Hin) as (u & Hu & [E|(t' & Ht' & Eu)]).
      + exists u. split; [exact Hu|]. right. exists t. split; [left; reflexivity|auto].
      + exists u. split; [exact Hu|]. right. exists t'. split; [right; exact Ht'|exact Eu].
  Qed.

  Lemma nth_error_uid_inj : forall l j j' (x y : fstate),
    NoDup (map f_uid l) -> nth_error l j = Some x -> nth_error l j' = Some y -> f_uid x = f_uid y -> j = j'.
  Proof.
    intros l j j' x y Hnd Hx Hy E.
    assert (Hjx : nth_error (map f_uid l) j = Some (f_uid x)) by (rewrite nth_error_map, Hx; reflexivity).
    assert (Hjy : nth_error (map f_uid l) j' = Some (f_uid x)) by (rewrite nth_error_map, Hy, E; reflexivity).
    rewrite NoDup_nth_error in Hnd. apply Hnd; [|congruence].
    apply nth_error_Some. congruence.
  Qed.

  (* L consists of the flow states S and of dead ones, in any order *)
  Definition made_of (L S : list fstate) : Prop :=
    (forall x, In x S -> In x L) /\ (forall x, In x L -> dead x \/ In x S).

  Lemma made_of_nil : forall L, made_of L [] -> Forall dead L.
  Proof. intros L (_ & H). apply Forall_forall. intros x Hx. destruct (H x Hx) as [Hd|[]]. exact Hd. Qed.

  Lemma made_of_drop : forall L x S, dead x -> made_of L (x :: S) -> made_of L S.
  Proof.
    intros L x S Hd (Hsub & Hsup). split; [intros y Hy; apply Hsub; right; exact Hy|].
    intros y Hy. destruct (Hsup y Hy) as [H|[E|H]]; [left; exact H|subst y; left; exact Hd|right; exact H].
  Qed.

  Lemma made_of_app : forall L S P, made_of L S -> made_of (L ++ P) (P ++ S).
  Proof.
    intros L S P (Hsub & Hsup). split; intros x; rewrite !in_app_iff;
      [specialize (Hsub x)|specialize (Hsup x)]; tauto.
  Qed.

  (* overwriting the member t of the stack, found at index j; uids tell the members apart *)
  Lemma made_of_set : forall L j t t' S,
    NoDup (map f_uid L) -> nth_error L j = Some t -> made_of L (t :: S) -> ~ In (f_uid t) (map f_uid S) ->
    made_of (list_set L j t') (t' :: S).
  Proof.
    intros L j t t' S Hnd Hj (Hsub & Hsup) Hn.
    destruct (nth_error_split _ _ Hj) as (a & b & EL & Ej). subst L j. rewrite list_set_mid.
    rewrite map_app in Hnd. apply NoDup_remove_2 in Hnd. rewrite <- map_app in Hnd.
    split; intros x; [specialize (Hsub x)|specialize (Hsup x)]; rewrite in_app_iff in *; simpl in *.
    - intros [E|Hx]; [right; left; exact E|].
      destruct (Hsub (or_intror Hx)) as [H|[E|H]]; [left; exact H| |right; right; exact H].
      subst x. exfalso. apply Hn, in_map, Hx.
    - (* a second copy of t among the others would repeat its uid *)
      assert (Ht : t = x -> In x a \/ In x b -> False).
      { intros E H. subst x. apply Hnd, in_map, in_or_app, H. }
      clear - Hsup Ht. tauto.
  Qed.

  Lemma not_dead : forall x, f_status x = Active \/ f_status x = Interrupted -> ~ dead x.
  Proof. intros x [E|E] [D|D]; congruence. Qed.

  (* a caller whose callee is neither completed nor aborted is left alone *)
  Lemma callers_quiet : forall L f0 tl ks y,
    NoDup (map f_uid L) -> itail (f_uid f0) tl ks -> (forall x, In x (f0 :: tl) -> In x L) ->
    ~ dead f0 -> In y tl -> quiet_fs L y.
  Proof.
    intros L f0 tl ks y Hnd Hit Hsub Hnd0 Hy. right.
    destruct (itail_links _ _ _ Hit y Hy) as (u & Hu & Hcase).
    assert (Ht' : exists t', In t' (f0 :: tl) /\ f_uid t' = u /\ ~ dead t').
    { destruct Hcase as [E|(t' & Ht' & Eu)].
      - exists f0. split; [left; reflexivity|]. split; [auto|exact Hnd0].
      - exists t'. split; [right; exact Ht'|]. split; [exact Eu|]. apply not_dead. right.
        pose proof (itail_statuses _ _ _ Hit) as Hst. rewrite Forall_forall in Hst. exact (Hst _ Ht'). }
    destruct Ht' as (t' & Ht' & Eu & Hnd').
    rewrite (verdict_by L y u t' Hu); [|rewrite <- Eu; exact (find_uid_in L t' Hnd (Hsub _ Ht'))].
    unfold dead in Hnd'. destruct (f_status t'); try reflexivity; exfalso; apply Hnd'; auto.
  Qed.

  (* so is everything but the top t of a stack that sits in L among dead flow states *)
  Lemma others_quiet : forall L j t tl ks,
    NoDup (map f_uid L) -> nth_error L j = Some t -> made_of L (t :: tl) -> itail (f_uid t) tl ks -> ~ dead t ->
    forall j' y, j' <> j -> nth_error L j' = Some y -> quiet_fs L y.
  Proof.
    intros L j t tl ks Hnd Hj (Hsub & Hsup) Hit Hndt j' y Hne Hy.
    destruct (Hsup y (nth_error_In _ _ Hy)) as [Hd|[E|Hy']].
    - left. apply dead_not_interrupted. exact Hd.
    - subst y. exfalso. apply Hne. apply (nth_error_uid_inj L j' j t t Hnd Hy Hj eq_refl).
    - apply (callers_quiet L t tl ks y Hnd Hit Hsub Hndt Hy').
  Qed.

  (* the callers tl of a flow state A that is completed or aborted: the resume loop finds the
     innermost one, t, wherever it sits, and nothing else *)
  Lemma unwind_pick : forall s A t k tl ks i ch,
    NoDup (map f_uid (st_fss s)) -> In A (st_fss s) -> dead A ->
    itail (f_uid A) (t :: tl) (k :: ks) -> made_of (st_fss s) (t :: tl) ->
    (i = 0%nat \/ ch = true) ->
    exists j, nth_error (st_fss s) j = Some t /\
      verdict (st_fss s) t = (status_eqb (f_status A) Completed, status_eqb (f_status A) Aborted) /\
      forall pr r, evl (fun g => process g s j t) pr -> then_loops pr j r -> loops_to s i ch r.
  Proof.
    intros s A t k tl ks i ch Hnd HA Hd Hit Hmo Hich.
    inversion Hit as [|? ? ? ? ? (Hts & Htib & _) Hit']; subst.
    destruct (In_nth_error _ _ (proj1 Hmo t (or_introl eq_refl))) as (j & Hj).
    pose proof (verdict_by _ t _ A Htib (find_uid_in _ A Hnd HA)) as Hv.
    exists j. split; [exact Hj|]. split; [exact Hv|].
    intros pr r Hev Hthen. apply (loops_step s j t pr r i ch Hj); [| | | |exact Hev|exact Hthen].
    - rewrite Hts. reflexivity.
    - rewrite Hv. destruct Hd as [E|E]; rewrite E; simpl; congruence.
    - apply (others_quiet _ j t tl ks Hnd Hj Hmo Hit'). apply not_dead. right; exact Hts.
    - intros Hlt. destruct Hich as [E|E]; [lia|exact E].
  Qed.

  (* the last flow state of a stack, if there is one, is an instance of the dialog flow *)
  Definition bottom (l : list fstate) : Prop := last (map f_flow l) (p_id p) = p_id p.

  Lemma bottom_tail : forall x l, bottom (x :: l) -> bottom l.
  Proof. intros x [|y l] H; [reflexivity|exact H]. Qed.

  Lemma bottom_head : forall x y l, f_flow y = f_flow x -> bottom (x :: l) -> bottom (y :: l).
  Proof. intros x y l E H. unfold bottom in *. simpl map in *. rewrite E. exact H. Qed.

  Lemma bottom_in : forall l, l <> [] -> bottom l -> exists x, In x l /\ f_flow x = p_id p.
  Proof.
    induction l as [|x [|y l] IH]; intros Hne Hb; [congruence|exists x; split; [left; reflexivity|exact Hb]|].
    destruct IH as (z & Hz & E); [discriminate|exact Hb|]. exists z. split; [right; exact Hz|exact E].
  Qed.

  (* the flow states of list L form a stack waiting on w (plus dead ones) *)
  Definition stack_in (L : list fstate) (w : wait) (kw : kont) (stk : list kont) : Prop :=
    exists f0 tl, active_at f0 w kw /\ itail (f_uid f0) tl stk /\
                  made_of L (f0 :: tl) /\ NoDup (map f_uid (f0 :: tl)) /\ bottom (f0 :: tl).

  Inductive resumed_result (s : state) (j : nat) (t : fstate) : xres -> res state -> Prop :=
  | rr_wait : forall w kw stk c u pushed fs' n' u0, blocked_on t (st_uid s) n' pushed fs' w kw stk ->
      resumed_result s j t (XWait w kw stk c u)
        (Ok (st_set_fss (wait_state s c u n' pushed w u0) (list_set (st_fss s) j fs' ++ pushed)))
  | rr_end : forall c u h n', h < 0 -> (st_uid s <= n')%N ->
      resumed_result s j t (XEnd c u)
        (Ok (st_set_fss (end_state s c u n')
               (list_set (st_fss s) j (fs_status (fs_head (fs_intby (fs_status t Active) None) h) Completed))))
  | rr_exc : resumed_result s j t XExc Exc.

  Lemma process_resume : forall n s j t k1 a sa r1,
    nth_error (st_fss s) j = Some t -> verdict (st_fss s) t = (true, sa) ->
    interrupted_at t k1 a -> st_next s = None ->
    exec (all_flows p) n (st_ctx s) (st_upd s) [] k1 = r1 -> r1 <> XFuel ->
    exists pr, resumed_result s j t r1 pr /\ evl (fun g => process g s j t) pr.
  Proof.
    intros n s j t k1 a sa r1 Hj Hv Hint Hn Hr1 Hnf.
    destruct Hint as (Hts & Htib & b & lp & Hb & Hk).
    destruct (nth_error_split _ _ Hj) as (la & lb & EL & Ej).
    set (fs1 := fs_intby (fs_status t Active) None).
    set (s1 := st_set_fss s (list_set (st_fss s) j fs1)).
    destruct (sws_resume n k1 r1 b lp s1 fs1 Hr1 Hnf Hb Hk Hn eq_refl eq_refl) as (res & Hpost & F & HF).
    pose proof (fun g => process_resumes g s j t sa Hv) as Hproc. unfold resumed in Hproc. fold fs1 s1 in Hproc.
    destruct Hpost as [w kw stk c' u' pushed fs' n' u0 Hbl|c' u' h n' Hneg Hn'|].
    - eexists. split; [exact (rr_wait s j t w kw stk c' u' pushed fs' n' u0 Hbl)|].
      exists F. intros g Hg. rewrite Hproc, (HF g Hg). cbn [bind]. rewrite (blocked_head _ _ _ _ _ _ _ _ Hbl).
      simpl st_fss. rewrite EL, <- Ej, !list_set_mid, <- !app_assoc, <- !app_comm_cons, list_set_mid. reflexivity.
    - eexists. split; [exact (rr_end s j t c' u' h n' Hneg Hn')|].
      exists F. intros g Hg. rewrite Hproc, (HF g Hg). cbn [bind].
      replace (f_head (fs_head fs1 h) <? 0) with true by (symmetry; apply Z.ltb_lt; simpl; lia).
      simpl st_fss. rewrite EL, <- Ej, !list_set_mid. reflexivity.
    - exists Exc. split; [constructor|]. exists F. intros g Hg. rewrite Hproc, (HF g Hg). reflexivity.
  Qed.

  (* uids are distinct and below the supply, every flow is one of the program *)
  Definition fss_ok_l (L : list fstate) (n : N) : Prop :=
    NoDup (map f_uid L) /\
    Forall (fun x => (f_uid x < n)%N) L /\
    Forall (fun x => exists b, flow_body (f_flow x) = Some b) L.

  Definition fss_ok (s : state) : Prop := fss_ok_l (st_fss s) (st_uid s).

  (* it speaks of the uids and the flows only *)
  Lemma fss_ok_set : forall L n j t t' n',
    fss_ok_l L n -> nth_error L j = Some t -> f_uid t' = f_uid t -> f_flow t' = f_flow t -> (n <= n')%N ->
    fss_ok_l (list_set L j t') n'.
  Proof.
    intros L n j t t' n' (Hnd & Hb & Hf) Hj Eu Ef Hn. unfold fss_ok_l.
    rewrite <- (Forall_map f_uid (fun u => (u < n')%N)), <- (Forall_map f_flow (fun fl => exists b, flow_body fl = Some b)).
    rewrite (list_set_map f_uid _ _ _ _ Hj Eu), (list_set_map f_flow _ _ _ _ Hj Ef), !Forall_map.
    split; [exact Hnd|]. split; [|exact Hf]. eapply Forall_impl; [|exact Hb]. simpl. intros x Hx. lia.
  Qed.

  Lemma fss_ok_app : forall L n P n',
    fss_ok_l L n -> fresh n n' P -> Forall (fun x => exists b, flow_body (f_flow x) = Some b) P ->
    fss_ok_l (L ++ P) n'.
  Proof.
    intros L n P n' (Hnd & Hb & Hf) HfrP HfP. pose proof HfrP as (Hn & HP & _). split; [|split].
    - rewrite map_app. apply (Permutation_NoDup (Permutation_app_comm _ _)), (fresh_apart n n' P _ HfrP Hnd).
      intros a Ha. apply in_map_iff in Ha. destruct Ha as (y & E & Hy). subst a. rewrite Forall_forall in Hb. exact (Hb y Hy).
    - apply Forall_app. split; [eapply Forall_impl; [|exact Hb]|eapply Forall_impl; [|exact HP]]; simpl; intros x Hx; lia.
    - apply Forall_app. split; assumption.
  Qed.

  Definition resume_stk (fuel : nat) (c u : ctx) (ks : list kont) : xres :=
    match ks with [] => XEnd c u | k1 :: ks' => resume (all_flows p) fuel c u k1 ks' end.

  Definition R (s : state) (sp : spec_state) : Prop :=
    st_ctx s = sp_ctx sp /\ st_upd s = sp_upd sp /\
    st_next s = option_map elem_of_wait (sp_next sp) /\
    (forall w, sp_next sp = Some w -> wf_wait w /\ actionable w = true) /\
    fss_ok s /\
    match sp_st sp with
    | Idle => Forall dead (st_fss s)
    | Run w k stk => stack_in (st_fss s) w k stk
    end.

  (* the two shapes of_xres produces *)
  Lemma R_run : forall s w k stk c u,
    st_ctx s = c -> st_upd s = u -> st_next s = (if actionable w then Some (elem_of_wait w) else None) ->
    fss_ok s -> stack_in (st_fss s) w k stk ->
    R s {| sp_st := Run w k stk; sp_ctx := c; sp_upd := u; sp_next := if actionable w then Some w else None |}.
  Proof.
    intros s w k stk c u Hc Hu Hn Hok Hst. unfold R. cbn [sp_st sp_ctx sp_upd sp_next].
    split; [exact Hc|]. split; [exact Hu|]. split; [rewrite Hn; destruct (actionable w); reflexivity|].
    split; [|split; [exact Hok|exact Hst]].
    intros w0 E. destruct (actionable w) eqn:Ea; inversion E; subst w0.
    destruct Hst as (f0 & tl & (_ & _ & b & lp & _ & _ & Hw & _) & _). split; [exact Hw|exact Ea].
  Qed.

  Lemma R_idle : forall s c u,
    st_ctx s = c -> st_upd s = u -> st_next s = None -> fss_ok s -> Forall dead (st_fss s) ->
    R s {| sp_st := Idle; sp_ctx := c; sp_upd := u; sp_next := None |}.
  Proof.
    intros s c u Hc Hu Hn Hok Hd. unfold R. cbn [sp_st sp_ctx sp_upd sp_next option_map].
    split; [exact Hc|]. split; [exact Hu|]. split; [exact Hn|]. split; [|split; [exact Hok|exact Hd]].
    intros w0 E. discriminate.
  Qed.

  Lemma fss_ok_nil : forall s, st_fss s = [] -> fss_ok s.
  Proof. intros s E. unfold fss_ok. rewrite E. split; [constructor|split; constructor]. Qed.

  Lemma fss_ok_main : forall x n, f_flow x = p_id p -> (f_uid x < n)%N -> fss_ok_l [x] n.
  Proof.
    intros x n Ef Hu. split; [constructor; [intros []|constructor]|]. split; (constructor; [|constructor]).
    - exact Hu.
    - rewrite Ef. exists (p_main p). exact main_body.
  Qed.

  (* fs' and `pushed` are what became of the top t of a stack when it ran and blocked again; L holds
     them and t's callers tl *)
  Lemma R_blocked : forall s0 L c u n n' pushed fs' t w kw stk1 tl ks u0,
    blocked_on t n n' pushed fs' w kw stk1 -> itail (f_uid t) tl ks ->
    NoDup (map f_uid (t :: tl)) -> (forall a, In a (map f_uid (t :: tl)) -> (a < n)%N) -> bottom (t :: tl) ->
    made_of L (pushed ++ fs' :: tl) -> fss_ok_l L n' -> st_next s0 = None ->
    R (st_set_fss (wait_state s0 c u n' pushed w u0) L)
      {| sp_st := Run w kw (stk1 ++ ks); sp_ctx := c; sp_upd := u; sp_next := if actionable w then Some w else None |}.
  Proof.
    intros s0 L c u n n' pushed fs' t w kw stk1 tl ks u0 (Hch & Hu & Hf & Hfr) Hit Hnd Hlt Hbot Hmo Hok Hn.
    simpl map in Hnd, Hlt. rewrite <- Hu in Hch, Hit, Hnd, Hlt.
    destruct (chain_itail _ _ _ _ _ Hch tl ks Hit) as (f0 & tl0 & Heq & Ha & Hit0). rewrite <- app_assoc in Heq.
    apply R_run; [reflexivity|reflexivity|simpl; rewrite Hn; reflexivity|exact Hok|].
    exists f0, tl0. rewrite <- Heq. split; [exact Ha|]. split; [exact Hit0|]. split; [exact Hmo|]. split.
    - rewrite map_app. exact (fresh_apart n n' pushed _ Hfr Hnd Hlt).
    - unfold bottom. rewrite map_app. simpl map. rewrite last_app_cons. exact (bottom_head t fs' tl Hf Hbot).
  Qed.

  (* a state related to a specification state is left alone by the resume loop, and each of its
     interrupted flow states names its interrupter *)
  Lemma R_quiet : forall s sp, R s sp -> quiet_from s 0.
  Proof.
    intros s sp (_ & _ & _ & _ & Hok & Hshape). destruct (sp_st sp); [exact (quiet_dead s 0 Hshape)|].
    destruct Hshape as (f0 & tl & (Hs & _) & Hit & (Hsub & Hsup) & _). intros j x _ Hx.
    destruct (Hsup x (nth_error_In _ _ Hx)) as [Hd|[E|Hin]].
    - left. apply dead_not_interrupted. exact Hd.
    - subst x. left. rewrite Hs. reflexivity.
    - apply (callers_quiet _ f0 tl _ x (proj1 Hok) Hit Hsub); [|exact Hin]. apply not_dead. left; exact Hs.
  Qed.

  Lemma R_loop : forall s sp, R s sp -> evl (fun f => resume_loop o f cs s) (Ok s).
  Proof. intros s sp HR. exact (loops_to_loop s _ (loops_quiet s 0 false (R_quiet s sp HR))). Qed.

  Lemma R_intby : forall s sp, R s sp ->
    forall x, In x (st_fss s) -> status_eqb (f_status x) Interrupted = true -> f_intby x <> None.
  Proof.
    intros s sp (_ & _ & _ & _ & _ & Hshape) x Hx Hi.
    assert (Hnd : ~ dead x) by (intros Hd; rewrite (dead_not_interrupted _ Hd) in Hi; discriminate).
    destruct (sp_st sp).
    - rewrite Forall_forall in Hshape. exact (False_ind _ (Hnd (Hshape x Hx))).
    - destruct Hshape as (f0 & tl & (Hs & _) & Hit & (_ & Hsup) & _). destruct (Hsup x Hx) as [Hd|[E|Ht]].
      + contradiction.
      + subst x. rewrite Hs in Hi. discriminate.
      + destruct (itail_links _ _ _ Hit x Ht) as (a & Ha & _). congruence.
  Qed.

  (* the interpreter side answers the specification's result: P says how the interpreter's result
     is reached (for all large fuel; by the rest of the resume loop) *)
  Definition rel_via (P : res state -> Prop) (spec : res spec_state) : Prop :=
    match spec with
    | Ok sp' => exists s', R s' sp' /\ P (Ok s')
    | Exc => P Exc
    | Fuel => True
    end.

  Lemma rel_via_impl : forall (P Q : res state -> Prop) spec,
    (forall r, P r -> Q r) -> rel_via P spec -> rel_via Q spec.
  Proof.
    intros P Q [sp'| |] H; simpl; auto. intros (s' & HR & HP). exists s'. auto.
  Qed.

  Definition res_rel (flat : nat -> res state) (spec : res spec_state) : Prop := rel_via (evl flat) spec.

  Lemma abort_unwind : forall tl ks a s i ch,
    fss_ok s ->
    (exists A, In A (st_fss s) /\ f_uid A = a /\ f_status A = Aborted) ->
    itail a tl ks -> made_of (st_fss s) tl -> NoDup (a :: map f_uid tl) ->
    st_next s = None ->
    (i = 0%nat \/ ch = true) ->
    exists s', loops_to s i ch (Ok s') /\
               R s' {| sp_st := Idle; sp_ctx := st_ctx s; sp_upd := st_upd s; sp_next := None |}.
  Proof.
    induction tl as [|t tl IH]; intros ks a s i ch Hok HA Hit Hmo Hnd Hn Hich.
    - pose proof (made_of_nil _ Hmo) as Hd. exists s.
      split; [apply loops_quiet, quiet_dead; exact Hd|apply R_idle; auto].
    - destruct HA as (A & HAin & HAu & HAs). subst a.
      inversion Hit as [|? ? k ? ks0 _ Hit']; subst.
      destruct (unwind_pick s A t k tl ks0 i ch (proj1 Hok) HAin (or_intror HAs) Hit Hmo Hich) as (j & Hj & Hv & Hstep).
      rewrite HAs in Hv. cbn [status_eqb] in Hv.
      set (t' := fs_intby (fs_status t Aborted) None).
      set (s2 := st_set_fss s (list_set (st_fss s) j t')).
      apply NoDup_cons_iff, proj2 in Hnd. pose proof (proj1 (NoDup_cons_iff _ _) Hnd) as (Htn & _).
      assert (Hmo2 : made_of (st_fss s2) (t' :: tl)) by (apply (made_of_set _ j t); auto; exact (proj1 Hok)).
      destruct (IH ks0 (f_uid t) s2 (S j) true) as (s' & Hloop & HR); auto.
      + apply (fss_ok_set _ _ _ _ _ _ Hok Hj); auto. apply N.le_refl.
      + exists t'. split; [apply (proj1 Hmo2); left; reflexivity|]. split; reflexivity.
      + apply (made_of_drop _ t'); [right; reflexivity|exact Hmo2].
      + exists s'. split; [|exact HR].
        apply (Hstep (Ok s2)); [apply evl_const; intros g; exact (process_aborts _ _ _ _ Hv)|exact Hloop].
  Qed.

  Definition unwound (r : xres) (s : state) (i : nat) (ch : bool) : Prop :=
    rel_via (loops_to s i ch) (of_xres r).

  Lemma resume_unwind : forall tl ks a s i ch fuel r,
    fss_ok s ->
    (exists A, In A (st_fss s) /\ f_uid A = a /\ f_status A = Completed) ->
    itail a tl ks -> made_of (st_fss s) tl -> NoDup (a :: map f_uid tl) -> bottom tl ->
    st_next s = None ->
    (i = 0%nat \/ ch = true) ->
    resume_stk fuel (st_ctx s) (st_upd s) ks = r ->
    unwound r s i ch.
  Proof.
    induction tl as [|t tl IH]; intros ks a s i ch fuel r Hok HA Hit Hmo Hnd Hbot Hn Hich Hr.
    - inversion Hit; subst. pose proof (made_of_nil _ Hmo) as Hd. exists s.
      split; [apply R_idle; auto|apply loops_quiet, quiet_dead; exact Hd].
    - revert Hr. inversion Hit as [|? ? k1 ? ks0 Hint Hit']; subst. intros Hr.
      destruct HA as (A & HAin & HAu & HAs). subst a.
      pose proof Hok as (HndL & Hbnd & Hflows).
      destruct (unwind_pick s A t k1 tl ks0 i ch HndL HAin (or_introl HAs) Hit Hmo Hich) as (j & Hj & Hv & Hstep).
      rewrite HAs in Hv. cbn [status_eqb] in Hv.
      apply NoDup_cons_iff, proj2 in Hnd. pose proof (proj1 (NoDup_cons_iff _ _) Hnd) as (Htn & _).
      simpl in Hr. destruct fuel as [|f]; [simpl in Hr; subst r; exact I|].
      cbn [resume] in Hr.
      remember (exec (all_flows p) (S f) (st_ctx s) (st_upd s) [] k1) as r1 eqn:Er1. symmetry in Er1.
      destruct (xres_fuel_dec r1) as [Efu|Hr1nf]; [rewrite Efu in Hr; subst r; exact I|].
      destruct (process_resume (S f) s j t k1 (f_uid A) false r1 Hj Hv Hint Hn Er1 Hr1nf)
        as (pr & Hres & Hevp).
      specialize (Hstep pr). (* once t is processed, the loop goes on from the state pr *)
      destruct Hres as [w kw stk1 c' u' pushed fs' n' u0 Hbl|c' u' h n' Hneg Hn'|].
      + (* the resumed caller blocks: the stack is t's new top plus the remaining callers *)
        subst r. pose proof Hbl as (_ & Hu' & Hf' & Hfr).
        set (L := list_set (st_fss s) j fs' ++ pushed) in *.
        assert (HokL : fss_ok_l L n').
        { apply (fss_ok_app _ (st_uid s)); [|exact Hfr|exact (blocked_flows _ _ _ _ _ _ _ _ Hbl)].
          apply (fss_ok_set _ _ _ _ _ _ Hok Hj Hu' Hf'). apply N.le_refl. }
        eassert (HR : R _ _).
        { apply (R_blocked s L c' u' (st_uid s) n' pushed fs' t w kw stk1 tl ks0 u0 Hbl Hit' Hnd); auto.
          - intros a Ha. apply in_map_iff in Ha. destruct Ha as (x & E & Hx). subst a.
            rewrite Forall_forall in Hbnd. apply Hbnd, (proj1 Hmo), Hx.
          - apply made_of_app. apply (made_of_set _ j t); assumption. }
        eexists. split; [exact HR|]. apply (Hstep _ Hevp), loops_quiet, (R_quiet _ _ HR).
      + (* the resumed caller runs to its end: go on with its own caller *)
        set (tC := fs_status (fs_head (fs_intby (fs_status t Active) None) h) Completed) in *.
        set (s2 := st_set_fss (end_state s c' u' n') (list_set (st_fss s) j tC)) in *.
        assert (Hmo2 : made_of (st_fss s2) (tC :: tl)) by (apply (made_of_set _ j t); assumption).
        apply (rel_via_impl _ _ _ (fun r' => Hstep r' Hevp)).
        apply (IH ks0 (f_uid t) s2 (S j) true f r); auto.
        * apply (fss_ok_set _ _ _ _ _ _ Hok Hj); auto.
        * exists tC. split; [apply (proj1 Hmo2); left; reflexivity|]. split; reflexivity.
        * apply (made_of_drop _ tC); [left; reflexivity|exact Hmo2].
        * exact (bottom_tail _ _ Hbot).
      + (* exception while resuming *)
        subst r. exact (Hstep Exc Hevp eq_refl).
  Qed.

  Definition is_int (fs : fstate) : bool := status_eqb (f_status fs) Interrupted.
  Definition kept (l : list fstate) : list fstate := filter is_int l.

  Lemma phase1_app : forall f ev l1 l2 s ext,
    phase1 o f cs ev (l1 ++ l2) s ext =
    bind (phase1 o f cs ev l1 s ext) (fun r => let '(s1, e1) := r in phase1 o f cs ev l2 s1 e1).
  Proof.
    intros f ev. induction l1 as [|x l1 IH]; intros l2 s ext; [reflexivity|].
    simpl app. cbn [phase1].
    destruct (f_status x); try apply IH.
    destruct (find_config cs (f_flow x)) as [cfg|]; cbn [of_opt bind]; [|reflexivity].
    destruct (pyidx (fc_elems cfg) (f_head x)) as [hel|]; cbn [of_opt bind]; [|reflexivity].
    destruct (negb (string_in (event_type ev) (fc_triggers cfg))).
    - destruct (record_next_step (st_push s x) x cfg q09); cbn [bind]; [apply IH|reflexivity|reflexivity].
    - match goal with |- bind ?X _ = _ => destruct X as [mh| |] end; cbn [bind]; try reflexivity.
      match goal with |- match ?X with _ => _ end = _ => destruct X as [m|] end.
      + destruct (sws o f cs s (fs_head x m)) as [[s1 fs1]| |]; cbn [bind]; try reflexivity.
        destruct (f_head fs1 <? 0); apply IH.
      + match goal with |- (if ?X then _ else _) = _ => destruct X end; apply IH.
  Qed.

  Lemma phase1_inactive : forall f ev l s ext,
    Forall (fun fs => f_status fs <> Active) l ->
    phase1 o f cs ev l s ext = Ok (st_set_fss s (st_fss s ++ kept l), ext).
  Proof.
    intros f ev l. induction l as [|x l IH]; intros s ext H.
    - simpl. rewrite app_nil_r, st_set_fss_same. reflexivity.
    - inversion H as [|? ? Hx Hl]; subst. cbn [phase1]. unfold kept. cbn [filter]. unfold is_int at 1.
      destruct (f_status x) eqn:E; try congruence; cbn [status_eqb].
      + rewrite (IH _ _ Hl). unfold st_push, st_set_fss. simpl. rewrite <- app_assoc. reflexivity.
      + apply IH. exact Hl.
      + apply IH. exact Hl.
  Qed.

  (* the element a flow waits on is no branch point *)
  Lemma wait_head_match : forall w els head ev, wf_wait w ->
    match elem_of_wait w with
    | LBranch heads => branch_match els head ev heads None
    | _ => Ok (if is_match (elem_of_wait w) ev then Some (head + 1) else None)
    end = Ok (if wait_match w ev then Some (head + 1) else None).
  Proof. intros w els head ev Hw. rewrite <- (is_match_wait w ev Hw). destruct w; reflexivity. Qed.

  Lemma phase1_one : forall f ev fs w b s0,
    f_status fs = Active -> flow_body (f_flow fs) = Some b ->
    instr (code b) (f_head fs) = Some (elem_of_wait w) -> wf_wait w ->
    phase1 o f cs ev [fs] s0 false =
    if negb (string_in (event_type ev) default_triggers) then
      bind (record_next_step (st_push s0 fs) fs (cfg_of (f_flow fs) b) q09) (fun s1 => Ok (s1, false))
    else if wait_match w ev then
      bind (sws o f cs s0 (fs_head fs (f_head fs + 1))) (fun r =>
        let '(s1, fs1) := r in
        if f_head fs1 <? 0 then Ok (st_push s1 (fs_status fs1 Completed), false)
        else Ok (st_push s1 fs1, false))
    else if actionable w then Ok (st_push s0 (fs_status fs Aborted), false)
    else Ok (st_push s0 (fs_status fs Interrupted), false).
  Proof.
    intros f ev fs w b s0 Hst Hb Hi Hw.
    pose proof (instr_lt _ _ _ Hi) as Hrg.
    pose proof (instr_pyidx _ _ _ Hi) as Hpy.
    cbn [phase1]. rewrite Hst, (find_cfg _ _ Hb). cbn [of_opt bind].
    change (fc_elems (cfg_of (f_flow fs) b)) with (code b).
    rewrite Hpy. cbn [of_opt bind]. change (fc_triggers (cfg_of (f_flow fs) b)) with default_triggers.
    destruct (negb (string_in (event_type ev) default_triggers)).
    - destruct (record_next_step (st_push s0 fs) fs (cfg_of (f_flow fs) b) q09); reflexivity.
    - rewrite (wait_head_match w (code b) (f_head fs) ev Hw). cbn [bind].
      destruct (wait_match w ev).
      + (* the awaited event: the head moves on and slides *)
        replace (f_head fs + 1 =? 0) with false by (symmetry; apply Z.eqb_neq; lia).
        destruct (sws o f cs s0 (fs_head fs (f_head fs + 1))) as [[s1 fs1]| |]; reflexivity.
      + (* another event: aborted on its own bot/execute step, interrupted otherwise *)
        rewrite (is_actionable_wait w Hw).
        change (fc_interruptible (cfg_of (f_flow fs) b)) with true. cbn [negb]. rewrite orb_false_r.
        destruct (actionable w); reflexivity.
  Qed.

  Lemma assign_intby_id : forall s,
    (forall x, In x (st_fss s) -> is_int x = true -> f_intby x = None -> st_by s = None) ->
    assign_intby s = s.
  Proof.
    intros s H. unfold assign_intby. rewrite (map_ext_in _ (fun x => x)), map_id; [apply st_set_fss_same|].
    intros x Hx. destruct (status_eqb (f_status x) Interrupted) eqn:E1; [|reflexivity].
    destruct (f_intby x) eqn:E2; [reflexivity|]. simpl. rewrite (H x Hx E1 E2). apply fs_intby_same. exact E2.
  Qed.

  Lemma cns_tail_loop : forall f s,
    (forall x, In x (st_fss s) -> is_int x = true -> f_intby x = None -> st_by s = None) ->
    Forall (fun x => exists b, flow_body (f_flow x) = Some b) (st_fss s) ->
    cns_tail o f cs s false = resume_loop o f cs s.
  Proof.
    intros f s Hai Hfl. unfold cns_tail. cbn [bind]. rewrite (assign_intby_id s Hai).
    destruct (decision_flow s) as [dfs|] eqn:Ed; [|reflexivity].
    apply decision_flow_in in Ed. rewrite Forall_forall in Hfl. destruct (Hfl _ Ed) as (b & Hb).
    rewrite (find_cfg _ _ Hb). cbn [of_opt bind]. reflexivity.
  Qed.

  Lemma cns_tail_R : forall s sp, R s sp -> evl (fun f => cns_tail o f cs s false) (Ok s).
  Proof.
    intros s sp HR. refine (evl_ext _ _ _ 0 _ (R_loop s sp HR)). intros f _. apply cns_tail_loop.
    - intros x Hx Hint Hnone. exfalso. exact (R_intby s sp HR x Hx Hint Hnone).
    - destruct HR as (_ & _ & _ & _ & Hok & _). exact (proj2 (proj2 Hok)).
  Qed.

  (* a flow state that already sits on the statement it waits for *)
  Lemma sws_at_wait : forall f s fs w b,
    flow_body (f_flow fs) = Some b -> instr (code b) (f_head fs) = Some (elem_of_wait w) ->
    sws o (S (S f)) cs s fs = bind (record_next_step s fs (cfg_of (f_flow fs) b) 1) (fun s2 => Ok (s2, fs)).
  Proof.
    intros f s fs w b Hb Hi.
    rewrite (sws_slid _ _ _ _ Hb), (slide_stays _ f _ _ _ _ Hi (slide_elem_wait _ _ _ _)), (after_slide_wait _ _ _ _ _ _ _ w Hi).
    rewrite st_set_ctx_same, fs_head_same. reflexivity.
  Qed.

  Section RunCtx.
    Variables (s : state) (w : wait) (k : kont) (stk : list kont) (f0 : fstate) (tl l1 l2 : list fstate).
    Variables (b0 : list stmt) (lp0 : option (Z * Z)).
    Hypothesis Hok : fss_ok s.
    Hypothesis Hst0 : f_status f0 = Active.
    Hypothesis Hib0 : f_intby f0 = None.
    Hypothesis Hb0 : flow_body (f_flow f0) = Some b0.
    Hypothesis Hi0 : instr (code b0) (f_head f0) = Some (elem_of_wait w).
    Hypothesis Hw : wf_wait w.
    Hypothesis Hk0 : kmatch (code b0) k (f_head f0 + 1) lp0.
    Hypothesis Hit : itail (f_uid f0) tl stk.
    Hypothesis Hmo : made_of (st_fss s) (f0 :: tl).
    Hypothesis Hndl : NoDup (map f_uid (f0 :: tl)).
    Hypothesis Hbot : bottom (f0 :: tl).
    Hypothesis EL : st_fss s = l1 ++ f0 :: l2.

    (* the other flow states of the list are dead ones and f0's callers: none is active, and those
       phase 1 keeps are the callers *)
    Lemma others_stack : forall x, In x (l1 ++ l2) -> dead x \/ In x tl.
    Proof.
      intros x Hx. destruct Hok as (Hnd & _). rewrite EL, map_app in Hnd. apply NoDup_remove_2 in Hnd.
      destruct (proj2 Hmo x) as [Hd|[E|Ht]]; [|left; exact Hd| |right; exact Ht].
      - rewrite EL. apply in_app_or in Hx. apply in_or_app. destruct Hx; [left|right; right]; assumption.
      - subst x. exfalso. apply Hnd. rewrite <- map_app. apply in_map. exact Hx.
    Qed.

    Lemma others_inactive :
      Forall (fun fs => f_status fs <> Active) l1 /\ Forall (fun fs => f_status fs <> Active) l2.
    Proof.
      apply Forall_app, Forall_forall. intros x Hx.
      pose proof (itail_statuses _ _ _ Hit) as Hst. rewrite Forall_forall in Hst.
      destruct (others_stack x Hx) as [[E|E]|Ht]; [rewrite E|rewrite E|rewrite (Hst _ Ht)]; discriminate.
    Qed.

    Lemma kept_tl : forall x, In x (kept l1 ++ kept l2) <-> In x tl.
    Proof.
      pose proof (itail_statuses _ _ _ Hit) as Hst. rewrite Forall_forall in Hst.
      intros x. unfold kept, is_int. rewrite <- filter_app, filter_In. split.
      - intros [Hx Hi]. destruct (others_stack x Hx) as [Hd|Ht]; [|exact Ht].
        rewrite (dead_not_interrupted _ Hd) in Hi. discriminate.
      - intros Ht. rewrite (Hst _ Ht). split; [|reflexivity].
        pose proof (proj1 Hmo x (or_intror Ht)) as HxL. rewrite EL in HxL. apply in_app_or in HxL. apply in_or_app.
        destruct HxL as [H|[E|H]]; [left; exact H| |right; exact H].
        subst x. rewrite (Hst _ Ht) in Hst0. discriminate.
    Qed.

    Let ns : state := new_state_of s.
    Let sA : state := st_set_fss ns (kept l1).

    Lemma phase1_split : forall f ev,
      phase1 o f cs ev (st_fss s) ns false =
      bind (phase1 o f cs ev [f0] sA false) (fun r =>
      let '(sB, e) := r in Ok (st_set_fss sB (st_fss sB ++ kept l2), e)).
    Proof.
      intros f ev. rewrite EL. change (l1 ++ f0 :: l2) with (l1 ++ [f0] ++ l2).
      rewrite phase1_app, (phase1_inactive _ _ _ _ _ (proj1 others_inactive)). cbn [bind]. change (st_fss ns ++ kept l1) with (kept l1).
      fold sA. rewrite phase1_app.
      destruct (phase1 o f cs ev [f0] sA false) as [[sB e]| |]; cbn [bind]; try reflexivity.
      apply phase1_inactive. exact (proj2 others_inactive).
    Qed.

    Lemma cns_from_phase1_exc : forall ev, plain_event ev ->
      evl (fun f => phase1 o f cs ev [f0] sA false) Exc -> evl (fun f => compute_next_state o f cs s ev) Exc.
    Proof.
      intros ev Hpl (F & H). exists F. intros f Hf. rewrite (cns_unfold o f cs s ev Hpl). fold ns.
      rewrite phase1_split, (H f Hf). reflexivity.
    Qed.

    Lemma stack_below : forall a, In a (map f_uid (f0 :: tl)) -> (a < st_uid s)%N.
    Proof.
      intros a Ha. apply in_map_iff in Ha. destruct Ha as (x & E & Hx). subst a.
      destruct Hok as (_ & Hb & _). rewrite Forall_forall in Hb. apply Hb, (proj1 Hmo), Hx.
    Qed.

    Lemma newlist_incl : forall mid, incl (kept l1 ++ mid ++ kept l2) (mid ++ st_fss s).
    Proof. intros mid x. rewrite EL, !in_app_iff. unfold kept. rewrite !filter_In. simpl. tauto. Qed.

    (* f0 has become g, below the flow states its subflow calls pushed *)
    Lemma newlist_pushed : forall pushed g n',
      f_uid g = f_uid f0 -> f_flow g = f_flow f0 -> fresh (st_uid s) n' pushed ->
      Forall (fun x => exists b, flow_body (f_flow x) = Some b) pushed ->
      fss_ok_l (kept l1 ++ (pushed ++ [g]) ++ kept l2) n'.
    Proof.
      intros pushed g n' Hu Hf Hfr Hfl. pose proof (stack_below _ (or_introl eq_refl)) as Hlt.
      pose proof Hfr as (Hn' & Hbd & _). destruct Hok as (Hnd & Hb & Hfs). split; [|split].
      - rewrite !map_app. apply NoDup_mid.
        + rewrite <- map_app. unfold kept. rewrite <- filter_app. apply NoDup_map_filter.
          rewrite EL, map_app in Hnd. rewrite map_app. exact (NoDup_remove_1 _ _ _ Hnd).
        + rewrite <- map_app. apply (fresh_snoc_nodup _ _ _ _ Hfr). rewrite Hu. exact Hlt.
        + (* a caller that was kept has an old uid, which is not f0's *)
          intros a Ha Hk. rewrite <- map_app in Hk. apply in_map_iff in Hk. destruct Hk as (y & E & Hy). subst a.
          apply kept_tl in Hy. pose proof (stack_below _ (or_intror (in_map f_uid _ _ Hy))) as Hy'.
          apply in_app_or in Ha. destruct Ha as [Ha|[Ea|[]]].
          * apply in_map_iff in Ha. destruct Ha as (x & E & Hx). rewrite Forall_forall in Hbd. specialize (Hbd x Hx). lia.
          * inversion Hndl as [|? ? Hf0tl _]; subst. apply Hf0tl. rewrite <- Hu, Ea. apply in_map. exact Hy.
      - apply (incl_Forall (newlist_incl _)), Forall_app. split; [|eapply Forall_impl; [|exact Hb]; simpl; intros; lia].
        apply Forall_app. split; [eapply Forall_impl; [|exact Hbd]; simpl; intros; lia|].
        constructor; [rewrite Hu; lia|constructor].
      - apply (incl_Forall (newlist_incl _)), Forall_app. split; [|exact Hfs].
        apply Forall_app. split; [exact Hfl|]. constructor; [rewrite Hf; eauto|constructor].
    Qed.

    Lemma newlist_one : forall g n',
      f_uid g = f_uid f0 -> f_flow g = f_flow f0 -> (st_uid s <= n')%N -> fss_ok_l (kept l1 ++ [g] ++ kept l2) n'.
    Proof.
      intros g n' Hu Hf Hn'. apply (newlist_pushed [] g n' Hu Hf); [|constructor]. split; [exact Hn'|split; constructor].
    Qed.

    (* the new list of flow states: what became of f0 among the callers that were kept *)
    Lemma made_of_mid : forall mid, made_of (kept l1 ++ mid ++ kept l2) (mid ++ tl).
    Proof.
      intros mid. split; intros x; rewrite !in_app_iff; pose proof (kept_tl x) as H; rewrite in_app_iff in H; tauto.
    Qed.

    Lemma made_of_retired : forall fD, dead fD -> made_of (kept l1 ++ [fD] ++ kept l2) tl.
    Proof. intros fD Hd. apply (made_of_drop _ fD _ Hd), (made_of_mid [fD]). Qed.

    Lemma mid_has_main : forall mid,
      (exists x, In x mid /\ f_flow x = f_flow f0) ->
      has_flow (kept l1 ++ mid ++ kept l2) (p_id p) = true.
    Proof.
      intros mid (x & Hx & Hfx). apply existsb_exists.
      destruct (bottom_in (x :: tl)) as (z & Hz & Ez); [discriminate|exact (bottom_head f0 x tl Hfx Hbot)|].
      exists z. split; [|rewrite Ez; apply String.eqb_refl].
      apply (proj1 (made_of_mid mid)), in_or_app. destruct Hz as [E|Hz]; [left; subst z; exact Hx|right; exact Hz].
    Qed.

    (* the stack is unchanged: the new list holds f0 (or an equal copy g0) and the kept callers *)
    Lemma stack_same : forall g0,
      f_status g0 = Active -> f_intby g0 = None -> f_uid g0 = f_uid f0 -> f_flow g0 = f_flow f0 ->
      f_head g0 = f_head f0 ->
      stack_in (kept l1 ++ [g0] ++ kept l2) w k stk.
    Proof.
      intros g0 Hs Hi Hu Hf Hh.
      exists g0, tl. split; [|split; [|split; [|split]]].
      - unfold active_at. split; [exact Hs|]. split; [exact Hi|]. exists b0, lp0.
        rewrite Hf, Hh. repeat split; auto.
      - rewrite Hu. exact Hit.
      - apply (made_of_mid [g0]).
      - simpl. rewrite Hu. exact Hndl.
      - exact (bottom_head f0 g0 tl Hf Hbot).
    Qed.

    (* when phase 1 turns f0 into the flow states `mid`, what remains of compute_next_state is the
       resume loop on the new list: the start loop finds the dialog flow present, no extension flow
       completed, and every interrupted flow state that was kept names its interrupter *)
    Lemma cns_run : forall ev sB mid n' r,
      plain_event ev ->
      evl (fun f => phase1 o f cs ev [f0] sA false) (Ok (sB, false)) ->
      st_fss sB = kept l1 ++ mid ->
      (exists x, In x mid /\ f_flow x = f_flow f0) ->
      fss_ok_l (kept l1 ++ mid ++ kept l2) n' ->
      (forall x, In x mid -> is_int x = true -> f_intby x = None -> st_by sB = None) ->
      evl (fun f => resume_loop o f cs (st_set_fss sB (kept l1 ++ mid ++ kept l2))) r ->
      evl (fun f => compute_next_state o f cs s ev) r.
    Proof.
      intros ev sB mid n' r Hpl (F1 & H1) HfB Hmid (_ & _ & Hfl) Hby (F2 & H2). exists (Nat.max F1 F2). intros f Hf.
      rewrite (cns_unfold o f cs s ev Hpl). fold ns. rewrite phase1_split, H1 by lia. cbn [bind].
      rewrite HfB, <- app_assoc. rewrite phase2_present by (apply mid_has_main; exact Hmid). cbn [bind].
      rewrite cns_tail_loop; [apply H2; lia| |exact Hfl].
      simpl. intros x Hx Hint Hnone. destruct (proj2 (made_of_mid mid) x Hx) as [Hd|Hx'].
      - unfold is_int in Hint. rewrite (dead_not_interrupted _ Hd) in Hint. discriminate.
      - apply in_app_or in Hx'. destruct Hx' as [Hx'|Hx']; [exact (Hby x Hx' Hint Hnone)|].
        destruct (itail_links _ _ _ Hit x Hx') as (a & Ha & _). congruence.
    Qed.

    (* the event's type does not trigger flows: everything stays, the pending step is proposed again *)
    Lemma run_nontrigger : forall ev,
      plain_event ev ->
      string_in (event_type ev) default_triggers = false ->
      res_rel (fun f => compute_next_state o f cs s ev)
                (Ok {| sp_st := Run w k stk; sp_ctx := st_ctx s; sp_upd := [];
                       sp_next := if actionable w then Some w else None |}).
    Proof.
      intros ev Hpl Htr.
      pose proof (instr_pyidx _ _ _ Hi0) as Hpy.
      set (sB := if actionable w
                 then st_set_next (st_push sA f0) (Some (elem_of_wait w)) (Some (f_uid f0))
                                  (Qred (fc_priority (cfg_of (f_flow f0) b0) * q09))
                 else st_push sA f0).
      assert (Hrec : record_next_step (st_push sA f0) f0 (cfg_of (f_flow f0) b0) q09 = Ok sB).
      { rewrite (record_next_step_fresh _ _ _ _ (elem_of_wait w)); [|reflexivity|exact Hpy].
        rewrite (is_actionable_wait _ Hw). reflexivity. }
      set (L := kept l1 ++ [f0] ++ kept l2).
      set (s' := st_set_fss sB L).
      pose proof (newlist_one f0 (st_uid s) eq_refl eq_refl (N.le_refl _)) as HokL.
      eassert (HR : R s' _).
      { apply (R_run s' w k stk (st_ctx s) []); try (unfold s', sB; destruct (actionable w); reflexivity); [|apply (stack_same f0); auto].
        replace (fss_ok s') with (fss_ok_l L (st_uid s)) by (unfold s', sB; destruct (actionable w); reflexivity).
        exact HokL. }
      simpl. exists s'. split; [exact HR|].
      apply (cns_run ev sB [f0] (st_uid s) _ Hpl); [| | |exact HokL| |exact (R_loop _ _ HR)].
      - apply evl_const. intros f.
        rewrite (phase1_one f ev f0 w b0 sA Hst0 Hb0 Hi0 Hw), Htr. cbn [negb]. rewrite Hrec. reflexivity.
      - unfold sB. destruct (actionable w); reflexivity.
      - exists f0. split; [left; reflexivity|reflexivity].
      - intros x [E|[]] Hint. subst x. unfold is_int in Hint. rewrite Hst0 in Hint. discriminate.
    Qed.

    (* an event the flow's own bot/execute step does not wait for: the whole stack is abandoned *)
    Lemma run_abort : forall ev,
      plain_event ev ->
      string_in (event_type ev) default_triggers = true ->
      wait_match w ev = false -> actionable w = true ->
      res_rel (fun f => compute_next_state o f cs s ev)
                (Ok {| sp_st := Idle; sp_ctx := st_ctx s; sp_upd := []; sp_next := None |}).
    Proof.
      intros ev Hpl Htr Hm Hact.
      set (fAb := fs_status f0 Aborted).
      set (sB := st_push sA fAb).
      set (L := kept l1 ++ [fAb] ++ kept l2).
      set (s2 := st_set_fss sB L).
      pose proof (newlist_one fAb (st_uid s) eq_refl eq_refl (N.le_refl _)) as HokL.
      destruct (abort_unwind tl stk (f_uid f0) s2 0 false) as (s' & Hloop & HR); auto.
      { exists fAb. split; [apply in_or_app; right; left; reflexivity|]. split; reflexivity. }
      { apply made_of_retired. right; reflexivity. }
      simpl. exists s'. split; [exact HR|].
      apply (cns_run ev sB [fAb] (st_uid s) _ Hpl); [|reflexivity| |exact HokL| |exact (loops_to_loop _ _ Hloop)].
      - apply evl_const. intros f. rewrite (phase1_one f ev f0 w b0 sA Hst0 Hb0 Hi0 Hw), Htr, Hm, Hact. reflexivity.
      - exists fAb. split; [left; reflexivity|reflexivity].
      - intros x [E|[]] Hint. subst x. discriminate.
    Qed.

    (* an event the flow does not wait for, while it waits for the user: it keeps waiting *)
    Lemma run_stay : forall ev,
      plain_event ev ->
      string_in (event_type ev) default_triggers = true ->
      wait_match w ev = false -> actionable w = false ->
      res_rel (fun f => compute_next_state o f cs s ev)
                (Ok {| sp_st := Run w k stk; sp_ctx := st_ctx s; sp_upd := []; sp_next := None |}).
    Proof.
      intros ev Hpl Htr Hm Hact.
      pose proof (instr_lt _ _ _ Hi0) as Hrg.
      pose proof (instr_pyidx _ _ _ Hi0) as Hpy.
      set (fI := fs_status f0 Interrupted).
      set (fA := fs_intby (fs_status fI Active) None).
      set (sB := st_push sA fI).
      set (L := kept l1 ++ [fI] ++ kept l2).
      set (L' := kept l1 ++ [fA] ++ kept l2).
      set (s2 := st_set_fss sB L).
      set (s' := st_set_fss s2 L').
      set (j := List.length (kept l1)).
      pose proof (newlist_one fI (st_uid s) eq_refl eq_refl (N.le_refl _)) as HokL.
      pose proof (newlist_one fA (st_uid s) eq_refl eq_refl (N.le_refl _)) as HokL'.
      eassert (HR : R s' _).
      { apply (R_run s' w k stk (st_ctx s) []); [reflexivity|reflexivity|rewrite Hact; reflexivity|exact HokL'|apply (stack_same fA); auto]. }
      rewrite Hact in HR.
      assert (Hj : nth_error (st_fss s2) j = Some fI).
      { change (st_fss s2) with L. unfold L, j. rewrite nth_error_app2, Nat.sub_diag by apply le_n. reflexivity. }
      assert (Hset : list_set L j fA = L') by (apply list_set_mid).
      (* phase 1 has interrupted f0 with interrupted_by = None; the loop re-activates it at once,
         and sliding from the statement it waits on proposes nothing *)
      assert (Hproc : evl (fun g => process g s2 j fI) (Ok s')).
      { apply evl_pred, evl_pred, evl_const. intros g. rewrite (process_resumes _ _ _ _ false (verdict_none _ fI Hib0)).
        unfold resumed. fold fA. change (st_fss s2) with L. rewrite Hset.
        rewrite (sws_at_wait g _ fA w b0 Hb0 Hi0).
        rewrite (record_next_step_fresh _ _ _ _ (elem_of_wait w)); [|reflexivity|exact Hpy].
        rewrite (is_actionable_wait _ Hw), Hact. cbn [bind].
        replace (f_head fA <? 0) with false by (symmetry; apply Z.ltb_ge; simpl; lia).
        simpl st_fss. apply f_equal, f_equal, list_set_mid. }
      assert (Hloop : loops_to s2 0 false (Ok s')).
      { apply (loops_step s2 j fI (Ok s') (Ok s') 0 false Hj); [reflexivity| | | |exact Hproc|].
        - rewrite (verdict_none _ fI Hib0). congruence.
        - apply (others_quiet L j fI tl stk (proj1 HokL) Hj (made_of_mid [fI]) Hit).
          apply not_dead. right; reflexivity.
        - intros Hlt. lia.
        - exact (loops_quiet s' (S j) true (R_quiet _ _ HR)). }
      simpl. exists s'. split; [exact HR|].
      apply (cns_run ev sB [fI] (st_uid s) _ Hpl); [|reflexivity| |exact HokL|reflexivity|exact (loops_to_loop _ _ Hloop)].
      - apply evl_const. intros f. rewrite (phase1_one f ev f0 w b0 sA Hst0 Hb0 Hi0 Hw), Htr, Hm, Hact. reflexivity.
      - exists fI. split; [left; reflexivity|reflexivity].
    Qed.

    (* the awaited event arrives: the flow advances, calls, returns *)
    Lemma run_match : forall fuel ev,
      plain_event ev ->
      string_in (event_type ev) default_triggers = true ->
      wait_match w ev = true ->
      res_rel (fun f => compute_next_state o f cs s ev)
                (of_xres (resume (all_flows p) fuel (st_ctx s) [] k stk)).
    Proof.
      intros fuel ev Hpl Htr Hm.
      destruct fuel as [|f']; [exact I|]. cbn [resume].
      remember (exec (all_flows p) (S f') (st_ctx s) [] [] k) as r1 eqn:Er1. symmetry in Er1.
      destruct (xres_fuel_dec r1) as [Efu|Hr1nf]; [subst r1; rewrite Efu; exact I|].
      pose proof (instr_lt _ _ _ Hi0) as Hrg.
      set (f0' := fs_head f0 (f_head f0 + 1)).
      destruct (sws_resume (S f') k r1 b0 lp0 sA f0' Er1 Hr1nf Hb0 Hk0 eq_refl Hst0 Hib0) as (res & Hpost & Hev).
      pose (K := fun r : state * fstate => let '(s1, fs1) := r in
                   if f_head fs1 <? 0 then Ok (st_push s1 (fs_status fs1 Completed), false) else Ok (st_push s1 fs1, false)).
      assert (Hp1 : forall r, evl (fun f => bind (sws o f cs sA f0') K) r -> evl (fun f => phase1 o f cs ev [f0] sA false) r).
      { intros r. apply (evl_ext _ _ _ 0). intros f _. rewrite (phase1_one f ev f0 w b0 sA Hst0 Hb0 Hi0 Hw), Htr, Hm. reflexivity. }
      destruct Hpost as [w' kw stk1 c' u' pushed fs' n' u0 Hbl|c' u' h n' Hneg Hn'|].
      - (* blocks again, possibly deeper *)
        pose proof Hbl as (_ & Hu' & Hf' & Hfr).
        set (sW := wait_state sA c' u' n' pushed w' u0) in *.
        set (sB := st_push sW fs').
        set (L := kept l1 ++ (pushed ++ [fs']) ++ kept l2).
        set (s' := st_set_fss sB L).
        assert (HokL : fss_ok_l L n') by (apply newlist_pushed; auto; exact (blocked_flows _ _ _ _ _ _ _ _ Hbl)).
        eassert (HR : R s' _).
        { apply (R_blocked sA L c' u' (st_uid s) n' pushed fs' f0' w' kw stk1 tl stk u0 Hbl Hit Hndl stack_below Hbot); auto.
          replace (pushed ++ fs' :: tl) with ((pushed ++ [fs']) ++ tl) by (rewrite <- app_assoc; reflexivity).
          apply made_of_mid. }
        cbn [of_xres]. simpl. exists s'. split; [exact HR|].
        apply (cns_run ev sB (pushed ++ [fs']) n' _ Hpl); [| | |exact HokL| |exact (R_loop _ _ HR)].
        + apply Hp1, (evl_bind _ (fun r _ => K r) _ _ Hev), evl_const.
          intros _. unfold K. rewrite (blocked_head _ _ _ _ _ _ _ _ Hbl). reflexivity.
        + unfold sB, sW, st_push. simpl. rewrite <- app_assoc. reflexivity.
        + exists fs'. split; [apply in_or_app; right; left; reflexivity|exact Hf'].
        + intros x Hx Hint Hnone. exfalso. apply (R_intby _ _ HR x); auto.
          apply in_or_app. right. apply in_or_app. left. exact Hx.
      - (* the flow body ends: return to the callers *)
        simpl in Hn'.
        set (fC := fs_status (fs_head f0' h) Completed).
        set (sE := end_state sA c' u' n') in *.
        set (sB := st_push sE fC).
        set (L := kept l1 ++ [fC] ++ kept l2).
        set (s2 := st_set_fss sB L).
        pose proof (newlist_one fC n' eq_refl eq_refl Hn') as HokL.
        assert (Hun : unwound (resume_stk f' c' u' stk) s2 0 false).
        { apply (resume_unwind tl stk (f_uid f0) s2 0 false f'); auto.
          - exists fC. split; [apply in_or_app; right; left; reflexivity|]. split; reflexivity.
          - apply made_of_retired. left; reflexivity.
          - exact (bottom_tail _ _ Hbot). }
        apply (rel_via_impl (loops_to s2 0 false)); [|exact Hun].
        intros r' Hl. apply (cns_run ev sB [fC] n' r' Hpl); [|reflexivity| |exact HokL| |exact (loops_to_loop _ _ Hl)].
        + apply Hp1, (evl_bind _ (fun r _ => K r) _ _ Hev), evl_const.
          intros _. unfold K. replace (f_head (fs_head f0' h) <? 0) with true by (symmetry; apply Z.ltb_lt; simpl; lia).
          reflexivity.
        + exists fC. split; [left; reflexivity|reflexivity].
        + intros x [E|[]] Hint. subst x. discriminate.
      - (* exception *)
        apply (cns_from_phase1_exc ev Hpl), Hp1. exact (evl_bind_exc _ _ Hev).
    Qed.
  End RunCtx.

  (* what the start loop does with the new instance of the dialog flow once it has slid: the instance
     was pushed first and is overwritten in place, marked completed (o_mark) if it ran to its end *)
  Definition started (r : state * fstate) : res state :=
    let '(s3, fs') := r in
    Ok (st_set_fss s3 (list_set (st_fss s3) 0 (if o_mark o && (f_head fs' <? 0) then fs_status fs' Completed else fs'))).

  (* no instance is running: phase 1 drops the dead flow states, the start loop matches the event
     against the dialog flow's first element and skips the subflows *)
  Lemma cns_idle : forall s ev i0 rest0 r,
    plain_event ev -> p_main p = SUser i0 :: rest0 -> Forall dead (st_fss s) ->
    let ns := new_state_of s in
    let fs0 := new_fstate (st_uid ns) (p_id p) 1 in
    evl (fun f => bind (if wait_match (WUser i0) ev
                        then bind (sws o f cs (st_push (st_bump_uid ns) fs0) fs0) started else Ok ns)
                       (fun s2 => cns_tail o f cs s2 false)) r ->
    evl (fun f => compute_next_state o f cs s ev) r.
  Proof.
    intros s ev i0 rest0 r Hpl Emain Hdead ns fs0. apply (evl_ext _ _ _ 1). intros f Hf. destruct f as [|f]; [lia|].
    assert (Hi0 : instr (code (p_main p)) 0 = Some (elem_of_wait (WUser i0))) by (unfold code; rewrite Emain; reflexivity).
    rewrite (cns_unfold o (S f) cs s ev Hpl). rewrite (phase1_dead _ _ _ _ _ _ _ Hdead). cbn [bind]. fold ns.
    rewrite cs_eq at 2. cbn [phase2]. cbn [fc_subflow mk_config fc_multiple fc_elems fc_id].
    change (st_fss ns) with (@nil fstate). cbn [has_flow existsb negb andb].
    rewrite (slide_stays _ f 0 (st_ctx ns) (st_upd ns) _ Hi0 eq_refl). cbv zeta.
    rewrite (instr_pyidx _ _ _ Hi0). cbn [of_opt bind].
    rewrite (is_match_wait (WUser i0) ev I).
    change (st_set_ctx ns (st_ctx ns) (st_upd ns)) with ns.
    change (0 + 1) with 1. cbn [List.length]. fold fs0.
    destruct (wait_match (WUser i0) ev).
    - destruct (sws o (S f) cs _ fs0) as [[s3 fs']| |]; cbn [bind]; try reflexivity.
      rewrite (phase2_subflows _ _ _ _ _ _ subs_all_subflow). reflexivity.
    - rewrite (phase2_subflows _ _ _ _ _ _ subs_all_subflow). reflexivity.
  Qed.

  Lemma idle_event : forall fuel s ev i0 rest0,
    plain_event ev -> p_main p = SUser i0 :: rest0 ->
    fss_ok s -> Forall dead (st_fss s) ->
    res_rel (fun f => compute_next_state o f cs s ev)
              (if wait_match (WUser i0) ev
               then of_xres (exec (all_flows p) fuel (st_ctx s) [] rest0 KDone)
               else Ok {| sp_st := Idle; sp_ctx := st_ctx s; sp_upd := []; sp_next := None |}).
  Proof.
    intros fuel s ev i0 rest0 Hpl Emain Hok Hdead.
    destruct wf_parts as ((i0' & rest0' & E' & Hwr) & _ & _). rewrite Emain in E'. inversion E'; subst i0' rest0'.
    set (Cm := code (p_main p)).
    assert (ECm : Cm = LUser i0 :: compile_block None rest0) by (unfold Cm, code; rewrite Emain; reflexivity).
    set (ns := new_state_of s).
    set (fs0 := new_fstate (st_uid ns) (p_id p) 1).
    set (s2 := st_push (st_bump_uid ns) fs0).
    pose proof (fun r => cns_idle s ev i0 rest0 r Hpl Emain Hdead) as Hpre. cbv zeta in Hpre. fold ns fs0 s2 in Hpre.
    destruct (wait_match (WUser i0) ev) eqn:Em.
    - (* the flow starts *)
      remember (exec (all_flows p) fuel (st_ctx s) [] rest0 KDone) as r1 eqn:Er1. symmetry in Er1.
      destruct (xres_fuel_dec r1) as [Efu|Hr1nf]; [rewrite Efu; exact I|].
      assert (H1 : code_at (code (p_main p)) 1 (compile_block (rel None 1) rest0)).
      { fold Cm. rewrite ECm. change (LUser i0 :: compile_block None rest0) with ([LUser i0] ++ compile_block None rest0).
        apply (code_at_app_r _ 0 [LUser i0]). apply code_at_whole. }
      assert (H3 : kmatch (code (p_main p)) KDone (1 + bsize rest0) None).
      { apply km_done. fold Cm. rewrite ECm, zlen_cons, compile_block_length. reflexivity. }
      destruct (sws_gen fuel rest0 KDone r1 (p_main p) None s2 fs0 Er1 Hr1nf main_body H1 Hwr H3 eq_refl eq_refl eq_refl)
        as (res & Hpost & Hev).
      assert (Hvia : forall x s' sp, res = Ok x -> R s' sp -> started x = Ok s' ->
                evl (fun f => compute_next_state o f cs s ev) (Ok s')).
      { intros x s' sp E HR Es. apply Hpre, (evl_bind _ (fun s2 f => cns_tail o f cs s2 false) s' _); [|exact (cns_tail_R _ _ HR)].
        rewrite E in Hev. apply (evl_bind _ (fun r _ => started r) _ _ Hev), evl_const. intros _. exact Es. }
      destruct Hpost as [w' kw stk1 c' u' pushed fs' n' u0 Hbl|c' u' h n' Hneg Hn'|]; cbn [of_xres res_rel].
      + pose proof Hbl as (_ & Hu' & Hf' & Hfr).
        set (sW := wait_state s2 c' u' n' pushed w' u0) in *.
        set (L := fs' :: pushed).
        set (s' := st_set_fss sW L).
        assert (HokL : fss_ok_l L n').
        { apply (fss_ok_app [fs'] (N.succ (st_uid s))); [|exact Hfr|exact (blocked_flows _ _ _ _ _ _ _ _ Hbl)].
          apply (fss_ok_main fs' _ Hf'). rewrite Hu'. apply N.lt_succ_diag_r. }
        eassert (HR : R s' _).
        { apply (R_blocked s2 L c' u' (N.succ (st_uid s)) n' pushed fs' fs0 w' kw stk1 [] [] u0 Hbl (it_nil _)); auto.
          - constructor; [intros []|constructor].
          - intros a [E|[]]. subst a. apply N.lt_succ_diag_r.
          - reflexivity.
          - split; intros x; rewrite in_app_iff; simpl; tauto. }
        rewrite app_nil_r in HR. exists s'. split; [exact HR|]. apply (Hvia _ _ _ eq_refl HR).
        unfold started. rewrite (blocked_head _ _ _ _ _ _ _ _ Hbl), andb_false_r. reflexivity.
      + simpl in Hn'.
        set (fC := fs_status (fs_head fs0 h) Completed).
        set (s' := st_set_fss (end_state s2 c' u' n') [fC]).
        eassert (HR : R s' _).
        { apply R_idle; [reflexivity|reflexivity|reflexivity| |constructor; [left; reflexivity|constructor]].
          apply (fss_ok_main fC _ eq_refl). change (f_uid fC) with (st_uid s). simpl. lia. }
        exists s'. split; [exact HR|]. apply (Hvia _ _ _ eq_refl HR). unfold started.
        replace (f_head (fs_head fs0 h) <? 0) with true by (symmetry; apply Z.ltb_lt; simpl; lia).
        rewrite Hmark. reflexivity.
      + apply Hpre, evl_bind_exc, evl_bind_exc, Hev.
    - (* nothing starts *)
      eassert (HR : R ns _) by (apply R_idle; [reflexivity|reflexivity|reflexivity|apply fss_ok_nil; reflexivity|constructor]).
      exists ns. split; [exact HR|]. exact (Hpre _ (cns_tail_R _ _ HR)).
  Qed.

  (* spec_event on the events that are neither StartInternalSystemAction, ContextUpdate nor
     hide_prev_turn does not look at the kind of event *)
  Lemma spec_event_plain : forall fuel sp ev, plain_event ev ->
    spec_event fuel p sp ev =
    match sp_st sp with
    | Idle =>
        match p_main p with
        | SUser i :: rest =>
            if wait_match (WUser i) ev
            then of_xres (exec (all_flows p) fuel (sp_ctx sp) [] rest KDone)
            else Ok {| sp_st := Idle; sp_ctx := sp_ctx sp; sp_upd := []; sp_next := None |}
        | _ => Exc
        end
    | Run w k stk =>
        if negb (string_in (event_type ev) default_triggers) then
          Ok {| sp_st := sp_st sp; sp_ctx := sp_ctx sp; sp_upd := [];
                sp_next := if actionable w then Some w else None |}
        else if wait_match w ev then of_xres (resume (all_flows p) fuel (sp_ctx sp) [] k stk)
        else if actionable w then Ok {| sp_st := Idle; sp_ctx := sp_ctx sp; sp_upd := []; sp_next := None |}
        else Ok {| sp_st := sp_st sp; sp_ctx := sp_ctx sp; sp_upd := []; sp_next := None |}
    end.
  Proof. intros fuel sp ev H. destruct ev; simpl in H; try contradiction; reflexivity. Qed.

  Lemma cns_sim_plain : forall fuel s sp ev,
    R s sp -> plain_event ev ->
    res_rel (fun f => compute_next_state o f cs s ev) (spec_event fuel p sp ev).
  Proof.
    intros fuel s sp ev (Hc & Hu & Hn & Hnw & Hok & Hshape) Hpl.
    rewrite (spec_event_plain fuel sp ev Hpl), <- Hc.
    destruct (sp_st sp) as [|w k stk] eqn:Est.
    - destruct wf_parts as ((i0 & rest0 & Emain & Hwr) & _ & _). rewrite Emain.
      apply (idle_event fuel s ev i0 rest0 Hpl Emain Hok Hshape).
    - destruct Hshape as (f0 & tl & Ha & Hit & Hmo & Hndl & Hbot).
      pose proof Ha as (Hst0 & Hib0 & b0 & lp0 & Hb0 & Hi0 & Hw & Hk0).
      destruct (in_split _ _ (proj1 Hmo f0 (or_introl eq_refl))) as (l1 & l2 & EL).
      destruct (string_in (event_type ev) default_triggers) eqn:Htr; cbn [negb].
      2:{ exact (run_nontrigger s w k stk f0 tl l1 l2 b0 lp0 Hok Hst0 Hib0 Hb0 Hi0 Hw Hk0 Hit Hmo Hndl Hbot EL ev Hpl Htr). }
      destruct (wait_match w ev) eqn:Hm.
      { exact (run_match s w k stk f0 tl l1 l2 b0 lp0 Hok Hst0 Hib0 Hb0 Hi0 Hw Hk0 Hit Hmo Hndl Hbot EL fuel ev Hpl Htr Hm). }
      destruct (actionable w) eqn:Hact.
      + exact (run_abort s w stk f0 tl l1 l2 b0 Hok Hst0 Hb0 Hi0 Hw Hit Hmo Hndl Hbot EL ev Hpl Htr Hm Hact).
      + exact (run_stay s w k stk f0 tl l1 l2 b0 lp0 Hok Hst0 Hib0 Hb0 Hi0 Hw Hk0 Hit Hmo Hndl Hbot EL ev Hpl Htr Hm Hact).
  Qed.

  Lemma cns_sim : forall fuel s sp ev,
    R s sp -> ev <> EvHide ->
    res_rel (fun f => compute_next_state o f cs s ev) (spec_event fuel p sp ev).
  Proof.
    intros fuel s sp ev HR Hev.
    destruct ev; try congruence; try (apply cns_sim_plain; [exact HR|exact I]); cbn [spec_event compute_next_state res_rel].
    - (* StartInternalSystemAction *)
      exists s. split; [exact HR|apply evl_const; reflexivity].
    - (* ContextUpdate *)
      destruct HR as (Hc & Hu & Hn & Hnw & Hok & Hshape). eexists. split; [|apply evl_const; reflexivity].
      unfold R. cbn [sp_st sp_ctx sp_upd sp_next st_ctx st_upd st_next st_fss option_map].
      rewrite Hc. split; [reflexivity|split; [reflexivity|split; [reflexivity|split; [|split; [exact Hok|exact Hshape]]]]].
      intros w E; discriminate.
  Qed.

  Lemma R_stop : forall s sp, R s sp ->
    R (st_set_fss s []) {| sp_st := Idle; sp_ctx := sp_ctx sp; sp_upd := sp_upd sp; sp_next := sp_next sp |}.
  Proof.
    intros s sp (Hc & Hu & Hn & Hnw & Hok & Hshape). unfold R. cbn [sp_st sp_ctx sp_upd sp_next]. simpl.
    split; [exact Hc|split; [exact Hu|split; [exact Hn|split; [exact Hnw|split; [|constructor]]]]].
    apply fss_ok_nil. reflexivity.
  Qed.

  Lemma run_events_sim : forall fuel l s sp,
    R s sp -> no_hide l ->
    res_rel (fun f => run_events o f cs s l) (spec_run fuel p sp l).
  Proof.
    intros fuel. induction l as [|e rest IH]; intros s sp HR Hnh.
    - simpl. exists s. split; [exact HR|apply evl_const; reflexivity].
    - inversion Hnh as [|? ? He Hrest]; subst.
      pose proof (cns_sim fuel s sp e HR He) as H1.
      pose (rest_of := fun s1 f => run_events o f cs (if is_bot_stop e then st_set_fss s1 [] else s1) rest).
      cbn [spec_run]. destruct (spec_event fuel p sp e) as [sp1| |]; cbn [bind res_rel] in *; auto.
      + destruct H1 as (s1 & HR1 & Hev1).
        assert (HR1' : R (if is_bot_stop e then st_set_fss s1 [] else s1)
                           (if is_bot_stop e
                            then {| sp_st := Idle; sp_ctx := sp_ctx sp1; sp_upd := sp_upd sp1; sp_next := sp_next sp1 |}
                            else sp1)).
        { destruct (is_bot_stop e); [apply R_stop|]; exact HR1. }
        pose proof (IH _ _ HR1' Hrest) as H2.
        destruct (spec_run fuel p _ rest) as [sp2| |]; cbn [res_rel] in *; auto.
        * destruct H2 as (s2 & HR2 & Hev2). exists s2. split; [exact HR2|].
          exact (evl_bind _ rest_of s1 _ Hev1 Hev2).
        * exact (evl_bind _ rest_of s1 _ Hev1 H2).
      + exact (evl_bind_exc _ rest_of H1).
  Qed.

  Lemma final_steps_R : forall s sp actual,
    R s sp -> final_steps s actual = Ok (spec_steps sp actual).
  Proof.
    intros s sp actual (Hc & Hu & Hn & Hnw & _ & _). unfold final_steps, spec_steps.
    rewrite Hn, Hu.
    destruct (sp_next sp) as [w|] eqn:En; cbn [option_map bind].
    - destruct (Hnw w eq_refl) as (Hw & Ha). rewrite (step_of_wait_ok w Hw Ha). cbn [bind].
      destruct actual; [reflexivity|]. destruct (is_bot_stop _); reflexivity.
    - destruct actual; [rewrite app_nil_r; reflexivity|]. destruct (is_bot_stop _); [reflexivity|].
      rewrite app_nil_r. reflexivity.
  Qed.

  Lemma R_init : R init_state spec_init.
  Proof. apply R_idle; [reflexivity|reflexivity|reflexivity|apply fss_ok_nil; reflexivity|constructor]. Qed.

  Theorem compile_correct_all : forall fuel hist r,
    next_steps fuel p hist = r -> r <> Fuel ->
    exists F, forall f, (F <= f)%nat -> compute_next_steps o f cs hist = r.
  Proof.
    intros fuel hist r Hr Hnf. unfold next_steps in Hr. unfold compute_next_steps.
    destruct (preprocess hist []) as [actual| |] eqn:Ep; cbn [bind] in *.
    - assert (Hnh : no_hide actual) by (eapply preprocess_no_hide; [exact Ep|constructor]).
      pose proof (run_events_sim fuel actual init_state spec_init R_init Hnh) as H.
      destruct (spec_run fuel p spec_init actual) as [sp| |]; cbn [bind res_rel] in *.
      + destruct H as (s & HR & F & HF). exists F. intros f Hf. rewrite HF by exact Hf. cbn [bind].
        rewrite (final_steps_R _ _ _ HR). exact Hr.
      + destruct H as (F & HF). exists F. intros f Hf. rewrite HF by exact Hf. exact Hr.
      + congruence.
    - exists 0%nat. intros; exact Hr.
    - congruence.
  Qed.
End ProgS.
