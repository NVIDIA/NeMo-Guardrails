(* C12 (Colang 1.0) - Gallina transcription of
     coyml_parser._extract_elements / _resolve_gotos / _process_ellipsis / parse_flow_elements
   and of runtime/sliding.py `slide` (control skeleton: which index is read next).
   Definitions and four evaluated examples; proofs are in Compile_proofs.v. *)
From Coq Require Import ZArith List String Bool.
From NG Require Import V1.CompileItems.
Import ListNotations.
Open Scope Z_scope.

Definition zlen {A} (l : list A) : Z := Z.of_nat (List.length l).

Definition leaf_elem (l : leaf) : elem :=
  match l with
  | LOther t => plain (TOther t)
  | LCheck => plain TCheck
  | LStop => plain TStop
  | LBreak => plain TBreak
  | LContinue => plain TContinue
  | LReturn => mkE TJump (Some (-1)) true None None None [] None
  | LSet b => plain (TSet b)
  | LLabel n => plain (TLabel n)
  | LGoto n => plain (TGoto n)
  end.

Definition if_block (th el : list elem) : list elem :=
  match el with
  | [] => mkE TIf None false (Some (zlen th + 1)) None None [] None :: th
  | _ => mkE TIf None false (Some (zlen th + 1 + 1)) None None [] None
         :: th ++ jump (zlen el + 1) :: el
  end.

(* ---- `while`: every do-element that has no `_next_on_break` yet gets both offsets ---- *)
Definition decorate (n j : Z) (e : elem) : elem :=
  match e_brk e with
  | Some _ => e
  | None => mkE (e_type e) (e_next e) (e_abs e) (e_else e)
                (Some (n + 1 - j)) (Some (-1 * j - 1)) (e_heads e) (e_label e)
  end.

Fixpoint decorate_from (n j : Z) (es : list elem) : list elem :=
  match es with
  | [] => []
  | e :: r => decorate n j e :: decorate_from n (j + 1) r
  end.

Definition while_block (body : list elem) : list elem :=
  let n := zlen body in
  mkE TWhile None false None (Some (n + 2)) None [] None
  :: decorate_from n 0 body ++ [jump (-1 * (n + 1))].

(* ---- branch group (a maximal run of consecutive python lists) ---- *)
Fixpoint rest_len (bs : list (list elem)) : Z :=
  match bs with
  | [] => 0
  | b :: r => zlen b + 1 + rest_len r
  end.

Fixpoint branch_heads (pos : Z) (bs : list (list elem)) : list Z :=
  match bs with
  | [] => []
  | b :: r => pos :: branch_heads (pos + zlen b + 1) r
  end.

Fixpoint branch_bodies (bs : list (list elem)) : list elem :=
  match bs with
  | [] => []
  | b :: r => b ++ jump (1 + rest_len r) :: branch_bodies r
  end.

Definition flush (pending : list (list elem)) : list elem :=
  match pending with
  | [] => []
  | _ => mkE TBranch None false None None None (branch_heads 1 pending) None
         :: branch_bodies pending
  end.

(* ---- _extract_elements.
   Each item yields either an ordinary block of elements or (python list) one branch;
   `assemble` is the outer `while i < len(items)` loop: `pending` = the already extracted
   branches of the run of consecutive lists being collected (the inner
   `while i < len(items)-1 and isinstance(items[i+1], list)`). *)
Inductive xres := XBlock (es : list elem) | XBranch (es : list elem).

Fixpoint assemble (xs : list xres) (pending : list (list elem)) : list elem :=
  match xs with
  | [] => flush pending
  | XBranch b :: rest => assemble rest (pending ++ [b])
  | XBlock es :: rest => flush pending ++ es ++ assemble rest []
  end.

Fixpoint xitem (it : item) : xres :=
  match it with
  | ILeaf l => XBlock [leaf_elem l]
  | IIf th el => XBlock (if_block (assemble (map xitem th) []) (assemble (map xitem el) []))
  | IWhile body => XBlock (while_block (assemble (map xitem body) []))
  | IAny ch => XBlock (plain TAny :: map leaf_elem ch)
  | IList b => XBranch (assemble (map xitem b) [])
  end.

Definition extract (items : list item) : list elem := assemble (map xitem items) [].

(* ---- _resolve_gotos ---- *)
Fixpoint label_pos (name : string) (es : list elem) : option nat :=
  match es with
  | [] => None
  | e :: r => match e_type e with
              | TLabel n => if String.eqb n name then Some O
                            else option_map S (label_pos name r)
              | _ => option_map S (label_pos name r)
              end
  end.

Fixpoint labels_of (es : list elem) : list string :=
  match es with
  | [] => []
  | e :: r => match e_type e with TLabel n => n :: labels_of r | _ => labels_of r end
  end.

Fixpoint has_dup (l : list string) : bool :=
  match l with
  | [] => false
  | x :: r => existsb (String.eqb x) r || has_dup r
  end.

Definition resolve_one (all : list elem) (i : Z) (e : elem) : res elem :=
  match e_type e with
  | TLabel n => Ok (mkE TJump (Some 1) (e_abs e) (e_else e) (e_brk e) (e_cont e) (e_heads e) (Some n))
  | TGoto n => match label_pos n all with
               | Some k => Ok (mkE TJump (Some (Z.of_nat k - i)) (e_abs e) (e_else e) (e_brk e)
                                   (e_cont e) (e_heads e) (e_label e))
               | None => Err UndefLabel
               end
  | _ => Ok e
  end.

Fixpoint resolve_from (all : list elem) (i : Z) (es : list elem) : res (list elem) :=
  match es with
  | [] => Ok []
  | e :: r => match resolve_one all i e with
              | Err x => Err x
              | Ok e' => match resolve_from all (i + 1) r with
                         | Err x => Err x
                         | Ok r' => Ok (e' :: r')
                         end
              end
  end.

Definition resolve_gotos (es : list elem) : res (list elem) :=
  if has_dup (labels_of es) then Err DupLabel else resolve_from es 0 es.

(* ---- _process_ellipsis: `$x = ...` becomes a fresh run_action dict (no offsets copied) ---- *)
Definition ellipsis_one (e : elem) : elem :=
  match e_type e with
  | TSet true => plain (TOther "run_action")
  | _ => e
  end.

Definition compile (items : list item) : res (list elem) :=
  match resolve_gotos (extract items) with
  | Err x => Err x
  | Ok es => Ok (map ellipsis_one es)
  end.

(* ---- sliding.py slide(): which element index is read; conditions are an arbitrary oracle ---- *)
Inductive slide_res :=
| SHead (h : Z)          (* stopped on a non-sliding element *)
| SFinished (r : Z)      (* -1 * (prev_head + 1) *)
| SNone                  (* stop / failed check *)
| SIndexError            (* flow_config.elements[head] with head > len *)
| SKeyError              (* a mandatory offset key is missing *)
| SFuel.

Definition or1 (o : option Z) : Z := match o with Some n => n | None => 1 end.

Section Slide.
  Variable cond : nat -> Z -> bool.   (* eval_expression: arbitrary function of (step, position) *)

  Fixpoint slide (fuel : nat) (es : list elem) (head prev : Z) : slide_res :=
    match fuel with
    | O => SFuel
    | S f =>
      if (head =? zlen es) || (head <? 0) then SFinished (-1 * (prev + 1))
      else match nth_error es (Z.to_nat head) with
           | None => SIndexError
           | Some e =>
             match e_type e with
             | TCheck => if cond f head then slide f es (head + or1 (e_next e)) head else SNone
             | TIf => if cond f head then slide f es (head + 1) head
                      else match e_else e with
                           | Some n => slide f es (head + n) head
                           | None => SKeyError
                           end
             | TJump => match e_next e with
                        | None => SKeyError
                        | Some n => if e_abs e then slide f es n head else slide f es (head + n) head
                        end
             | TWhile => if cond f head then slide f es (head + or1 (e_next e)) head
                         else match e_brk e with
                              | Some n => slide f es (head + n) head
                              | None => SKeyError
                              end
             | TContinue => slide f es (head + or1 (e_cont e)) head
             | TStop => SNone
             | TBreak => slide f es (head + or1 (e_brk e)) head
             | TSet _ => slide f es (head + or1 (e_next e)) head
             | _ => SHead head
             end
           end
    end.
End Slide.

(* every position slide() or compute_next_state() can move to from element i *)
Definition targets (i : Z) (e : elem) : list Z :=
  match e_type e with
  | TCheck | TSet _ => [i + or1 (e_next e)]
  | TIf => (i + 1) :: match e_else e with Some n => [i + n] | None => [] end
  | TJump => match e_next e with Some n => [if e_abs e then n else i + n] | None => [] end
  | TWhile => (i + or1 (e_next e)) :: match e_brk e with Some n => [i + n] | None => [] end
  | TContinue => [i + or1 (e_cont e)]
  | TBreak => [i + or1 (e_brk e)]
  | TBranch => map (fun h => i + h + 1) (e_heads e)
  | TStop => []
  | _ => [i + 1]
  end.

(* ---- the closedness predicate (C12, Colang 1.0) ----
   element e at index i of a flow of `len` elements: every offset field that is present lands in
   [0, len] (an absolute jump: in [-1, len]; -1 is `return`, which slide treats as "finished"),
   every branch head indexes an existing element, the offset slide() reads unconditionally is
   present, no unresolved label/goto is left, and `_absolute` is set on jumps only (slide()
   honours it only there). *)
Definition shape_ok (e : elem) : Prop :=
  (e_abs e = true -> e_type e = TJump) /\
  match e_type e with
  | TIf => e_else e <> None
  | TWhile => e_brk e <> None
  | TJump => e_next e <> None
  | TLabel _ | TGoto _ => False
  | _ => True
  end.

Definition in_range (len i : Z) (e : elem) : Prop :=
  (forall n, e_next e = Some n -> if e_abs e then -1 <= n <= len else 0 <= i + n <= len) /\
  (forall n, e_else e = Some n -> 0 <= i + n <= len) /\
  (forall n, e_brk e = Some n -> 0 <= i + n <= len) /\
  (forall n, e_cont e = Some n -> 0 <= i + n <= len) /\
  (forall h, In h (e_heads e) -> 0 <= i + h < len) /\
  shape_ok e.

Definition closed_v1 (es : list elem) : Prop :=
  forall i e, nth_error es i = Some e -> in_range (zlen es) (Z.of_nat i) e.

Open Scope string_scope.
Example ex_if_else :
  compile [IIf [ILeaf (LOther "a")] [ILeaf (LOther "b"); ILeaf (LOther "c")]]
  = Ok [mkE TIf None false (Some 3) None None [] None; plain (TOther "a"); jump 3;
        plain (TOther "b"); plain (TOther "c")].
Proof. reflexivity. Qed.

Example ex_while_break :
  compile [IWhile [ILeaf LBreak; ILeaf (LOther "a")]]
  = Ok [mkE TWhile None false None (Some 4) None [] None;
        mkE TBreak None false None (Some 3) (Some (-1)) [] None;
        mkE (TOther "a") None false None (Some 2) (Some (-2)) [] None;
        jump (-3)].
Proof. reflexivity. Qed.

Example ex_branches :
  compile [IList [ILeaf (LOther "a")]; IList []; ILeaf (LOther "z")]
  = Ok [mkE TBranch None false None None None [1; 3] None; plain (TOther "a"); jump 2; jump 1;
        plain (TOther "z")].
Proof. reflexivity. Qed.

Example ex_goto :
  compile [ILeaf (LLabel "l"); ILeaf (LGoto "l"); ILeaf (LGoto "m")] = Err UndefLabel.
Proof. reflexivity. Qed.
