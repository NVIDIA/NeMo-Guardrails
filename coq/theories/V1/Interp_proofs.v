(* V1.Interp_proofs - facts about the interpreter model alone.
   The unfolding equations of the fixpoints over fuel, what _record_next_step and the loops over
   flow states do on inputs they leave alone, and the shape of compute_next_state after its two
   loops over flows (`cns_tail`), for the simulation proofs.
   Fuel monotonicity: a result other than Fuel does not depend on how much fuel was supplied, so
   the explicit fuel of the model is not a hidden input: compute_next_steps is a function of
   (configs, history) alone. *)
From Coq Require Import ZArith QArith List Lia.
From NG Require Import V1.Expr V1.Elems V1.Slide V1.Interp.
Import ListNotations.
Open Scope Z_scope.

Lemma slide_loop_mono : forall f els h p c u r,
  slide_loop f els h p c u = r -> r <> SFuel ->
  forall f', (f <= f')%nat -> slide_loop f' els h p c u = r.
Proof.
  induction f as [|f IH]; intros els h p c u r H Hr f' Hle; simpl in H.
  - subst; congruence.
  - destruct f' as [|f']; [lia|]. simpl.
    destruct ((h =? Z.of_nat (Datatypes.length els)) || (h <? 0)); [exact H|].
    destruct (nth_error els (Z.to_nat h)) as [el|]; [|exact H].
    destruct (slide_elem el h c u) as [h' c' u'| | |]; try exact H.
    eapply IH; eauto; lia.
Qed.

Lemma slide_mono : forall f els h c u r,
  slide f els h c u = r -> r <> SFuel ->
  forall f', (f <= f')%nat -> slide f' els h c u = r.
Proof. unfold slide; intros; eapply slide_loop_mono; eauto. Qed.

Definition nofuel {A} (r : res A) : Prop := r <> Fuel.

Lemma bind_nofuel : forall {A B} (r : res A) (k : A -> res B),
  bind r k <> Fuel -> r <> Fuel.
Proof. intros A B r k H; destruct r; simpl in *; congruence. Qed.

Open Scope list_scope.

Definition dead (fs : fstate) : Prop := f_status fs = Completed \/ f_status fs = Aborted.

Lemma st_set_fss_same : forall s, st_set_fss s (st_fss s) = s.
Proof. destruct s; reflexivity. Qed.

Lemma record_next_step_inv : forall s fs cfg m s1,
  record_next_step s fs cfg m = Ok s1 ->
  st_fss s1 = st_fss s /\ st_ctx s1 = st_ctx s /\ st_upd s1 = st_upd s /\ st_uid s1 = st_uid s.
Proof.
  intros s fs cfg m s1 H. unfold record_next_step in H.
  destruct (match st_next s with None => true | Some _ => false end || Qltb (st_prio s) (fc_priority cfg)).
  - destruct (pyidx (fc_elems cfg) (f_head fs)) as [el|]; simpl in H; [|discriminate].
    destruct (is_actionable el); inversion H; subst; simpl; auto.
  - inversion H; subst; auto.
Qed.

Lemma record_next_step_fresh : forall s fs cfg m el,
  st_next s = None -> pyidx (fc_elems cfg) (f_head fs) = Some el ->
  record_next_step s fs cfg m =
  Ok (if is_actionable el then st_set_next s (Some el) (Some (f_uid fs)) (Qred (fc_priority cfg * m)) else s).
Proof.
  intros s fs cfg m el Hn Hp. unfold record_next_step. rewrite Hn, Hp. simpl.
  destruct (is_actionable el); reflexivity.
Qed.

Lemma sws_S : forall o f cs s fs,
  sws o (S f) cs s fs =
  bind (of_opt (find_config cs (f_flow fs))) (fun cfg =>
    match slide f (fc_elems cfg) (f_head fs) (st_ctx s) (st_upd s) with
    | SFuel => Fuel
    | SErr => Exc
    | SNone => Exc
    | SOk h c u =>
        let s1 := st_set_ctx s c u in
        let fs1 := fs_head fs h in
        if h >=? 0 then
          bind (of_opt (pyidx (fc_elems cfg) h)) (fun el =>
          match el with
          | LFlow name =>
              let sub := new_fstate (st_uid s1) name 0 in
              let s2 := st_bump_uid s1 in
              let fs2 := fs_head fs1 (h + 1) in
              bind (sws o f cs s2 sub) (fun r =>
              let '(s3, sub') := r in
              if f_head sub' <? 0 then sws o f cs s3 fs2
              else
                let fs3 := fs_intby (fs_status fs2 Interrupted) (Some (f_uid sub')) in
                let s4 := st_push s3 sub' in
                bind (of_opt (find_config cs (f_flow sub'))) (fun scfg =>
                bind (if o_guard o && negb (status_eqb (f_status sub') Active) then Ok s4
                      else record_next_step s4 sub' scfg 1) (fun s5 =>
                Ok (s5, fs3))))
          | _ => bind (record_next_step s1 fs1 cfg 1) (fun s2 => Ok (s2, fs1))
          end)
        else Ok (s1, fs1)
    end).
Proof. reflexivity. Qed.

Lemma phase1_dead : forall o f cs ev l s ext,
  Forall dead l -> phase1 o f cs ev l s ext = Ok (s, ext).
Proof.
  intros o f cs ev l s ext H. induction H as [|fs l Hd _ IH]; simpl; [reflexivity|].
  destruct Hd as [Hd|Hd]; rewrite Hd; exact IH.
Qed.

Lemma phase2_subflows : forall o f cs ev todo s,
  Forall (fun c => fc_subflow c = true) todo -> phase2 o f cs ev todo s = Ok s.
Proof.
  intros o f cs ev todo s H. induction H as [|c l Hc _ IH]; simpl; [reflexivity|].
  rewrite Hc. exact IH.
Qed.

Lemma resume_pass_S : forall o f cs s i changes,
  resume_pass o (S f) cs s i changes =
  match nth_error (st_fss s) i with
  | None => Ok (s, changes)
  | Some fs =>
      if status_eqb (f_status fs) Interrupted then
        let '(should_resume, should_abort) :=
          match f_intby fs with
          | None => (true, false)
          | Some u =>
              match find_uid (st_fss s) u with
              | Some g => (status_eqb (f_status g) Completed, status_eqb (f_status g) Aborted)
              | None => (false, false)
              end
          end in
        if should_resume then
          let fs1 := fs_intby (fs_status fs Active) None in
          let s1 := st_set_fss s (list_set (st_fss s) i fs1) in
          bind (sws o f cs s1 fs1) (fun r =>
          let '(s2, fs2) := r in
          let fs3 := if f_head fs2 <? 0 then fs_status fs2 Completed else fs2 in
          resume_pass o f cs (st_set_fss s2 (list_set (st_fss s2) i fs3)) (S i) true)
        else if should_abort then
          let fs1 := fs_intby (fs_status fs Aborted) None in
          resume_pass o f cs (st_set_fss s (list_set (st_fss s) i fs1)) (S i) true
        else resume_pass o f cs s (S i) changes
      else resume_pass o f cs s (S i) changes
  end.
Proof. reflexivity. Qed.

Lemma resume_loop_S : forall o f cs s,
  resume_loop o (S f) cs s =
  bind (resume_pass o (S f) cs s 0 false) (fun r =>
  let '(s1, changes) := r in if changes then resume_loop o f cs s1 else Ok s1).
Proof. reflexivity. Qed.

Lemma decision_flow_in : forall s dfs, decision_flow s = Some dfs -> In dfs (st_fss s).
Proof.
  intros s dfs. unfold decision_flow. destruct (st_by s) as [u|]; [|discriminate].
  assert (G : forall l acc, fold_left (fun acc fs => if N.eqb (f_uid fs) u then Some fs else acc) l acc = Some dfs ->
                            In dfs l \/ acc = Some dfs).
  { induction l as [|x l IH]; simpl; intros acc H; [right; exact H|].
    destruct (IH _ H) as [Hin|Hacc]; [left; right; exact Hin|].
    destruct (N.eqb (f_uid x) u); [inversion Hacc; subst; left; left; reflexivity|right; exact Hacc]. }
  intros H. destruct (G _ _ H) as [Hin|Hd]; [exact Hin|discriminate].
Qed.

Lemma st_set_ctx_same : forall s, st_set_ctx s (st_ctx s) (st_upd s) = s.
Proof. destruct s; reflexivity. Qed.

Lemma fs_head_same : forall fs, fs_head fs (f_head fs) = fs.
Proof. destruct fs; reflexivity. Qed.

Lemma fs_intby_same : forall fs, f_intby fs = None -> fs_intby fs None = fs.
Proof. intros [u fl h st ib] H; simpl in *; subst; reflexivity. Qed.

(* what compute_next_state does after the two loops over flows *)
Definition cns_tail (o : opts) (fuel : nat) (cs : configs) (s2 : state) (ext : bool) : res state :=
  bind (if ext then reactivate cs s2 0 (List.length (st_fss s2)) else Ok s2) (fun s3 =>
  let s4 := assign_intby s3 in
  bind (match decision_flow s4 with
        | None => Ok s4
        | Some dfs =>
            bind (of_opt (find_config cs (f_flow dfs))) (fun dcfg =>
            if fc_extension dcfg && (1 <? f_head dfs) then
              bind (ext_interrupt cs (st_by s4) (st_fss s4)) (fun l => Ok (st_set_fss s4 l))
            else Ok s4)
        end) (fun s5 =>
  resume_loop o fuel cs s5)).

Definition new_state_of (s : state) : state :=
  {| st_ctx := st_ctx s; st_fss := []; st_next := None; st_by := None; st_prio := 0;
     st_upd := []; st_uid := st_uid s |}.

Definition plain_event (ev : event) : Prop :=
  match ev with EvStartAct | EvCtx _ | EvHide => False | _ => True end.

Lemma cns_unfold : forall o fuel cs s ev, plain_event ev ->
  compute_next_state o fuel cs s ev =
  bind (phase1 o fuel cs ev (st_fss s) (new_state_of s) false) (fun r =>
  let '(s1, ext) := r in
  bind (phase2 o fuel cs ev cs s1) (fun s2 => cns_tail o fuel cs s2 ext)).
Proof. intros o fuel cs s ev H. destruct ev; simpl in H; try contradiction; reflexivity. Qed.

Definition no_hide (l : list event) : Prop := Forall (fun e => e <> EvHide) l.

Lemma in_firstn : forall {A} n (l : list A) x, In x (firstn n l) -> In x l.
Proof.
  intros A. induction n; intros l x H; simpl in H; [contradiction|].
  destruct l; simpl in *; [contradiction|]. destruct H; [left; exact H|right; apply IHn; exact H].
Qed.

Lemma preprocess_no_hide : forall hist acc a,
  preprocess hist acc = Ok a -> no_hide acc -> no_hide a.
Proof.
  induction hist as [|e rest IH]; intros acc a H Hacc; simpl in H.
  - inversion H; subst; exact Hacc.
  - destruct e; try (eapply IH; [exact H|]; apply Forall_app; split; [exact Hacc|];
                     constructor; [congruence|constructor]).
    destruct (last_uuaf acc 0 None) as [n|]; [|discriminate].
    eapply IH; [exact H|]. unfold no_hide in *. rewrite Forall_forall in *.
    intros x Hin. apply Hacc. eapply in_firstn; eauto.
Qed.

Lemma preprocess_snoc : forall hist acc a e,
  e <> EvHide -> preprocess hist acc = Ok a -> preprocess (hist ++ [e]) acc = Ok (a ++ [e]).
Proof.
  induction hist as [|x rest IH]; intros acc a e He H; simpl in *.
  - inversion H; subst. destruct e; try congruence; reflexivity.
  - destruct x; try (apply IH; assumption).
    destruct (last_uuaf acc 0 None); [apply IH; assumption|discriminate].
Qed.

(* r' refines r: r ran out of fuel, or r' is the same result *)
Definition le_res {A} (r r' : res A) : Prop := r = Fuel \/ r' = r.

Lemma le_res_refl : forall {A} (r : res A), le_res r r.
Proof. intros; right; reflexivity. Qed.

Lemma le_res_bind : forall {A B} (g g' : res A) (k k' : A -> res B),
  le_res g g' -> (forall a, le_res (k a) (k' a)) -> le_res (bind g k) (bind g' k').
Proof.
  intros A B g g' k k' [E|E] Hk; [left; rewrite E; reflexivity|]. rewrite E.
  destruct g; simpl; [apply Hk|right; reflexivity|left; reflexivity].
Qed.

Lemma sws_mono : forall o cs f f' s fs, (f <= f')%nat -> le_res (sws o f cs s fs) (sws o f' cs s fs).
Proof.
  intros o cs; induction f as [|f IH]; intros f' s fs Hle; [left; reflexivity|].
  destruct f' as [|f']; [lia|]. rewrite !sws_S. apply le_res_bind; [apply le_res_refl|]. intros cfg.
  destruct (slide f (fc_elems cfg) (f_head fs) (st_ctx s) (st_upd s)) as [h c u| | |] eqn:Hs;
    [| | |left; reflexivity]; (erewrite slide_mono; [|exact Hs|congruence|lia]); try apply le_res_refl.
  cbv beta iota zeta. destruct (h >=? 0); [|apply le_res_refl].
  apply le_res_bind; [apply le_res_refl|]. intros el. destruct el; try apply le_res_refl.
  apply le_res_bind; [apply IH; lia|]. intros [s3 sub'].
  destruct (f_head sub' <? 0); [apply IH; lia|apply le_res_refl].
Qed.

Lemma phase1_mono : forall o cs ev old f f' s ext, (f <= f')%nat ->
  le_res (phase1 o f cs ev old s ext) (phase1 o f' cs ev old s ext).
Proof.
  intros o cs ev; induction old as [|fs rest IH]; intros f f' s ext Hle; [apply le_res_refl|]. cbn [phase1].
  destruct (f_status fs); try (apply IH; exact Hle).
  apply le_res_bind; [apply le_res_refl|]. intros cfg. apply le_res_bind; [apply le_res_refl|]. intros hel.
  destruct (negb (string_in (event_type ev) (fc_triggers cfg))).
  - apply le_res_bind; [apply le_res_refl|]. intros s1. apply IH; exact Hle.
  - apply le_res_bind; [apply le_res_refl|]. intros mh.
    destruct (match mh with Some m => if m =? 0 then None else Some m | None => None end) as [m|].
    + apply le_res_bind; [apply sws_mono; exact Hle|]. intros [s1 fs1]. destruct (f_head fs1 <? 0); apply IH; exact Hle.
    + apply le_res_bind; [apply le_res_refl|]. intros el. destruct (is_actionable el || negb (fc_interruptible cfg)); apply IH; exact Hle.
Qed.

Lemma phase2_mono : forall o cs ev todo f f' s, (f <= f')%nat ->
  le_res (phase2 o f cs ev todo s) (phase2 o f' cs ev todo s).
Proof.
  intros o cs ev; induction todo as [|cfg rest IH]; intros f f' s Hle; [apply le_res_refl|]. cbn [phase2].
  destruct (fc_subflow cfg); [apply IH; exact Hle|].
  destruct (negb (fc_multiple cfg) && has_flow (st_fss s) (fc_id cfg)); [apply IH; exact Hle|].
  destruct (slide f (fc_elems cfg) 0 (st_ctx s) (st_upd s)) as [sh c u| | |] eqn:Hs;
    [| | |left; reflexivity]; (erewrite slide_mono; [|exact Hs|congruence|lia]); try apply le_res_refl.
  cbv beta iota zeta. apply le_res_bind; [apply le_res_refl|]. intros el.
  destruct (is_match el ev); [|apply IH; exact Hle].
  apply le_res_bind; [apply sws_mono; exact Hle|]. intros [s3 fs']. apply IH; exact Hle.
Qed.

Lemma resume_pass_mono : forall o cs f f' s i ch, (f <= f')%nat ->
  le_res (resume_pass o f cs s i ch) (resume_pass o f' cs s i ch).
Proof.
  intros o cs; induction f as [|f IH]; intros f' s i ch Hle; [left; reflexivity|].
  destruct f' as [|f']; [lia|]. rewrite !resume_pass_S.
  destruct (nth_error (st_fss s) i) as [fs|]; [|apply le_res_refl].
  destruct (status_eqb (f_status fs) Interrupted); [|apply IH; lia].
  destruct (match f_intby fs with
            | None => (true, false)
            | Some u => match find_uid (st_fss s) u with
                        | Some g => (status_eqb (f_status g) Completed, status_eqb (f_status g) Aborted)
                        | None => (false, false)
                        end
            end) as [sr sa].
  destruct sr; [|destruct sa; apply IH; lia].
  apply le_res_bind; [apply sws_mono; lia|]. intros [s2 fs2]. apply IH; lia.
Qed.

Lemma resume_loop_mono : forall o cs f f' s, (f <= f')%nat ->
  le_res (resume_loop o f cs s) (resume_loop o f' cs s).
Proof.
  intros o cs; induction f as [|f IH]; intros f' s Hle; [left; reflexivity|].
  destruct f' as [|f']; [lia|]. rewrite !resume_loop_S.
  apply le_res_bind; [apply resume_pass_mono; lia|]. intros [s1 ch]. destruct ch; [apply IH; lia|apply le_res_refl].
Qed.

Lemma compute_next_state_mono : forall o cs f f' s ev, (f <= f')%nat ->
  le_res (compute_next_state o f cs s ev) (compute_next_state o f' cs s ev).
Proof.
  intros o cs f f' s ev Hle. destruct ev; try apply le_res_refl; cbn [compute_next_state];
    (apply le_res_bind; [apply phase1_mono; exact Hle|]; intros [s1 ext];
     apply le_res_bind; [apply phase2_mono; exact Hle|]; intros s2;
     apply le_res_bind; [apply le_res_refl|]; intros s3;
     apply le_res_bind; [apply le_res_refl|]; intros s5;
     apply resume_loop_mono; exact Hle).
Qed.

Lemma run_events_mono : forall o cs l f f' s, (f <= f')%nat ->
  le_res (run_events o f cs s l) (run_events o f' cs s l).
Proof.
  intros o cs; induction l as [|e rest IH]; intros f f' s Hle; [apply le_res_refl|]. cbn [run_events].
  apply le_res_bind; [apply compute_next_state_mono; exact Hle|]. intros s1. apply IH; exact Hle.
Qed.

Lemma final_steps_nofuel : forall s a, final_steps s a <> Fuel.
Proof.
  intros s a. unfold final_steps.
  destruct (st_next s) as [el|]; simpl.
  - unfold step_to_event. destruct el; simpl; try congruence;
      destruct a; simpl; try congruence; destruct (is_bot_stop _); congruence.
  - destruct a; simpl; try congruence; destruct (is_bot_stop _); congruence.
Qed.

Lemma compute_next_steps_mono : forall o cs f f' h, (f <= f')%nat ->
  le_res (compute_next_steps o f cs h) (compute_next_steps o f' cs h).
Proof.
  intros o cs f f' h Hle. unfold compute_next_steps.
  apply le_res_bind; [apply le_res_refl|]. intros a.
  apply le_res_bind; [apply run_events_mono; exact Hle|]. intros s. apply le_res_refl.
Qed.

(* The decision does not depend on the fuel: two runs that both terminate agree. *)
Theorem compute_next_steps_fuel_independent : forall o f1 f2 cs h,
  compute_next_steps o f1 cs h <> Fuel ->
  compute_next_steps o f2 cs h <> Fuel ->
  compute_next_steps o f1 cs h = compute_next_steps o f2 cs h.
Proof.
  intros o f1 f2 cs h H1 H2.
  destruct (Nat.le_ge_cases f1 f2) as [Hle|Hle];
    destruct (compute_next_steps_mono o cs _ _ h Hle) as [E|E]; congruence.
Qed.
