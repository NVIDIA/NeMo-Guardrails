(* V1.Slide_proofs - the core of the compiler-correctness argument: slide() on the compiled
   code follows the structured reference semantics inside one flow body (sequencing, set,
   if/else, while, break, continue, any nesting) up to the next statement that needs an event,
   the next subflow call, or the end of the body.

   `lexec` is Structured.exec restricted to one flow body (it stops at `do`); `lexec_slide`
   relates it to slide_loop by induction on the source execution, with the continuation /
   code-position relation `kmatch` of Code_proofs.v. *)
From Coq Require Import ZArith List String Bool Lia.
From NG Require Import V1.Expr V1.Elems V1.Slide V1.Structured V1.Code_proofs.
Import ListNotations.
Open Scope list_scope.
Open Scope Z_scope.

Inductive lres :=
| LWait (w : wait) (k : kont) (c u : ctx)
| LCallR (name : string) (k : kont) (c u : ctx)
| LEnd (c u : ctx)
| LExc
| LFuel.

Fixpoint lexec (fuel : nat) (c u : ctx) (blk : list stmt) (k : kont) : lres :=
  match fuel with
  | O => LFuel
  | S f =>
      match blk with
      | [] =>
          match k with
          | KDone => LEnd c u
          | KSeq rest k' => lexec f c u rest k'
          | KLoop cnd body k' => lexec f c u [SWhile cnd body] k'
          end
      | s :: rest =>
          match s with
          | SUser i => LWait (WUser i) (KSeq rest k) c u
          | SBot i => LWait (WBot i) (KSeq rest k) c u
          | SExec a p key => LWait (WExec a p key) (KSeq rest k) c u
          | SSet x e =>
              match eval c e with
              | None => LExc
              | Some v => lexec f (assoc_set x v c) (assoc_set x v u) rest k
              end
          | SIf cnd t e =>
              match eval c cnd with
              | None => LExc
              | Some v => lexec f c u (if truthy v then t else e) (KSeq rest k)
              end
          | SWhile cnd b =>
              match eval c cnd with
              | None => LExc
              | Some v => if truthy v then lexec f c u b (KLoop cnd b (KSeq rest k))
                          else lexec f c u rest k
              end
          | SBreak =>
              match unwind k with
              | Some (_, _, k') => lexec f c u [] k'
              | None => LExc
              end
          | SContinue =>
              match unwind k with
              | Some (cnd, b, k') => lexec f c u [SWhile cnd b] k'
              | None => LExc
              end
          | SDo name => LCallR name (KSeq rest k) c u
          end
      end
  end.

Definition slide_post (C : list elem) (r : lres) (sr : sres) : Prop :=
  match r with
  | LWait w k c u => exists pw lp, sr = SOk pw c u /\ instr C pw = Some (elem_of_wait w) /\ wf_wait w /\
                                   kmatch C k (pw + 1) lp
  | LCallR name k c u => exists pw lp rest k', k = KSeq rest k' /\ sr = SOk pw c u /\
                                       instr C pw = Some (LFlow name) /\
                                       code_at C (pw + 1) (compile_block (rel lp (pw + 1)) rest) /\
                                       wf_block (inl lp) rest = true /\
                                       kmatch C k' (pw + 1 + bsize rest) lp
  | LEnd c u => exists h, sr = SOk h c u /\ h < 0
  | LExc => sr = SErr
  | LFuel => False
  end.

(* eventually (for all sufficiently large fuel) the slide loop returns sr *)
Definition slides_to (C : list elem) (pc prev : Z) (c u : ctx) (sr : sres) : Prop :=
  exists F, forall f, (F <= f)%nat -> slide_loop f C pc prev c u = sr.

(* one iteration of the loop on the element at pc *)
Lemma slide_loop_at : forall f C pc prev c u el, instr C pc = Some el ->
  slide_loop (S f) C pc prev c u =
  match slide_elem el pc c u with
  | StGo h' c' u' => slide_loop f C h' pc c' u'
  | StStay => SOk pc c u
  | StNone => SNone
  | StErr => SErr
  end.
Proof.
  intros f C pc prev c u el H. pose proof (instr_lt _ _ _ H) as Hr. unfold zlen in Hr.
  unfold instr in H. destruct (pc <? 0) eqn:E; [discriminate|]. simpl.
  replace (pc =? Z.of_nat (Datatypes.length C)) with false by (symmetry; apply Z.eqb_neq; lia).
  rewrite E, H. reflexivity.
Qed.

Lemma slide_stays : forall C f pc c u el,
  instr C pc = Some el -> slide_elem el pc c u = StStay -> slide (S f) C pc c u = SOk pc c u.
Proof. intros C f pc c u el Hi He. unfold slide. rewrite (slide_loop_at _ _ _ _ _ _ _ Hi), He. reflexivity. Qed.

Lemma slides_end : forall C prev c u, 0 <= prev -> slides_to C (zlen C) prev c u (SOk (- (prev + 1)) c u).
Proof.
  intros C prev c u Hp. exists 1%nat. intros f Hf. destruct f as [|f]; [lia|]. simpl.
  unfold zlen. rewrite Z.eqb_refl. reflexivity.
Qed.

Lemma wf_block_cons : forall b s r, wf_block b (s :: r) = wf_stmt b s && wf_block b r.
Proof. reflexivity. Qed.

Lemma wf_stmt_if : forall b c t e, wf_stmt b (SIf c t e) = wf_block b t && wf_block b e.
Proof.
  intros. simpl. f_equal.
  - induction t as [|x r IH]; [reflexivity|]. simpl. f_equal. exact IH.
  - induction e as [|x r IH]; [reflexivity|]. simpl. f_equal. exact IH.
Qed.

Lemma wf_stmt_while : forall b c body, wf_stmt b (SWhile c body) = wf_block true body.
Proof.
  intros. simpl. induction body as [|x r IH]; [reflexivity|]. simpl. f_equal. exact IH.
Qed.

Lemma bsize_cons : forall s r, bsize (s :: r) = size s + bsize r.
Proof. reflexivity. Qed.

Lemma compile_block_cons : forall d s r,
  compile_block d (s :: r) = compile d s ++ compile_block (shift d (size s)) r.
Proof. reflexivity. Qed.

(* the code of a `while` found at position w *)
Lemma while_code : forall C w c body,
  code_at C w (compile None (SWhile c body)) ->
  instr C w = Some (LWhile c 1 (bsize body + 2)) /\
  code_at C (w + 1) (compile_block (Some (bsize body + 1, -1)) body) /\
  instr C (w + 1 + bsize body) = Some (LJump (- (bsize body + 1)) false None).
Proof.
  intros C w c body H. rewrite compile_while in H. split; [|split].
  - eapply code_at_head; eauto.
  - apply code_at_tail in H. apply code_at_app_l in H. exact H.
  - apply code_at_tail in H. apply code_at_app_r in H. rewrite compile_block_length in H.
    eapply code_at_head; eauto.
Qed.

Section Sim.
  Variable C : list elem.

  Definition sim_at (fuel : nat) : Prop :=
    forall c u blk k r, lexec fuel c u blk k = r -> r <> LFuel ->
    forall pc lp prev,
      code_at C pc (compile_block (rel lp pc) blk) ->
      wf_block (inl lp) blk = true ->
      kmatch C k (pc + bsize blk) lp ->
      0 <= prev ->
      exists sr, slide_post C r sr /\ slides_to C pc prev c u sr.

  (* one loop iteration on the element at pc: it moves on, it stops there, it raises *)
  Lemma sim_go : forall pc prev c u el h' c' u' r,
    instr C pc = Some el -> slide_elem el pc c u = StGo h' c' u' ->
    (exists sr, slide_post C r sr /\ slides_to C h' pc c' u' sr) ->
    exists sr, slide_post C r sr /\ slides_to C pc prev c u sr.
  Proof.
    intros pc prev c u el h' c' u' r Hi He (sr & Hpost & F & HF). exists sr. split; [exact Hpost|].
    exists (S F). intros f Hf. destruct f as [|f]; [lia|]. rewrite (slide_loop_at _ _ _ _ _ _ _ Hi), He. apply HF. lia.
  Qed.

  Lemma sim_stay : forall pc prev c u el r,
    instr C pc = Some el -> slide_elem el pc c u = StStay -> slide_post C r (SOk pc c u) ->
    exists sr, slide_post C r sr /\ slides_to C pc prev c u sr.
  Proof.
    intros pc prev c u el r Hi He Hpost. exists (SOk pc c u). split; [exact Hpost|].
    exists 1%nat. intros f Hf. destruct f as [|f]; [lia|]. rewrite (slide_loop_at _ _ _ _ _ _ _ Hi), He. reflexivity.
  Qed.

  Lemma sim_err : forall pc prev c u el,
    instr C pc = Some el -> slide_elem el pc c u = StErr ->
    exists sr, slide_post C LExc sr /\ slides_to C pc prev c u sr.
  Proof.
    intros pc prev c u el Hi He. exists SErr. split; [reflexivity|].
    exists 1%nat. intros f Hf. destruct f as [|f]; [lia|]. rewrite (slide_loop_at _ _ _ _ _ _ _ Hi), He. reflexivity.
  Qed.

  (* re-entering a loop at its `while` element *)
  Lemma sim_loop_head : forall f, sim_at f ->
    forall c u cnd body k' r w x lp' prev,
      lexec f c u [SWhile cnd body] k' = r -> r <> LFuel ->
      code_at C w (compile None (SWhile cnd body)) ->
      wf_block true body = true ->
      x = w + 2 + bsize body ->
      kmatch C k' x lp' -> 0 <= prev ->
      exists sr, slide_post C r sr /\ slides_to C w prev c u sr.
  Proof.
    intros f IH c u cnd body k' r w x lp' prev Hr Hnf Hcode Hwf Hx Hk Hprev.
    apply (IH c u [SWhile cnd body] k' r Hr Hnf w lp' prev); [| | |exact Hprev].
    - rewrite compile_block_cons. simpl compile_block. rewrite app_nil_r.
      rewrite (compile_while_indep _ None). exact Hcode.
    - rewrite wf_block_cons, wf_stmt_while, Hwf. reflexivity.
    - rewrite bsize_cons, size_while. simpl bsize. replace (w + (2 + bsize body + 0)) with x by lia. exact Hk.
  Qed.

  (* end of a block: continue with the continuation *)
  Lemma sim_nil : forall f, sim_at f ->
    forall k pc lp, kmatch C k pc lp ->
    forall c u r prev, lexec (S f) c u [] k = r -> r <> LFuel -> 0 <= prev ->
    exists sr, slide_post C r sr /\ slides_to C pc prev c u sr.
  Proof.
    intros f IH k pc lp Hk. induction Hk; intros c0 u r prev Hr Hnf Hprev.
    - (* KDone *)
      simpl in Hr. subst r pc. exists (SOk (- (prev + 1)) c0 u). split.
      + simpl. exists (- (prev + 1)). split; [reflexivity|lia].
      + apply slides_end. exact Hprev.
    - (* KSeq *)
      simpl in Hr. eapply IH; eauto.
    - (* KLoop: the closing jump, then the `while` element again *)
      simpl in Hr. destruct (while_code _ _ _ _ H) as (Hw & Hb & Hj). subst pc.
      eapply sim_go; [exact Hj|reflexivity|].
      replace (w + 1 + bsize body + - (bsize body + 1)) with w by lia.
      apply (sim_loop_head f IH c0 u c body k r w x lp' (w + 1 + bsize body) Hr Hnf H H0); auto; try lia.
      apply instr_lt in Hj. lia.
    - (* a jump over an else branch *)
      eapply sim_go; [exact H|reflexivity|]. apply (IHHk c0 u r pc Hr Hnf). apply instr_lt in H. lia.
  Qed.

  Lemma sim_all : forall fuel, sim_at fuel.
  Proof.
    induction fuel as [|f IH]; intros c u blk k r Hr Hnf pc lp prev Hcode Hwf Hk Hprev.
    - simpl in Hr. subst r. congruence.
    - destruct blk as [|s rest].
      + simpl bsize in Hk. replace (pc + 0) with pc in Hk by lia.
        eapply sim_nil; eauto.
      + rewrite compile_block_cons in Hcode. rewrite wf_block_cons in Hwf.
        apply andb_true_iff in Hwf. destruct Hwf as [Hws Hwr].
        rewrite bsize_cons in Hk.
        pose proof (code_at_app_l _ _ _ _ Hcode) as Hs.
        pose proof (code_at_app_r _ _ _ _ Hcode) as Hrest.
        rewrite compile_length, shift_rel in Hrest.
        assert (Hkseq : kmatch C (KSeq rest k) (pc + size s) lp).
        { apply km_seq; auto. replace (pc + size s + bsize rest) with (pc + (size s + bsize rest)) by lia. exact Hk. }
        assert (Hpc : 0 <= pc) by (apply code_at_range in Hcode; lia).
        assert (Hk1 : size s = 1 -> kmatch C k (pc + 1 + bsize rest) lp).
        { intros E. rewrite E in Hk. replace (pc + 1 + bsize rest) with (pc + (1 + bsize rest)) by lia. exact Hk. }
        destruct s; simpl in Hr.
        * (* user *)
          subst r. eapply sim_stay; [eapply code_at_head; exact Hs|reflexivity|].
          exists pc, lp. repeat split; auto. eapply code_at_head; eauto.
        * (* bot *)
          subst r. eapply sim_stay; [eapply code_at_head; exact Hs|reflexivity|].
          exists pc, lp. repeat split; auto. eapply code_at_head; eauto.
        * (* execute *)
          subst r. eapply sim_stay; [eapply code_at_head; exact Hs|reflexivity|].
          exists pc, lp. repeat split; auto; [eapply code_at_head; eauto|].
          simpl in Hws. apply negb_true_iff in Hws. exact Hws.
        * (* set *)
          simpl compile in Hs. pose proof (code_at_head _ _ _ _ Hs) as Hi.
          destruct (eval c e) as [v|] eqn:Ev.
          -- eapply sim_go; [exact Hi|simpl; rewrite Ev; reflexivity|].
             exact (IH _ _ _ _ _ Hr Hnf (pc + 1) lp pc Hrest Hwr (Hk1 eq_refl) Hpc).
          -- subst r. eapply sim_err; [exact Hi|simpl; rewrite Ev; reflexivity].
        * (* if *)
          rewrite compile_if in Hs. rewrite wf_stmt_if in Hws.
          apply andb_true_iff in Hws. destruct Hws as [Hwt Hwe].
          rewrite size_if in Hkseq.
          destruct (eval c c0) as [v|] eqn:Ev.
          2:{ subst r. destruct els; (eapply sim_err; [eapply code_at_head; exact Hs|simpl; rewrite Ev; reflexivity]). }
          destruct els as [|e0 els'].
          -- (* no else branch *)
             pose proof (code_at_head _ _ _ _ Hs) as Hi.
             pose proof (code_at_tail _ _ _ _ Hs) as Ht. rewrite shift_rel in Ht.
             replace (pc + (1 + bsize thn + 0)) with (pc + 1 + bsize thn) in Hkseq by lia.
             destruct (truthy v) eqn:Tv; (eapply sim_go; [exact Hi|simpl; rewrite Ev, Tv; reflexivity|]).
             ++ exact (IH _ _ _ _ _ Hr Hnf (pc + 1) lp pc Ht Hwt Hkseq Hpc).
             ++ replace (pc + (bsize thn + 1)) with (pc + 1 + bsize thn) by lia.
                apply (IH _ _ _ _ _ Hr Hnf (pc + 1 + bsize thn) lp pc); auto.
                ** simpl. apply code_at_nil. apply kmatch_range in Hkseq. exact Hkseq.
                ** simpl bsize. replace (pc + 1 + bsize thn + 0) with (pc + 1 + bsize thn) by lia. exact Hkseq.
          -- (* with an else branch *)
             pose proof (code_at_head _ _ _ _ Hs) as Hi.
             pose proof (code_at_tail _ _ _ _ Hs) as Hte.
             pose proof (code_at_app_l _ _ _ _ Hte) as Ht. rewrite shift_rel in Ht.
             pose proof (code_at_app_r _ _ _ _ Hte) as Hje. rewrite compile_block_length in Hje.
             pose proof (code_at_head _ _ _ _ Hje) as Hj.
             pose proof (code_at_tail _ _ _ _ Hje) as He. rewrite shift_rel in He.
             replace (pc + 1 + bsize thn + 1) with (pc + (bsize thn + 2)) in He by lia.
             set (E := e0 :: els') in *.
             replace (pc + (1 + bsize thn + (1 + bsize E))) with (pc + (bsize thn + 2) + bsize E) in Hkseq by lia.
             destruct (truthy v) eqn:Tv; (eapply sim_go; [exact Hi|simpl; rewrite Ev, Tv; reflexivity|]).
             ++ apply (IH _ _ _ _ _ Hr Hnf (pc + 1) lp pc Ht Hwt); [|exact Hpc].
                eapply km_jump; [exact Hj|].
                replace (pc + 1 + bsize thn + (bsize E + 1)) with (pc + (bsize thn + 2) + bsize E) by lia.
                exact Hkseq.
             ++ exact (IH _ _ _ _ _ Hr Hnf (pc + (bsize thn + 2)) lp pc He Hwe Hkseq Hpc).
        * (* while *)
          rewrite wf_stmt_while in Hws. rewrite size_while in Hkseq.
          rewrite (compile_while_indep _ None) in Hs.
          destruct (while_code _ _ _ _ Hs) as (Hi & Hb & Hj).
          destruct (eval c c0) as [v|] eqn:Ev.
          2:{ subst r. eapply sim_err; [exact Hi|simpl; rewrite Ev; reflexivity]. }
          destruct (truthy v) eqn:Tv; (eapply sim_go; [exact Hi|simpl; rewrite Ev, Tv; reflexivity|]).
          -- apply (IH _ _ _ _ _ Hr Hnf (pc + 1) (Some (pc, pc + (2 + bsize body))) pc); auto.
             ++ unfold rel. replace (pc + (2 + bsize body) - (pc + 1)) with (bsize body + 1) by lia.
                replace (pc - (pc + 1)) with (-1) by lia. exact Hb.
             ++ eapply km_loop; eauto; lia.
          -- replace (pc + (bsize body + 2)) with (pc + (2 + bsize body)) by lia.
             apply (IH _ _ _ _ _ Hr Hnf (pc + (2 + bsize body)) lp pc Hrest Hwr); [|exact Hpc].
             replace (pc + (2 + bsize body) + bsize rest) with (pc + (2 + bsize body + bsize rest)) by lia. exact Hk.
        * (* break *)
          simpl in Hws. destruct lp as [[w x]|]; [|discriminate].
          pose proof (kmatch_unwind _ _ _ _ Hk) as Hu. simpl in Hu.
          destruct Hu as (cnd & body & k' & lp' & Hun & Hk' & Hcw & Hwb & Hx).
          rewrite Hun in Hr.
          simpl compile in Hs. pose proof (code_at_head _ _ _ _ Hs) as Hi.
          eapply sim_go; [exact Hi|simpl; reflexivity|].
          replace (pc + (x - pc)) with x by lia.
          apply (IH _ _ _ _ _ Hr Hnf x lp' pc); auto.
          -- simpl. apply code_at_nil. apply kmatch_range in Hk'. exact Hk'.
          -- simpl bsize. replace (x + 0) with x by lia. exact Hk'.
        * (* continue *)
          simpl in Hws. destruct lp as [[w x]|]; [|discriminate].
          pose proof (kmatch_unwind _ _ _ _ Hk) as Hu. simpl in Hu.
          destruct Hu as (cnd & body & k' & lp' & Hun & Hk' & Hcw & Hwb & Hx).
          rewrite Hun in Hr.
          simpl compile in Hs. pose proof (code_at_head _ _ _ _ Hs) as Hi.
          eapply sim_go; [exact Hi|simpl; reflexivity|].
          replace (pc + (w - pc)) with w by lia.
          exact (sim_loop_head f IH c u cnd body k' r w x lp' pc Hr Hnf Hcw Hwb Hx Hk' Hpc).
        * (* do *)
          subst r. eapply sim_stay; [eapply code_at_head; exact Hs|reflexivity|].
          exists pc, lp, rest, k. repeat split; auto;
            try (eapply code_at_head; eauto); try (apply Hk1; reflexivity).
  Qed.
End Sim.

(* slide (fresh prev_head) instead of slide_loop *)
Lemma lexec_slide : forall C fuel c u blk k r pc lp,
  lexec fuel c u blk k = r -> r <> LFuel ->
  code_at C pc (compile_block (rel lp pc) blk) ->
  wf_block (inl lp) blk = true ->
  kmatch C k (pc + bsize blk) lp ->
  0 < zlen C ->
  exists sr, slide_post C r sr /\ exists F, forall f, (F <= f)%nat -> slide f C pc c u = sr.
Proof.
  intros C fuel c u blk k r pc lp Hr Hnf Hcode Hwf Hk Hlen.
  pose proof (code_at_range _ _ _ Hcode) as Hrg.
  unfold slide.
  set (prev := if pc <? Z.of_nat (Datatypes.length C) then pc else pc - 1).
  assert (Hprev : 0 <= prev).
  { unfold prev. destruct (pc <? Z.of_nat (Datatypes.length C)) eqn:E; [lia|].
    apply Z.ltb_ge in E. unfold zlen in *. lia. }
  destruct (sim_all C fuel c u blk k r Hr Hnf pc lp prev Hcode Hwf Hk Hprev) as (sr & Hpost & Hsl).
  exists sr. split; [exact Hpost|exact Hsl].
Qed.
