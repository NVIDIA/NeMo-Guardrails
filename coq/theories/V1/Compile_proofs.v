(* C12 (Colang 1.0) - proofs about the flow compiler model (Compile.v) and the offset checker
   (CompileRun.v): compiler output is closed (compile_closed, through the block invariant `blk` of
   _extract_elements); what holds of every closed flow - successor positions, branch heads, and
   slide never raising IndexError / KeyError (closed_slide_safe; it needs the "`_absolute` only on
   jumps" part of shape_ok, see unsafe_flow_rejected); the boolean checker decides closed_v1
   (offsets_okb_iff); when the two exceptions of _resolve_gotos are raised (compile_dup,
   compile_undef). *)
From Coq Require Import ZArith List String Bool Lia.
From NG Require Import V1.CompileItems V1.Compile V1.CompileRun.
Import ListNotations.
Open Scope Z_scope.

Lemma zlen_nil : forall A, zlen (@nil A) = 0.
Proof. reflexivity. Qed.

Lemma zlen_cons : forall A (a : A) l, zlen (a :: l) = zlen l + 1.
Proof. intros A a l. unfold zlen. cbn [Datatypes.length]. lia. Qed.

Lemma zlen_app : forall A (a b : list A), zlen (a ++ b) = zlen a + zlen b.
Proof. intros A a b. unfold zlen. rewrite app_length. lia. Qed.

Lemma zlen_map : forall A B (f : A -> B) l, zlen (map f l) = zlen l.
Proof. intros A B f l. unfold zlen. rewrite map_length. reflexivity. Qed.

Lemma zlen_nonneg : forall A (l : list A), 0 <= zlen l.
Proof. intros A l. unfold zlen. lia. Qed.

(* all_from P i es : element k of es satisfies P (i + k) *)
Fixpoint all_from (P : Z -> elem -> Prop) (i : Z) (es : list elem) : Prop :=
  match es with
  | [] => True
  | e :: r => P i e /\ all_from P (i + 1) r
  end.

Lemma all_from_app : forall (P : Z -> elem -> Prop) a b i,
  all_from P i (a ++ b) <-> all_from P i a /\ all_from P (i + zlen a) b.
Proof.
  intros P a. induction a as [|x a IHa]; intros b i.
  - cbn [app all_from]. rewrite zlen_nil. replace (i + 0) with i by lia. tauto.
  - cbn [app all_from]. rewrite IHa. rewrite zlen_cons.
    replace (i + 1 + zlen a) with (i + (zlen a + 1)) by lia. tauto.
Qed.

Lemma all_from_iff : forall (P : Z -> elem -> Prop) es i,
  all_from P i es <-> forall k e, nth_error es k = Some e -> P (i + Z.of_nat k) e.
Proof.
  intros P es. induction es as [|x es IHes]; intros i; cbn [all_from].
  - split; [intros _ [|k] e Hk; discriminate Hk | intros _; exact I].
  - rewrite IHes. split.
    + intros [Hx Hr] [|k] e Hk; cbn [nth_error] in Hk.
      * inversion Hk; subst. replace (i + Z.of_nat 0) with i by lia. exact Hx.
      * replace (i + Z.of_nat (S k)) with (i + 1 + Z.of_nat k) by lia. exact (Hr k e Hk).
    + intros H. split.
      * replace i with (i + Z.of_nat 0) by lia. exact (H 0%nat x eq_refl).
      * intros k e Hk. replace (i + 1 + Z.of_nat k) with (i + Z.of_nat (S k)) by lia. exact (H (S k) e Hk).
Qed.

(* the invariant of _extract_elements: like in_range, but labels/gotos are still allowed, and
   an `_absolute` element is a jump to -1 *)
Definition wshape (e : elem) : Prop :=
  match e_type e with
  | TIf => e_else e <> None
  | TWhile => e_brk e <> None
  | TJump => e_next e <> None
  | _ => True
  end.

Record ok (len i : Z) (e : elem) : Prop := mk_ok {
  ok_next  : forall n, e_next e = Some n -> if e_abs e then n = -1 else 0 <= i + n <= len;
  ok_else  : forall n, e_else e = Some n -> 0 <= i + n <= len;
  ok_brk   : forall n, e_brk e = Some n -> 0 <= i + n <= len;
  ok_cont  : forall n, e_cont e = Some n -> 0 <= i + n <= len;
  ok_heads : forall h, In h (e_heads e) -> 0 <= i + h < len;
  ok_shape : wshape e;
  ok_abs   : e_abs e = true -> e_type e = TJump
}.

Definition wf_from (len : Z) : Z -> list elem -> Prop := all_from (ok len).

(* a block is self-contained: all its offsets land in [0, length of the block] *)
Definition blk (es : list elem) : Prop := wf_from (zlen es) 0 es.

(* embedding a block of length len at offset a into a block of length len' *)
Lemma ok_shift : forall len i e a len',
  ok len i e -> 0 <= a -> a + len <= len' -> ok len' (a + i) e.
Proof.
  intros len i e a len' [Hn He Hb Hc Hh Hs Ha] Ha0 Hlen.
  constructor.
  - intros n Hn'. specialize (Hn n Hn'). destruct (e_abs e); lia.
  - intros n Hn'. specialize (He n Hn'). lia.
  - intros n Hn'. specialize (Hb n Hn'). lia.
  - intros n Hn'. specialize (Hc n Hn'). lia.
  - intros h Hh'. specialize (Hh h Hh'). lia.
  - exact Hs.
  - exact Ha.
Qed.

Lemma wf_from_shift : forall len es i a len',
  wf_from len i es -> 0 <= a -> a + len <= len' -> wf_from len' (a + i) es.
Proof.
  intros len es. induction es as [|x es IHes]; intros i a len' H Ha Hlen.
  - exact I.
  - unfold wf_from in *. cbn [all_from] in *. destruct H as [Hx Hr]. split.
    + eapply ok_shift; eassumption.
    + replace (a + i + 1) with (a + (i + 1)) by lia. apply IHes; assumption.
Qed.

Lemma blk_embed : forall es a len',
  blk es -> 0 <= a -> a + zlen es <= len' -> wf_from len' a es.
Proof.
  intros es a len' H Ha Hlen. replace a with (a + 0) by lia.
  eapply wf_from_shift; eassumption.
Qed.

Lemma blk_nil : blk [].
Proof. exact I. Qed.

Lemma blk_app : forall a b, blk a -> blk b -> blk (a ++ b).
Proof.
  intros a b Ha Hb. unfold blk, wf_from. apply all_from_app. split.
  - apply blk_embed; [exact Ha | lia | rewrite zlen_app; pose proof (zlen_nonneg _ b); lia].
  - apply blk_embed; [exact Hb | pose proof (zlen_nonneg _ a); lia | rewrite zlen_app; lia].
Qed.

Ltac psimpl := cbn [e_type e_next e_abs e_else e_brk e_cont e_heads e_label plain jump].

(* closes the fields of an `ok` record that are absent (None / [] / false) *)
Ltac ok_absent :=
  psimpl;
  try (let n := fresh "n" in let Hx := fresh "Hx" in
       intros n Hx; first [discriminate Hx | contradiction Hx]);
  try (let Hx := fresh "Hx" in intros Hx; discriminate Hx);
  try exact I.

Lemma ok_plain : forall len i t, wshape (plain t) -> ok len i (plain t).
Proof.
  intros len i t Hs. constructor; ok_absent.
  exact Hs.
Qed.

Lemma ok_leaf : forall len i l, ok len i (leaf_elem l).
Proof.
  intros len i l. destruct l; try (apply ok_plain; exact I).
  constructor; ok_absent.
  - intros n [= <-]. reflexivity.
  - intros _. reflexivity.
Qed.

Lemma wf_leaves : forall len ch i, wf_from len i (map leaf_elem ch).
Proof.
  intros len ch. induction ch as [|l ch IHch]; intros i.
  - exact I.
  - unfold wf_from in *. cbn [map all_from]. split; [apply ok_leaf | apply IHch].
Qed.

Lemma ok_jump : forall len i n, 0 <= i + n <= len -> ok len i (jump n).
Proof.
  intros len i n H. constructor; ok_absent.
  intros m [= <-]. exact H.
Qed.

Lemma zlen_if_block : forall th el,
  zlen (if_block th el) = match el with [] => zlen th + 1 | _ => zlen th + zlen el + 2 end.
Proof.
  intros th el. destruct el as [|x el]; unfold if_block.
  - rewrite zlen_cons. reflexivity.
  - rewrite zlen_cons, zlen_app, zlen_cons. lia.
Qed.

Lemma ok_if_head : forall len n, 0 <= n <= len ->
  ok len 0 (mkE TIf None false (Some n) None None [] None).
Proof.
  intros len n Hn. constructor; ok_absent.
  intros m [= <-]. lia.
Qed.

Lemma blk_if : forall th el, blk th -> blk el -> blk (if_block th el).
Proof.
  intros th el Hth Hel.
  pose proof (zlen_nonneg _ th) as Hth0. pose proof (zlen_nonneg _ el) as Hel0.
  unfold blk. rewrite zlen_if_block. destruct el as [|x el]; unfold if_block.
  - unfold wf_from. cbn [all_from]. split.
    + apply ok_if_head. lia.
    + apply blk_embed; [exact Hth | lia | lia].
  - remember (x :: el) as el' eqn:Eel. unfold wf_from. cbn [all_from]. split.
    + apply ok_if_head. lia.
    + apply all_from_app. split.
      * apply blk_embed; [exact Hth | lia | lia].
      * cbn [all_from]. split.
        -- apply ok_jump. lia.
        -- apply blk_embed; [exact Hel | lia | lia].
Qed.

Lemma zlen_decorate_from : forall n es j, zlen (decorate_from n j es) = zlen es.
Proof.
  intros n es. induction es as [|x es IHes]; intros j.
  - reflexivity.
  - cbn [decorate_from]. rewrite !zlen_cons, IHes. reflexivity.
Qed.

Lemma ok_decorate : forall len n j e,
  0 <= n + 2 <= len -> ok len (j + 1) e -> ok len (j + 1) (decorate n j e).
Proof.
  intros len n j e Hn Hok. unfold decorate.
  destruct (e_brk e) as [b|] eqn:Eb; [exact Hok|].
  destruct Hok as [Hnx He Hb Hc Hh Hs Ha].
  constructor; psimpl.
  - exact Hnx.
  - exact He.
  - intros m [= <-]. lia.
  - intros m Hm. replace m with (-1 * j - 1) by congruence. lia.
  - exact Hh.
  - unfold wshape in *. psimpl. destruct (e_type e); try exact Hs; try exact I. discriminate.
  - exact Ha.
Qed.

Lemma wf_decorate_from : forall len n es j,
  0 <= n + 2 <= len -> wf_from len (j + 1) es -> wf_from len (j + 1) (decorate_from n j es).
Proof.
  intros len n es. induction es as [|x es IHes]; intros j Hn H.
  - exact I.
  - unfold wf_from in *. cbn [decorate_from all_from] in *. destruct H as [Hx Hr]. split.
    + apply ok_decorate; assumption.
    + apply IHes; assumption.
Qed.

Lemma zlen_while_block : forall body, zlen (while_block body) = zlen body + 2.
Proof.
  intros body. unfold while_block. rewrite zlen_cons, zlen_app, zlen_decorate_from, zlen_cons.
  rewrite zlen_nil. lia.
Qed.

Lemma blk_while : forall body, blk body -> blk (while_block body).
Proof.
  intros body Hb. pose proof (zlen_nonneg _ body) as Hb0.
  unfold blk. rewrite zlen_while_block. unfold while_block.
  unfold wf_from. cbn [all_from]. split.
  - constructor; ok_absent.
    intros m [= <-]. lia.
  - apply all_from_app. split.
    + apply (wf_decorate_from (zlen body + 2) (zlen body) body 0); [lia|].
      apply blk_embed; [exact Hb | lia | lia].
    + rewrite zlen_decorate_from. cbn [all_from]. split; [|exact I].
      apply ok_jump. lia.
Qed.

Lemma rest_len_nonneg : forall bs, 0 <= rest_len bs.
Proof.
  induction bs as [|b bs IHbs]; cbn [rest_len]; [lia|].
  pose proof (zlen_nonneg _ b). lia.
Qed.

Lemma rest_len_app1 : forall bs b, rest_len (bs ++ [b]) = rest_len bs + zlen b + 1.
Proof.
  induction bs as [|c bs IHbs]; intros b; cbn [app rest_len].
  - lia.
  - rewrite IHbs. lia.
Qed.

Lemma zlen_branch_bodies : forall bs, zlen (branch_bodies bs) = rest_len bs.
Proof.
  induction bs as [|b bs IHbs]; cbn [branch_bodies rest_len].
  - reflexivity.
  - rewrite zlen_app, zlen_cons, IHbs. lia.
Qed.

Lemma branch_heads_range : forall bs pos h,
  In h (branch_heads pos bs) -> pos <= h < pos + rest_len bs.
Proof.
  induction bs as [|b bs IHbs]; intros pos h Hin; cbn [branch_heads rest_len] in *.
  - contradiction.
  - pose proof (zlen_nonneg _ b) as Hb0. pose proof (rest_len_nonneg bs) as Hr0.
    destruct Hin as [Heq | Hin].
    + subst. lia.
    + apply IHbs in Hin. lia.
Qed.

Lemma wf_branch_bodies : forall len bs p,
  Forall blk bs -> 0 <= p -> p + rest_len bs <= len -> wf_from len p (branch_bodies bs).
Proof.
  intros len bs. induction bs as [|b bs IHbs]; intros p Hall Hp Hlen.
  - exact I.
  - inversion Hall as [|b' bs' Hb Hbs]; subst.
    cbn [branch_bodies rest_len] in *.
    pose proof (zlen_nonneg _ b) as Hb0. pose proof (rest_len_nonneg bs) as Hr0.
    unfold wf_from. apply all_from_app. split.
    + apply blk_embed; [exact Hb | lia | lia].
    + cbn [all_from]. split.
      * apply ok_jump. lia.
      * apply IHbs; [exact Hbs | lia | lia].
Qed.

Lemma zlen_flush : forall bs,
  zlen (flush bs) = match bs with [] => 0 | _ => 1 + rest_len bs end.
Proof.
  intros bs. destruct bs as [|b bs]; [reflexivity|].
  unfold flush. rewrite zlen_cons, zlen_branch_bodies. lia.
Qed.

Lemma blk_flush : forall bs, Forall blk bs -> blk (flush bs).
Proof.
  intros bs Hall. destruct bs as [|b bs]; [exact I|].
  remember (b :: bs) as bs' eqn:Ebs.
  assert (Hf : flush bs' = mkE TBranch None false None None None (branch_heads 1 bs') None
                           :: branch_bodies bs') by (subst; reflexivity).
  unfold blk. rewrite Hf, zlen_cons, zlen_branch_bodies.
  pose proof (rest_len_nonneg bs') as Hr0.
  unfold wf_from. cbn [all_from]. split.
  - constructor; ok_absent.
    intros h Hh. apply branch_heads_range in Hh. lia.
  - apply wf_branch_bodies; [exact Hall | lia | lia].
Qed.

Definition xok (x : xres) : Prop :=
  match x with XBlock es => blk es | XBranch es => blk es end.

Lemma blk_assemble : forall xs pending,
  Forall xok xs -> Forall blk pending -> blk (assemble xs pending).
Proof.
  induction xs as [|x xs IHxs]; intros pending Hxs Hp.
  - cbn [assemble]. apply blk_flush. exact Hp.
  - inversion Hxs as [|x' xs' Hx Hxs']; subst.
    destruct x as [es|b]; cbn [assemble xok] in *.
    + apply blk_app; [apply blk_flush; exact Hp|].
      apply blk_app; [exact Hx|]. apply IHxs; [exact Hxs' | constructor].
    + apply IHxs; [exact Hxs'|]. apply Forall_app. split; [exact Hp|].
      constructor; [exact Hx | constructor].
Qed.

Section ItemInd.
  Variable P : item -> Prop.
  Hypothesis Hleaf : forall l, P (ILeaf l).
  Hypothesis Hif : forall th el, Forall P th -> Forall P el -> P (IIf th el).
  Hypothesis Hwhile : forall body, Forall P body -> P (IWhile body).
  Hypothesis Hany : forall ch, P (IAny ch).
  Hypothesis Hlist : forall b, Forall P b -> P (IList b).

  Fixpoint item_ind' (it : item) : P it :=
    let fix go (l : list item) : Forall P l :=
      match l with
      | [] => Forall_nil P
      | x :: r => Forall_cons x (item_ind' x) (go r)
      end in
    match it with
    | ILeaf l => Hleaf l
    | IIf th el => Hif th el (go th) (go el)
    | IWhile body => Hwhile body (go body)
    | IAny ch => Hany ch
    | IList b => Hlist b (go b)
    end.
End ItemInd.

Lemma Forall_xok_map : forall l, Forall (fun it => xok (xitem it)) l -> Forall xok (map xitem l).
Proof.
  intros l H. induction H as [|x l Hx Hl IH]; cbn [map]; constructor; assumption.
Qed.

Lemma xok_xitem : forall it, xok (xitem it).
Proof.
  induction it as [l | th el Hth Hel | body Hbody | ch | b Hb] using item_ind';
    cbn [xitem xok].
  - split; [apply ok_leaf | exact I].
  - apply blk_if; apply blk_assemble; try constructor; apply Forall_xok_map; assumption.
  - apply blk_while; apply blk_assemble; try constructor; apply Forall_xok_map; assumption.
  - split; [apply ok_plain; exact I | apply wf_leaves].
  - apply blk_assemble; try constructor; apply Forall_xok_map; assumption.
Qed.

Lemma blk_extract : forall items, blk (extract items).
Proof.
  intros items. unfold extract. apply blk_assemble; [|constructor].
  apply Forall_xok_map. apply Forall_forall. intros it _. apply xok_xitem.
Qed.

Lemma label_pos_lt : forall name es k,
  label_pos name es = Some k -> (k < List.length es)%nat.
Proof.
  intros name es. induction es as [|x es IHes]; intros k H.
  - discriminate H.
  - cbn [label_pos] in H. cbn [Datatypes.length].
    assert (Hrec : option_map S (label_pos name es) = Some k -> (k < S (List.length es))%nat).
    { intros Hr. destruct (label_pos name es) as [k'|] eqn:El; [|discriminate Hr].
      cbn [option_map] in Hr. assert (k = S k') by congruence. subst k.
      specialize (IHes k' eq_refl). lia. }
    destruct (e_type x) as [ | | | | | | n | | | | | | ]; try (apply Hrec; exact H).
    destruct (String.eqb n name).
    + assert (k = O) by congruence. subst k. lia.
    + apply Hrec; exact H.
Qed.

(* the six fields of in_range: next, else, break, continue, heads, shape *)
Ltac split_range := unfold in_range; split; [|split; [|split; [|split; [|split]]]].

Lemma ok_in_range : forall len i e,
  ok len i e -> 0 <= len ->
  (forall n, e_type e <> TLabel n) -> (forall n, e_type e <> TGoto n) ->
  in_range len i e.
Proof.
  intros len i e [Hn He Hb Hc Hh Hs Ha] Hlen Hnl Hng.
  split_range; try assumption.
  - intros n Hn'. specialize (Hn n Hn'). destruct (e_abs e); lia.
  - unfold shape_ok. split; [exact Ha|]. unfold wshape in Hs.
    destruct (e_type e) as [ | | | | | | n | n | | | | | ]; try exact Hs.
    + exact (Hnl n eq_refl).
    + exact (Hng n eq_refl).
Qed.

Lemma not_jump_abs : forall e,
  (e_abs e = true -> e_type e = TJump) -> e_type e <> TJump -> e_abs e = false.
Proof. intros e Ha Ht. destruct (e_abs e); [|reflexivity]. exfalso. apply Ht, Ha. reflexivity. Qed.

(* a label / goto becomes a relative jump by k that keeps the other fields of the element *)
Lemma in_range_jump : forall len i e k lb,
  ok len i e -> e_type e <> TJump -> 0 <= i + k <= len ->
  in_range len i (mkE TJump (Some k) (e_abs e) (e_else e) (e_brk e) (e_cont e) (e_heads e) lb).
Proof.
  intros len i e k lb Hok Ht Hk. pose proof (not_jump_abs _ (ok_abs _ _ _ Hok) Ht) as Ea.
  destruct Hok as [Hn He Hb Hc Hh Hs Ha]. split_range; psimpl; try assumption.
  - rewrite Ea. intros m [= <-]. exact Hk.
  - unfold shape_ok. psimpl. split; [intros _; reflexivity | discriminate].
Qed.

Lemma resolve_one_in_range : forall all i e e',
  resolve_one all i e = Ok e' -> ok (zlen all) i e -> 0 <= i -> i + 1 <= zlen all ->
  in_range (zlen all) i e'.
Proof.
  intros all i e e' Hr Hok Hi Hlen. unfold resolve_one in Hr.
  destruct (e_type e) as [ | | | | | | n | n | | | | | ] eqn:Et;
    try (assert (e' = e) by congruence; subst e';
         apply ok_in_range; [exact Hok | lia | rewrite Et; discriminate | rewrite Et; discriminate]).
  - (* label *) injection Hr as <-. apply in_range_jump; [exact Hok | rewrite Et; discriminate | lia].
  - (* goto *) destruct (label_pos n all) as [k|] eqn:El; [|discriminate Hr].
    apply label_pos_lt in El. injection Hr as <-.
    apply in_range_jump; [exact Hok | rewrite Et; discriminate | unfold zlen in *; lia].
Qed.

Lemma resolve_from_in_range : forall all es i es',
  resolve_from all i es = Ok es' -> wf_from (zlen all) i es -> 0 <= i ->
  i + zlen es <= zlen all ->
  all_from (in_range (zlen all)) i es' /\ zlen es' = zlen es.
Proof.
  intros all es. induction es as [|x es IHes]; intros i es' Hr Hwf Hi Hlen.
  - cbn [resolve_from] in Hr. assert (es' = []) by congruence. subst es'. split; [exact I | reflexivity].
  - cbn [resolve_from] in Hr. unfold wf_from in Hwf. cbn [all_from] in Hwf.
    destruct Hwf as [Hx Hrest]. rewrite zlen_cons in Hlen. pose proof (zlen_nonneg _ es) as Hes0.
    destruct (resolve_one all i x) as [x'|err] eqn:Ex; [|discriminate Hr].
    destruct (resolve_from all (i + 1) es) as [r'|err] eqn:Er; [|discriminate Hr].
    assert (es' = x' :: r') by congruence. subst es'.
    destruct (IHes (i + 1) r' Er Hrest) as [Hall Hz]; [lia | lia |].
    split.
    + cbn [all_from]. split; [|exact Hall].
      apply (resolve_one_in_range all i x x' Ex Hx); lia.
    + rewrite !zlen_cons, Hz. reflexivity.
Qed.

Lemma in_range_ellipsis : forall len i e, in_range len i e -> in_range len i (ellipsis_one e).
Proof.
  intros len i e H. unfold ellipsis_one.
  destruct (e_type e) as [ | | | | | b | | | | | | | ]; try exact H.
  destruct b; [|exact H].
  split_range; ok_absent.
  unfold shape_ok. psimpl. split; [intros Hx; discriminate Hx | exact I].
Qed.

Lemma all_from_map : forall (P : Z -> elem -> Prop) f es i,
  (forall j e, P j e -> P j (f e)) -> all_from P i es -> all_from P i (map f es).
Proof.
  intros P f es. induction es as [|x es IHes]; intros i Hf H.
  - exact I.
  - cbn [map all_from] in *. destruct H as [Hx Hr]. split; [apply Hf; exact Hx | apply IHes; assumption].
Qed.

Lemma all_from_in_range_closed : forall es,
  all_from (in_range (zlen es)) 0 es <-> closed_v1 es.
Proof. intros es. exact (all_from_iff _ es 0). Qed.

Theorem compile_closed : forall items es, compile items = Ok es -> closed_v1 es.
Proof.
  intros items es H. apply all_from_in_range_closed. unfold compile, resolve_gotos in H.
  destruct (has_dup (labels_of (extract items))); [discriminate H|].
  destruct (resolve_from (extract items) 0 (extract items)) as [es0|err] eqn:Er; [|discriminate H].
  assert (es = map ellipsis_one es0) by congruence. subst es.
  destruct (resolve_from_in_range _ _ _ _ Er (blk_extract items)) as [Hall Hz]; [lia | lia |].
  rewrite zlen_map, Hz. apply all_from_map; [|exact Hall].
  intros j e. apply in_range_ellipsis.
Qed.

Lemma in_range_shape : forall len i e, in_range len i e -> shape_ok e.
Proof. intros len i e H. apply H. Qed.

Theorem compile_abs_jump : forall items es,
  compile items = Ok es -> forall e, In e es -> e_abs e = true -> e_type e = TJump.
Proof.
  intros items es H e Hin. apply In_nth_error in Hin. destruct Hin as [k Hk].
  exact (proj1 (in_range_shape _ _ _ (compile_closed _ _ H k e Hk))).
Qed.

Lemma or1_range : forall len h o,
  0 <= h < len -> (forall n, o = Some n -> 0 <= h + n <= len) -> 0 <= h + or1 o <= len.
Proof.
  intros len h o Hh Ho. destruct o as [n|]; cbn [or1].
  - specialize (Ho n eq_refl). lia.
  - lia.
Qed.

(* the positions a non-jump element moves to by its (defaulted) relative offsets *)
Lemma in_range_or1 : forall len i e, in_range len i e -> 0 <= i < len -> e_type e <> TJump ->
  0 <= i + or1 (e_next e) <= len /\ 0 <= i + or1 (e_brk e) <= len /\ 0 <= i + or1 (e_cont e) <= len.
Proof.
  intros len i e Hr Hi Ht. pose proof (not_jump_abs _ (proj1 (in_range_shape _ _ _ Hr)) Ht) as Ea.
  destruct Hr as (Hn & _ & Hb & Hc & _). rewrite Ea in Hn.
  split; [|split]; apply or1_range; assumption.
Qed.

Lemma targets_in_range : forall len i e t,
  in_range len i e -> 0 <= i < len -> In t (targets i e) ->
  0 <= t <= len \/ (t = -1 /\ e_abs e = true).
Proof.
  intros len i e t Hr Hi Hin. pose proof (in_range_or1 _ _ _ Hr Hi) as Hor.
  destruct Hr as [Hn [He [Hb [_ [Hh _]]]]]. unfold targets in Hin.
  (* every type but TJump gets the three facts of in_range_or1; a type with exactly one target
     (i + 1, or i + or1 of an offset) is closed at once; left: stop, if, while, jump, branch *)
  destruct (e_type e) as [ | | | | | | | | | | | | ];
    try (destruct (Hor ltac:(discriminate)) as [Hnx [Hbk Hct]]);
    try (destruct Hin as [<-|[]]; left; first [assumption | lia]).
  - (* stop *) contradiction Hin.
  - (* if *) destruct Hin as [<-|Hin]; [left; lia|].
    destruct (e_else e) as [n|]; [|contradiction Hin].
    destruct Hin as [<-|[]]. left. apply He. reflexivity.
  - (* while *) destruct Hin as [<-|Hin]; [left; exact Hnx|].
    destruct (e_brk e) as [n|]; [|contradiction Hin].
    destruct Hin as [<-|[]]. left. apply Hb. reflexivity.
  - (* jump *) destruct (e_next e) as [n|]; [|contradiction Hin].
    specialize (Hn n eq_refl). destruct Hin as [<-|[]]. destruct (e_abs e); [|left; exact Hn].
    assert (Hc' : 0 <= n <= len \/ n = -1) by lia.
    destruct Hc' as [Hc' | Hc']; [left; exact Hc' | right; split; [exact Hc' | reflexivity]].
  - (* branch *) apply in_map_iff in Hin. destruct Hin as [h [<- Hin]].
    specialize (Hh h Hin). left. lia.
Qed.

Lemma closed_targets : forall es, closed_v1 es ->
  forall i e t, nth_error es i = Some e -> In t (targets (Z.of_nat i) e) ->
  -1 <= t <= zlen es /\ (t = -1 -> e_abs e = true).
Proof.
  intros es Hc i e t Hn Hin.
  assert (Hi : 0 <= Z.of_nat i < zlen es) by (pose proof (proj1 (nth_error_Some es i) ltac:(congruence)); unfold zlen; lia).
  destruct (targets_in_range _ _ _ _ (Hc i e Hn) Hi Hin) as [Ht | [Ht Hab]].
  - split; [lia | intros Hm; lia].
  - split; [lia | intros _; exact Hab].
Qed.

Theorem compile_targets : forall items es, compile items = Ok es ->
  forall i e t, nth_error es i = Some e -> In t (targets (Z.of_nat i) e) ->
  -1 <= t <= zlen es /\ (t = -1 -> e_abs e = true).
Proof. intros items es H. apply closed_targets. exact (compile_closed _ _ H). Qed.

Lemma closed_branch_heads_indexed : forall es, closed_v1 es ->
  forall i e h, nth_error es i = Some e -> In h (e_heads e) ->
  exists e', nth_error es (Z.to_nat (Z.of_nat i + h)) = Some e'.
Proof.
  intros es Hc i e h Hn Hin. destruct (Hc i e Hn) as (_ & _ & _ & _ & Hh & _). specialize (Hh h Hin).
  destruct (nth_error es (Z.to_nat (Z.of_nat i + h))) as [e'|] eqn:E; [exists e'; reflexivity|].
  apply nth_error_None in E. unfold zlen in Hh. lia.
Qed.

Theorem compile_branch_heads_indexed : forall items es, compile items = Ok es ->
  forall i e h, nth_error es i = Some e -> In h (e_heads e) ->
  exists e', nth_error es (Z.to_nat (Z.of_nat i + h)) = Some e'.
Proof.
  intros items es H. apply closed_branch_heads_indexed. exact (compile_closed _ _ H).
Qed.

Theorem closed_slide_safe : forall cond es, closed_v1 es ->
  forall fuel head prev, -1 <= head <= zlen es ->
  slide cond fuel es head prev <> SIndexError /\ slide cond fuel es head prev <> SKeyError.
Proof.
  intros cond es Hc fuel. induction fuel as [|f IH]; intros head prev Hh.
  - cbn [slide]. split; discriminate.
  - cbn [slide].
    destruct ((head =? zlen es) || (head <? 0)) eqn:Eend; [split; discriminate|].
    apply orb_false_iff in Eend. destruct Eend as [E1 E2].
    apply Z.eqb_neq in E1. apply Z.ltb_ge in E2.
    assert (Hh' : 0 <= head < zlen es) by lia.
    destruct (nth_error es (Z.to_nat head)) as [e|] eqn:En.
    2:{ apply nth_error_None in En. unfold zlen in Hh'. lia. }
    pose proof (Hc _ _ En) as Hr. rewrite Z2Nat.id in Hr by lia.
    pose proof (in_range_or1 _ _ _ Hr Hh') as Hor.
    destruct Hr as [Hn [He [Hb [_ [_ [_ Hs]]]]]].
    (* an element slide stops on is closed at once; every other type but TJump gets the three
       facts of in_range_or1 *)
    destruct (e_type e) as [ | | | | | | | | | | | | ];
      try (split; discriminate);
      try (destruct (Hor ltac:(discriminate)) as [Hnx [Hbk Hct]]).
    + (* check *) destruct (cond f head); [|split; discriminate]. apply IH. lia.
    + (* break *) apply IH. lia.
    + (* continue *) apply IH. lia.
    + (* set *) apply IH. lia.
    + (* if *) destruct (cond f head); [apply IH; lia|].
      destruct (e_else e) as [n|]; [|exfalso; apply Hs; reflexivity].
      apply IH. specialize (He n eq_refl). lia.
    + (* while *) destruct (cond f head); [apply IH; lia|].
      destruct (e_brk e) as [n|]; [|exfalso; apply Hs; reflexivity].
      apply IH. specialize (Hb n eq_refl). lia.
    + (* jump *) destruct (e_next e) as [n|]; [|exfalso; apply Hs; reflexivity].
      specialize (Hn n eq_refl). destruct (e_abs e); apply IH; lia.
Qed.

Theorem compile_slide_safe : forall cond items es, compile items = Ok es ->
  forall fuel head prev, -1 <= head <= zlen es ->
  slide cond fuel es head prev <> SIndexError /\ slide cond fuel es head prev <> SKeyError.
Proof.
  intros cond items es H. apply closed_slide_safe. exact (compile_closed _ _ H).
Qed.

(* why shape_ok demands "`_absolute` only on jumps": in_range reads `_next` of ANY `_absolute`
   element as an absolute position, slide() does so only for a jump; on this flow slide() raises
   IndexError although every offset field, read that way, is in range.  (Compiler output never
   has `_absolute` on a non-jump: compile_abs_jump.) *)
Definition unsafe_flow : list elem :=
  [plain (TOther "a"); mkE TCheck (Some 2) true None None None [] None].

Lemma inb_iff : forall lo hi x, inb lo hi x = true <-> lo <= x <= hi.
Proof.
  intros lo hi x. unfold inb. rewrite andb_true_iff, !Z.leb_le. tauto.
Qed.

Lemma opt_allb_iff : forall o p (Q : Z -> Prop),
  (forall n, p n = true <-> Q n) ->
  (opt_allb o p = true <-> forall n, o = Some n -> Q n).
Proof.
  intros o p Q HpQ. destruct o as [m|]; cbn [opt_allb].
  - rewrite HpQ. split.
    + intros Hm n [= <-]. exact Hm.
    + intros H. apply H. reflexivity.
  - split; [intros _ n Hn; discriminate Hn | reflexivity].
Qed.

Lemma shape_okb_iff : forall e, shape_okb e = true <-> shape_ok e.
Proof.
  intros e. unfold shape_okb, shape_ok. rewrite andb_true_iff.
  assert (Habs : negb (e_abs e) || match e_type e with TJump => true | _ => false end = true <->
                 (e_abs e = true -> e_type e = TJump)).
  { destruct (e_abs e); cbn [negb orb].
    - destruct (e_type e) as [ | | | | | | | | | | | | ];
        (split; [intros Hx _; first [reflexivity | discriminate Hx]
                | intros Hx; first [reflexivity | specialize (Hx eq_refl); discriminate Hx]]).
    - split; [intros _ Hx; discriminate Hx | reflexivity]. }
  rewrite Habs. clear Habs.
  apply and_iff_compat_l.
  destruct (e_type e) as [ | | | | | | | | | | | | ];
    try (split; [intros _; exact I | reflexivity]);
    try (split; [intros Hx; discriminate Hx | intros []]).
  - destruct (e_else e); split; try discriminate; try reflexivity. intros H; exfalso; apply H; reflexivity.
  - destruct (e_brk e); split; try discriminate; try reflexivity. intros H; exfalso; apply H; reflexivity.
  - destruct (e_next e); split; try discriminate; try reflexivity. intros H; exfalso; apply H; reflexivity.
Qed.

Lemma in_rangeb_iff : forall len i e, in_rangeb len i e = true <-> in_range len i e.
Proof.
  intros len i e. unfold in_rangeb, in_range. rewrite !andb_true_iff.
  rewrite (opt_allb_iff (e_next e) _
             (fun n => if e_abs e then -1 <= n <= len else 0 <= i + n <= len)).
  2:{ intros n. destruct (e_abs e); apply inb_iff. }
  rewrite (opt_allb_iff (e_else e) _ (fun n => 0 <= i + n <= len)) by (intros n; apply inb_iff).
  rewrite (opt_allb_iff (e_brk e) _ (fun n => 0 <= i + n <= len)) by (intros n; apply inb_iff).
  rewrite (opt_allb_iff (e_cont e) _ (fun n => 0 <= i + n <= len)) by (intros n; apply inb_iff).
  rewrite shape_okb_iff, forallb_forall.
  assert (Hheads : (forall h, In h (e_heads e) -> inb 0 (len - 1) (i + h) = true) <->
                   (forall h, In h (e_heads e) -> 0 <= i + h < len)).
  { split; intros H h Hin; specialize (H h Hin).
    - apply inb_iff in H. lia.
    - apply inb_iff. lia. }
  rewrite Hheads. tauto.
Qed.

Lemma wf_fromb_iff : forall len es i,
  wf_fromb len i es = true <-> all_from (in_range len) i es.
Proof.
  intros len es. induction es as [|x es IHes]; intros i; cbn [wf_fromb all_from].
  - tauto.
  - rewrite andb_true_iff, in_rangeb_iff, IHes. tauto.
Qed.

Theorem offsets_okb_iff : forall es, offsets_okb es = true <-> closed_v1 es.
Proof.
  intros es. unfold offsets_okb. rewrite wf_fromb_iff. apply all_from_in_range_closed.
Qed.

Example unsafe_flow_rejected :
  offsets_okb unsafe_flow = false /\ ~ closed_v1 unsafe_flow /\
  slide (fun _ _ => true) 2 unsafe_flow 1 0 = SIndexError.
Proof.
  split; [reflexivity|]. split; [|reflexivity].
  intros Hc. apply offsets_okb_iff in Hc. discriminate Hc.
Qed.

Lemma resolve_one_err : forall all i e x,
  resolve_one all i e = Err x ->
  x = UndefLabel /\ exists n, e_type e = TGoto n /\ label_pos n all = None.
Proof.
  intros all i e x H. unfold resolve_one in H.
  destruct (e_type e) as [ | | | | | | | n | | | | | ]; try discriminate H.
  destruct (label_pos n all) eqn:El; [discriminate H|].
  split; [congruence | exists n; split; [reflexivity | exact El]].
Qed.

Lemma resolve_from_err : forall all es i x,
  resolve_from all i es = Err x ->
  x = UndefLabel /\ exists e n, In e es /\ e_type e = TGoto n /\ label_pos n all = None.
Proof.
  intros all es. induction es as [|y es IHes]; intros i x H; cbn [resolve_from] in H.
  - discriminate H.
  - destruct (resolve_one all i y) as [y'|err] eqn:Ey.
    + destruct (resolve_from all (i + 1) es) as [r'|err] eqn:Er; [discriminate H|].
      assert (err = x) by congruence. subst err.
      destruct (IHes _ _ Er) as [Hx [e [n [Hin [Ht Hl]]]]].
      split; [exact Hx|]. exists e, n. split; [right; exact Hin | split; assumption].
    + assert (err = x) by congruence. subst err.
      apply resolve_one_err in Ey. destruct Ey as [Hx [n [Ht Hl]]].
      split; [exact Hx|]. exists y, n. split; [left; reflexivity | split; assumption].
Qed.

Lemma resolve_from_undef : forall all es i e n,
  In e es -> e_type e = TGoto n -> label_pos n all = None ->
  resolve_from all i es = Err UndefLabel.
Proof.
  intros all es. induction es as [|y es IHes]; intros i e n Hin Ht Hl; cbn [resolve_from].
  - contradiction Hin.
  - destruct Hin as [Heq | Hin].
    + subst y. unfold resolve_one. rewrite Ht, Hl. reflexivity.
    + destruct (resolve_one all i y) as [y'|x] eqn:Hy.
      * rewrite (IHes (i + 1) e n Hin Ht Hl). reflexivity.
      * apply resolve_one_err in Hy. destruct Hy as [-> _]. reflexivity.
Qed.

Theorem compile_dup : forall items,
  compile items = Err DupLabel <-> has_dup (labels_of (extract items)) = true.
Proof.
  intros items. unfold compile, resolve_gotos.
  destruct (has_dup (labels_of (extract items))).
  - split; reflexivity.
  - destruct (resolve_from (extract items) 0 (extract items)) as [es|x] eqn:Er.
    + split; intros H; discriminate H.
    + apply resolve_from_err in Er. destruct Er as [Hx _]. subst x.
      split; intros H; discriminate H.
Qed.

Theorem compile_undef : forall items,
  compile items = Err UndefLabel <->
  has_dup (labels_of (extract items)) = false /\
  exists e n, In e (extract items) /\ e_type e = TGoto n /\ label_pos n (extract items) = None.
Proof.
  intros items. unfold compile, resolve_gotos.
  destruct (has_dup (labels_of (extract items))).
  - split; [intros H; discriminate H | intros [H _]; discriminate H].
  - split.
    + intros H. split; [reflexivity|].
      destruct (resolve_from (extract items) 0 (extract items)) as [es|x] eqn:Er; [discriminate H|].
      apply resolve_from_err in Er. destruct Er as [_ Hex]. exact Hex.
    + intros [_ [e [n [Hin [Ht Hl]]]]].
      rewrite (resolve_from_undef _ _ 0 e n Hin Ht Hl). reflexivity.
Qed.

Open Scope string_scope.

(* label; while { check; if {break; a} else {continue; $x = ...}; while {break} };
   three branches (the second one empty, the third one ends in `return`); any; goto *)
Definition ex_items : list item :=
  [ ILeaf (LLabel "top");
    IWhile [ ILeaf LCheck;
             IIf [ILeaf LBreak; ILeaf (LOther "a")] [ILeaf LContinue; ILeaf (LSet true)];
             IWhile [ILeaf LBreak] ];
    IList [ILeaf (LOther "b1")]; IList []; IList [ILeaf (LOther "b3"); ILeaf LReturn];
    IAny [LOther "x"; LOther "y"];
    ILeaf (LGoto "top") ].

Definition ex_elems : list elem :=
  [ mkE TJump (Some 1) false None None None [] (Some "top");
    mkE TWhile None false None (Some 12) None [] None;
    mkE TCheck None false None (Some 11) (Some (-1)) [] None;
    mkE TIf None false (Some 4) (Some 10) (Some (-2)) [] None;
    mkE TBreak None false None (Some 9) (Some (-3)) [] None;
    mkE (TOther "a") None false None (Some 8) (Some (-4)) [] None;
    mkE TJump (Some 3) false None (Some 7) (Some (-5)) [] None;
    mkE TContinue None false None (Some 6) (Some (-6)) [] None;
    plain (TOther "run_action");
    mkE TWhile None false None (Some 3) None [] None;
    mkE TBreak None false None (Some 2) (Some (-1)) [] None;
    mkE TJump (Some (-2)) false None (Some 2) (Some (-10)) [] None;
    jump (-11);
    mkE TBranch None false None None None [1; 3; 4] None;
    plain (TOther "b1");
    jump 5;
    jump 4;
    plain (TOther "b3");
    mkE TJump (Some (-1)) true None None None [] None;
    jump 1;
    plain TAny;
    plain (TOther "x");
    plain (TOther "y");
    jump (-23) ].

Example ex_compile : compile ex_items = Ok ex_elems.
Proof. vm_compute. reflexivity. Qed.

Example ex_closed : closed_v1 ex_elems.
Proof. exact (compile_closed _ _ ex_compile). Qed.

Example ex_slide_safe : forall cond fuel,
  slide cond fuel ex_elems 0 0 <> SIndexError /\ slide cond fuel ex_elems 0 0 <> SKeyError.
Proof.
  intros cond fuel. apply (compile_slide_safe cond _ _ ex_compile). unfold zlen. cbn. lia.
Qed.

Print Assumptions compile_closed.
Print Assumptions compile_targets.
Print Assumptions compile_slide_safe.
Print Assumptions closed_slide_safe.
Print Assumptions offsets_okb_iff.
Print Assumptions compile_undef.
