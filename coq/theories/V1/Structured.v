(* V1.Structured - the SPECIFICATION side of C14: structured Colang 1.0 dialog flows, their
   reference semantics as ordinary structured programs, and the compilation to flat elements.

   A program is one dialog flow (`define flow`) plus subflows (`define subflow`).  Statements:
     user I | bot I | execute A / $r = execute A | $x = e | if c / else | while c | break |
     continue | do S.
   Reference semantics (`exec`): an interpreter over the SOURCE with an explicit continuation
   (what remains of the enclosing blocks and loops) and a call stack of continuations for `do`.
   It runs set / if / while / break / continue / do silently in the context built by the
   `set`s executed so far until it blocks on a statement that needs an event (user, bot,
   execute) or the flow ends.  `next_steps` folds the events of a history over it:
     - an event that matches the statement the flow waits on advances the flow; the next step
       is the statement the flow then blocks on if it is a bot/execute statement;
     - an event that does not match: a flow waiting for the user keeps waiting (no step); a
       flow waiting on its own bot/execute step is abandoned (no step, and it may start again
       on a later event);
     - events of a type that never triggers flows leave the flow where it is and the pending
       bot/execute step is proposed again;
     - ContextUpdate events update the context; `bot stop` resets everything.
   The semantics mentions no heads, offsets or flow states.

   `compile` is this development's own compiler for the subset (position-passing style); the
   harness checks on every generated program that it produces exactly what the real parser
   (colang_parser + coyml_parser + RuntimeV1_0._load_flow_config) produces. *)
From Coq Require Import ZArith QArith List String.
From NG Require Import V1.Expr V1.Elems V1.Interp.
Import ListNotations.
Open Scope string_scope.
Open Scope list_scope.
Open Scope Z_scope.

Inductive stmt :=
| SUser (intent : string)
| SBot (intent : string)
| SExec (action : string) (params : string) (key : option string)
| SSet (key : string) (e : expr)
| SIf (c : expr) (thn els : list stmt)
| SWhile (c : expr) (body : list stmt)
| SBreak
| SContinue
| SDo (subflow : string).

Record prog := {
  p_id : string;                              (* id of the dialog flow *)
  p_main : list stmt;
  p_subs : list (string * list stmt);         (* subflows *)
}.

Fixpoint size (s : stmt) : Z :=
  match s with
  | SIf _ t e =>
      let st := (fix go (l : list stmt) : Z := match l with [] => 0 | x :: r => size x + go r end) t in
      let se := (fix go (l : list stmt) : Z := match l with [] => 0 | x :: r => size x + go r end) e in
      1 + st + (match e with [] => 0 | _ => 1 + se end)
  | SWhile _ b =>
      2 + (fix go (l : list stmt) : Z := match l with [] => 0 | x :: r => size x + go r end) b
  | _ => 1
  end.

Fixpoint bsize (l : list stmt) : Z := match l with [] => 0 | x :: r => size x + bsize r end.

(* loop context of a position: (distance to the loop exit, distance back to the `while`) *)
Definition lctx := option (Z * Z).
Definition shift (d : lctx) (n : Z) : lctx :=
  match d with Some (b, c) => Some (b - n, c - n) | None => None end.

Fixpoint compile (d : lctx) (s : stmt) : list elem :=
  match s with
  | SUser i => [LUser i]
  | SBot i => [LRun "utter" i "" None]
  | SExec a p k => [LRun a "" p k]
  | SSet k e => [LSet k e 1]
  | SBreak => [LBreak (match d with Some (b, _) => b | None => 1 end)]
  | SContinue => [LContinue (match d with Some (_, c) => c | None => 1 end)]
  | SDo f => [LFlow f]
  | SIf c t e =>
      let go := fix go (d : lctx) (l : list stmt) : list elem :=
                  match l with [] => [] | x :: r => compile d x ++ go (shift d (size x)) r end in
      let nt := bsize t in
      let ct := go (shift d 1) t in
      match e with
      | [] => LIf c (nt + 1) :: ct
      | _ => LIf c (nt + 2) :: ct ++ LJump (bsize e + 1) false None :: go (shift d (nt + 2)) e
      end
  | SWhile c b =>
      let go := fix go (d : lctx) (l : list stmt) : list elem :=
                  match l with [] => [] | x :: r => compile d x ++ go (shift d (size x)) r end in
      let n := bsize b in
      LWhile c 1 (n + 2) :: go (Some (n + 1, -1)) b ++ [LJump (- (n + 1)) false None]
  end.

Fixpoint compile_block (d : lctx) (l : list stmt) : list elem :=
  match l with [] => [] | x :: r => compile d x ++ compile_block (shift d (size x)) r end.

Definition mk_config (id : string) (els : list elem) (sub : bool) : flow_config :=
  {| fc_id := id; fc_elems := els; fc_priority := 1; fc_extension := false; fc_interruptible := true;
     fc_subflow := sub; fc_multiple := false; fc_triggers := default_triggers |}.

Definition compile_prog (p : prog) : configs :=
  mk_config (p_id p) (compile_block None (p_main p)) false
  :: map (fun nb => mk_config (fst nb) (compile_block None (snd nb)) true) (p_subs p).

(* the statements a flow blocks on *)
Inductive wait :=
| WUser (intent : string)
| WBot (intent : string)
| WExec (action params : string) (key : option string).

(* what remains to be done inside the current flow body *)
Inductive kont :=
| KDone                                            (* end of the flow body *)
| KSeq (rest : list stmt) (k : kont)               (* the rest of the enclosing block *)
| KLoop (c : expr) (body : list stmt) (k : kont).  (* inside `while c: body`; then k *)

Inductive xres :=
| XWait (w : wait) (k : kont) (stk : list kont) (c u : ctx)   (* blocked; stk: callers, innermost first *)
| XEnd (c u : ctx)                                            (* the flow body ended *)
| XExc
| XFuel.

(* innermost enclosing loop *)
Fixpoint unwind (k : kont) : option (expr * list stmt * kont) :=
  match k with
  | KDone => None
  | KSeq _ k' => unwind k'
  | KLoop c b k' => Some (c, b, k')
  end.

Section Sem.
  Variable subs : list (string * list stmt).

  (* run block `blk` then continuation k, in context c, recording assignments in u *)
  Fixpoint exec (fuel : nat) (c u : ctx) (blk : list stmt) (k : kont) : xres :=
    match fuel with
    | O => XFuel
    | S f =>
        match blk with
        | [] =>
            match k with
            | KDone => XEnd c u
            | KSeq rest k' => exec f c u rest k'
            | KLoop cnd body k' => exec f c u [SWhile cnd body] k'
            end
        | s :: rest =>
            match s with
            | SUser i => XWait (WUser i) (KSeq rest k) [] c u
            | SBot i => XWait (WBot i) (KSeq rest k) [] c u
            | SExec a p key => XWait (WExec a p key) (KSeq rest k) [] c u
            | SSet x e =>
                match eval c e with
                | None => XExc
                | Some v => exec f (assoc_set x v c) (assoc_set x v u) rest k
                end
            | SIf cnd t e =>
                match eval c cnd with
                | None => XExc
                | Some v => exec f c u (if truthy v then t else e) (KSeq rest k)
                end
            | SWhile cnd b =>
                match eval c cnd with
                | None => XExc
                | Some v => if truthy v then exec f c u b (KLoop cnd b (KSeq rest k))
                            else exec f c u rest k
                end
            | SBreak =>
                match unwind k with
                | Some (_, _, k') => exec f c u [] k'
                | None => XExc                                   (* not inside a loop: excluded by wf *)
                end
            | SContinue =>
                match unwind k with
                | Some (cnd, b, k') => exec f c u [SWhile cnd b] k'
                | None => XExc
                end
            | SDo name =>
                match lookup name subs with
                | None => XExc                                   (* unknown subflow *)
                | Some body =>
                    match exec f c u body KDone with
                    | XEnd c' u' => exec f c' u' rest k          (* the subflow ran to its end *)
                    | XWait w kw stk c' u' => XWait w kw (stk ++ [KSeq rest k]) c' u'
                    | r => r
                    end
                end
            end
        end
    end.

  (* continue after the awaited event arrived: finish the current body, then return to callers *)
  Fixpoint resume (fuel : nat) (c u : ctx) (k : kont) (stk : list kont) : xres :=
    match fuel with
    | O => XFuel
    | S f =>
        match exec fuel c u [] k with
        | XEnd c' u' =>
            match stk with
            | [] => XEnd c' u'
            | k2 :: stk2 => resume f c' u' k2 stk2
            end
        | XWait w kw stk' c' u' => XWait w kw (stk' ++ stk) c' u'
        | r => r
        end
    end.
End Sem.

(* `do F` may name any flow of the program (the dialog flow included): _call_subflow does not
   check that F was declared as a subflow *)
Definition all_flows (p : prog) : list (string * list stmt) := (p_id p, p_main p) :: p_subs p.

Definition actionable (w : wait) : bool :=
  match w with
  | WUser _ => false
  | WBot v => negb (String.eqb v "...")
  | WExec a _ _ => true
  end.

(* does event ev satisfy the statement the flow waits on? *)
Definition wait_match (w : wait) (ev : event) : bool :=
  match w, ev with
  | WUser n, EvUser i => String.eqb n "..." || String.eqb n i
  | WBot v, EvBot i => String.eqb v "..." || String.eqb v i
  | WBot _, EvActFin a true => String.eqb a "utter"
  | WExec n _ _, EvActFin a true => String.eqb n a
  | _, _ => false
  end.

Definition step_of_wait (w : wait) : out_event :=
  match w with
  | WUser i => OBot i          (* never used: not actionable *)
  | WBot v => OBot v
  | WExec a p k => OAct a p k
  end.

Inductive sstate :=
| Idle
| Run (w : wait) (k : kont) (stk : list kont).

Record spec_state := {
  sp_st : sstate;
  sp_ctx : ctx;
  sp_upd : ctx;                (* assignments made while processing the last event *)
  sp_next : option wait;       (* the decided next statement *)
}.

Definition of_xres (r : xres) : res spec_state :=
  match r with
  | XWait w k stk c u =>
      Ok {| sp_st := Run w k stk; sp_ctx := c; sp_upd := u; sp_next := if actionable w then Some w else None |}
  | XEnd c u => Ok {| sp_st := Idle; sp_ctx := c; sp_upd := u; sp_next := None |}
  | XExc => Exc
  | XFuel => Fuel
  end.

Definition spec_event (fuel : nat) (p : prog) (s : spec_state) (ev : event) : res spec_state :=
  match ev with
  | EvStartAct => Ok s
  | EvCtx data => Ok {| sp_st := sp_st s; sp_ctx := assoc_update (sp_ctx s) data; sp_upd := []; sp_next := None |}
  | _ =>
      match sp_st s with
      | Idle =>
          match p_main p with
          | SUser i :: rest =>
              if wait_match (WUser i) ev
              then of_xres (exec (all_flows p) fuel (sp_ctx s) [] rest KDone)
              else Ok {| sp_st := Idle; sp_ctx := sp_ctx s; sp_upd := []; sp_next := None |}
          | _ => Exc                                             (* excluded by wf *)
          end
      | Run w k stk =>
          if negb (string_in (event_type ev) default_triggers) then
            Ok {| sp_st := sp_st s; sp_ctx := sp_ctx s; sp_upd := [];
                  sp_next := if actionable w then Some w else None |}
          else if wait_match w ev then of_xres (resume (all_flows p) fuel (sp_ctx s) [] k stk)
          else if actionable w then Ok {| sp_st := Idle; sp_ctx := sp_ctx s; sp_upd := []; sp_next := None |}
          else Ok {| sp_st := sp_st s; sp_ctx := sp_ctx s; sp_upd := []; sp_next := None |}
      end
  end.

Definition spec_init : spec_state := {| sp_st := Idle; sp_ctx := []; sp_upd := []; sp_next := None |}.

Fixpoint spec_run (fuel : nat) (p : prog) (s : spec_state) (l : list event) : res spec_state :=
  match l with
  | [] => Ok s
  | e :: rest =>
      do s1 <- spec_event fuel p s e;
      spec_run fuel p (if is_bot_stop e
                       then {| sp_st := Idle; sp_ctx := sp_ctx s1; sp_upd := sp_upd s1; sp_next := sp_next s1 |}
                       else s1) rest
  end.

Definition spec_steps (s : spec_state) (actual : list event) : list out_event :=
  if match actual with [] => false | _ => is_bot_stop (last actual EvHide) end then []
  else (match sp_upd s with [] => [] | u => [OCtx u] end ++
        match sp_next s with Some w => [step_of_wait w] | None => [] end)%list.

(* the specification of compute_next_steps on a structured program *)
Definition next_steps (fuel : nat) (p : prog) (hist : list event) : res (list out_event) :=
  do actual <- preprocess hist [];
  do s <- spec_run fuel p spec_init actual;
  Ok (spec_steps s actual).

(* break / continue only inside a loop; no `execute utter`; the dialog flow starts with a user
   statement; subflow bodies are not empty (Colang cannot express an empty body); distinct names *)
Fixpoint wf_stmt (inloop : bool) (s : stmt) : bool :=
  match s with
  | SBreak | SContinue => inloop
  | SExec a _ _ => negb (String.eqb a "utter")
  | SIf _ t e =>
      (fix go (l : list stmt) : bool := match l with [] => true | x :: r => wf_stmt inloop x && go r end) t &&
      (fix go (l : list stmt) : bool := match l with [] => true | x :: r => wf_stmt inloop x && go r end) e
  | SWhile _ b =>
      (fix go (l : list stmt) : bool := match l with [] => true | x :: r => wf_stmt true x && go r end) b
  | _ => true
  end.

Fixpoint wf_block (inloop : bool) (l : list stmt) : bool :=
  match l with [] => true | x :: r => wf_stmt inloop x && wf_block inloop r end.

Fixpoint distinct (l : list string) : bool :=
  match l with [] => true | x :: r => negb (string_in x r) && distinct r end.

Definition wf_prog (p : prog) : bool :=
  match p_main p with SUser _ :: _ => true | _ => false end &&
  wf_block false (p_main p) &&
  forallb (fun nb => match snd nb with [] => false | _ => true end && wf_block false (snd nb)) (p_subs p) &&
  distinct (p_id p :: map fst (p_subs p)).

Definition ex_prog : prog :=
  {| p_id := "main";
     p_main := [SUser "ask a"; SSet "i" (EInt 0); SBot "say b";
                SIf (ECmp CEq (EVar "i") (EInt 0))
                    [SBot "say c";
                     SWhile (ECmp CLt (EVar "i") (EInt 2))
                            [SUser "ask d"; SSet "i" (EAdd (EVar "i") (EInt 1));
                             SIf (ECmp CEq (EVar "i") (EInt 1)) [SContinue] [SBreak];
                             SBot "say never"];
                     SDo "sub one"]
                    [SBot "say e"];
                SExec "act_x" "{}" None; SBot "say f"];
     p_subs := [("sub one", [SBot "say s1"; SUser "ask s2"; SBot "say s3"])] |}.

Example ex_wf : wf_prog ex_prog = true.
Proof. reflexivity. Qed.

(* the offsets are the ones the real parser produces for this flow *)
Example ex_compile :
  fc_elems (hd (mk_config "" [] false) (compile_prog ex_prog)) =
  [LUser "ask a"; LSet "i" (EInt 0) 1; LRun "utter" "say b" "" None;
   LIf (ECmp CEq (EVar "i") (EInt 0)) 13;
   LRun "utter" "say c" "" None;
   LWhile (ECmp CLt (EVar "i") (EInt 2)) 1 9;
   LUser "ask d"; LSet "i" (EAdd (EVar "i") (EInt 1)) 1;
   LIf (ECmp CEq (EVar "i") (EInt 1)) 3; LContinue (-4); LJump 2 false None; LBreak 3;
   LRun "utter" "say never" "" None; LJump (-8) false None;
   LFlow "sub one"; LJump 2 false None; LRun "utter" "say e" "" None;
   LRun "act_x" "" "{}" None; LRun "utter" "say f" "" None].
Proof. vm_compute. reflexivity. Qed.

Definition ex_hist : list event :=
  [EvUser "ask a"; EvBot "say b"; EvBot "say c"; EvUser "ask d"; EvUser "ask d"; EvBot "say s1"; EvUser "ask s2"].

Example ex_spec : next_steps 100 ex_prog ex_hist = Ok [OBot "say s3"].
Proof. vm_compute. reflexivity. Qed.

Example ex_spec_return : next_steps 100 ex_prog (ex_hist ++ [EvBot "say s3"]) = Ok [OAct "act_x" "{}" None].
Proof. vm_compute. reflexivity. Qed.
