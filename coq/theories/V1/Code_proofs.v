(* V1.Code_proofs - facts about Structured.compile (sizes, unfolding of the nested fixpoints),
   code fragments inside a flat element list (`code_at`), and the relation `kmatch` between a
   SOURCE continuation and a position in the compiled code (the classical compiler-correctness
   set-up: code pointers versus continuations). *)
From Coq Require Import ZArith List String Bool Lia.
From NG Require Import V1.Elems V1.Slide V1.Interp V1.Structured.
Import ListNotations.
Open Scope list_scope.
Open Scope Z_scope.

Section stmt_ind'.
  Variable P : stmt -> Prop.
  Hypothesis HUser : forall i, P (SUser i).
  Hypothesis HBot : forall i, P (SBot i).
  Hypothesis HExec : forall a p k, P (SExec a p k).
  Hypothesis HSet : forall k e, P (SSet k e).
  Hypothesis HIf : forall c t e, Forall P t -> Forall P e -> P (SIf c t e).
  Hypothesis HWhile : forall c b, Forall P b -> P (SWhile c b).
  Hypothesis HBreak : P SBreak.
  Hypothesis HContinue : P SContinue.
  Hypothesis HDo : forall f, P (SDo f).

  Fixpoint stmt_ind' (s : stmt) : P s :=
    let go := fix go (l : list stmt) : Forall P l :=
                match l with
                | [] => Forall_nil _
                | x :: r => Forall_cons _ (stmt_ind' x) (go r)
                end in
    match s with
    | SUser i => HUser i
    | SBot i => HBot i
    | SExec a p k => HExec a p k
    | SSet k e => HSet k e
    | SIf c t e => HIf c t e (go t) (go e)
    | SWhile c b => HWhile c b (go b)
    | SBreak => HBreak
    | SContinue => HContinue
    | SDo f => HDo f
    end.
End stmt_ind'.

Lemma size_if : forall c t e,
  size (SIf c t e) = 1 + bsize t + match e with [] => 0 | _ => 1 + bsize e end.
Proof. reflexivity. Qed.

Lemma size_while : forall c b, size (SWhile c b) = 2 + bsize b.
Proof. reflexivity. Qed.

Lemma compile_if : forall d c t e,
  compile d (SIf c t e) =
  match e with
  | [] => LIf c (bsize t + 1) :: compile_block (shift d 1) t
  | _ => LIf c (bsize t + 2) :: compile_block (shift d 1) t
         ++ LJump (bsize e + 1) false None :: compile_block (shift d (bsize t + 2)) e
  end.
Proof. reflexivity. Qed.

Lemma compile_while : forall d c b,
  compile d (SWhile c b) =
  LWhile c 1 (bsize b + 2) :: compile_block (Some (bsize b + 1, -1)) b ++ [LJump (- (bsize b + 1)) false None].
Proof. reflexivity. Qed.

Lemma bsize_nonneg_all : forall l, Forall (fun s => 1 <= size s) l -> 0 <= bsize l.
Proof. induction 1; simpl; lia. Qed.

Lemma size_pos : forall s, 1 <= size s.
Proof.
  induction s using stmt_ind'; try (simpl; lia).
  - rewrite size_if. pose proof (bsize_nonneg_all _ H). pose proof (bsize_nonneg_all _ H0). destruct e; lia.
  - rewrite size_while. pose proof (bsize_nonneg_all _ H). lia.
Qed.

Lemma bsize_nonneg : forall l, 0 <= bsize l.
Proof. intros l. apply bsize_nonneg_all, Forall_forall. intros s _. apply size_pos. Qed.

Lemma bsize_app : forall a b, bsize (a ++ b) = bsize a + bsize b.
Proof. induction a; intros; simpl; [lia|]. rewrite IHa. lia. Qed.

Definition zlen {A} (l : list A) : Z := Z.of_nat (List.length l).

Lemma zlen_app : forall {A} (a b : list A), zlen (a ++ b) = zlen a + zlen b.
Proof. intros; unfold zlen; rewrite app_length; lia. Qed.

Lemma zlen_cons : forall {A} (x : A) l, zlen (x :: l) = 1 + zlen l.
Proof. intros; unfold zlen; cbn [List.length]; lia. Qed.

Lemma zlen_nonneg : forall {A} (l : list A), 0 <= zlen l.
Proof. intros; unfold zlen; lia. Qed.

Lemma compile_block_length_all : forall l,
  Forall (fun s => forall d, zlen (compile d s) = size s) l -> forall d, zlen (compile_block d l) = bsize l.
Proof. induction 1; intros d; simpl; [reflexivity|]. rewrite zlen_app, H, IHForall. reflexivity. Qed.

Lemma compile_length : forall s d, zlen (compile d s) = size s.
Proof.
  induction s using stmt_ind'; intros d; try reflexivity.
  - rewrite compile_if, size_if.
    pose proof (compile_block_length_all _ H) as Ht. pose proof (compile_block_length_all _ H0) as He.
    destruct e.
    + rewrite zlen_cons, Ht. lia.
    + rewrite zlen_cons, zlen_app, zlen_cons, Ht, He. lia.
  - rewrite compile_while, size_while, zlen_cons, zlen_app, (compile_block_length_all _ H).
    change (zlen [LJump (- (bsize b + 1)) false None]) with 1. lia.
Qed.

Lemma compile_block_length : forall l d, zlen (compile_block d l) = bsize l.
Proof. intros l. apply compile_block_length_all, Forall_forall. intros s _. apply compile_length. Qed.

Definition code_at (C : list elem) (pc : Z) (frag : list elem) : Prop :=
  exists C1 C2, C = C1 ++ frag ++ C2 /\ zlen C1 = pc.

Definition instr (C : list elem) (pc : Z) : option elem :=
  if pc <? 0 then None else nth_error C (Z.to_nat pc).

Lemma code_at_nil : forall C pc, 0 <= pc <= zlen C -> code_at C pc [].
Proof.
  intros C pc H. exists (firstn (Z.to_nat pc) C), (skipn (Z.to_nat pc) C). split.
  - simpl. symmetry. apply firstn_skipn.
  - unfold zlen in *. rewrite firstn_length. lia.
Qed.

Lemma code_at_app_l : forall C pc a b, code_at C pc (a ++ b) -> code_at C pc a.
Proof.
  intros C pc a b (C1 & C2 & HC & Hl). exists C1, (b ++ C2). split; [|exact Hl].
  rewrite HC, <- app_assoc. reflexivity.
Qed.

Lemma code_at_app_r : forall C pc a b, code_at C pc (a ++ b) -> code_at C (pc + zlen a) b.
Proof.
  intros C pc a b (C1 & C2 & HC & Hl). exists (C1 ++ a), C2. split.
  - rewrite HC, <- !app_assoc. reflexivity.
  - rewrite zlen_app. lia.
Qed.

Lemma code_at_head : forall C pc x l, code_at C pc (x :: l) -> instr C pc = Some x.
Proof.
  intros C pc x l (C1 & C2 & HC & Hl). unfold instr.
  pose proof (zlen_nonneg C1). destruct (pc <? 0) eqn:E; [lia|].
  subst C. unfold zlen in Hl. replace (Z.to_nat pc) with (List.length C1 + 0)%nat by lia.
  rewrite nth_error_app2 by lia. replace (List.length C1 + 0 - List.length C1)%nat with 0%nat by lia.
  reflexivity.
Qed.

Lemma code_at_tail : forall C pc x l, code_at C pc (x :: l) -> code_at C (pc + 1) l.
Proof.
  intros C pc x l H. change (x :: l) with ([x] ++ l) in H.
  apply code_at_app_r in H. exact H.
Qed.

Lemma code_at_range : forall C pc frag, code_at C pc frag -> 0 <= pc /\ pc + zlen frag <= zlen C.
Proof.
  intros C pc frag (C1 & C2 & HC & Hl). subst C. rewrite !zlen_app.
  pose proof (zlen_nonneg C1). pose proof (zlen_nonneg C2). lia.
Qed.

Lemma code_at_whole : forall C, code_at C 0 C.
Proof. intros C. exists [], []. split; [rewrite app_nil_r; reflexivity|reflexivity]. Qed.

Lemma instr_lt : forall C pc el, instr C pc = Some el -> 0 <= pc < zlen C.
Proof.
  intros C pc el H. unfold instr in H. destruct (pc <? 0) eqn:E; [discriminate|].
  assert (Hlt : (Z.to_nat pc < List.length C)%nat) by (apply nth_error_Some; congruence).
  unfold zlen. lia.
Qed.

Lemma instr_geb : forall C pc el, instr C pc = Some el -> (pc >=? 0) = true.
Proof. intros C pc el H. apply instr_lt in H. apply Z.geb_le. lia. Qed.

Lemma instr_pyidx : forall C pc el, instr C pc = Some el -> pyidx C pc = Some el.
Proof.
  intros C pc el H. pose proof (instr_lt _ _ _ H) as Hr. unfold zlen in Hr.
  assert (E : (pc <? 0) = false) by (apply Z.ltb_ge; lia).
  unfold instr in H. unfold pyidx. rewrite E in *. cbv zeta. rewrite E.
  replace (Z.of_nat (Datatypes.length C) <=? pc) with false by (symmetry; apply Z.leb_gt; lia).
  exact H.
Qed.

(* the loop context at position pc, from the absolute positions (w, x) of the enclosing
   `while` element and of the element after its closing jump *)
Definition rel (lp : option (Z * Z)) (pc : Z) : lctx :=
  match lp with Some (w, x) => Some (x - pc, w - pc) | None => None end.

Lemma shift_rel : forall lp pc n, shift (rel lp pc) n = rel lp (pc + n).
Proof. intros [[w x]|] pc n; simpl; [f_equal; f_equal; lia|reflexivity]. Qed.

Definition inl (lp : option (Z * Z)) : bool := match lp with Some _ => true | None => false end.

Inductive kmatch (C : list elem) : kont -> Z -> option (Z * Z) -> Prop :=
| km_done : forall pc, pc = zlen C -> kmatch C KDone pc None
| km_seq : forall rest k pc lp,
    code_at C pc (compile_block (rel lp pc) rest) ->
    wf_block (inl lp) rest = true ->
    kmatch C k (pc + bsize rest) lp ->
    kmatch C (KSeq rest k) pc lp
| km_loop : forall c body k pc w x lp',
    code_at C w (compile None (SWhile c body)) ->
    wf_block true body = true ->
    pc = w + 1 + bsize body ->
    x = pc + 1 ->
    kmatch C k x lp' ->
    kmatch C (KLoop c body k) pc (Some (w, x))
| km_jump : forall k pc d lp,
    instr C pc = Some (LJump d false None) ->
    kmatch C k (pc + d) lp ->
    kmatch C k pc lp.

Lemma kmatch_unwind : forall C k pc lp,
  kmatch C k pc lp ->
  match lp with
  | Some (w, x) => exists c body k' lp', unwind k = Some (c, body, k') /\ kmatch C k' x lp' /\
                                         code_at C w (compile None (SWhile c body)) /\
                                         wf_block true body = true /\ x = w + 2 + bsize body
  | None => unwind k = None
  end.
Proof.
  induction 1; simpl; auto.
  - exists c, body, k, lp'. repeat split; auto. lia.
Qed.

Lemma kmatch_range : forall C k pc lp, kmatch C k pc lp -> 0 <= pc <= zlen C.
Proof.
  induction 1.
  - subst. pose proof (zlen_nonneg C). lia.
  - apply code_at_range in H. pose proof (zlen_nonneg (compile_block (rel lp pc) rest)). lia.
  - apply code_at_range in H. rewrite compile_length, size_while in H.
    pose proof (bsize_nonneg body). lia.
  - apply instr_lt in H. lia.
Qed.

Lemma compile_while_indep : forall d d' c b, compile d (SWhile c b) = compile d' (SWhile c b).
Proof. reflexivity. Qed.

(* the elements a flow blocks on *)
Definition elem_of_wait (w : wait) : elem :=
  match w with
  | WUser i => LUser i
  | WBot i => LRun "utter" i "" None
  | WExec a p k => LRun a "" p k
  end.

Definition wf_wait (w : wait) : Prop :=
  match w with WExec a _ _ => String.eqb a "utter" = false | _ => True end.

Lemma slide_elem_wait : forall w pc c u, slide_elem (elem_of_wait w) pc c u = StStay.
Proof. destruct w; reflexivity. Qed.

Lemma is_match_wait : forall w ev, wf_wait w -> is_match (elem_of_wait w) ev = wait_match w ev.
Proof.
  intros w ev Hw. destruct ev as [i|i|name ok| |d| |t props]; try (destruct w; reflexivity).
  - (* BotIntent: an `execute` element matches only if its action is `utter`, which wf excludes *)
    destruct w as [n|n|a p k]; try reflexivity. simpl in *. rewrite Hw. reflexivity.
  - (* InternalSystemActionFinished: a `bot` statement is the action `utter` *)
    destruct ok; [|destruct w; reflexivity].
    destruct w as [n|n|a p k]; try reflexivity. apply String.eqb_sym.
  - (* any other type: the elements a flow blocks on are none of these *)
    unfold is_match, wait_match.
    destruct (String.eqb t "UtteranceUserActionFinished" || String.eqb t "StartUtteranceBotAction"); destruct w; reflexivity.
Qed.

Lemma is_actionable_wait : forall w, wf_wait w -> is_actionable (elem_of_wait w) = actionable w.
Proof.
  intros [i|i|a p k] Hw; simpl in *; try reflexivity. rewrite Hw. reflexivity.
Qed.

Lemma step_of_wait_ok : forall w, wf_wait w -> actionable w = true ->
  step_to_event (elem_of_wait w) = Ok (step_of_wait w).
Proof.
  intros [i|i|a p k] Hw Ha; simpl in *; try discriminate; try reflexivity.
  rewrite Hw. reflexivity.
Qed.
