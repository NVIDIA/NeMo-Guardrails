(* V1.Slide - transcription of nemoguardrails/colang/v1_0/runtime/sliding.py::slide.

   slide(state, flow_config, head) moves `head` through the "sliding" elements (check, if, jump,
   while, continue, stop, break, set), evaluating expressions in state.context and recording
   `set` results in state.context and state.context_updates.  It returns
     - the head of the first non-sliding element,
     - -(prev_head+1) when the head leaves the element list (head == len or head < 0),
     - None for `stop` and for a failed `check` (every caller then raises TypeError on
       `None >= 0` / `elements[None]`).
   `while True:` has no bound in Python; here the loop takes explicit fuel and running out of
   it is the distinguished result SFuel.

   The `_active_label*` annotations slide() writes into the shared elements are not part of
   the result and are not modelled. *)
From Coq Require Import ZArith List String Bool.
From NG Require Import V1.Expr V1.Elems.
Import ListNotations.
Open Scope Z_scope.

Inductive sres :=
| SOk (head : Z) (c u : ctx)      (* new head, context, context_updates *)
| SNone                           (* Python None *)
| SErr                            (* Python exception (expression error, IndexError) *)
| SFuel.

(* one iteration of the loop body on element `el` at `head` *)
Inductive sstep :=
| StGo (head : Z) (c u : ctx)
| StStay                          (* `else: break` - not a sliding element *)
| StNone
| StErr.

Definition slide_elem (el : elem) (head : Z) (c u : ctx) : sstep :=
  match el with
  | LCheck e n =>
      match eval c e with
      | None => StErr
      | Some v => if truthy v then StGo (head + n) c u else StNone
      end
  | LIf e ne =>
      match eval c e with
      | None => StErr
      | Some v => if truthy v then StGo (head + 1) c u else StGo (head + ne) c u
      end
  | LJump n abs _ => if abs then StGo n c u else StGo (head + n) c u
  | LWhile e n nb =>
      match eval c e with
      | None => StErr
      | Some v => if truthy v then StGo (head + n) c u else StGo (head + nb) c u
      end
  | LContinue n => StGo (head + n) c u
  | LStop => StNone
  | LBreak n => StGo (head + n) c u
  | LSet k e n =>
      match eval c e with
      | None => StErr
      | Some v => StGo (head + n) (assoc_set k v c) (assoc_set k v u)
      end
  | _ => StStay
  end.

Fixpoint slide_loop (fuel : nat) (els : list elem) (head prev : Z) (c u : ctx) : sres :=
  match fuel with
  | O => SFuel
  | S f =>
      if (head =? Z.of_nat (List.length els)) || (head <? 0) then SOk (- (prev + 1)) c u
      else
        match nth_error els (Z.to_nat head) with
        | None => SErr                                  (* head > len: IndexError *)
        | Some el =>
            match slide_elem el head c u with
            | StGo h' c' u' => slide_loop f els h' head c' u'
            | StStay => SOk head c u
            | StNone => SNone
            | StErr => SErr
            end
        end
  end.

Definition slide (fuel : nat) (els : list elem) (head : Z) (c u : ctx) : sres :=
  let prev := if head <? Z.of_nat (List.length els) then head else head - 1 in
  slide_loop fuel els head prev c u.

Open Scope string_scope.
(* if $i == 0: bot a  else: bot b ; then c *)
Example slide_ex :
  let els := [LIf (ECmp CEq (EVar "i") (EInt 0)) 3; LRun "utter" "a" "" None; LJump 2 false None;
              LRun "utter" "b" "" None; LRun "utter" "c" "" None] in
  slide 10 els 0 [("i", VInt 1)] [] = SOk 3 [("i", VInt 1)] [] /\
  slide 10 els 2 [] [] = SOk 4 [] [] /\
  slide 10 els 5 [] [] = SOk (-5) [] [].
Proof. repeat split; reflexivity. Qed.
