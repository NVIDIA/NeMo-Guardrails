(* V1.Sim_proofs - the results of the simulation (V1/Stack_proofs.v) in the form Props/C14.v
   states them: compute_next_steps as the CURRENT source configures it, on whole histories;
   following and leaving a flow in terms of the specification; the two regressions; examples. *)
From Coq Require Import ZArith List String Bool Lia.
From NG Require Import Gen.C14Consts V1.Expr V1.Elems V1.Interp V1.Structured V1.Interp_proofs V1.Stack_proofs.
Import ListNotations.
Open Scope list_scope.
Open Scope Z_scope.

Fixpoint nodo_stmt (s : stmt) : bool :=
  match s with
  | SDo _ => false
  | SIf _ t e =>
      (fix go (l : list stmt) : bool := match l with [] => true | x :: r => nodo_stmt x && go r end) t &&
      (fix go (l : list stmt) : bool := match l with [] => true | x :: r => nodo_stmt x && go r end) e
  | SWhile _ b =>
      (fix go (l : list stmt) : bool := match l with [] => true | x :: r => nodo_stmt x && go r end) b
  | _ => true
  end.

Fixpoint nodo_block (l : list stmt) : bool :=
  match l with [] => true | x :: r => nodo_stmt x && nodo_block r end.

Lemma nodo_if : forall c t e, nodo_stmt (SIf c t e) = nodo_block t && nodo_block e.
Proof. reflexivity. Qed.

Lemma nodo_while : forall c b, nodo_stmt (SWhile c b) = nodo_block b.
Proof. reflexivity. Qed.

Lemma nodo_block_cons : forall s r, nodo_block (s :: r) = nodo_stmt s && nodo_block r.
Proof. reflexivity. Qed.

Lemma fuel_max : forall (P Q : nat -> Prop) F1 F2,
  (forall f, (F1 <= f)%nat -> P f) -> (forall f, (F2 <= f)%nat -> Q f) ->
  forall f, (Nat.max F1 F2 <= f)%nat -> P f /\ Q f.
Proof. intros P Q F1 F2 H1 H2 f Hf. split; [apply H1|apply H2]; lia. Qed.

(* the interpreter as the CURRENT source configures it (translator/gen_c14.py) *)
Definition opts_now : opts := {| o_mark := start_marks_completed; o_guard := call_records_active_only |}.

Definition steps_now (fuel : nat) (cs : configs) (h : list event) : res (list out_event) :=
  compute_next_steps opts_now fuel cs h.

Definition compile_correct_statement : Prop :=
  forall p fuel hist r,
    wf_prog p = true ->
    next_steps fuel p hist = r -> r <> Fuel ->
    exists F, forall f, (F <= f)%nat -> steps_now f (compile_prog p) hist = r.

Theorem compile_correct_full :
  start_marks_completed = true -> call_records_active_only = true -> compile_correct_statement.
Proof.
  intros Hmark Hguard p fuel hist r Hwf Hr Hnf.
  exact (compile_correct_all p opts_now Hwf Hmark Hguard fuel hist r Hr Hnf).
Qed.

Lemma spec_run_snoc : forall fuel p l s e,
  spec_run fuel p s (l ++ [e]) = bind (spec_run fuel p s l) (fun s1 => spec_run fuel p s1 [e]).
Proof.
  intros fuel p. induction l as [|x rest IH]; intros s e; simpl.
  - destruct (spec_event fuel p s e); reflexivity.
  - destruct (spec_event fuel p s x); simpl; [apply IH|reflexivity|reflexivity].
Qed.

(* the specification's view of "the history has followed the flow up to a statement w" *)
Definition follows_to (fuel : nat) (p : prog) (hist : list event) (w : wait) (k : kont) (stk : list kont)
  (c : ctx) : Prop :=
  exists actual sp, preprocess hist [] = Ok actual /\ spec_run fuel p spec_init actual = Ok sp /\
                    sp_st sp = Run w k stk /\ sp_ctx sp = c.

(* one more event after a history that has followed the flow: the specification's step from the
   state reached, and what it proposes *)
Lemma next_steps_snoc : forall fuel p hist w k stk c ev,
  follows_to fuel p hist w k stk c ->
  match ev with EvStartAct | EvCtx _ | EvHide => False | _ => True end ->
  exists sp, sp_st sp = Run w k stk /\ sp_ctx sp = c /\
    next_steps fuel p (hist ++ [ev]) = bind (spec_event fuel p sp ev) (fun s1 => Ok (spec_steps s1 [ev])).
Proof.
  intros fuel p hist w k stk c ev (actual & sp & Hp & Hrun & Hst & Hc) Hpl.
  exists sp. split; [exact Hst|]. split; [exact Hc|].
  unfold next_steps. rewrite (preprocess_snoc hist [] actual ev); [|destruct ev; try congruence; contradiction|exact Hp].
  cbn [bind]. rewrite spec_run_snoc, Hrun. cbn [bind spec_run].
  destruct (spec_event fuel p sp ev) as [s1| |]; cbn [bind]; try reflexivity.
  unfold spec_steps. rewrite last_last. cbn [last].
  destruct (actual ++ [ev]) eqn:E; [destruct actual; discriminate|]. destruct (is_bot_stop ev); reflexivity.
Qed.

Lemma spec_leave : forall fuel p hist w k stk c ev,
  follows_to fuel p hist w k stk c ->
  match ev with EvStartAct | EvCtx _ | EvHide => False | _ => True end ->
  string_in (event_type ev) default_triggers = true ->
  wait_match w ev = false ->
  next_steps fuel p (hist ++ [ev]) = Ok [].
Proof.
  intros fuel p hist w k stk c ev Hfol Hpl Htr Hm.
  destruct (next_steps_snoc fuel p hist w k stk c ev Hfol Hpl) as (sp & Hst & _ & E). rewrite E.
  assert (E2 : exists st', spec_event fuel p sp ev =
                           Ok {| sp_st := st'; sp_ctx := sp_ctx sp; sp_upd := []; sp_next := None |}).
  { destruct ev; try contradiction; cbn [spec_event]; rewrite Hst, Htr; cbn [negb]; rewrite Hm;
      destruct (actionable w); eauto. }
  destruct E2 as (st' & E2). rewrite E2. cbn [bind]. unfold spec_steps. cbn [last sp_upd sp_next].
  destruct (is_bot_stop ev); reflexivity.
Qed.

Theorem leave_full : forall p fuel hist w k stk c ev,
  start_marks_completed = true -> call_records_active_only = true ->
  wf_prog p = true ->
  follows_to fuel p hist w k stk c ->
  match ev with EvStartAct | EvCtx _ | EvHide => False | _ => True end ->
  string_in (event_type ev) default_triggers = true ->
  wait_match w ev = false ->
  exists F, forall f, (F <= f)%nat -> steps_now f (compile_prog p) (hist ++ [ev]) = Ok [].
Proof.
  intros p fuel hist w k stk c ev Hmark Hguard Hwf Hfol Hpl Htr Hm.
  eapply (compile_correct_full Hmark Hguard); eauto.
  - eapply spec_leave; eauto.
  - congruence.
Qed.

Theorem leave_partial : forall p fuel hist w k stk c ev,
  start_marks_completed = true ->
  wf_prog p = true -> nodo_block (p_main p) = true ->
  follows_to fuel p hist w k stk c ->
  match ev with EvStartAct | EvCtx _ | EvHide => False | _ => True end ->
  string_in (event_type ev) default_triggers = true ->
  wait_match w ev = false ->
  exists F, forall f, (F <= f)%nat -> steps_now f (compile_prog p) (hist ++ [ev]) = Ok [].
Proof.
  (* a dialog flow without `do` never reaches the guard of _call_subflow; the general theorem is
     used all the same, with the guard fact taken from the constants read from the source *)
  intros p fuel hist w k stk c ev Hmark Hwf _.
  exact (leave_full p fuel hist w k stk c ev Hmark eq_refl Hwf).
Qed.

(* following the flow: the decided step is the statement the reference semantics blocks on next,
   evaluated in the context the `set`s built *)
Lemma spec_follow : forall fuel p hist w k stk c ev,
  follows_to fuel p hist w k stk c ->
  match ev with EvStartAct | EvCtx _ | EvHide => False | _ => True end ->
  string_in (event_type ev) default_triggers = true ->
  wait_match w ev = true -> is_bot_stop ev = false ->
  next_steps fuel p (hist ++ [ev]) =
  match resume (all_flows p) fuel c [] k stk with
  | XWait w' _ _ _ u' => Ok ((match u' with [] => [] | _ => [OCtx u'] end) ++
                            (if actionable w' then [step_of_wait w'] else []))
  | XEnd _ u' => Ok (match u' with [] => [] | _ => [OCtx u'] end)
  | XExc => Exc
  | XFuel => Fuel
  end.
Proof.
  intros fuel p hist w k stk c ev Hfol Hpl Htr Hm Hstop.
  destruct (next_steps_snoc fuel p hist w k stk c ev Hfol Hpl) as (sp & Hst & Hc & E). rewrite E.
  assert (E2 : spec_event fuel p sp ev = of_xres (resume (all_flows p) fuel c [] k stk)).
  { destruct ev; try contradiction; cbn [spec_event]; rewrite Hst, Htr; cbn [negb]; rewrite Hm, Hc; reflexivity. }
  rewrite E2.
  destruct (resume (all_flows p) fuel c [] k stk) as [w' k' stk' c' u'|c' u'| |]; cbn [of_xres bind]; try reflexivity;
    unfold spec_steps; cbn [last sp_upd sp_next]; rewrite Hstop.
  - destruct (actionable w'); destruct u'; reflexivity.
  - rewrite app_nil_r. destruct u'; reflexivity.
Qed.

(* regression documentation: without the two repairs the statement is false *)

Definition ex_d1 : prog :=
  {| p_id := "main"; p_main := [SUser "ask a"; SIf (EVar "c") [SBot "say b"] []]; p_subs := [] |}.
Definition ex_d1_hist : list event := [EvUser "ask a"; EvCtx [("c", VBool true)]; EvUser "ask a"].

Lemma unmarked_start_refuted :
  exists p hist, wf_prog p = true /\ nodo_block (p_main p) = true /\
    next_steps 50 p hist = Ok [OBot "say b"] /\
    compute_next_steps {| o_mark := false; o_guard := true |} 50 (compile_prog p) hist = Ok [].
Proof. exists ex_d1, ex_d1_hist. vm_compute. repeat split; reflexivity. Qed.

Definition ex_d2 : prog :=
  {| p_id := "main"; p_main := [SUser "ask a"; SDo "s one"; SBot "say end"];
     p_subs := [("s one", [SDo "s two"; SBot "say x"]); ("s two", [SUser "ask b"; SBot "say y"])] |}.

Lemma unguarded_call_refuted :
  exists p hist, wf_prog p = true /\
    next_steps 50 p hist = Ok [] /\
    compute_next_steps {| o_mark := true; o_guard := false |} 50 (compile_prog p) hist = Ok [OBot "say x"].
Proof. exists ex_d2, [EvUser "ask a"]. vm_compute. repeat split; reflexivity. Qed.

(* non-vacuity: a nested program without `do` and a history that follows it, leaves it ... *)

Definition ex_nodo : prog :=
  {| p_id := "main";
     p_main := [SUser "ask a"; SSet "i" (EInt 0); SBot "say b";
                SIf (ECmp CEq (EVar "i") (EInt 0))
                    [SBot "say c";
                     SWhile (ECmp CLt (EVar "i") (EInt 2))
                            [SUser "ask d"; SSet "i" (EAdd (EVar "i") (EInt 1));
                             SIf (ECmp CEq (EVar "i") (EInt 1)) [SContinue] [SBreak];
                             SBot "say never"]]
                    [SBot "say e"];
                SExec "act_x" "{}" (Some "r"); SBot "say f"];
     p_subs := [] |}.
Definition ex_nodo_hist : list event :=
  [EvUser "ask a"; EvBot "say b"; EvBot "say c"; EvUser "ask d"; EvUser "ask d"].

Example ex_nodo_hyps : wf_prog ex_nodo = true /\ nodo_block (p_main ex_nodo) = true.
Proof. split; reflexivity. Qed.

Example ex_nodo_follow :
  next_steps 100 ex_nodo ex_nodo_hist = Ok [OCtx [("i", VInt 2)]; OAct "act_x" "{}" (Some "r")] /\
  compute_next_steps {| o_mark := true; o_guard := true |} 100 (compile_prog ex_nodo) ex_nodo_hist
  = Ok [OCtx [("i", VInt 2)]; OAct "act_x" "{}" (Some "r")].
Proof. split; vm_compute; reflexivity. Qed.

Definition ex_nodo_state : res spec_state :=
  Eval vm_compute in spec_run 100 ex_nodo spec_init ex_nodo_hist.

Lemma ex_nodo_state_eq : spec_run 100 ex_nodo spec_init ex_nodo_hist = ex_nodo_state.
Proof. vm_compute. reflexivity. Qed.

Example ex_nodo_follows_to :
  exists k, follows_to 100 ex_nodo ex_nodo_hist (WExec "act_x" "{}" (Some "r")) k []
                       [("i", VInt 2)].
Proof.
  unfold follows_to. eexists. exists ex_nodo_hist.
  exists (match ex_nodo_state with Ok sp => sp | _ => spec_init end).
  split; [reflexivity|]. split; [rewrite ex_nodo_state_eq; reflexivity|]. split; reflexivity.
Qed.

Example ex_nodo_leave :
  compute_next_steps {| o_mark := true; o_guard := true |} 100 (compile_prog ex_nodo)
    (ex_nodo_hist ++ [EvUser "ask a"]) = Ok [].
Proof. vm_compute. reflexivity. Qed.

(* ... and the full statement evaluated on the nested program WITH a subflow (Structured.ex_prog) *)
Example ex_full_instance :
  forall h, In h [ex_hist; ex_hist ++ [EvBot "say s3"]; ex_hist ++ [EvUser "ask zzz"];
                  firstn 3 ex_hist; firstn 5 ex_hist ++ [EvBot "say nothing"]] ->
  compute_next_steps {| o_mark := true; o_guard := true |} 100 (compile_prog ex_prog) h
  = next_steps 100 ex_prog h.
Proof.
  intros h Hin. simpl in Hin.
  repeat (destruct Hin as [E|Hin]; [subst h; vm_compute; reflexivity|]). contradiction.
Qed.
