(* V1.Expr - the expression fragment of Colang 1.0 (`if`, `while`, `set`, `check`).

   Model of nemoguardrails/colang/v1_0/runtime/eval.py::eval_expression for the fragment the
   C14 generator and the shipped example flows use.  eval_expression replaces `$x` by
   `var_x`, binds `var_x := context.get("x")` (a missing variable is None, NOT an error) and
   calls simpleeval.simple_eval(..., functions={"len": len}).

   Values: None, bool, int, str, list.  `eval` returns None where Python raises (TypeError,
   IndexError, NameNotDefined ...): eval_expression re-raises it as Exception and the
   exception leaves compute_next_steps.

   Faithfulness notes (simpleeval 1.0.7):
     - `and` / `or` return one of their operands (Python semantics), short-circuit.
     - bool is an int: True == 1, True + True == 2, "ab"[True] == "b".
     - ordering is defined for number/number, str/str (code points; strings are byte strings
       here, the harness only admits code points < 256) and list/list (lexicographic, first
       position where `==` fails); anything else raises TypeError.
     - a comparison chain `a < b < c` is not in the fragment (translator rejects it).
     - simpleeval's MAX_STRING_LENGTH guard (100000) is not modelled.
   The reserved context keys `event`, `config`, `last_user_message`, `last_bot_message` are
   not modelled; the translator rejects expressions that read them. *)
From Coq Require Import ZArith List String Ascii Bool.
Import ListNotations.
Open Scope Z_scope.

Inductive value :=
| VNone
| VBool (b : bool)
| VInt (z : Z)
| VStr (s : string)
| VList (l : list value).

Definition ctx := list (string * value).

Fixpoint lookup {A} (k : string) (kvs : list (string * A)) : option A :=
  match kvs with
  | [] => None
  | (k', v) :: rest => if String.eqb k k' then Some v else lookup k rest
  end.

(* Python dict `d[k] = v` / d.update({k: v}): an existing key keeps its position *)
Fixpoint assoc_set {A} (k : string) (v : A) (kvs : list (string * A)) : list (string * A) :=
  match kvs with
  | [] => [(k, v)]
  | (k', v') :: rest => if String.eqb k k' then (k, v) :: rest else (k', v') :: assoc_set k v rest
  end.

Definition assoc_update {A} (kvs upd : list (string * A)) : list (string * A) :=
  fold_left (fun acc kv => assoc_set (fst kv) (snd kv) acc) upd kvs.

(* context.get(name) *)
Definition ctx_get (c : ctx) (x : string) : value :=
  match lookup x c with Some v => v | None => VNone end.

Inductive cmpop := CEq | CNe | CLt | CLe | CGt | CGe.

Inductive expr :=
| ENone
| EBool (b : bool)
| EInt (z : Z)
| EStr (s : string)
| EVar (x : string)                 (* $x *)
| EListLit (l : list expr)          (* [a, b] : not available in simple_eval, raises *)
| ENot (e : expr)
| ENeg (e : expr)                   (* unary minus *)
| EAnd (a b : expr)
| EOr (a b : expr)
| ECmp (op : cmpop) (a b : expr)
| EIsNone (neg : bool) (a : expr)   (* a is None / a is not None *)
| EAdd (a b : expr)
| ESub (a b : expr)
| ELen (a : expr)
| EIndex (a i : expr).

(* Python truthiness *)
Definition truthy (v : value) : bool :=
  match v with
  | VNone => false
  | VBool b => b
  | VInt z => negb (z =? 0)
  | VStr s => negb (String.eqb s "")
  | VList l => match l with [] => false | _ => true end
  end.

Definition as_num (v : value) : option Z :=
  match v with
  | VBool b => Some (if b then 1 else 0)
  | VInt z => Some z
  | _ => None
  end.

(* Python == *)
Fixpoint veq (a b : value) : bool :=
  match a, b with
  | VNone, VNone => true
  | VStr s, VStr t => String.eqb s t
  | VList l, VList m =>
      (fix go (l m : list value) : bool :=
         match l, m with
         | [], [] => true
         | x :: l', y :: m' => veq x y && go l' m'
         | _, _ => false
         end) l m
  | VBool x, VBool y => Bool.eqb x y
  | VBool x, VInt y => (if x then 1 else 0) =? y
  | VInt x, VBool y => x =? (if y then 1 else 0)
  | VInt x, VInt y => x =? y
  | _, _ => false
  end.

Fixpoint str_ltb (s t : string) : bool :=
  match s, t with
  | EmptyString, EmptyString => false
  | EmptyString, String _ _ => true
  | String _ _, EmptyString => false
  | String c s', String d t' =>
      let x := N_of_ascii c in let y := N_of_ascii d in
      if N.ltb x y then true else if N.ltb y x then false else str_ltb s' t'
  end.

(* strict: a < b ; non-strict: a <= b.  None = TypeError *)
Fixpoint vlt (strict : bool) (a b : value) : option bool :=
  match a, b with
  | VStr s, VStr t => Some (if strict then str_ltb s t else negb (str_ltb t s))
  | VList l, VList m =>
      (fix go (l m : list value) : option bool :=
         match l, m with
         | [], [] => Some (negb strict)
         | [], _ :: _ => Some true
         | _ :: _, [] => Some false
         | x :: l', y :: m' => if veq x y then go l' m' else vlt strict x y
         end) l m
  | _, _ =>
      match as_num a, as_num b with
      | Some x, Some y => Some (if strict then x <? y else x <=? y)
      | _, _ => None
      end
  end.

Definition vcmp (op : cmpop) (a b : value) : option bool :=
  match op with
  | CEq => Some (veq a b)
  | CNe => Some (negb (veq a b))
  | CLt => vlt true a b
  | CLe => vlt false a b
  | CGt => vlt true b a
  | CGe => vlt false b a
  end.

Definition vadd (a b : value) : option value :=
  match a, b with
  | VStr s, VStr t => Some (VStr (s ++ t))
  | VList l, VList m => Some (VList (l ++ m))
  | _, _ => match as_num a, as_num b with
            | Some x, Some y => Some (VInt (x + y))
            | _, _ => None
            end
  end.

Definition vsub (a b : value) : option value :=
  match as_num a, as_num b with
  | Some x, Some y => Some (VInt (x - y))
  | _, _ => None
  end.

Definition vlen (a : value) : option value :=
  match a with
  | VStr s => Some (VInt (Z.of_nat (String.length s)))
  | VList l => Some (VInt (Z.of_nat (List.length l)))
  | _ => None
  end.

(* Python index normalisation: negative indexes count from the end *)
Definition norm_index (len i : Z) : option nat :=
  let j := if i <? 0 then len + i else i in
  if (j <? 0) || (len <=? j) then None else Some (Z.to_nat j).

Definition vindex (a i : value) : option value :=
  match as_num i with
  | None => None
  | Some z =>
      match a with
      | VStr s =>
          match norm_index (Z.of_nat (String.length s)) z with
          | Some n => match String.get n s with
                      | Some c => Some (VStr (String c EmptyString))
                      | None => None
                      end
          | None => None
          end
      | VList l =>
          match norm_index (Z.of_nat (List.length l)) z with
          | Some n => nth_error l n
          | None => None
          end
      | _ => None
      end
  end.

Definition obind {A B} (o : option A) (f : A -> option B) : option B :=
  match o with Some a => f a | None => None end.

Fixpoint eval (c : ctx) (e : expr) : option value :=
  match e with
  | ENone => Some VNone
  | EBool b => Some (VBool b)
  | EInt z => Some (VInt z)
  | EStr s => Some (VStr s)
  | EVar x => Some (ctx_get c x)
  | EListLit _ => None              (* simple_eval: "List is not available in this evaluator" *)
  | ENot a => obind (eval c a) (fun v => Some (VBool (negb (truthy v))))
  | ENeg a => obind (eval c a) (fun v => obind (as_num v) (fun z => Some (VInt (- z))))
  | EAnd a b => obind (eval c a) (fun v => if truthy v then eval c b else Some v)
  | EOr a b => obind (eval c a) (fun v => if truthy v then Some v else eval c b)
  | ECmp op a b => obind (eval c a) (fun x => obind (eval c b) (fun y =>
                   obind (vcmp op x y) (fun r => Some (VBool r))))
  | EIsNone neg a => obind (eval c a) (fun v =>
                     let isn := match v with VNone => true | _ => false end in
                     Some (VBool (if neg then negb isn else isn)))
  | EAdd a b => obind (eval c a) (fun x => obind (eval c b) (fun y => vadd x y))
  | ESub a b => obind (eval c a) (fun x => obind (eval c b) (fun y => vsub x y))
  | ELen a => obind (eval c a) vlen
  | EIndex a i => obind (eval c a) (fun x => obind (eval c i) (fun y => vindex x y))
  end.

Open Scope string_scope.
Example eval_ex1 : eval [("i", VInt 1)] (ECmp CLt (EAdd (EVar "i") (EInt 1)) (EInt 3)) = Some (VBool true).
Proof. reflexivity. Qed.
Example eval_ex2 : eval [] (EAdd (EVar "i") (EInt 1)) = None.        (* None + 1 : TypeError *)
Proof. reflexivity. Qed.
Example eval_ex3 : eval [] (EOr (EVar "x") (EStr "d")) = Some (VStr "d").
Proof. reflexivity. Qed.
Example eval_ex4 : eval [("s", VStr "abc")] (EIndex (EVar "s") (ENeg (EInt 1))) = Some (VStr "c").
Proof. reflexivity. Qed.
Example eval_ex5 : eval [] (ECmp CEq (EBool true) (EInt 1)) = Some (VBool true).
Proof. reflexivity. Qed.
Example eval_ex6 : eval [("a", VList [VInt 1; VInt 2]); ("b", VList [VInt 1; VInt 3])] (ECmp CLt (EVar "a") (EVar "b")) = Some (VBool true).
Proof. reflexivity. Qed.
