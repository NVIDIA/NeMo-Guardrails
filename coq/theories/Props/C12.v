(* C12 - Compiled flows are closed: every jump target exists and only primitives remain.
   Property theorems only; every proof is `exact <lemma>`; Print Assumptions beneath each.

   Colang 1.0: theorems about V1.Compile.compile (Gallina transcription of
   coyml_parser._extract_elements/_resolve_gotos/_process_ellipsis, tied to the real parser by
   the differential of harness/c12.py) for item trees of ANY nesting.
   Colang 2.x: soundness of the checker V2.Closed.closedb, which harness/c12.py runs inside Coq
   on the real expanded elements of every flow the loader compiles (per-program validation by a
   verified checker); closedness of the expansions modelled in V2/Expand.v (a fragment of
   expand_elements, see C12_v2_expand_closed; what is outside it is covered by the checker only);
   the (T) obligations about the classes the CURRENT slide()/expand_elements() dispatch on
   (Gen/C12Consts.v). *)
From Coq Require Import ZArith List String Bool.
From NG Require Import Gen.C12Consts
                       V1.CompileItems V1.Compile V1.CompileRun V1.Compile_proofs
                       V2.ClosedAst V2.Closed V2.Closed_proofs V2.ClosedGen_proofs
                       V2.Expand V2.Expand_proofs V2.Typed V2.Typed_proofs V2.ExpandTyping V2.ExpandTyping_proofs.
Import ListNotations.
Open Scope string_scope.

(* every offset of every compiled element (_next, _next_else, _next_on_break, _next_on_continue,
   each branch head) lands inside the flow, mandatory offsets are present, no label/goto is left *)
Theorem C12_v1_offsets : forall items es, compile items = Ok es -> closed_v1 es.
Proof. exact compile_closed. Qed.
Print Assumptions C12_v1_offsets.

(* every position slide()/compute_next_state() can move to from an element (incl. +1 for the
   matched branch head) is in [0, len], or -1 for the absolute jump `return` *)
Theorem C12_v1_targets :
  forall items es, compile items = Ok es ->
  forall i e t, nth_error es i = Some e -> In t (targets (Z.of_nat i) e) ->
                (-1 <= t <= zlen es)%Z /\ (t = (-1)%Z -> e_abs e = true).
Proof. exact compile_targets. Qed.
Print Assumptions C12_v1_targets.

(* flow_config.elements[head + branch_head] always exists *)
Theorem C12_v1_branch_heads_indexed :
  forall items es, compile items = Ok es ->
  forall i e h, nth_error es i = Some e -> In h (e_heads e) ->
                exists e', nth_error es (Z.to_nat (Z.of_nat i + h)) = Some e'.
Proof. exact compile_branch_heads_indexed. Qed.
Print Assumptions C12_v1_branch_heads_indexed.

(* slide() on compiled code never indexes outside the flow and never misses an offset key,
   whatever the conditions evaluate to, from every head, for every number of steps *)
Theorem C12_v1_slide_safe :
  forall cond items es, compile items = Ok es ->
  forall fuel head prev, (-1 <= head <= zlen es)%Z ->
    slide cond fuel es head prev <> SIndexError /\ slide cond fuel es head prev <> SKeyError.
Proof. exact compile_slide_safe. Qed.
Print Assumptions C12_v1_slide_safe.

(* the boolean checker run on the real elements of every shipped flow is exact, and what it
   accepts is safe to slide *)
Theorem C12_v1_checker_exact : forall es, offsets_okb es = true <-> closed_v1 es.
Proof. exact offsets_okb_iff. Qed.
Print Assumptions C12_v1_checker_exact.

Theorem C12_v1_closed_slide_safe :
  forall cond es, closed_v1 es ->
  forall fuel head prev, (-1 <= head <= zlen es)%Z ->
    slide cond fuel es head prev <> SIndexError /\ slide cond fuel es head prev <> SKeyError.
Proof. exact closed_slide_safe. Qed.
Print Assumptions C12_v1_closed_slide_safe.

(* compilation raises the duplicate-label error exactly on a duplicated label (the undefined-goto
   case is V1.Compile_proofs.compile_undef) *)
Theorem C12_v1_compile_errors :
  forall items, compile items = Err DupLabel <-> has_dup (labels_of (extract items)) = true.
Proof. exact compile_dup. Qed.
Print Assumptions C12_v1_compile_errors.

(* a flow the checker accepts: along every path of a head from the flow start no label lookup
   fails, no scope is re-opened or unknown, no failure-handler underflow, no composite element;
   the flow end is reached only with every scope closed; every referenced label (reachable or
   not) is a Label of the same flow; no composite left; every MergeHeads has its ForkHead *)
Theorem C12_v2_checker_sound : forall es, closedb es = true -> closed_v2 es.
Proof. exact closedb_sound. Qed.
Print Assumptions C12_v2_checker_sound.

Theorem C12_v2_end_no_open_scope :
  forall es, closedb es = true ->
  forall p sc ct, reach es (p, sc, ct) -> (List.length es <= p)%nat -> sc = [].
Proof. exact closed_end_no_open_scope. Qed.
Print Assumptions C12_v2_end_no_open_scope.

(* every BeginScope executed on a path is followed, on that path to the flow end, by its EndScope *)
Theorem C12_v2_begin_then_end :
  forall es, closedb es = true ->
  forall p sc ct n c1 mid pe sce cte,
    reach es (p, sc, ct) -> nth_error es p = Some (EBegin n) ->
    step es (p, sc, ct) c1 -> path es c1 mid (pe, sce, cte) -> (List.length es <= pe)%nat ->
    exists q scq ctq, In (q, scq, ctq) mid /\ nth_error es q = Some (EEnd n).
Proof. exact closed_begin_then_end. Qed.
Print Assumptions C12_v2_begin_then_end.

(* the checker's successor function is exact w.r.t. the semantics (no over-approximation) *)
Theorem C12_v2_checker_exact_steps :
  forall es c cs c', step_fn es c = Next cs -> In c' cs -> step es c c'.
Proof. exact next_is_step. Qed.
Print Assumptions C12_v2_checker_exact_steps.

(* (T) every primitive kind of the model is a class the CURRENT slide() has a branch for (or a
   raw statement its final else steps over); if/while/when and start/stop/activate/deactivate/
   await are rewritten by the CURRENT expand_elements() and are not handled by slide() *)
Theorem C12_v2_slide_handles_primitives :
  forall e, primitive e ->
            In (kind_class e) slide_classes \/ (kind_class e = ignored /\ slide_ignores_unknown = true).
Proof. exact slide_handles_primitives. Qed.
Print Assumptions C12_v2_slide_handles_primitives.

Theorem C12_v2_composites_expanded_not_slid :
  forallb (fun c => sinb c expand_classes && negb (sinb c slide_classes)) ["While"; "If"; "When"] = true /\
  forallb (fun o => sinb o expand_ops) ["start"; "stop"; "activate"; "deactivate"; "await"; "send"; "match"] = true /\
  forallb (fun o => negb (sinb o slide_sliding_ops)) ["start"; "stop"; "activate"; "deactivate"; "await"; "match"] = true.
Proof. exact composites_expanded_not_slid. Qed.
Print Assumptions C12_v2_composites_expanded_not_slid.

(* the expansion (V2/Expand.v, tied to the real expand_elements by the correspondence of
   harness/c12.py modulo renaming of the generated names).
   MODELLED, any nesting:
     if / elif / else;  while with break / continue;  return;  abort;
     match on events as any and/or group (the source tree carries its disjunctive normal form:
       one blocking element, an and-group, or an or-structure over them);
     start of flows and actions as any and/or group (single, sequence, or or-structure);
     await of flows and actions (and the bare flow call) as any and/or group - start then match
       `Finished`, the or-structure variant opens and closes a scope;
     activate of one flow or an and-group of flows;
     when / or when / else whose case triggers are an event, flow or action or an AND-group of
       them (REPAIRED expansion: else group emitted once, EndScope on the else path);
     plain statements (assignment, send of an internal event, log, print, priority, global) and
       single blocking statements (match of one event, send of an action event).
   NOT MODELLED (such flows are validated per program by closedb - C12_v2_checker_sound):
     when-cases whose trigger contains an OR: the source emits the case label, the then-body and
       the failure block once per or-branch of the trigger (duplicate labels, last one wins) and the
       copies of the then-body share their Break / Continue objects, so that an inner loop of a
       later copy jumps into the first copy - closed, but not a function of the source tree alone;
     send / stop / deactivate, singly or on groups (single deactivate is one plain element; stop of
       a single element and activate of an or-group raise NotImplementedError in the source);
     `as $ref` captures on members of a group and return-value assignments `$x = await ..`
       (they only add Assignment elements), `$x = ..."instruction"` (rewritten to an await of
       GenerateValueAction plus an assignment);
     user labels, doc strings, `pass` (steps-over elements without targets).
   For every source tree of the modelled constructs in which break / continue occur only inside
   loops, the expanded flow is closed: along every path of a head no label lookup fails, every
   BeginScope the expansion emits (when, await or-structure) is closed again - on the case paths,
   the else path, the failure paths and the break / continue / return paths -, CatchPatternFailure
   pushes and pops are balanced, the flow end is reached with no open scope; all referenced labels
   exist, every MergeHeads has its ForkHead, only primitives remain, every Break / Continue names
   its loop.
   Proof: a typing discipline (V2/Typed.v: one linear pass with a declared state per label),
   proved sound w.r.t. the head-token semantics, and a typing derivation for every expansion
   by induction over the source tree (V2/ExpandTyping_proofs.v). *)
Theorem C12_v2_expand_closed :
  forall ss, wf_list false ss = true -> closed_v2 (expand ss).
Proof. exact expand_closed. Qed.
Print Assumptions C12_v2_expand_closed.

(* soundness of the typing discipline itself, for any flow and any functional declaration G *)
Theorem C12_v2_typing_sound :
  forall (G : string -> state -> Prop),
    (forall l s1 s2, G l s1 -> G l s2 -> s1 = s2) ->
    forall es fin, typed G (Some ([], [])) es fin -> end_ok fin -> labels_okb es = true ->
    forall c, reach es c -> forall x, ~ fails es c x.
Proof. exact typed_sound. Qed.
Print Assumptions C12_v2_typing_sound.

(* its static part holds without the well-formedness hypothesis *)
Theorem C12_v2_expand_static_closed_partial :
  forall ss, labels_okb (expand ss) = true /\ no_compositeb (expand ss) = true /\ merges_okb (expand ss) = true.
Proof. exact expand_static_closed. Qed.
Print Assumptions C12_v2_expand_static_closed_partial.

(* ... and, in a source where break / continue occur only inside loops, at every statement position
   of every nested construct (if/else, each when case, when-else, nested loops), every expanded
   Break / Continue carries the label of its loop *)
Theorem C12_v2_expand_loop_exits_partial :
  forall ss, wf_list false ss = true -> loop_exits_okb (expand ss) = true.
Proof. exact expand_loop_exits. Qed.
Print Assumptions C12_v2_expand_loop_exits_partial.

Theorem C12_v2_expand_labels_exist :
  forall ss i e l, nth_error (expand ss) i = Some e -> In l (elem_labels e) ->
                   exists k, (k < List.length (expand ss))%nat /\ nth_error (expand ss) k = Some (ELabel l).
Proof. exact expand_labels_exist. Qed.
Print Assumptions C12_v2_expand_labels_exist.

(* regression documentation (F8): the expansion of `when .. else` WITHOUT an EndScope on the else
   path, inside a loop, reaches BeginScope with the scope still open - the runtime error
   "Scope with name .. already opened in this head!" *)
Theorem C12_v2_when_else_without_endscope_refuted :
  exists c, reach (when_else false) c /\ fails (when_else false) c (XScopeReopened "s").
Proof. exact when_else_unfixed_refuted. Qed.
Print Assumptions C12_v2_when_else_without_endscope_refuted.

(* ... and with it the same flow is closed *)
Theorem C12_v2_when_else_with_endscope_closed : closed_v2 (when_else true).
Proof. exact closed_v2_when_else_fixed. Qed.
Print Assumptions C12_v2_when_else_with_endscope_closed.
