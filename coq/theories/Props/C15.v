(* C15 - Conversations served by one LLMRails instance do not influence each other.
   Property theorems only; every proof is `exact` of a lemma or of a term built from lemmas; Print
   Assumptions beneath each.
   `hist_lookup_verifies_messages`, `ctx_options_always_set`, `params_exit_restores_all`, and
   `hist_sep`, `hist_key_*` (from which Svc/HistRun.v builds `sep_now`, `contributes_now`) are read
   from the CURRENT source by translator/gen_c15.py (Gen/C15Consts.v): without the verified lookup
   of fixes/C15-cache-verify.patch the first two theorems fail to check. *)
From Coq Require Import List String Ascii Bool Arith ZArith.
From NG Require Import Gen.C15Consts Svc.HistKey Svc.HistKey_proofs Svc.HistCache Svc.HistCache_proofs
                       Svc.HistCache_more Svc.HistRun Svc.Hist_now Svc.HistEvict
                       Svc.Params Svc.Params_proofs Svc.Params_more Svc.Ctx Svc.Ctx_proofs.
Import ListNotations.
Open Scope string_scope.
Open Scope list_scope.

(* (T) the current source takes a cache hit only for exactly the looked-up message list,
   LLMParams.__exit__ restores every saved parameter, and generate_async writes the
   generation-options context variable on entry of EVERY request (also with options = None) *)
Theorem C15_lookup_verified_in_source :
  hist_lookup_verifies_messages = true /\ params_exit_restores_all = true /\ ctx_options_always_set = true.
Proof. exact (conj eq_refl (conj eq_refl eq_refl)). Qed.
Print Assumptions C15_lookup_verified_in_source.

(* History cache, lookup of the current source, join key with ANY separator / role cases /
   alphabet, ANY generation function G and event conversion: for every schedule (sequence of
   requests of any number of conversations) every honest conversation - its requests are its
   own earlier requests and replies plus new messages that do not impersonate the service -
   is turned into exactly the events, and gets exactly the replies, it gets alone on a fresh
   instance.  Texts may contain the separator and mimic other messages. *)
Theorem C15_cache_isolation :
  forall (A : Type) (A_eq_dec : forall x y : A, {x = y} + {x <> y})
         (sep : list A) (contributes : role -> bool)
         (Ev : Type) (conv : list (msg A) -> list Ev) (G : list Ev -> list Ev)
         (reply : list Ev -> msg A) (is_reply : role -> bool),
    (forall ev, is_reply (m_role (reply ev)) = true) ->
    forall convs, honest A is_reply convs ->
    forall sched c,
      shared_trace A A_eq_dec (list A) (str_eqb A_eq_dec) (key sep contributes) Ev conv G reply
                   hist_lookup_verifies_messages convs sched c
      = firstn (count c sched)
               (alone A A_eq_dec (list A) (str_eqb A_eq_dec) (key sep contributes) Ev conv G reply
                      hist_lookup_verifies_messages (convs c)).
Proof.
  exact (fun A A_eq_dec sep contributes Ev conv G reply is_reply Hr convs Hh =>
           isolation A A_eq_dec (list A) (str_eqb A_eq_dec) (str_eqb_eq A A_eq_dec) (key sep contributes)
                     Ev conv G reply is_reply Hr hist_lookup_verifies_messages convs Hh (or_introl eq_refl)).
Qed.
Print Assumptions C15_cache_isolation.

(* The lookup as shipped (hit on the key alone) isolates conversations for every key function
   that is injective on the message lists in play *)
Theorem C15_cache_isolation_injective_key :
  forall (A : Type) (A_eq_dec : forall x y : A, {x = y} + {x <> y})
         (K : Type) (K_eqb : K -> K -> bool), (forall x y, K_eqb x y = true <-> x = y) ->
  forall (keyf : list (msg A) -> K)
         (Ev : Type) (conv : list (msg A) -> list Ev) (G : list Ev -> list Ev)
         (reply : list Ev -> msg A) (is_reply : role -> bool),
    (forall ev, is_reply (m_role (reply ev)) = true) ->
    forall convs, honest A is_reply convs ->
    keyf_injective_on A K keyf (in_play A Ev conv G reply convs) ->
    forall sched c,
      shared_trace A A_eq_dec K K_eqb keyf Ev conv G reply false convs sched c
      = firstn (count c sched) (alone A A_eq_dec K K_eqb keyf Ev conv G reply false (convs c)).
Proof.
  exact (fun A A_eq_dec K K_eqb HK keyf Ev conv G reply is_reply Hr convs Hh Hinj =>
           isolation A A_eq_dec K K_eqb HK keyf Ev conv G reply is_reply Hr false convs Hh (or_intror Hinj)).
Qed.
Print Assumptions C15_cache_isolation_injective_key.

(* ... and the key of the source is NOT injective, for every separator string: the separator
   is not escaped ("a<sep>R" vs "a","R"), roles are not part of it, other roles are invisible *)
Theorem C15_key_not_injective_any_separator :
  forall (A : Type) (sep : list A) (contributes : role -> bool),
    (exists r, contributes r = true) -> forall (a r : list A),
    ~ key_injective_on sep contributes (fun _ => True).
Proof. exact key_not_injective. Qed.
Print Assumptions C15_key_not_injective_any_separator.

(* defect F6 (regression documentation): with the key of the current source and the lookup as
   shipped, an honest conversation is turned into another conversation's events *)
Theorem C15_key_collision_refuted :
  (key_now [mk (RUser, "a:R")] = key_now [mk (RUser, "a"); mk (RAssistant, "R")] /\
   key_now [mk (RUser, "a")] = key_now [mk (RAssistant, "a")] /\
   key_now [mk (RUser, "a"); mk (ROther 0, "x")] = key_now [mk (RUser, "a")]) /\
  exists convs sched c,
    honest ascii is_reply_c convs /\
    shared_c false convs sched c <> firstn (count c sched) (alone_c false (convs c)).
Proof. exact (conj key_now_collisions collision_changes_events). Qed.
Print Assumptions C15_key_collision_refuted.

(* Verified lookup, ARBITRARY clients and cache contents (no honesty needed): entries stored for
   other message lists are never used - a request none of whose proper prefixes literally is a
   message list something was stored for is turned into the plain conversion of its messages,
   whatever keys those entries have *)
Theorem C15_unrelated_entries_ignored :
  forall (A : Type) (A_eq_dec : forall x y : A, {x = y} + {x <> y})
         (K : Type) (K_eqb : K -> K -> bool) (keyf : list (msg A) -> K)
         (Ev : Type) (conv : list (msg A) -> list Ev) (c : cache A K Ev) ms,
    (forall p e, 0 < p < List.length ms -> In e c -> e_msgs _ _ _ e <> firstn p ms) ->
    events_for A A_eq_dec K K_eqb keyf Ev conv true c ms = conv ms.
Proof. exact unrelated_entries_ignored. Qed.
Print Assumptions C15_unrelated_entries_ignored.

(* why the repair keeps one entry per MESSAGE LIST under a key: a repair that verifies the
   messages on a hit but keeps a single entry per key is refuted - another conversation evicts
   the entry and the continuing conversation is turned into different events *)
Theorem C15_evicting_repair_refuted :
  key_now (ev_xR ++ [reply_exc]) = key_now (ev_x ++ [reply_R]) /\
  events_for_c true cache_shared req2 <> events_for_c true cache_alone req2.
Proof. exact evicting_store_refuted. Qed.
Print Assumptions C15_evicting_repair_refuted.

(* LLMParams, one manager: when every altered parameter has a proper place (an attribute or an
   existing model_kwargs entry) exit after enter gives back exactly the configured object *)
Theorem C15_params_sequential :
  forall alt l, normal l alt -> exit_ (snd (enter alt l [])) (fst (enter alt l [])) = l.
Proof. exact exit_enter. Qed.
Print Assumptions C15_params_sequential.

(* LLMParams, any number of tasks, under the explicit no-overlap hypothesis (every call's
   enter / LLM call / exit run back to back): afterwards the object is the configured one,
   nothing is in flight, and every call saw the configured object with exactly its own
   parameters *)
Theorem C15_params_quiescent :
  forall l tasks sched,
    (forall t, Forall (normal l) (tasks t)) -> serial sched ->
    p_llm (s_st (fst (srun sched (sinit l tasks)))) = l /\
    quiescent (fst (srun sched (sinit l tasks))) /\
    Forall (fun ob => po_seen ob = with_params (po_own ob) l) (snd (srun sched (sinit l tasks))).
Proof. exact serial_ok. Qed.
Print Assumptions C15_params_quiescent.

(* ... and not only at the end: at EVERY moment of a no-overlap schedule at which nothing is in
   flight the parameters are the configured ones *)
Theorem C15_params_quiescent_always :
  forall l tasks sched pre post,
    (forall t, Forall (normal l) (tasks t)) -> serial sched -> sched = pre ++ post ->
    quiescent (fst (srun pre (sinit l tasks))) ->
    p_llm (s_st (fst (srun pre (sinit l tasks)))) = l.
Proof. exact quiescent_always_configured. Qed.
Print Assumptions C15_params_quiescent_always.

(* properly nested managers (LIFO) also restore the configured object *)
Theorem C15_params_nested_restores :
  forall l a b,
    normal l a -> normal (fst (enter a l [])) b ->
    let '(l1, sa) := enter a l [] in
    let '(l2, sb) := enter b l1 [] in
    exit_ sa (exit_ sb l2) = l.
Proof. exact nested_restores. Qed.
Print Assumptions C15_params_nested_restores.

(* known finding (regression documentation): two overlapping tasks - task 0's call runs with
   task 1's temperature and, after both finished, the temperature is not the configured one *)
Theorem C15_params_concurrent_refuted :
  exists l tasks sched,
    (forall t, Forall (normal l) (tasks t)) /\
    let s' := fst (srun sched (sinit l tasks)) in
    let log := snd (srun sched (sinit l tasks)) in
    (forall t, t < 2 -> s_prog s' t = [] /\ p_open (s_st s') t = []) /\
    p_llm (s_st s') <> l /\
    exists ob, In ob log /\ po_task ob = 0 /\ po_own ob = [(0, PVal 200)] /\
               po_seen ob = with_params [(0, PVal 900)] l /\ po_seen ob <> with_params (po_own ob) l.
Proof. exact overlap_refuted. Qed.
Print Assumptions C15_params_concurrent_refuted.

(* known finding: a parameter passed through model_kwargs that was absent before is left
   behind as None, even sequentially (pinned by tests/test_llm_params.py) *)
Theorem C15_params_absent_kwarg_refuted :
  exists l alt, NoDup (keys alt) /\ exit_ (snd (enter alt l [])) (fst (enter alt l [])) <> l.
Proof. exact absent_kwarg_refuted. Qed.
Print Assumptions C15_params_absent_kwarg_refuted.

(* Per-request context variables, entry code of the current source: for every sequence of
   requests and task creations - requests served one after the other by the same coroutine
   share a context, a new task starts with a copy - the LLM calls of a request see exactly that
   request's own generation options (llm_params, rails, ...), never those of a request served
   before in the same or any other context *)
Theorem C15_request_context_own :
  forall (V : Type) (ops : list (cop V)) (c : ctxs V),
    Forall (fun x => snd x = fst x) (crun V ctx_options_always_set c ops).
Proof. exact own_options_seen. Qed.
Print Assumptions C15_request_context_own.

(* regression documentation: writing the variable only for requests that carry options lets an
   option-less request see the options of the request served before it in the same context *)
Theorem C15_stale_context_refuted :
  exists (ops : list (cop nat)) own seen,
    In (own, seen) (crun nat false (cinit nat) ops) /\ own = None /\ seen = Some 7.
Proof. exact conditional_set_refuted. Qed.
Print Assumptions C15_stale_context_refuted.
