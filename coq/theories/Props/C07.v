(* C07 - and/or groups behave like the boolean formula they spell.
   Property theorems only; every proof is `exact` of a lemma or of a term built from lemmas;
   Print Assumptions beneath each.

   Models:  V2/Dnf.v     normalize / flatten_or / elements: transcription of
                         expansion.py normalize_element_groups + flatten_or_group
                         (Python exceptions explicit as None)
            V2/Groups.v  compile: what _expand_match_element / _expand_await_element /
                         _expand_when_stmt_element emit for a normalised group (or-fork per
                         alternative, and-fork per member, WaitForHeads(n), MergeHeads);
                         deliver / run: the head protocol of statemachine.py for these elements
            V2/GroupsFail.v  the failure side: fcompile adds the WaitForHeads numbers of the failure
                         handlers, several `when` cases; fdeliver / frun: the same protocol when
                         member flows can fail
   Non-vacuity examples: V2/Groups_examples.v, V2/Dnf_proofs.v (normalize_equiv_example).
   All theorems hold for groups of any size and nesting depth, any atom type, any event type
   and any matching relation `mt` between atoms and events. *)
From Coq Require Import List Bool Arith Permutation.
From NG Require Import V2.Dnf V2.Dnf_proofs V2.Groups V2.Groups_proofs V2.GroupsFail V2.GroupsFail_proofs.
Import ListNotations.

(* the normaliser never raises and its result spells the same boolean function *)
Theorem C07_dnf_equiv :
  forall (A : Type) (f : formula A) (s : A -> bool),
    exists d, normalize f = Some d /\ eval s d = eval s f.
Proof.
  exact (fun A f s => ex_intro _ (dnf (nf f))
           (conj (normalize_nf A f) (normalize_equiv A s f _ (normalize_nf A f)))).
Qed.
Print Assumptions C07_dnf_equiv.

(* the result has the shape the expansion subscripts: ONE spec_or whose elements are spec_and
   groups whose elements are Specs *)
Theorem C07_dnf_shape :
  forall (A : Type) (f : formula A),
    exists alts : list (list A),
      normalize f = Some (Or (map (fun c => And (map Atom c)) alts))
      /\ alts_of (Or (map (fun c => And (map Atom c)) alts)) = Some alts.
Proof. exact (fun A f => ex_intro _ (nf f) (conj (normalize_nf A f) (alts_of_dnf A (nf f)))). Qed.
Print Assumptions C07_dnf_shape.

(* ... and it is exactly the DNF obtained by distributing `and` over `or`, left to right *)
Theorem C07_dnf_exact :
  forall (A : Type) (f : formula A), normalize f = Some (dnf (nf f)).
Proof. exact normalize_nf. Qed.
Print Assumptions C07_dnf_exact.

(* what the expansions emit: one fork branch per alternative of the DNF, in it one head per member
   occurrence and WaitForHeads(number of members); a single-member alternative is a plain match;
   `when` always forks, match/await only for more than one alternative *)
Theorem C07_compile_shape :
  forall (A : Type) (st : stmt) (f : formula A),
    compile st f = Some (prog_of st (nf f))
    /\ (forall (c ms : list A) (n : nat), branch_of c = BAnd ms n -> ms = c /\ n = length c).
Proof. exact (fun A st f => Logic.conj (compile_spec A st f) (branch_of_wait A)). Qed.
Print Assumptions C07_compile_shape.

(* the expansion of a group statement never raises *)
Theorem C07_no_error :
  forall (A E : Type) (mt : A -> E -> bool) (st : stmt) (f : formula A) (evs : list E),
    run mt st f evs <> OErr.
Proof. exact run_no_error. Qed.
Print Assumptions C07_no_error.

(* THE property: for a group that is not already true of the empty set (every group the parser
   produces: wf_eval_empty), the statement completes in step n iff n is the first n such that the
   events of steps 1..n satisfy the formula - whatever the order, with irrelevant and repeated
   events anywhere - and never if no prefix satisfies it *)
Theorem C07_first_moment :
  forall (A E : Type) (mt : A -> E -> bool) (st : stmt) (f : formula A) (evs : list E),
    eval (fun _ => false) f = false ->
    run mt st f evs = first_sat mt f evs.
Proof. exact run_first_sat. Qed.
Print Assumptions C07_first_moment.

(* the same, spelled out: "at exactly the first moment ... and not before" *)
Theorem C07_first_moment_spelled :
  forall (A E : Type) (mt : A -> E -> bool) (st : stmt) (f : formula A) (evs : list E) (n : nat),
    eval (fun _ => false) f = false ->
    (run mt st f evs = OAt n <->
     (1 <= n <= length evs
      /\ eval (received mt (firstn n evs)) f = true
      /\ forall m, m < n -> eval (received mt (firstn m evs)) f = false)).
Proof. exact run_at_iff. Qed.
Print Assumptions C07_first_moment_spelled.

Theorem C07_never_spelled :
  forall (A E : Type) (mt : A -> E -> bool) (st : stmt) (f : formula A) (evs : list E),
    eval (fun _ => false) f = false ->
    (run mt st f evs = ONever <->
     (forall m, m <= length evs -> eval (received mt (firstn m evs)) f = false)).
Proof. exact run_never_iff. Qed.
Print Assumptions C07_never_spelled.

(* groups as the parser produces them (no empty group) satisfy the hypothesis *)
Theorem C07_parser_groups_ok :
  forall (A : Type) (f : formula A), wf f = true -> eval (fun _ => false) f = false.
Proof. exact wf_eval_empty. Qed.
Print Assumptions C07_parser_groups_ok.

(* independent of arrival order: whether the statement has completed after a batch of events
   depends only on the set of events received ... *)
Theorem C07_completes_iff :
  forall (A E : Type) (mt : A -> E -> bool) (st : stmt) (f : formula A) (evs : list E),
    eval (fun _ => false) f = false ->
    ((exists n, run mt st f evs = OAt n) <-> eval (received mt evs) f = true).
Proof. exact completes_iff. Qed.
Print Assumptions C07_completes_iff.

(* ... hence any permutation of the events completes it as well *)
Theorem C07_order_independent :
  forall (A E : Type) (mt : A -> E -> bool) (st : stmt) (f : formula A) (evs evs' : list E),
    eval (fun _ => false) f = false ->
    Permutation evs evs' ->
    ((exists n, run mt st f evs = OAt n) <-> (exists n, run mt st f evs' = OAt n)).
Proof. exact order_independent. Qed.
Print Assumptions C07_order_independent.

(* irrelevant events (matching no atom) and repeated events (matching only atoms already
   received) are ignored: inserting one anywhere leaves the completing event the same *)
Theorem C07_ignored_event :
  forall (A E : Type) (mt : A -> E -> bool) (st : stmt) (f : formula A) (p r : list E) (x : E),
    eval (fun _ => false) f = false ->
    (forall a, In a (atoms f) -> mt a x = true -> received mt p a = true) ->
    run mt st f (p ++ x :: r) = shift_after (length p) (run mt st f (p ++ r)).
Proof. exact ignored_event. Qed.
Print Assumptions C07_ignored_event.

(* await / when on groups of flows: the same formula over the flows' Finished events.
   Corollary of C07_first_moment for st = SAwait / SWhen; what it assumes, precisely:
   (1) expansion.py compiles `await <group>` and a `when <group>` case to the fork / and-fork /
       WaitForHeads(len) / MergeHeads shape of Groups.compile with one started flow instance per
       member OCCURRENCE of the normalised group and one `match $ref.Finished` head per instance
       (checked against the real expansion on every run: correspondence X3);
   (2) `finishes_in fl e` = "step e makes the running instances of flow fl started by the
       statement finish", i.e. their FlowFinished events are processed in step e and in no
       earlier step; all instances of the same flow finish in the same step;
   (3) no member flow fails (a Failed member goes to the failure label: C07_cases_fail below) and
       none finishes in the step that starts it. *)
Theorem C07_await_when :
  forall (Flow Step : Type) (finishes_in : Flow -> Step -> bool)
         (f : formula Flow) (steps : list Step),
    eval (fun _ => false) f = false ->
    run finishes_in SAwait f steps = first_sat finishes_in f steps
    /\ run finishes_in SWhen f steps = first_sat finishes_in f steps.
Proof. exact (fun Flow Step fin f steps H => conj (C07_first_moment Flow Step fin SAwait f steps H)
                                                  (C07_first_moment Flow Step fin SWhen f steps H)). Qed.
Print Assumptions C07_await_when.

(* failing members and `when` statements with several cases (V2/GroupsFail.v):
   mt a e = the flow instance of atom a finishes in step e, fl a e = it fails in step e.
   status p a = what the first such event in p did to a.  A failed member never finishes. *)

(* what the expansions emit on the failure side: a case waits for ALL its alternatives to fail
   (WaitForHeads(number of alternatives), none for a single alternative), a `when` statement waits
   for ALL its cases to fail (WaitForHeads(number of cases)) *)
Theorem C07_fail_compile_shape :
  forall (A : Type) (st : stmt) (fs : list (formula A)),
    stmt_ok A st fs ->
    exists els,
      fcompile st fs = Some (mkF (map (fun f => cprog_of (prog_of st (nf f))) fs) els)
      /\ fw_ok els (length fs)
      /\ (forall alts : list (list A),
            cp_branches (cprog_of (prog_of st alts)) = map branch_of alts
            /\ fw_ok (cp_fail_wait (cprog_of (prog_of st alts))) (length alts)).
Proof.
  exact (fun A st fs H =>
           match fcompile_spec A st fs H with
           | ex_intro _ els (Logic.conj H1 H2) =>
               ex_intro _ els (Logic.conj H1 (Logic.conj H2 (cprog_of_prog_of A st)))
           end).
Qed.
Print Assumptions C07_fail_compile_shape.

(* THE property with failing members: the statement completes in the first step in which the
   FINISHED members satisfy the formula of some case - failed members count as never finishing -
   and the body that runs belongs to one of exactly those cases; it fails (else / abort) in the
   first step in which no case can hold any more; nothing happens before (fspec; C07_cases_done_spelled,
   C07_cases_winners and C07_cases_failed_iff say what its completion and its per-prefix
   verdicts mean) *)
Theorem C07_cases_fail :
  forall (A E : Type) (mt fl : A -> E -> bool) (st : stmt) (fs : list (formula A)) (evs : list E),
    stmt_ok A st fs ->
    fs <> [] ->
    (forall f, In f fs -> eval (fun _ => false) f = false) ->
    (forall f, In f fs -> eval (fun _ => true) f = true) ->
    frun mt fl st fs evs = fspec mt fl fs evs.
Proof. exact frun_fspec. Qed.
Print Assumptions C07_cases_fail.

Theorem C07_cases_done_spelled :
  forall (A E : Type) (mt fl : A -> E -> bool) (fs : list (formula A)) (evs : list E) (n : nat) (w : list nat),
    fspec mt fl fs evs = FoDone n w <->
    (1 <= n <= length evs
     /\ fspec_at mt fl fs (firstn n evs) = RDone w
     /\ forall m, 1 <= m < n -> fspec_at mt fl fs (firstn m evs) = RNone).
Proof. exact fspec_done_iff. Qed.
Print Assumptions C07_cases_done_spelled.

Theorem C07_cases_winners :
  forall (A E : Type) (mt fl : A -> E -> bool) (fs : list (formula A)) (p : list E) (w : list nat) (d : formula A),
    fspec_at mt fl fs p = RDone w ->
    w <> [] /\ forall i, In i w <-> (i < length fs /\ eval (is_fin mt fl p) (nth i fs d) = true).
Proof. exact fspec_at_done. Qed.
Print Assumptions C07_cases_winners.

(* a statement has failed after p iff no case holds and no case can hold even if every member
   that has not failed finishes: every alternative of every case has a failed member *)
Theorem C07_cases_failed_iff :
  forall (A E : Type) (mt fl : A -> E -> bool) (fs : list (formula A)) (p : list E),
    fspec_at mt fl fs p = RFail <->
    ((forall f, In f fs -> eval (is_fin mt fl p) f = false)
     /\ forall f, In f fs -> eval (not_failed mt fl p) f = false).
Proof. exact fspec_at_fail. Qed.
Print Assumptions C07_cases_failed_iff.

Theorem C07_cases_no_error :
  forall (A E : Type) (mt fl : A -> E -> bool) (st : stmt) (fs : list (formula A)) (evs : list E),
    stmt_ok A st fs -> frun mt fl st fs evs <> FoErr.
Proof. exact frun_no_error. Qed.
Print Assumptions C07_cases_no_error.
