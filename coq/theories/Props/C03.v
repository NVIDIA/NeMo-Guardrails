(* C03 - Failing actions are contained and rails fail closed.
   Property theorems only; every proof is `exact` of a lemma or of a term built from lemmas;
   Print Assumptions beneath each.
   First part - model Pipe/Faults.v.  The theorems about `conv_v1_now`, `turn_v2_now`, `conv_v2_now`
   are about the machine instantiated with the flags READ FROM THE CURRENT SOURCE (Gen/C03Consts.v):
   dispatcher re-raises or not, whether compute_context applies hide_prev_turn, whether guardrails.co
   resets $output_rails_in_progress when the output rails fail, whether errors raised while an action
   event is created are contained; the internal-error event list enters through `ie_has_hide`.
   If the source loses one of these the `eq_refl` below stops checking.
   Second part - (T) the self-check rails of the library, as generated from the source (Gen/C01Flows.v,
   Gen/C03Guards.v), reject a None / falsy verdict and then refuse and stop: Pipe/SelfCheck_proofs.v. *)
From Coq Require Import String List Bool Arith.
From NG Require Import Gen.C03Consts Pipe.Faults Pipe.Faults_proofs
                       Pipe.FlowCheck Pipe.OptGuards Pipe.SelfCheck_proofs Gen.C01Flows Gen.C03Guards.
Import ListNotations.
Open Scope string_scope.
Open Scope list_scope.

(* (T) what the source says today *)
Theorem C03_source_facts :
  dispatch_reraises = false /\ dispatch_handler_lazy = true /\ dispatch_failed_status = v1_failed_status_test /\
  dispatch_failed_status = v2_failed_status_test /\ v1_match_requires_success = true /\
  ie_has_hide = true /\ ie_utterances = [v1_internal_error_message] /\
  v1_context_honours_hide = true /\ v2_flag_reset_on_failure = true.
Proof. exact (conj eq_refl (conj eq_refl (conj eq_refl (conj eq_refl (conj eq_refl (conj eq_refl (conj eq_refl (conj eq_refl eq_refl)))))))). Qed.
Print Assumptions C03_source_facts.

(* generate returns: for ALL fault sets (any script: any subset of call sites and occurrences, in
   any number of turns), any history, whatever the other flags are - no turn has the exceptional
   outcome.  Colang 1.0 / 2.x.  (LLM provider failures are not part of the model.) *)
Theorem C03_returns_v1 :
  forall sc user_text llm_text refusal cfg n t rh,
    Forall (fun o => o_res o <> TEscapes) (fst (conv_v1_now sc user_text llm_text refusal cfg t n rh)).
Proof. exact (conv_v1_returns v1_context_honours_hide). Qed.
Print Assumptions C03_returns_v1.

Theorem C03_returns_v2 :
  forall sc user_text llm_text refusal cfg t st,
    fst (fst (turn_v2_now sc user_text llm_text refusal cfg t st)) <> TEscapes.
Proof. exact (turn_v2_returns v2_flag_reset_on_failure v2_action_event_errors_contained). Qed.
Print Assumptions C03_returns_v2.

(* no poison, Colang 1.0: from the start of a conversation, whatever faults and verdicts
   occurred, turn i is EXACTLY the turn a fresh conversation would have (reply, rail calls, LLM
   calls: `spec_turn` does not look at the history), every turn replies, and the gate invariant
   (flows' history defined, $skip_output_rails off) holds again.  Unbounded number of turns. *)
Theorem C03_no_poison_v1 :
  forall sc user_text llm_text refusal cfg n,
    fst (conv_v1_now sc user_text llm_text refusal cfg 0 n [])
    = map (fun i => obs_of (spec_turn sc user_text llm_text refusal cfg i)) (seq 0 n)
    /\ inv (snd (conv_v1_now sc user_text llm_text refusal cfg 0 n [])).
Proof. exact (fun sc ut lt rf cfg n => conv_v1_memoryless sc ut lt rf cfg eq_refl eq_refl n 0 [] inv_nil). Qed.
Print Assumptions C03_no_poison_v1.

(* ... and the reply of a turn is the internal-error message, the refusal or the LLM text *)
Theorem C03_reply_classes_v1 :
  forall sc user_text llm_text refusal cfg t,
    let r := fst (fst (spec_turn sc user_text llm_text refusal cfg t)) in
    r = TReply ie_utterances \/ r = TReply [refusal] \/ r = TReply [llm_text t].
Proof. exact spec_turn_reply. Qed.
Print Assumptions C03_reply_classes_v1.

(* fail closed, Colang 1.0: the LLM text is returned only if every input rail and every output
   rail was consulted and accepted - a rail that raises (or rejects) never lets it through *)
Theorem C03_fail_closed_v1 :
  forall sc user_text llm_text refusal cfg t,
    TReply [llm_text t] <> TReply ie_utterances -> llm_text t <> refusal ->
    fst (fst (spec_turn sc user_text llm_text refusal cfg t)) = TReply [llm_text t] ->
    (forall k, k < n_in cfg -> sc t (SIn k) 0 = OAccept) /\ (forall k, k < n_out cfg -> sc t (SOut k) 0 = OAccept).
Proof. exact spec_turn_llm_only_if_all_accept. Qed.
Print Assumptions C03_fail_closed_v1.

(* ... and a raising input rail yields the fixed internal-error message *)
Theorem C03_fail_closed_v1_message :
  forall sc user_text llm_text refusal cfg t k,
    k < n_in cfg -> (forall i, i < k -> sc t (SIn i) 0 = OAccept) -> sc t (SIn k) 0 = ORaise ->
    fst (fst (spec_turn sc user_text llm_text refusal cfg t)) = TReply ie_utterances.
Proof. exact spec_turn_input_rail_raises. Qed.
Print Assumptions C03_fail_closed_v1_message.

(* Colang 2.x: one turn from a clean state replies, leaves a clean state (so the next turn
   runs all rails), returns the LLM text only if all input and output rails accepted; a raising
   rail is a rejection (None is not allowed): the reply is the refusal.
   Premise `dialog_faults_harmless`: EITHER the source contains errors raised while an action event
   is created (flag read from statemachine.py; then the premise holds by computation for every
   script), OR no dialog action raises (named exclusion, see C03_v2_dialog_fault_refuted). *)
Definition dialog_faults_harmless (sc : script) : Prop :=
  v2_action_event_errors_contained = true \/ forall i, sc i SDialog 0 <> ORaise.

Theorem C03_fail_closed_v2 :
  forall sc user_text llm_text refusal cfg t,
    dialog_faults_harmless sc ->
    let x := turn_v2_now sc user_text llm_text refusal cfg t clean in
    snd (fst x) = clean /\
    (fst (fst x) = TReply [refusal] \/ fst (fst x) = TReply [llm_text t] \/ fst (fst x) = TReply []) /\
    (llm_text t <> refusal -> fst (fst x) = TReply [llm_text t] ->
     (forall k, k < n_in cfg -> sc t (SIn k) 0 = OAccept) /\ (forall k, k < n_out cfg -> sc t (SOut k) 0 = OAccept)) /\
    (fst (fst x) = TReply [] -> sc t SDialog 0 = ORaise).
Proof.
  exact (fun sc ut lt rf cfg t H =>
           turn_v2_clean v2_flag_reset_on_failure v2_action_event_errors_contained sc ut lt rf cfg t eq_refl
                         (match H with or_introl e => or_introl e | or_intror f => or_intror (f t) end)).
Qed.
Print Assumptions C03_fail_closed_v2.

Theorem C03_no_poison_v2 :
  forall sc user_text llm_text refusal cfg n,
    dialog_faults_harmless sc ->
    snd (conv_v2_now sc user_text llm_text refusal cfg 0 n clean) = clean /\
    List.length (fst (conv_v2_now sc user_text llm_text refusal cfg 0 n clean)) = n /\
    Forall (fun o => exists us, o_res o = TReply us) (fst (conv_v2_now sc user_text llm_text refusal cfg 0 n clean)).
Proof. exact (fun sc ut lt rf cfg n H => conv_v2_clean v2_flag_reset_on_failure v2_action_event_errors_contained sc ut lt rf cfg n 0 eq_refl H). Qed.
Print Assumptions C03_no_poison_v2.

(* with the other value of a flag the statements are false *)
Theorem C03_v1_stale_context_refuted :
  sc_stale 2 (SIn 0) 0 = OReject /\
  nth_error (map o_res (fst (conv_v1 false false sc_stale (fun _ => "user") (fun _ => "LLM") "REFUSED" (mkV 2 2 true) 0 3 [])))
            2 = Some (TReply ["LLM"]).
Proof. exact v1_stale_context_witness. Qed.
Print Assumptions C03_v1_stale_context_refuted.

Theorem C03_v2_flag_refuted :
  sc_outblock 1 (SOut 0) 0 = OReject /\
  nth_error (fst (conv_v2 false false true sc_outblock (fun _ => "user") (fun _ => "LLM") "REFUSED" (mkV 2 2 true) 0 2 (mkS2 false false)))
            1 = Some (mkObs (TReply ["LLM"]) [(SIn 0, Some "user"); (SIn 1, Some "user"); (SRet, None); (SDialog, None)] 0).
Proof. exact v2_flag_witness. Qed.
Print Assumptions C03_v2_flag_refuted.

Theorem C03_v2_dialog_fault_refuted :
  nth_error (fst (conv_v2 false true false sc_gen (fun _ => "user") (fun _ => "LLM") "REFUSED" (mkV 2 2 true) 0 2 (mkS2 false false)))
            1 = Some (mkObs (TReply []) [] 0).
Proof. exact v2_dialog_witness. Qed.
Print Assumptions C03_v2_dialog_fault_refuted.

(* (T) the SHIPPED self-check rails (library/self_check/*/flows.v1.co and flows.co, as the
   repository's parsers read them today: Gen/C01Flows.v; guards parsed into expression trees:
   Gen/C03Guards.v) treat a None / falsy $allowed as a rejection.  The guard right after the action
   re-prints to the string in the flow, is TRUE for None, False and an empty list and FALSE for True,
   for both settings of enable_rails_exceptions - `if $allowed == False` would not check. *)
Theorem C03_shipped_rails_reject_falsy :
  rejects_falsy (v1_verdict_guard v1_self_check_input) = true /\
  rejects_falsy (v1_verdict_guard v1_self_check_output) = true /\
  rejects_falsy (v2_verdict_guard v2lib_self_check_input) = true /\
  rejects_falsy (v2_verdict_guard v2lib_self_check_output) = true.
Proof. exact shipped_rails_reject_falsy. Qed.
Print Assumptions C03_shipped_rails_reject_falsy.

Theorem C03_rejects_falsy_meaning :
  forall s, rejects_falsy (Some s) = true ->
    exists e, lookup_guard s c03_guard_table = Some e /\ s = show e /\
              forall exc, holds (sc_env VNone exc) e = Some true /\ holds (sc_env (VBool false) exc) e = Some true /\
                          holds (sc_env (VBool true) exc) e = Some false.
Proof. exact rejects_falsy_spec. Qed.
Print Assumptions C03_rejects_falsy_meaning.

(* Colang 1.0: with a falsy $allowed the rail says `bot refuse to respond` and stops (raises the
   rail exception and stops, when exceptions are enabled); with True it does nothing more *)
Theorem C03_v1_self_check_behaviour :
  (forall v, In v falsy_values ->
     option_map (trace_beq [EAction "self_check_input" "allowed"; EUtter "refuse to respond"; EUtter "stop"])
                (run_sc v1_self_check_input v false) = Some true /\
     option_map (trace_beq [EAction "self_check_output" "allowed"; EUtter "refuse to respond"; EUtter "stop"])
                (run_sc v1_self_check_output v false) = Some true /\
     option_map (existsb (is_utter "stop")) (run_sc v1_self_check_input v true) = Some true /\
     option_map (existsb (is_utter "stop")) (run_sc v1_self_check_output v true) = Some true) /\
  (forall exc, option_map (trace_beq [EAction "self_check_input" "allowed"]) (run_sc v1_self_check_input (VBool true) exc) = Some true /\
               option_map (trace_beq [EAction "self_check_output" "allowed"]) (run_sc v1_self_check_output (VBool true) exc) = Some true).
Proof. exact v1_self_check_behaviour. Qed.
Print Assumptions C03_v1_self_check_behaviour.

(* Colang 2.x: whenever the verdict guard holds, the rail aborts (never finishes normally) *)
Theorem C03_v2_self_check_aborts_on_reject :
  match v2_verdict_guard v2lib_self_check_input with Some s => v2_reject_aborts v2lib_self_check_input s | None => false end = true /\
  match v2_verdict_guard v2lib_self_check_output with Some s => v2_reject_aborts v2lib_self_check_output s | None => false end = true.
Proof. exact v2_self_check_aborts_on_reject. Qed.
Print Assumptions C03_v2_self_check_aborts_on_reject.
