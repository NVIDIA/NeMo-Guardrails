(* C13 - Parsing ignores meaningless layout and reports every bad file as a parsing error.
   Property theorems only; every proof is `exact` of a lemma or of a term built from lemmas;
   Print Assumptions beneath each.

   PARTIAL BY NATURE.  Proved here, about executable models tied to the source on every run:
     (a) the error-wrapping contract of the two loaders, for EVERY outcome of the parser
         (an oracle: returns, or raises an object with arbitrary classes/line/column/str),
         with the except clauses and the formatter's shape read from the current source;
     (b) the layout layer of Colang 2.x (lexing of _NEWLINE / blanks / comments as declared
         in colang.lark + Lark's Indenter algorithm): the token stream handed to the LALR
         parser - _NEWLINE/_INDENT/_DEDENT structure, brackets, content tokens, and the
         indenter's own errors - is unchanged by blank lines, trailing blanks, end-of-line
         comments and uniform scaling of the indentation by any k > 0, in any combination;
     (c) the line pre-processing of the Colang 1.0 parser (strip / skip / count blanks).
   NOT proved (explored by the timeout-guarded differential and hostile corpus of
   harness/c13.py): that the LALR parser + transformer and the 1 900-line Colang 1.0 parser
   are functions of (b)/(c) only, that they terminate, and what they raise.  In particular
   for Colang 1.0 only order-preservation of the indentation numbers is proved for scaling
   (C13_v1_layout_scale_partial): the parser adds constants to them in places. *)
From Coq Require Import ZArith NArith List String Bool Relations.
From NG Require Import Gen.C13Consts Svc.ParseWrap Svc.ParseWrap_proofs Svc.Indent Svc.Indent_proofs
                       Svc.V1Lines Svc.V1Lines_proofs.
Import ListNotations.
Open Scope string_scope.

(* (T) the except clauses and the formatter of the CURRENT source satisfy the decidable
   sufficient condition: each handler raises ColangParsingError with the file path in its
   message, `except Exception` is present, and a handler that calls the formatter has the
   defensive formatter. Fails to check on the pinned, unrepaired code. *)
Theorem C13_wrapper_source_ok :
  cfg_ok handlers_path_now fmt_now = true /\ cfg_ok handlers_content_now fmt_now = true.
Proof. exact (conj eq_refl eq_refl). Qed.
Print Assumptions C13_wrapper_source_ok.

(* for every parser outcome (any Exception subclass with any attributes) and any file
   content, from_path's loader and from_content yield success or ColangParsingError whose
   message contains the file's path / "main.co" - never another exception *)
Theorem C13_wrapper_total :
  forall path version o lines,
    (forall e, o = PRaise e -> isinstance e "Exception" = true) ->
    good path (wrap handlers_path_now fmt_now path version o lines) /\
    good content_file_name (wrap handlers_content_now fmt_now content_file_name version o lines).
Proof.
  exact (fun path version o lines H =>
           conj (wrapper_total handlers_path_now fmt_now (proj1 C13_wrapper_source_ok) path version o lines H)
                (wrapper_total handlers_content_now fmt_now (proj2 C13_wrapper_source_ok) content_file_name version o lines H)).
Qed.
Print Assumptions C13_wrapper_total.

(* regression documentation: the faithful model of the PINNED code (handlers_orig, fmt_orig)
   refutes the statement - AttributeError (no `.line`), TypeError (`line=None`),
   IndexError (line beyond the last line) from from_path; anything from from_content *)
Theorem C13_wrapper_refuted :
  exists hs fc path version o lines,
    hs = handlers_orig /\ fc = fmt_orig /\
    (forall e, o = PRaise e -> isinstance e "Exception" = true) /\
    ~ good path (wrap hs fc path version o lines).
Proof. exact wrapper_refuted. Qed.
Print Assumptions C13_wrapper_refuted.

Theorem C13_wrapper_refuted_shapes :
  (exists o lines, (forall e, o = PRaise e -> isinstance e "Exception" = true) /\
       wrap handlers_orig fmt_orig "/cfg/bad.co" "2.x" o lines = LEscape (EscPy AttributeError)) /\
  (exists o lines, (forall e, o = PRaise e -> isinstance e "Exception" = true) /\
       wrap handlers_orig fmt_orig "/cfg/bad.co" "2.x" o lines = LEscape (EscPy TypeError)) /\
  (exists o lines, (forall e, o = PRaise e -> isinstance e "Exception" = true) /\
       wrap handlers_orig fmt_orig "/cfg/bad.co" "2.x" o lines = LEscape (EscPy IndexError)) /\
  (exists o lines, (forall e, o = PRaise e -> isinstance e "Exception" = true) /\
       wrap handlers_content_orig fmt_orig "main.co" "2.x" o lines = LEscape EscOriginal).
Proof. exact wrapper_refuted_pinned. Qed.
Print Assumptions C13_wrapper_refuted_shapes.

(* layout, Colang 2.x: `layout` = what the LALR parser is fed for a file *)

Theorem C13_layout_blank :
  forall s s', blank_edit s s' ->
    layout ignore_tab_now tab_len_now s' = layout ignore_tab_now tab_len_now s.
Proof. exact (layout_blank ignore_tab_now tab_len_now). Qed.
Print Assumptions C13_layout_blank.

Theorem C13_layout_trailing_ws :
  forall s s', trail_edit s s' ->
    layout ignore_tab_now tab_len_now s' = layout ignore_tab_now tab_len_now s.
Proof. exact (layout_trailing_ws ignore_tab_now tab_len_now). Qed.
Print Assumptions C13_layout_trailing_ws.

(* trailing TABS: harmless iff the grammar ignores tabs between tokens; the pinned grammar
   (`%ignore " "` only) does not, see C13_layout_trailing_tab_refuted *)
Theorem C13_layout_trailing_tabs :
  ignore_tab_now = true ->
  forall s s', trail_ws_edit s s' ->
    layout ignore_tab_now tab_len_now s' = layout ignore_tab_now tab_len_now s.
Proof. exact (fun H s s' => layout_trailing_tabs_cond ignore_tab_now tab_len_now s s' H). Qed.
Print Assumptions C13_layout_trailing_tabs.

Theorem C13_layout_trailing_tab_refuted :
  exists T s s', trail_ws_edit s s' /\ layout false T s <> LexError /\ layout false T s' = LexError.
Proof. exact layout_trailing_tab_refuted. Qed.
Print Assumptions C13_layout_trailing_tab_refuted.

Theorem C13_layout_comment :
  forall s s', comment_edit s s' ->
    layout ignore_tab_now tab_len_now s' = layout ignore_tab_now tab_len_now s.
Proof. exact (layout_comment ignore_tab_now tab_len_now). Qed.
Print Assumptions C13_layout_comment.

Theorem C13_layout_scale :
  forall k s, (0 < k)%nat ->
    layout ignore_tab_now tab_len_now (scale k s) = layout ignore_tab_now tab_len_now s.
Proof. exact (layout_scale ignore_tab_now tab_len_now). Qed.
Print Assumptions C13_layout_scale.

(* any number of these edits, in any order *)
Theorem C13_layout_edits :
  forall s s', clos_refl_trans _ layout_edit s s' ->
    layout ignore_tab_now tab_len_now s' = layout ignore_tab_now tab_len_now s.
Proof. exact (layout_edits ignore_tab_now tab_len_now). Qed.
Print Assumptions C13_layout_edits.

(* layout, Colang 1.0: the numbered lines the parser works on *)

Theorem C13_v1_source_ok : v1_strip_skip_indent = true.
Proof. exact eq_refl. Qed.
Print Assumptions C13_v1_source_ok.

Theorem C13_v1_layout_blank :
  forall a ws b, forallb is_wsc ws = true ->
    map unnumbered (pre (a ++ ws :: b)) = map unnumbered (pre (a ++ b)).
Proof. exact v1_blank. Qed.
Print Assumptions C13_v1_layout_blank.

Theorem C13_v1_layout_trailing_ws :
  forall ls ls',
    Forall2 (fun l l' => exists ws, forallb is_wsc ws = true /\ l' = (l ++ ws)%list) ls ls' ->
    pre ls' = pre ls.
Proof. exact v1_trailing_ws. Qed.
Print Assumptions C13_v1_layout_trailing_ws.

(* PARTIAL: scaling multiplies every recorded indentation by k and changes nothing else, and
   for k > 0 preserves every comparison between two of them.  Missing for the full claim:
   the parser behind get_numbered_lines is not modelled (it also adds constants). *)
Theorem C13_v1_layout_scale_partial :
  (forall k ls, pre (map (scale_line k) ls) = map (scale_ind k) (pre ls)) /\
  (forall k, (0 < k)%nat -> forall x y : nline,
      (n_ind (scale_ind k x) ?= n_ind (scale_ind k y))%N = (n_ind x ?= n_ind y)%N).
Proof. exact (conj v1_scale v1_scale_order). Qed.
Print Assumptions C13_v1_layout_scale_partial.

(* Colang 1.0 with the continuation join of get_numbered_lines (trailing backslash / " or"):
   `pre_c`; None = the IndexError the code raises on a dangling " or" / lone backslash *)

(* trailing whitespace on ANY physical lines, continuation lines included, changes nothing *)
Theorem C13_v1_layout_trailing_ws_cont :
  forall ls ls',
    Forall2 (fun l l' => exists ws, forallb is_wsc ws = true /\ l' = (l ++ ws)%list) ls ls' ->
    pre_c ls' = pre_c ls.
Proof. exact v1_trailing_ws_cont. Qed.
Print Assumptions C13_v1_layout_trailing_ws_cont.

(* PARTIAL (as above): scaling multiplies the recorded indentation of every statement by k and
   changes nothing else - the join ignores the indentation of continuation lines *)
Theorem C13_v1_layout_scale_cont_partial :
  forall k ls, pre_c (map (scale_line k) ls) = option_map (map (scale_ind k)) (pre_c ls).
Proof. exact v1_scale_cont. Qed.
Print Assumptions C13_v1_layout_scale_cont_partial.

(* without continuation markers the two models coincide, so C13_v1_layout_blank applies there;
   a blank line INSIDE a continued statement is appended by the join and is not harmless *)
Theorem C13_v1_cont_agrees :
  forall ls, forallb no_cont ls = true -> pre_c ls = Some (pre ls).
Proof. exact v1_cont_agrees. Qed.
Print Assumptions C13_v1_cont_agrees.

(* Colang 1.0: the pending line comment (it becomes the `instructions` of the generate_value
   action of `$var = ...`, so it belongs to what the file parses to).  A blank line anywhere -
   also between the comment and its statement, or between two comment lines - changes neither
   the statements nor the comment attached to each of them (continuation-free core). *)
Theorem C13_v1_layout_blank_comment :
  forall a ws b, forallb is_wsc ws = true ->
    map unnumbered_cm (pre_cm (a ++ ws :: b)) = map unnumbered_cm (pre_cm (a ++ b)).
Proof. exact v1_blank_cm. Qed.
Print Assumptions C13_v1_layout_blank_comment.

Theorem C13_v1_comment_model_extends : forall ls, map fst (pre_cm ls) = pre ls.
Proof. exact pre_cm_fst. Qed.
Print Assumptions C13_v1_comment_model_extends.

