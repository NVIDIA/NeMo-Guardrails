(* C20 - Server loads configs only from its root and threads keep the exact history.
   Property theorems only; every proof is `exact` of a lemma or of a term built from lemmas;
   Print Assumptions beneath each.

   Strings are lists of code points (N); '/', '.', '\' are sepN, dotN, bslashN.  The reject
   pattern, the presence of the commonprefix test, "thread-", the minimum thread-id length and
   the reply text are the values read from the CURRENT api.py (Gen/C20Consts.v); the functions
   `..._now` / `..._src` are the models of Svc/Path.v and Svc/Threads.v over those values.
   Loader (RailsConfig.from_path), LLM, server configuration (cwd, rails_config_path,
   single-config id, default config id) and the initial datastore are arbitrary. *)
From Coq Require Import List NArith Bool.
From NG Require Import Gen.C20Consts Svc.Path Svc.Path_proofs Svc.Threads Svc.Threads_proofs
                       Svc.PathRun Svc.C20_now Svc.C20_examples.
Import ListNotations.
Open Scope N_scope.

(* (T) constants of the current source: key prefix "thread-", minimum thread-id length 16, the
   fixed reply begins with "Could not load" *)
Theorem C20_source_constants :
  thread_prefix = [116; 104; 114; 101; 97; 100; 45]
  /\ min_thread_id_len = 16
  /\ is_prefix could_not_load_words could_not_load_prefix = true.
Proof. exact source_constants_now. Qed.
Print Assumptions C20_source_constants.

(* (T) the reject test of the current source fires on every id containing '/', and an id that
   is ".." is stopped by it or by the commonprefix test *)
Theorem C20_source_guards :
  Path.pat_rejects_char N N.eq_dec reject_pattern sepN = true
  /\ (reject_now [dotN; dotN] = true \/ prefix_check_present = true).
Proof. exact (conj guard_sep_now guard_dotdot_now). Qed.
Print Assumptions C20_source_guards.

(* CONFINEMENT, one id.  For every working directory, every configured root (absolute or
   relative, normalised or not) and EVERY id string: an accepted path is the root itself or
   root (+ "/" unless the root is "/" or "//") + seg where seg is a plain directory entry name
   (non-empty, no separator, not "." and not "..") *)
Theorem C20_confined :
  forall cwd root id p,
    Path.starts_with_sep N N.eq_dec sepN cwd = true ->
    get_rails_path_now (abspathN cwd root) id = Accept p ->
    Path.inside N N.eq_dec sepN dotN (abspathN cwd root) p.
Proof. exact confined_now. Qed.
Print Assumptions C20_confined.

(* ... for any normalised absolute root (one or two '/' followed by plain segments joined by
   single '/'), the hypothesis `normal base` of DESIGN.md *)
Theorem C20_confined_normal_base :
  forall base id p,
    Path.abs_normal N sepN dotN base ->
    get_rails_path_now base id = Accept p ->
    Path.inside N N.eq_dec sepN dotN base p.
Proof. exact confined_normal_base_now. Qed.
Print Assumptions C20_confined_normal_base.

(* abspath under an absolute working directory always is such a root *)
Theorem C20_abspath_normal :
  forall cwd root,
    Path.starts_with_sep N N.eq_dec sepN cwd = true ->
    Path.abs_normal N sepN dotN (abspathN cwd root).
Proof. exact (abspath_abs_normal N N.eq_dec sepN dotN). Qed.
Print Assumptions C20_abspath_normal.

(* FUNCTIONAL SPECIFICATION of the per-id logic (given that the reject test fires on "..", as
   the shipped one does): reject exactly when the pattern matches; otherwise "" and "." name
   the root and every other id names the child root/id - no other outcome exists *)
Theorem C20_path_spec :
  forall cwd root id,
    Path.starts_with_sep N N.eq_dec sepN cwd = true ->
    reject_now [dotN; dotN] = true ->
    let base := abspathN cwd root in
    get_rails_path_now base id =
      if reject_now id then Reject
      else Accept (if nstr_eqb id [] || nstr_eqb id [dotN] then base
                   else base ++ Path.tail_sep N N.eq_dec sepN base ++ id).
Proof. exact path_spec_now. Qed.
Print Assumptions C20_path_spec.

(* ... in the form of DESIGN.md, for a root other than "/" and "//" *)
Theorem C20_confined_nonroot :
  forall cwd root id p,
    Path.starts_with_sep N N.eq_dec sepN cwd = true ->
    Path.ends_with_sep N N.eq_dec sepN (abspathN cwd root) = false ->
    get_rails_path_now (abspathN cwd root) id = Accept p ->
    p = abspathN cwd root
    \/ exists seg, p = abspathN cwd root ++ [sepN] ++ seg
                   /\ ~ In sepN seg /\ seg <> [dotN; dotN] /\ seg <> [dotN] /\ seg <> [].
Proof. exact confined_now_nonroot. Qed.
Print Assumptions C20_confined_nonroot.

(* CONFINEMENT, config_ids form and request sequences.  Starting from an empty instance cache
   and any datastore, over ANY sequence of requests (any config_ids lists, thread ids,
   messages): every path handed to the loader and every path of every instance that serves a
   request is inside the root *)
Theorem C20_confined_ids :
  forall (M : Type) cwd root single default load_ok llm,
    Path.starts_with_sep N N.eq_dec sepN cwd = true ->
    forall rqs store0 st' os,
      run_src M cwd root single default load_ok llm {| s_cache := []; s_store := store0 |} rqs = (st', os) ->
      Forall (fun o => Forall (Path.inside N N.eq_dec sepN dotN (abspathN cwd root)) (o_loads N M o)
                       /\ (forall inst, o_inst N M o = Some inst ->
                                        Forall (Path.inside N N.eq_dec sepN dotN (abspathN cwd root)) inst)) os.
Proof. exact run_confined_now. Qed.
Print Assumptions C20_confined_ids.

(* the loader loop of one _get_rails call: the k loader calls are for the first k ids, each
   accepted, and each path is inside the root; the call succeeds only if all ids were loaded *)
Theorem C20_loader_calls :
  forall cwd root load_ok,
    Path.starts_with_sep N N.eq_dec sepN cwd = true ->
    forall ids tr r, load_all_src cwd root load_ok ids = (tr, r) ->
      Forall (Path.inside N N.eq_dec sepN dotN (abspathN cwd root)) tr
      /\ exists k, Forall2 (fun id p => get_rails_path_now (abspathN cwd root) id = Accept p) (firstn k ids) tr
                   /\ (forall inst, r = Some inst -> inst = tr /\ k = length ids).
Proof. exact load_all_trace_now. Qed.
Print Assumptions C20_loader_calls.

(* REJECT => FIXED REPLY.  A request naming a rejected id (not served from the cache) gets the
   fixed "Could not load the <ids> ..." reply, the LLM is not called, cache and datastore are
   unchanged, and when the rejected id comes first the loader is not called at all *)
Theorem C20_reject_fixed_reply :
  forall (M : Type) cwd root default load_ok llm st rq ids id st' o,
    Threads.effective_ids N M default rq = Some ids ->
    Threads.aget N N.eq_dec (s_cache N M st) (Threads.cache_key N cache_key_joiner ids) = None ->
    In id ids -> get_rails_path_now (abspathN cwd root) id = Reject ->
    chat_src M cwd root None default load_ok llm st rq = (st', o) ->
    st' = st /\ o_reply N M o = RCouldNotLoad ids /\ o_used N M o = None
    /\ (forall tl, ids = id :: tl -> o_loads N M o = []).
Proof.
  exact (fun M cwd root default load_ok llm st rq ids id st' o =>
           chat_reject_fixed_reply N N.eq_dec sepN dotN cache_key_joiner M reject_pattern prefix_check_present
                thread_prefix min_len_src (base_src cwd root) None default load_ok llm
             st rq ids id st' o eq_refl).
Qed.
Print Assumptions C20_reject_fixed_reply.

(* ... the same reply for every ValueError of _get_rails (a failing load, a wrong id in
   single-config mode), and its text begins with "Could not load" *)
Theorem C20_any_valueerror_fixed_reply :
  forall (M : Type) cwd root single default load_ok llm st rq ids st' o,
    Threads.effective_ids N M default rq = Some ids ->
    snd (get_rails_src cwd root single load_ok (s_cache N M st) ids) = None ->
    chat_src M cwd root single default load_ok llm st rq = (st', o) ->
    st' = st /\ o_reply N M o = RCouldNotLoad ids /\ o_used N M o = None /\ o_inst N M o = None
    /\ o_loads N M o = snd (fst (get_rails_src cwd root single load_ok (s_cache N M st) ids)).
Proof.
  exact (fun M cwd root single default load_ok llm =>
           chat_valueerror_fixed_reply N N.eq_dec sepN dotN cache_key_joiner M reject_pattern prefix_check_present
                thread_prefix min_len_src (base_src cwd root) single default load_ok llm).
Qed.
Print Assumptions C20_any_valueerror_fixed_reply.

Theorem C20_fixed_reply_text :
  forall repr ids, is_prefix could_not_load_words (could_not_load_text repr ids) = true.
Proof. exact could_not_load_text_begins. Qed.
Print Assumptions C20_fixed_reply_text.

(* THREAD EXACTNESS.  With a thread id: the messages used are exactly the stored thread
   followed by the new messages (and the id has the minimum length); after a bot reply the
   stored thread is that list plus the reply; otherwise the datastore is unchanged *)
Theorem C20_thread_exact :
  forall (M : Type) cwd root single default load_ok llm st rq st' o tid,
    chat_src M cwd root single default load_ok llm st rq = (st', o) ->
    Threads.thread_of N M rq = Some tid ->
    let key := thread_prefix ++ tid in
    (forall u, o_used N M o = Some u ->
               u = Threads.thread N N.eq_dec M (s_store N M st) key ++ Threads.new_messages N M rq
               /\ (min_len_src <= length tid)%nat)
    /\ (forall b, o_reply N M o = RBot b ->
                  exists u, o_used N M o = Some u
                            /\ Threads.thread N N.eq_dec M (s_store N M st') key = u ++ [b])
    /\ ((forall b, o_reply N M o <> RBot b) -> s_store N M st' = s_store N M st).
Proof.
  exact (fun M cwd root single default load_ok llm =>
           chat_thread_exact N N.eq_dec sepN dotN cache_key_joiner M reject_pattern prefix_check_present
                thread_prefix min_len_src (base_src cwd root) single default load_ok llm).
Qed.
Print Assumptions C20_thread_exact.

(* without a thread id: exactly the new messages are used and nothing is stored *)
Theorem C20_no_thread :
  forall (M : Type) cwd root single default load_ok llm st rq st' o,
    chat_src M cwd root single default load_ok llm st rq = (st', o) ->
    Threads.thread_of N M rq = None ->
    s_store N M st' = s_store N M st
    /\ (forall u, o_used N M o = Some u -> u = Threads.new_messages N M rq).
Proof.
  exact (fun M cwd root single default load_ok llm =>
           chat_no_thread N N.eq_dec sepN dotN cache_key_joiner M reject_pattern prefix_check_present
                thread_prefix min_len_src (base_src cwd root) single default load_ok llm).
Qed.
Print Assumptions C20_no_thread.

(* THREADS NEVER MIX.  A request on thread tid1 leaves every other thread as it was ... *)
Theorem C20_threads_disjoint :
  forall (M : Type) cwd root single default load_ok llm st rq st' o tid1 tid2,
    chat_src M cwd root single default load_ok llm st rq = (st', o) ->
    Threads.thread_of N M rq = Some tid1 -> tid1 <> tid2 ->
    Threads.thread N N.eq_dec M (s_store N M st') (thread_prefix ++ tid2)
    = Threads.thread N N.eq_dec M (s_store N M st) (thread_prefix ++ tid2).
Proof.
  exact (fun M cwd root single default load_ok llm =>
           chat_threads_disjoint N N.eq_dec sepN dotN cache_key_joiner M reject_pattern prefix_check_present
                thread_prefix min_len_src (base_src cwd root) single default load_ok llm).
Qed.
Print Assumptions C20_threads_disjoint.

(* ... and never writes a datastore key that is not "thread-" + an id *)
Theorem C20_foreign_keys_untouched :
  forall (M : Type) cwd root single default load_ok llm st rq st' o k,
    chat_src M cwd root single default load_ok llm st rq = (st', o) ->
    (forall t, k <> thread_prefix ++ t) ->
    Threads.aget N N.eq_dec (s_store N M st') k = Threads.aget N N.eq_dec (s_store N M st) k.
Proof.
  exact (fun M cwd root single default load_ok llm =>
           chat_foreign_keys N N.eq_dec sepN dotN cache_key_joiner M reject_pattern prefix_check_present
                thread_prefix min_len_src (base_src cwd root) single default load_ok llm).
Qed.
Print Assumptions C20_foreign_keys_untouched.

(* REFINEMENT to the abstract specification: after any request sequence every thread is its
   initial content followed by the concatenation of all its turns (new messages + reply of
   each request that carried this id and was answered by the bot), in order *)
Theorem C20_refines_spec :
  forall (M : Type) cwd root single default load_ok llm rqs st st' os tid,
    run_src M cwd root single default load_ok llm st rqs = (st', os) ->
    Threads.thread N N.eq_dec M (s_store N M st') (thread_prefix ++ tid)
    = Threads.thread N N.eq_dec M (s_store N M st) (thread_prefix ++ tid)
      ++ Threads.turns_of N N.eq_dec M tid rqs os.
Proof.
  exact (fun M cwd root single default load_ok llm =>
           run_refines_spec N N.eq_dec sepN dotN cache_key_joiner M reject_pattern prefix_check_present
                thread_prefix min_len_src (base_src cwd root) single default load_ok llm).
Qed.
Print Assumptions C20_refines_spec.

(* ... and the messages used by any turn inside any sequence are all earlier turns of that
   thread followed by the new messages *)
Theorem C20_used_spec :
  forall (M : Type) cwd root single default load_ok llm rqs1 rq rqs2 st st1 os1 st2 o tid u,
    run_src M cwd root single default load_ok llm st rqs1 = (st1, os1) ->
    chat_src M cwd root single default load_ok llm st1 rq = (st2, o) ->
    Threads.thread_of N M rq = Some tid -> o_used N M o = Some u ->
    u = Threads.thread N N.eq_dec M (s_store N M st) (thread_prefix ++ tid)
        ++ Threads.turns_of N N.eq_dec M tid rqs1 os1 ++ Threads.new_messages N M rq
    /\ nth_error (snd (run_src M cwd root single default load_ok llm st (rqs1 ++ rq :: rqs2))) (length rqs1) = Some o.
Proof.
  exact (fun M cwd root single default load_ok llm =>
           run_used_spec N N.eq_dec sepN dotN cache_key_joiner M reject_pattern prefix_check_present
                thread_prefix min_len_src (base_src cwd root) single default load_ok llm).
Qed.
Print Assumptions C20_used_spec.

(* THE RequestBody LAYER.  An HTTP request is either refused by the field constraints (422,
   nothing happens) or is exactly a chat_completion call on the validated body - so all of the
   above holds for HTTP request sequences - and its thread id has a length within the bounds *)
Theorem C20_http_layer :
  forall (M : Type) cwd root single default load_ok llm st h st' o,
    http_chat_src M cwd root single default load_ok llm st h = (st', o) ->
    (st' = st /\ o_reply N M o = R422 /\ o_loads N M o = [] /\ o_used N M o = None)
    \/ exists rq, Threads.validate N M (N.to_nat field_min_len) field_max_nat h = Some rq
                  /\ chat_src M cwd root single default load_ok llm st rq = (st', o)
                  /\ r_thread N M rq = h_thread N M h
                  /\ r_messages N M rq = h_messages N M h
                  /\ (forall t, r_thread N M rq = Some t ->
                                (N.to_nat field_min_len <= length t)%nat
                                /\ match field_max_nat with Some m => (length t <= m)%nat | None => True end).
Proof.
  exact (fun M cwd root single default load_ok llm =>
           http_chat_cases N N.eq_dec sepN dotN cache_key_joiner M reject_pattern prefix_check_present
                thread_prefix min_len_src (base_src cwd root) single default load_ok llm (N.to_nat field_min_len) field_max_nat).
Qed.
Print Assumptions C20_http_layer.

(* THE commonprefix QUIRK.  The test is character-wise: a sibling directory whose name extends
   the root's name passes it although it is not inside the root ... *)
Theorem C20_commonprefix_quirk :
  exists base full,
    Path.abs_normal N sepN dotN base /\ commonprefixN [full; base] = base
    /\ ~ Path.inside N N.eq_dec sepN dotN base full.
Proof. exact commonprefix_quirk_now. Qed.
Print Assumptions C20_commonprefix_quirk.

(* ... but it is unreachable: an id that passes a reject test firing on separators and on ".."
   (the shipped one does: C20_examples.reject_fires_on_dotdot_shipped) always passes the
   commonprefix test, which therefore never decides anything *)
Theorem C20_prefix_check_unreachable :
  forall cwd root id,
    Path.starts_with_sep N N.eq_dec sepN cwd = true ->
    reject_now [dotN; dotN] = true ->
    reject_now id = false ->
    commonprefixN [normpathN (joinN (abspathN cwd root) id); abspathN cwd root] = abspathN cwd root.
Proof. exact prefix_check_redundant_now. Qed.
Print Assumptions C20_prefix_check_unreachable.
