(* C10 - Event processing terminates and a faulty flow fails alone.
   Property theorems only; every proof is `exact` of a lemma or of a term built from lemmas; Print
   Assumptions beneath each.
   Models: V2/Term.v (slide, guardedb), V2/Isolate.v (_advance_head_front try/except, _abort_flow,
   retry loop of process_events), V2/Cascade.v (StartFlow/restart cascade of run_to_completion). *)
From Coq Require Import List Arith Bool.
From NG Require Import V2.Term V2.Term_proofs V2.Isolate V2.Isolate_proofs.
Import ListNotations.

(* one `slide` of a flow whose jump-graph cycles all pass a blocking element stops within
   |elements|+1 steps - from every start position a head can be at (with the catch-label stack the
   verifier `compute_stk` predicts there; the harness checks that real heads start exactly so), for
   every outcome of every expression (true / false / raises), for programs of any size *)
Theorem C10_slide_bound : forall p, guardedb p = true ->
  forall es, In es p ->
  forall orc pos cs, (pos < length es -> stk_at (compute_stk es) pos = Some cs) ->
    s_stop (slide (length es + 1) es orc pos cs) <> OutOfFuel.
Proof. exact slide_bound. Qed.
Print Assumptions C10_slide_bound.

(* the premise is needed: an unguarded loop makes the model of slide run forever *)
Theorem C10_slide_unguarded_spins : exists es orc, guarded_flowb es = false /\
  forall n, s_stop (slide n es orc 1 []) = OutOfFuel.
Proof. exact unguarded_spins. Qed.
Print Assumptions C10_slide_unguarded_spins.

(* a runtime error while sliding head `hidx` of instance `u`: the new state differs from the old
   one only inside the sub-tree of `u` (status, heads, activation of every other instance are
   untouched; child lists elsewhere can only lose entries), no queued event is lost, a ColangError
   event is queued.  Holds for the unchanged and for the repaired restart logic (`guard`). *)
Theorem C10_error_isolated : forall guard prog st u hidx orc st' i hd es p,
  get st u = Some i ->
  nth_error (i_heads i) hidx = Some hd ->
  nth_error prog (i_flow i) = Some es ->
  h_status hd <> HInactive -> listening (i_status i) = true ->
  s_stop (slide (length es + 1) es orc
                (match h_status hd with HActive => S (h_pos hd) | _ => h_pos hd end) (h_catch hd)) = Raised p ->
  advance guard prog st u hidx orc = Some st' ->
  length (insts st') = length (insts st) /\
  (forall x, ~ reach st u x -> option_map control (get st x) = option_map control (get st' x)) /\
  (forall x i', get st' x = Some i' -> exists i0, get st x = Some i0 /\ incl (i_children i') (i_children i0)) /\
  (exists pre post, queue st' = pre ++ queue st ++ post /\ In EvColangError post).
Proof. exact error_isolated. Qed.
Print Assumptions C10_error_isolated.

(* ... so every other instance listens with exactly the same heads for the current and all later events *)
Theorem C10_others_still_listen : forall guard prog st u hidx orc st' i hd es p,
  get st u = Some i ->
  nth_error (i_heads i) hidx = Some hd ->
  nth_error prog (i_flow i) = Some es ->
  h_status hd <> HInactive -> listening (i_status i) = true ->
  s_stop (slide (length es + 1) es orc
                (match h_status hd with HActive => S (h_pos hd) | _ => h_pos hd end) (h_catch hd)) = Raised p ->
  advance guard prog st u hidx orc = Some st' ->
  forall x, ~ reach st u x -> listening_heads st' x = listening_heads st x.
Proof.
  exact (fun guard prog st u hidx orc st' i hd es p Hg Hh He Hact Hl Hs Hadv x Hx =>
           same_ctl_listening st st' x
             (proj1 (proj2 (error_isolated guard prog st u hidx orc st' i hd es p Hg Hh He Hact Hl Hs Hadv)) x Hx)).
Qed.
Print Assumptions C10_others_still_listen.

(* ... and the faulty instance is stopped *)
Theorem C10_faulty_stopped : forall fuel st u d r st' i,
  abort fuel st u d r = Some st' -> get st u = Some i ->
  listening (i_status i) = true \/ i_status i = Stopping ->
  exists i', get st' u = Some i' /\ i_status i' = Stopped /\ i_heads i' = [].
Proof. exact abort_stops. Qed.
Print Assumptions C10_faulty_stopped.

(* the retry loop of process_events ends after at most two run_to_completion calls, provided
   processing a ColangError event does not itself raise *)
Theorem C10_no_escape : forall St Ev Exn (rtc : St -> Ev -> St * option Exn) (ce : Exn -> Ev),
  (forall st x, snd (rtc st (ce x)) = None) ->
  forall st ev, retry St Ev Exn rtc ce 2 st ev <> None.
Proof. exact retry_terminates. Qed.
Print Assumptions C10_no_escape.

(* instance: errors raised while MATCHING escape the unchanged run_to_completion; the loop still
   ends if no flow that waits for ColangError has an erroneous match itself ... *)
Theorem C10_no_escape_unchanged : forall hs ev,
  no_raising_error_handler hs ->
  retry _ _ _ (rtc_match false) (fun _ => ev_colang_error) 2 hs ev <> None.
Proof. exact no_escape_unchanged. Qed.
Print Assumptions C10_no_escape_unchanged.

(* ... without that assumption it does not (regression documentation) *)
Theorem C10_no_escape_refuted_without_assumption :
  exists hs, ~ no_raising_error_handler hs /\
    forall n, retry _ _ _ (rtc_match false) (fun _ => ev_colang_error) n hs ev_colang_error = None.
Proof. exact retry_unbounded_without_assumption. Qed.
Print Assumptions C10_no_escape_refuted_without_assumption.

(* with fixes/C10-match-error-isolation.patch the exception never leaves run_to_completion *)
Theorem C10_no_escape_repaired : forall hs ev,
  retry _ _ _ (rtc_match true) (fun _ => ev_colang_error) 1 hs ev <> None.
Proof. exact no_escape_repaired. Qed.
Print Assumptions C10_no_escape_repaired.

From NG Require Import V2.Cascade V2.Cascade_proofs.

(* The event cascade of one run_to_completion under the REPAIRED restart logic ends within a bound
   that depends only on the program (through the checked certificate: weights per element) and on
   the number of live heads, live instances and queued events - for every outcome of every
   expression, every reaction of every head to every internal event, every outcome of the action
   conflict resolution (an actionable head wins, or loses and is moved to its catch label / its
   flow is aborted with the default restart) and of every merge.  Instances have any number of
   heads: ForkHead creates them, MergeHeads / WaitForHeads remove them (and/or groups, when).
   _partial: the premise is the checked certificate `cascade_cert_ok` -
     (a) intra-flow: every cycle of the cascade graph passes a match on an external event;
     (b) inter-flow: weights exist, i.e. the StartFlow graph of the segments that run without such
         a match is acyclic;
     (c) side conditions on the region an ACTIVATED flow runs through before it is STARTED: no
         user-level match on an internal event, no action, and behind a fork the end of the flow
         is not reachable without a match on an external event;
   and reactions are oracles (which event wakes which head is not modelled). *)
Theorem C10_rtc_bound_partial : forall prog certs,
  cascade_cert_ok prog certs = true ->
  forall o st, swf prog certs st ->
  exists st', cascade true prog o (rtc_bound prog certs (live_heads st) (live st) (length (c_queue st))) st = COk st' /\
              step true prog o st' = None.
Proof. exact rtc_bound_thm. Qed.
Print Assumptions C10_rtc_bound_partial.

(* the measure behind it: every processed event / advanced head strictly decreases the potential phi *)
Theorem C10_cascade_potential : forall prog certs,
  cascade_cert_ok prog certs = true ->
  forall o st, swf prog certs st ->
    step true prog o st = None \/
    exists st', step true prog o st = Some (COk st') /\ swf prog certs st' /\
                phi prog certs st' + 1 <= phi prog certs st.
Proof. exact step_dec. Qed.
Print Assumptions C10_cascade_potential.

(* On the faithful model of the UNCHANGED restart logic the statement is false: `flow a: abort`,
   `flow main: activate a; match X()` satisfies the premise, and after main has sent
   StartFlow(a, activated) the cascade is still busy after n steps, for every n; with the
   repaired guard the same state is quiescent after at most 20 steps. *)
Theorem C10_activated_abort_refuted :
  cascade_guardedb f4_prog = true /\
  (forall n, cascade false f4_prog eager n (f4_after_send 0 [] 0) = COut) /\
  (exists st', cascade true f4_prog eager 20 (f4_after_send 0 [] 0) = COk st').
Proof. exact activated_abort_refuted. Qed.
Print Assumptions C10_activated_abort_refuted.

(* The premise made precise.  A loop whose only waits are matches on events produced inside the same
   run_to_completion (FlowFinished of a child that finishes at once) never lets the cascade end -
   explicitly (`while True: await b`) or implicitly (`activate a` with `a: await b`): "waiting
   statement" in the premise therefore means a match on an event that cannot be produced inside
   the same run_to_completion, and an activated flow is a loop around its body.  Both programs are
   rejected by the (decidable) certificate and keep the model busy also under the repaired guard (stated
   here for fuel 3000; `Cascade.f7_busy_ever` has it for every fuel). *)
Theorem C10_internal_only_loop_outside_premise :
  (cascade_guardedb f7_prog = false /\ cascade_guardedb f7_explicit = false) /\
  (cascade true f7_prog eager 3000 f7_state = COut /\ cascade true f7_explicit eager 3000 f7_state = COut).
Proof. exact (conj f7_rejected f7_busy). Qed.
Print Assumptions C10_internal_only_loop_outside_premise.

(* Snapshot discipline of the matching phase: `head_candidates` is a snapshot; as long as the flows
   whose match statement raised are failed AFTER the loop, every candidate lookup succeeds ... *)
Theorem C10_match_snapshot_safe : forall fuel raises cands st errs,
  Forall (cand_valid st) cands ->
  forall u h, match_phase false fuel cands raises st errs <> MLookupError u h.
Proof. exact match_phase_deferred_safe. Qed.
Print Assumptions C10_match_snapshot_safe.

(* ... aborting inside the loop instead makes the lookup of a second head of the same flow (or-group
   on the same event) fail - the KeyError that escapes run_to_completion (regression documentation) *)
Theorem C10_match_immediate_abort_refuted :
  exists st cands raises, Forall (cand_valid st) cands /\
    match_phase true 10 cands raises st [] = MLookupError 1 1.
Proof. exact match_phase_immediate_refuted. Qed.
Print Assumptions C10_match_immediate_abort_refuted.

From NG Require Import Gen.C10Consts.

(* (T) read from the current source on every run: the error handlers around slide(), around the
   evaluation of a match statement, around the creation of an action event and around
   run_to_completion in process_events catch `Exception` (every Python exception a statement can
   raise, not only the Colang error classes), and the max_events counter of process_events is
   initialised once per call *)
Theorem C10_handlers_in_source :
  advance_catches_exception = true /\ match_catches_exception = true /\
  action_event_catches_exception = true /\ process_events_catches_exception = true /\
  max_events_counter_per_call = true.
Proof. exact (conj eq_refl (conj eq_refl (conj eq_refl (conj eq_refl eq_refl)))). Qed.
Print Assumptions C10_handlers_in_source.

(* the outer loop of process_events (outgoing events are fed back as input events) ends after at
   most max_events handled events, whatever the flows send to each other ... *)
Theorem C10_process_events_terminates : forall St Ev (rtc : St -> Ev -> St * list Ev) max fuel cnt st inp,
  cnt <= max -> max - cnt < fuel -> pe St Ev rtc false fuel max cnt st inp <> None.
Proof. exact process_events_terminates. Qed.
Print Assumptions C10_process_events_terminates.

(* ... but not if the counter is reset in every round: two flows answering each other *)
Theorem C10_process_events_per_round_refuted : forall max, 1 <= max ->
  forall n cnt, pe unit nat (fun st e => (st, [e])) true n max cnt tt [0] = None.
Proof. exact process_events_per_round_refuted. Qed.
Print Assumptions C10_process_events_per_round_refuted.
