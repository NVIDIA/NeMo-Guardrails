(* C06 - Flow and action lifetimes are bounded by the parent flow (Colang 2).
   Property theorems only; every proof is `exact` of a lemma or of a term built from lemmas;
   Print Assumptions beneath each.

   Model: V2/Life.v - transcriptions of _abort_flow (`abort`, and `abort_top` for the optional
   restart_flow keyword), _finish_flow (`finish`), the EndScope case of slide (`end_scope`),
   _update_action_status_by_event (`action_event`), the end-of-slide guard of _advance_head_front
   (`end_of_slide`), the START_FLOW branch and _start_flow (`start_flow`) and _clean_up_state
   (`cleanup`).  The model is tied to statemachine.py on every run by (T) Gen/LifeConsts.v (shape of
   the three Stop guards, the release of shared actions at a scope end, the clean-up keeping needed
   parents) and (X) the function-level snapshot correspondence of harness/c06.py.

   All theorems hold for ANY number of instances and actions and any depth of the hierarchy.
   `ranked rk s` = the children relation is well-founded (checked on every real pre-state by
   the harness); `abort n .. = Ok s'` excludes the out-of-fuel result, which `C06_fuel_sufficient`
   shows cannot occur with fuel above the rank. *)
From Coq Require Import ZArith NArith List Bool.
From NG Require Import Gen.LifeConsts V2.Life V2.Life_proofs V2.Life_scope V2.Life_fuel V2.Life_now
                       V2.Life_examples V2.Life_count V2.Life_activation V2.Life_activation_examples V2.Life_cleanup.
Import ListNotations.
Open Scope N_scope.

(* (T) the current source has the modelled Stop guards and releases shared actions at a scope end *)
Theorem C06_source_shape : stop_guards_checked = true /\ scope_release_shared = true.
Proof. exact source_shape. Qed.
Print Assumptions C06_source_shape.

(* After _abort_flow / _finish_flow of a running instance f (run to the end of the recursion) f is
   not running and no flow started by f - transitively, through running instances, activated
   flows excluded - is listening. *)
Theorem C06_children_stop :
  (forall rk n s f d s',
     ranked rk s -> abort n s f d = Ok s' -> proceeds s f d = true -> lv s f = true ->
     lv s' f = false /\ forall x, started_by s f x -> lst s' x = false) /\
  (forall rk n s f d s',
     ranked rk s -> finish n s f d = Ok s' -> proceeds s f d = true -> lst s f = true ->
     forall x, started_by s f x -> lst s' x = false).
Proof. exact (conj abort_children_stop finish_children_stop). Qed.
Print Assumptions C06_children_stop.

(* Stop events of one _abort_flow / _finish_flow: per action at most one; exactly for the actions
   that were STARTING/STARTED and are STOPPING with count 0 afterwards; only inside the subtree;
   every unfinished action of the ending instance gives up one share - the last share (count 1)
   means exactly one Stop, an action still shared (count stays positive) gets none. *)
Theorem C06_stop_once :
  (forall n, stop_once_statement (abort n) live) /\
  (forall n, stop_once_statement (finish n) listening).
Proof. exact (conj abort_stop_once finish_stop_once). Qed.
Print Assumptions C06_stop_once.

(* Over ANY sequence of the modelled operations (abort, finish, scope end, action events other
   than a second Start) no action is ever sent a second Stop, and every Stop is emitted for an
   action that is STARTING or STARTED at that moment (never INITIALIZED, STOPPING, FINISHED). *)
Theorem C06_no_spurious_stop :
  (forall rk rel fuel ops s s',
     ranked rk s -> Forall allowed ops -> lrun rel fuel ops s = Ok s' -> out s = [] ->
     forall a, (nstops a (out s') <= 1)%nat) /\
  (forall rk rel fuel s o s',
     ranked rk s -> lstep rel fuel s o = Ok s' ->
     exists delta, out s' = out s ++ delta /\
       forall a, (nstops a delta >= 1)%nat ->
         (exists c, geta s a = Some c /\ active (a_status c) = true) /\
         geta s' a = Some (mkAct AStopping 0%Z)).
Proof.
  exact (conj (fun rk rel fuel ops s s' Hr Ha H Ho a =>
                 proj1 (trace_stop_once rk rel fuel ops s s' Hr Ha H (StopInv_nil s Ho) a))
              step_stop_only_active).
Qed.
Print Assumptions C06_no_spurious_stop.

(* A late ActionStarted after the Stop is one of the ALLOWED operations of C06_no_spurious_stop
   (`LEvent KStarted a`; only a second Start is excluded): it puts the action back to STARTED with
   count 0.  What protects it is the guard `== 0`: below or at 0 a release only decrements
   (0 -> -1 -> ...), emits nothing and keeps the count <= 0. *)
Theorem C06_late_started_no_second_stop :
  (forall k a, k <> KStart -> allowed (LEvent k a)) /\
  (forall s a c s',
     geta s a = Some c -> (a_count c <= 0)%Z -> stop_action s a = Ok s' ->
     out s' = out s /\
     exists c', geta s' a = Some c' /\ (a_count c' <= 0)%Z /\
                (active (a_status c) = true -> a_count c' = (a_count c - 1)%Z /\ a_status c' = a_status c)).
Proof. exact (conj (fun k a H => match k as k0 return k0 <> KStart -> allowed (LEvent k0 a) with
                                  | KStart => fun H0 => False_ind _ (H0 eq_refl) | _ => fun _ => I end H)
                   stop_action_below_zero). Qed.
Print Assumptions C06_late_started_no_second_stop.

(* regression documentation: with the guard `flow_scope_count <= 0` (which agrees with `== 0` on
   every positive count) scope end + late ActionStarted + end of the flow send TWO Stops *)
Theorem C06_stop_guard_le_refuted :
  (forall s a c, geta s a = Some c -> (0 < a_count c)%Z -> stop_action_le s a = stop_action s a) /\
  stop_guard_le_two_stops.
Proof. exact (conj stop_action_le_agrees stop_guard_le_witness). Qed.
Print Assumptions C06_stop_guard_le_refuted.

(* EndScope, with the release as read from the current source: stops exactly the flows and
   actions registered in the scope; a shared action that keeps running is no longer held by the
   flow (no second release); everything else is unchanged. *)
Theorem C06_scope_end : scope_end_statement.
Proof. exact scope_end_now. Qed.
Print Assumptions C06_scope_end.

(* Whole-state frame: instances outside the subtree of f keep every field (their children lists
   lose only instances of the subtree), actions not owned inside the subtree are unchanged, and
   everything emitted concerns the subtree. *)
Theorem C06_frame :
  (forall rk n s f d s', ranked rk s -> abort n s f d = Ok s' -> frame (reach s f) (owned s f) s s') /\
  (forall rk n s f d s', ranked rk s -> finish n s f d = Ok s' -> frame (reach s f) (owned s f) s s').
Proof. exact (conj abort_frame finish_frame). Qed.
Print Assumptions C06_frame.

(* ACTIVATION.  StartFlow processing (START_FLOW branch of
   _process_internal_events_without_default_matchers incl. both done-source guards,
   _get_reference_activated_flow_instance with the parameter comparison `pm` abstract, and
   _start_flow) is part of the model (`start_flow`), tied by the same snapshot correspondence.

   THE INVARIANT, over ANY sequence of the modelled operations - a StartFlow event is processed
   (start / activate / queued restart), an instance fails or is stopped, an instance finishes,
   a scope ends, action events, status moves:
     for every reference instance r (linked to a parent of another flow) whose count is not 0,
       activated(r) = number of child-list entries of LIVE instances that refer to r        (CntInv)
   together with: unique uids, child entries and parents exist, the hierarchy is well-founded, and an
   entry of the same flow in a child list is a restarted instance linked to that parent (famk).
   Side conditions of a run (`aoks`): the uid of a new instance is fresh; a start sent by an
   instance of ANOTHER flow carries the marker 0 or 1 (`activate` sends True; only restarts carry
   the count - checked on every real StartFlow event by the harness); a (re-)activation keeps the
   hierarchy well-founded (checked on every real state); the flow that finishes is not the main flow
   (which restarts in place and keeps its child entries - every activator is one of its descendants
   and ends with it; `finish_main` below). *)
Theorem C06_activation_count :
  forall rel fuel l s s',
    Inv s -> famk s -> arun rel fuel l s = Ok s' -> aoks rel fuel l s -> Inv s' /\ famk s'.
Proof. exact arun_inv_fam. Qed.
Print Assumptions C06_activation_count.

(* ... and the same with the clean-up of old instances (_clean_up_state, at the start of every
   run_to_completion; `aged` = older than 5 s, the clock is external) among the operations, for the
   clean-up AS READ FROM THE CURRENT SOURCE: it must never discard the parent of an instance that is
   running or still activated (translator flag; without it this obligation does not check).  What it
   discards is ended, has count 0 and is nobody's needed parent. *)
Theorem C06_cleanup :
  (forall rel fuel l s s',
     Inv s -> famk s -> brun cleanup_keeps_needed_parents rel fuel l s = Ok s' ->
     boks cleanup_keeps_needed_parents rel fuel l s -> Inv s' /\ famk s') /\
  (forall aged s s',
     cleanup true aged s = Ok s' -> Inv s ->
     forall u i, getf s u = Some i -> getf s' u = None ->
       done (i_status i) = true /\ i_activated i = 0%Z /\
       (forall x xi, getf s x = Some xi -> i_parent xi = Some u -> needs_parent xi -> False)).
Proof. exact (conj brun_now_inv cleanup_discards). Qed.
Print Assumptions C06_cleanup.

(* regression documentation: a clean-up WITHOUT that side condition discards the ended first activator
   (the parent of the reference instance); the end of the last activator then raises KeyError *)
Theorem C06_cleanup_unguarded_refuted : cleanup_unguarded_loses_link.
Proof. exact cleanup_unguarded_witness. Qed.
Print Assumptions C06_cleanup_unguarded_refuted.

(* The three clauses of the property text.
   (a) An instance that ends by itself emits, as its last events, FlowFailed / FlowFinished followed
       by exactly the restart (StartFlow pushed left, source = its reference instance, marker = its
       count) iff it is activated and has not already started its next instance; ended by an
       activator (d = true) it is not restarted; nothing emitted before concerns f [a1, a2].  When
       that restart is processed while the flow is still activated it creates the new instance
       (WAITING = listening) and links it under a reference instance of the flow whose count is not
       0, with the count as marker [a3].
   (b) An activated flow that reaches its end without ever having waited (status STARTING) is marked
       STARTED and is NOT finished: it runs once, no restart, the count is untouched [b].
   (c) An activator ends while others remain: only the count is decremented [c0].  THE LAST
       ACTIVATOR ENDS - after an instance failed / finished no live instance holds an entry of r any
       more: the count of r is 0, r is not listening and the restarted instances under r are not
       listening [c1]; a restart that is still queued then is dropped, nothing is created [c2]; so
       is a start / activation queued by a sender that has ended meanwhile [c3]. *)
Theorem C06_activation :
  (* a1 *)
  (forall rk n s f d s' i,
     ranked rk s -> abort n s f d = Ok s' -> proceeds s f d = true -> getf s f = Some i ->
     live (i_status i) = true ->
     exists pre, out s' = out s ++ pre ++ EFailed f :: (if d then [] else restart_events s i f) /\
                 Forall (emit_ok (below rk f) anyA) pre) /\
  (* a2 *)
  (forall rk n s f d s' i,
     ranked rk s -> finish n s f d = Ok s' -> proceeds s f d = true -> getf s f = Some i ->
     listening (i_status i) = true -> i_flow i <> main_id ->
     exists pre, out s' = out s ++ pre ++ EFinished f :: (if d then [] else restart_events s i f) /\
                 Forall (emit_ok (below rk f) anyA) pre) /\
  (* a3 *)
  (forall pm s r ri e,
     Inv s -> getf s r = Some ri -> refshape s r -> i_activated ri <> 0%Z -> pm r = true ->
     i_flow ri <> main_id ->
     sf_flow e = i_flow ri -> sf_src e = Some r -> sf_activated e <> 0%Z -> getf s (sf_uid e) = None ->
     exists s' r0 r0i,
       start_flow pm s e = Ok s' /\
       getf s r0 = Some r0i /\ i_flow r0i = i_flow ri /\ i_activated r0i <> 0%Z /\ refshape s r0 /\
       getf s' (sf_uid e) = Some (mkInst (i_flow ri) FWaiting (Some r0) [] [] [] (sf_activated e) false) /\
       getf s' r0 = Some (add_child (sf_uid e) r0i) /\
       lst s' (sf_uid e) = true) /\
  (* b *)
  (forall activated waiting,
     (0 < activated)%Z -> end_of_slide FStarting activated true waiting = (FStarted, true, false)) /\
  (* c0 *)
  (forall n s f i,
     getf s f = Some i -> is_ref_activated s i = Ok true -> i_activated i <> 1%Z ->
     abort (S n) s f true = Ok (modf s f (set_activated (i_activated i - 1)%Z)) /\
     finish n s f true = Ok (modf s f (set_activated (i_activated i - 1)%Z))) /\
  (* c1 *)
  (forall rel fuel s o s' r,
     Inv s -> famk s -> (match o with AAbort _ _ | AFinish _ => True | _ => False end) ->
     astep rel fuel s o = Ok s' -> aok s o s' ->
     refshape s r -> (0 < act s r)%Z -> E s' r = 0%Z ->
     act s' r = 0%Z /\ family_down s s' r) /\
  (* c2 *)
  (forall pm s r ri e,
     getf s r = Some ri -> done (i_status ri) = true -> i_activated ri = 0%Z ->
     sf_src e = Some r -> sf_activated e <> 0%Z -> start_flow pm s e = Ok s) /\
  (* c3 *)
  (forall pm s p pi e,
     getf s p = Some pi -> done (i_status pi) = true -> i_flow pi <> sf_flow e -> sf_src e = Some p ->
     start_flow pm s e = Ok s).
Proof.
  exact (conj abort_emits (conj finish_emits (conj restart_processed (conj end_of_slide_activated
        (conj deactivate_not_last (conj last_activator_ends (conj queued_restart_dropped
        queued_start_of_ended_sender_dropped))))))).
Qed.
Print Assumptions C06_activation.

(* What the counting theorem deliberately does NOT cover, kept visible:
   (1) the main flow restarts in place (status WAITING) and keeps its child entries;
   (2) a top-level deactivation of one instance (count 1: the instance and its restarted instances
       stop; this is what the end of the last activator calls);
   (3) an EXPLICIT deactivation (`deactivate X` / StopFlow(.., deactivate=True) = a top-level
       _abort_flow(X, deactivate_flow=True)) decrements the count but leaves the entry of the activator
       in place: afterwards count < entries (vm_compute witness) - the invariant is about flows that
       END, as the property text is. *)
Theorem C06_activation_partial :
  (forall rk n s f d s' i,
     ranked rk s -> finish n s f d = Ok s' -> proceeds s f d = true -> getf s f = Some i ->
     listening (i_status i) = true -> i_flow i = main_id ->
     (exists i', getf s' f = Some i' /\ i_status i' = FWaiting) /\
     exists pre, out s' = out s ++ pre /\ Forall (emit_ok (below rk f) anyA) pre) /\
  (forall rk n s f s' i,
     ranked rk s -> getf s f = Some i -> is_ref_activated s i = Ok true -> i_activated i = 1%Z ->
     abort n s f true = Ok s' ->
     (lv s' f = false /\ exists i', getf s' f = Some i' /\ i_activated i' = 0%Z) /\
     forall c ci, In c (i_children i) -> getf s c = Some ci -> i_flow ci = i_flow i ->
       i_parent ci = Some f -> lst s' c = false) /\
  explicit_deactivation_breaks_count.
Proof.
  exact (conj finish_main
        (conj (fun rk n s f s' i Hr E Href H1 H =>
                 conj (deactivate_last rk n s f s' i Hr E Href H1 H)
                      (deactivate_last_children rk n s f s' i Hr E Href H1 H))
              explicit_deactivation_witness)).
Qed.
Print Assumptions C06_activation_partial.

(* _abort_flow called with the optional keyword restart_flow=False (a tree may pass it for an
   activated flow that fails before it ever waited): children stop and the whole-state relation
   behind C06_stop_once / C06_frame hold unchanged, and no restart of f is emitted. *)
Theorem C06_abort_without_restart :
  (forall rk r n s f d s',
     ranked rk s -> abort_top r n s f d = Ok s' -> proceeds s f d = true -> lv s f = true ->
     lv s' f = false /\ forall x, started_by s f x -> lst s' x = false) /\
  (forall rk r n (R A : uid -> Prop) s f d s',
     ranked rk s -> closed R s -> owns R A s -> R f -> abort_top r n s f d = Ok s' -> Srel R A s s') /\
  (forall rk n s f d s',
     ranked rk s -> abort_top false n s f d = Ok s' ->
     exists delta, out s' = out s ++ delta /\ forall src v, ~ In (ERestart f src v) delta) /\
  (forall n s f d, abort_top true n s f d = abort n s f d).
Proof. exact (conj abort_top_children_stop (conj abort_top_srel (conj abort_top_no_restart abort_top_true))). Qed.
Print Assumptions C06_abort_without_restart.

(* out of fuel = the children relation is not well-founded *)
Theorem C06_fuel_sufficient :
  (forall rk n s f d, ranked rk s -> (rk f < n)%nat -> abort n s f d <> Err EFuel) /\
  (forall rk n s f d, ranked rk s -> (rk f <= n)%nat -> finish n s f d <> Err EFuel).
Proof. exact (conj abort_nofuel finish_nofuel). Qed.
Print Assumptions C06_fuel_sufficient.

(* regression documentation: WITHOUT the release at a scope end a Stop is sent for an action that
   a still-running flow holds (the defect repaired by _release_shared_action) *)
Theorem C06_release_missing_refuted : stop_while_shared false.
Proof. exact release_missing_witness. Qed.
Print Assumptions C06_release_missing_refuted.
