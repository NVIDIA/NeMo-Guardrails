(* C05 - Competing flows: exactly one most-specific action wins per interaction loop.
   Property theorems only; every proof is `exact` of a lemma or of a term built from lemmas;
   Print Assumptions beneath each.

   `resolve args args_eqb pick cands` is the model of
   statemachine.py::_resolve_action_conflicts(state, actionable_heads) (V2/Conflict.v): cands =
   the actionable heads in list order, the result = one decision per head
   (Win | CoWin | Caught label | Lose).  args_eqb (Python == on event argument dicts) and
   pick (random.choice) are arbitrary.  loop_cands cands l = the candidates of interaction
   loop l; loop_decisions pick cands l = the decisions about them.
   pad_value / sort_reverse / shortcut_len / multi_min are read from the CURRENT source by
   translator/gen_c05.py (Gen/C05Consts.v): C05_winner_maximal needs sort_reverse = true,
   C05_shorter_chain_not_penalised needs pad_value = 1. *)
From Coq Require Import List String Bool QArith Qpower ZArith Arith Permutation.
From NG Require Import Gen.C05Consts Gen.MatchConsts V2.Conflict V2.Conflict_proofs.
Import ListNotations.
Open Scope list_scope.
Open Scope nat_scope.

(* (T) the constants of the current source *)
Theorem C05_source_constants :
  sort_reverse = true /\ (pad_value == 1)%Q /\ shortcut_len = 1 /\ multi_min = 1.
Proof. exact (conj eq_refl (conj eq_refl (conj eq_refl eq_refl))). Qed.
Print Assumptions C05_source_constants.

(* In a loop whose >= 2 candidates all want different actions: exactly one event is generated,
   exactly one candidate proceeds with its action, every other candidate is aborted (or moved
   to its failure label), and the decisions concern exactly the candidates of that loop. *)
Theorem C05_exactly_one :
  forall args args_eqb pick (cands : list (cand args)) l,
    NoDup (map c_head cands) ->
    2 <= List.length (loop_cands args cands l) ->
    (forall x y, In x (loop_cands args cands l) -> In y (loop_cands args cands l) -> c_head x <> c_head y ->
                 is_equal args args_eqb (c_event x) (c_event y) = false) ->
    exists w, In w (loop_cands args cands l)
      /\ emitted (loop_decisions args args_eqb pick cands l) = [c_event w]
      /\ map fst (filter (fun d => proceeds (snd d)) (loop_decisions args args_eqb pick cands l)) = [w]
      /\ (forall c, In c (loop_cands args cands l) -> c_head c <> c_head w ->
            In (c, loser_outcome args c) (resolve args args_eqb pick cands))
      /\ Permutation (map fst (loop_decisions args args_eqb pick cands l)) (loop_cands args cands l).
Proof. exact (fun args args_eqb pick cands l ND H2 => exactly_one args args_eqb pick cands l ND (Nat.lt_le_trans _ _ _ Nat.lt_0_2 H2)). Qed.
Print Assumptions C05_exactly_one.

(* The picked head's score list, padded for comparison, is >= every other's of its loop in
   the order the code sorts by (Python list comparison). *)
Theorem C05_winner_maximal :
  forall args args_eqb pick (cands : list (cand args)) l w,
    picks_ok pick ->
    In (w, Win) (loop_decisions args args_eqb pick cands l) ->
    forall c, In c (loop_cands args cands l) ->
      lex_cmp (key_of (loop_cands args cands l) w) (key_of (loop_cands args cands l) c) <> Lt.
Proof. exact (fun args args_eqb pick cands l w _ => picked_is_maximal args args_eqb pick cands l w eq_refl). Qed.
Print Assumptions C05_winner_maximal.

(* "Most specific" for the match on the triggering event: a candidate whose first score is
   strictly below another candidate's of the same loop is never picked ... *)
Theorem C05_less_specific_never_wins :
  forall args args_eqb pick (cands : list (cand args)) l c c' x a y b,
    picks_ok pick ->
    In c (loop_cands args cands l) -> In c' (loop_cands args cands l) ->
    c_scores c = x :: a -> c_scores c' = y :: b -> (x < y)%Q ->
    ~ In (c, Win) (loop_decisions args args_eqb pick cands l).
Proof. exact (fun args args_eqb pick cands l c c' x a y b _ => less_specific_never_wins args args_eqb pick cands l c c' x a y b eq_refl). Qed.
Print Assumptions C05_less_specific_never_wins.

(* ... in particular, scores being priority * factor^(number of unmentioned parameters) (C04,
   factor read from the source): with equal priority, more unmentioned parameters never win *)
Theorem C05_more_unmentioned_never_wins :
  forall args args_eqb pick (cands : list (cand args)) l c c' p k k' a b,
    picks_ok pick ->
    In c (loop_cands args cands l) -> In c' (loop_cands args cands l) ->
    (0 < p)%Q -> (0 <= k' < k)%Z ->
    c_scores c = (p * factor ^ k)%Q :: a -> c_scores c' = (p * factor ^ k')%Q :: b ->
    ~ In (c, Win) (loop_decisions args args_eqb pick cands l).
Proof. exact (fun args args_eqb pick cands l c c' p k k' a b _ Hc Hc' Hp Hk => more_unmentioned_never_wins args args_eqb pick cands l c c' p k k' a b eq_refl Hc Hc' Hp (proj2 Hk)). Qed.
Print Assumptions C05_more_unmentioned_never_wins.

(* ... and padding with 1.0 means: a chain that is a prefix of a longer chain is never ranked
   below it, as long as the further scores are <= 1 (C04_score_range: every score is). *)
Theorem C05_shorter_chain_not_penalised :
  forall n a ext,
    Forall (fun x => (x <= 1)%Q) ext -> List.length (a ++ ext) <= n ->
    lex_cmp (pad n a) (pad n (a ++ ext)) <> Lt.
Proof. exact prefix_chain_not_below. Qed.
Print Assumptions C05_shorter_chain_not_penalised.

(* The picked head always lies in the tie set; every member of the tie set is picked for some
   outcome of random.choice; the members carry exactly the first sorted head's score list. *)
Theorem C05_any_tie :
  forall args args_eqb (cands : list (cand args)) l,
    (forall pick w, In (w, Win) (loop_decisions args args_eqb pick cands l) ->
                    In w (tie_set (loop_cands args cands l)))
    /\ (forall t, In t (tie_set (loop_cands args cands l)) ->
          exists pick, picks_ok pick /\ In (t, Win) (loop_decisions args args_eqb pick cands l))
    /\ (forall t h0, In t (tie_set (loop_cands args cands l)) ->
          hd_error (ordered (loop_cands args cands l)) = Some h0 ->
          In t (loop_cands args cands l) /\ scores_eqb (c_scores t) (c_scores h0) = true).
Proof.
  exact (fun args args_eqb cands l =>
           conj (fun pick => picked_in_tie args args_eqb pick cands l)
                (conj (tie_member_wins args args_eqb cands l) (fun t h0 => tie_set_In args _ t h0))).
Qed.
Print Assumptions C05_any_tie.

(* A candidate whose event equals the picked head's advances too, is never aborted, and the
   loop still generates that event once. *)
Theorem C05_same_action_all_advance :
  forall args args_eqb pick (cands : list (cand args)) l w c,
    NoDup (map c_head cands) ->
    In (w, Win) (loop_decisions args args_eqb pick cands l) -> In c (loop_cands args cands l) ->
    c_head c <> c_head w ->
    is_equal args args_eqb (c_event w) (c_event c) = true ->
    (exists m, In (c, CoWin m) (resolve args args_eqb pick cands))
    /\ In (c_head c) (advancing (resolve args args_eqb pick cands))
    /\ emitted (loop_decisions args args_eqb pick cands l) = [c_event w]
    /\ (forall o, In (c, o) (resolve args args_eqb pick cands) -> exists m, o = CoWin m).
Proof. exact same_action_all_advance. Qed.
Print Assumptions C05_same_action_all_advance.

(* Every other candidate of the loop: its flow is aborted with its score list and it does not
   advance - or, inside an or-group / when scope, it is moved to the innermost failure label. *)
Theorem C05_losers_fail :
  forall args args_eqb pick (cands : list (cand args)) l w c,
    NoDup (map c_head cands) ->
    In (w, Win) (loop_decisions args args_eqb pick cands l) -> In c (loop_cands args cands l) ->
    c_head c <> c_head w ->
    is_equal args args_eqb (c_event w) (c_event c) = false ->
    In (c, loser_outcome args c) (resolve args args_eqb pick cands)
    /\ (forall o, In (c, o) (resolve args args_eqb pick cands) -> o = loser_outcome args c)
    /\ match c_catch c with
       | [] => In (c_flow c, c_scores c) (aborted (resolve args args_eqb pick cands))
               /\ ~ In (c_head c) (advancing (resolve args args_eqb pick cands))
       | _ :: _ => In (c_head c, last (c_catch c) EmptyString) (jumped (resolve args args_eqb pick cands))
                   /\ In (c_head c) (advancing (resolve args args_eqb pick cands))
       end.
Proof. exact losers_fail. Qed.
Print Assumptions C05_losers_fail.

(* resolve distributes over the partition of the candidates by interaction loop (loops in
   order of first occurrence, candidates in their original order) ... *)
Theorem C05_loops_distribute :
  forall args args_eqb pick (cands : list (cand args)),
    2 <= List.length cands ->
    resolve args args_eqb pick cands
    = resolve_groups args args_eqb pick 0
        (map (fun l => (l, loop_cands args cands l)) (loop_order args cands)).
Proof. exact (fun args args_eqb pick cands _ => resolve_by_loops args args_eqb pick cands). Qed.
Print Assumptions C05_loops_distribute.

(* ... so, for a choice that does not depend on the index of the random.choice call (adding a
   loop shifts that index), the decisions about one loop do not depend on the candidates of
   other loops *)
Theorem C05_loops_independent :
  forall args args_eqb pk (cands cands' : list (cand args)) l,
    loop_cands args cands l = loop_cands args cands' l ->
    loop_decisions args args_eqb (fun _ => pk) cands l = loop_decisions args args_eqb (fun _ => pk) cands' l.
Proof. exact loops_independent. Qed.
Print Assumptions C05_loops_independent.

(* ... and flows in pairwise different loops never compete: all of them win *)
Theorem C05_different_loops_all_win :
  forall args args_eqb pick (cands : list (cand args)),
    NoDup (map c_loop cands) ->
    (forall c, In c cands -> In (c, Win) (resolve args args_eqb pick cands))
    /\ (forall d, In d (resolve args args_eqb pick cands) -> snd d = Win).
Proof. exact different_loops_all_win. Qed.
Print Assumptions C05_different_loops_all_win.

(* Heads that are not in the candidate list never appear in the result; every candidate gets
   exactly one decision. *)
Theorem C05_nonmatching_untouched :
  forall args args_eqb pick (cands : list (cand args)),
    (forall d, In d (resolve args args_eqb pick cands) -> In (fst d) cands)
    /\ (NoDup (map c_head cands) -> Permutation (map fst (resolve args args_eqb pick cands)) cands).
Proof. exact (fun args args_eqb pick cands => conj (resolve_fst_in args args_eqb pick cands) (resolve_perm args args_eqb pick cands)). Qed.
Print Assumptions C05_nonmatching_untouched.

(* the single-candidate shortcut is the general rule applied to one candidate *)
Theorem C05_shortcut_consistent :
  forall args args_eqb pick (c : cand args),
    resolve args args_eqb pick [c] = resolve_groups args args_eqb pick 0 (group_by_loop [c]).
Proof. exact shortcut_consistent. Qed.
Print Assumptions C05_shortcut_consistent.

(* Observation kept as a checked fact (not a violation of the property text): "exact tie" in the
   code means the maximal PREFIX of the sorted heads with the first head's UNPADDED score list.
   A head with exactly that list which is sorted behind a head with an equal padded key
   ([0.81; 1.0] vs [0.81]) is never picked, whatever random.choice returns. *)
Theorem C05_every_equal_score_head_can_win_refuted :
  exists (cands : list (cand string)) t1 t3,
    In t1 cands /\ In t3 cands
    /\ scores_eqb (c_scores t3) (c_scores t1) = true
    /\ lex_cmp (key_of cands t3) (key_of cands t1) = Eq
    /\ forall pick, In (t1, Win) (resolve string String.eqb pick cands)
                    /\ ~ In (t3, Win) (resolve string String.eqb pick cands).
Proof. exact Examples.every_equal_score_head_can_win_refuted. Qed.
Print Assumptions C05_every_equal_score_head_can_win_refuted.
