(* C17 - Arbitrary LLM output never breaks a turn and is treated as data.
   Property theorems only; every proof is `exact` of a lemma or of a term built from lemmas;
   Print Assumptions beneath each.

   PROVED (about the Gallina models of Svc/TextPost.v and Pipe/Taint.v, for ALL texts, all
   oracles, unbounded sizes):
     - every text post-processing helper of the three-step / single-call / general / multi-step
       pipeline answers on every completion; the two exceptions that exist are characterised
       exactly (single call on the empty completion: TypeError; generate_bot_message on the
       empty, not predefined bot intent: IndexError) and both are raised INSIDE actions;
     - the multi-step "drop the last line until it parses" loop terminates for every parser
       oracle, within `number of lines` iterations, with an accepted non-empty prefix or the
       general response;
     - an exception inside an action becomes the three internal-error events whose reply is the
       fixed internal-error message (the v1 runtime rule failed => internal error), so the
       turn-level statement reduces to the code OUTSIDE actions (the Colang parser / interpreter
       on LLM-produced flows, history rendering, state serialisation);
     - _process_start_flow: its parse + one-flow assert cannot raise when the generation validates
       the very text the runtime parses (what the CURRENT source does, read by the translator:
       Gen.C17Consts.validate_wrapped); validating the raw body (`validate_wrapped = false`) is
       refuted;
     - the AddFlowsAction fallback and the literal_eval-only value generation: exact outcomes;
     - taint: no Jinja/literal evaluator interprets an LLM-produced text in the modelled turn; an
       LLM-produced utterance is the post-processed completion itself.
   EXPLORED, NOT PROVED (harness/c17.py, end-to-end on the real code): the behaviour of the real
   Colang parsers / interpreters / Jinja / serialisation on arbitrary LLM text, i.e. everything
   "outside actions" in C17_contained, and all of the Colang 2 LLM flows. *)
From Coq Require Import NArith List Bool String.
From NG Require Import Gen.C17Consts Svc.TextPost Svc.TextPost_proofs Svc.TextPostRun Pipe.Taint Pipe.Taint_proofs.
Import ListNotations.

(* (T) the literals of the model are the literals in the source; strip_quotes keeps its emptiness
   guard; generate_bot_message renders predefined messages only; literal_eval is the only
   evaluator of generate_value; the generation validates the wrapped flow; start_flow is contained *)
Theorem C17_source_facts :
  consts_agree = true /\ validate_wrapped = true /\ start_flow_contained = true.
Proof. exact (conj eq_refl (conj eq_refl eq_refl)). Qed.
Print Assumptions C17_source_facts.

Theorem C17_helpers_total : forall s : text,
  (exists r, get_first_nonempty_line s = Ok r) /\
  (exists r, get_top_k_nonempty_lines s 2 = Ok r) /\
  (exists r, strip_quotes s = Ok r) /\
  (exists r, get_multiline_response s = Ok r) /\
  (exists r, clean_utterance_content s = Ok r) /\
  (exists r, verbose_v1_parser s = Ok r) /\
  (exists r, user_intent_post s = Ok r) /\
  (exists r, next_step_post s = Ok r) /\
  (exists r, bot_message_post s = Ok r /\ r <> []) /\
  (exists r, general_post s = Ok r) /\
  (s <> [] -> exists r, single_call_post s = Ok r) /\
  (s = [] -> single_call_post s = Err TypeError) /\
  (forall parse vw fid maxl, exists o, multi_step_post parse vw fid maxl s = Some o).
Proof.
  exact (fun s =>
    conj (get_first_nonempty_line_total s) (conj (get_top_k_total s 2) (conj (strip_quotes_total s)
    (conj (get_multiline_response_total s) (conj (clean_utterance_content_total s) (conj (ok_Ok _ _)
    (conj (user_intent_post_total s) (conj (next_step_post_total s) (conj (bot_message_post_nonempty s)
    (conj (ok_Ok _ _) (conj (proj2 (single_call_post_char s)) (conj (proj1 (single_call_post_char s))
    (fun parse vw fid maxl => multi_step_total parse vw fid maxl s))))))))))))).
Qed.
Print Assumptions C17_helpers_total.

(* generate_bot_message: `bot_intent[0]` raises exactly for the empty, not predefined intent -
   which the next-step post-processing does produce (e.g. from `bot "hello"`) *)
Theorem C17_bot_intent_index_error : forall predefined ctx_has bi,
  (bot_message_source predefined ctx_has bi = Err IndexError <-> (bi = [] /\ predefined [] = false)) /\
  (forall e, bot_message_source predefined ctx_has bi = Err e -> e = IndexError).
Proof. exact bot_message_source_char. Qed.
Print Assumptions C17_bot_intent_index_error.

Theorem C17_bot_intent_empty_reachable : next_step_post (s2t "bot ""hello""") = Ok [].
Proof. exact next_step_post_empty_reachable. Qed.
Print Assumptions C17_bot_intent_empty_reachable.

(* the shrink loop terminates for ANY oracle within length(lines) iterations *)
Theorem C17_shrink_terminates : forall (accepts : list text -> bool) lines,
  lines <> [] -> exists o, shrink_fuel accepts (List.length lines) lines = Some o.
Proof. exact shrink_terminates. Qed.
Print Assumptions C17_shrink_terminates.

Theorem C17_shrink_decreases : forall accepts lines lines',
  shrink_step accepts lines = inr lines' -> lines <> [] ->
  (List.length lines' < List.length lines)%nat /\ lines' <> [] /\ lines' = removelast lines.
Proof. exact shrink_step_decreases. Qed.
Print Assumptions C17_shrink_decreases.

Theorem C17_shrink_result : forall accepts n lines o,
  lines <> [] -> shrink_fuel accepts n lines = Some o ->
  match o with
  | GeneralResponse => True
  | StartFlow ls => accepts ls = true /\ ls <> [] /\ is_prefix ls lines
  end.
Proof. exact shrink_result. Qed.
Print Assumptions C17_shrink_result.

(* an exception inside an action = the internal-error reply; success = the action's own events *)
Theorem C17_contained : forall (A : Type) (events_of : A -> list event) (r : res A),
  (forall e, r = Err e ->
     process_start_action events_of r = internal_error_events /\
     reply_of (process_start_action events_of r) = INTERNAL_ERROR_MESSAGE) /\
  (forall a, r = Ok a -> process_start_action events_of r = events_of a).
Proof. exact contained. Qed.
Print Assumptions C17_contained.

(* _process_start_flow's parse + assert cannot raise on what the CURRENT generation accepts
   (validate_wrapped is the value read from the source), and the accepted body is not blank *)
Theorem C17_runtime_parse : forall parse flow_id result o,
  multi_step_post parse validate_wrapped flow_id c_max_multi_step_lines result = Some o ->
  match o with
  | GeneralResponse => True
  | StartFlow ls => process_start_flow_parse parse flow_id (join_nl ls) = Ok tt /\ blank (join_nl ls) = false
  end.
Proof. exact (fun parse flow_id => multi_step_safe parse flow_id c_max_multi_step_lines). Qed.
Print Assumptions C17_runtime_parse.

(* the number of parser runs spent on one completion is bounded by the cap read from the source,
   whatever the length of the completion (fuel of the loop = number of capped lines) *)
Theorem C17_shrink_work_bounded : forall result,
  (List.length (cap_lines c_max_multi_step_lines (split_nl result)) <= c_max_multi_step_lines)%nat.
Proof. exact (fun result => cap_lines_length c_max_multi_step_lines (split_nl result) (fun H => O_S _ (eq_sym H))). Qed.
Print Assumptions C17_shrink_work_bounded.

(* ... whereas validating the raw body (`validate_wrapped = false`) protects nothing *)
Theorem C17_runtime_parse_unguarded_refuted :
  exists parse flow_id result ls,
    multi_step_post parse false flow_id 0 result = Some (StartFlow ls) /\
    exists e, process_start_flow_parse parse flow_id (join_nl ls) = Err e.
Proof. exact runtime_parse_unguarded_refuted. Qed.
Print Assumptions C17_runtime_parse_unguarded_refuted.

(* Colang 2 AddFlowsAction: when the generated code does not parse, the fallback raises exactly
   when the first line has no space, or when the fallback flow itself does not parse *)
Theorem C17_add_flows_fallback : forall parse2 content,
  match parse2 content with
  | Ok fl => add_flows_action parse2 content = Ok fl
  | Err _ =>
      let l0 := match split_nl content with h :: _ => h | [] => [] end in
      match split1_at SPACE l0 with
      | None => add_flows_action parse2 content = Err IndexError
      | Some (_, name) => add_flows_action parse2 content = parse2 (fallback_flow name)
      end
  end.
Proof. exact add_flows_action_char. Qed.
Print Assumptions C17_add_flows_fallback.

(* generated values: literal_eval is the only evaluator, applied once, its failure the only failure *)
Theorem C17_value_literal_only : forall V (lev : text -> res V) last result,
  exists v2, (forall v, lev v2 = Ok v -> generate_value_v2 V lev last result = Ok v) /\
             (forall e, lev v2 = Err e -> generate_value_v2 V lev last result = Err ValueError).
Proof. exact generate_value_v2_char. Qed.
Print Assumptions C17_value_literal_only.

(* bot intent `$name`: whatever the context variable holds, the text of the BotMessage event is a
   str or the action fails inside (AttributeError, contained) - with clean_utterance_content AS IN
   THE SOURCE (clean_guarded read by the translator); a guard that skips non-str values is refuted *)
Theorem C17_ctx_utterance_is_str : forall v r,
  ctx_utterance clean_guarded v = Ok r -> exists t, r = inl t.
Proof. exact ctx_utterance_is_str. Qed.
Print Assumptions C17_ctx_utterance_is_str.

Theorem C17_ctx_utterance_guarded_refuted : exists v, ctx_utterance true v = Ok (inr tt).
Proof. exact ctx_utterance_guarded_refuted. Qed.
Print Assumptions C17_ctx_utterance_guarded_refuted.

(* generated values: accepted => every atom of the value, dict KEYS included, can be stored in the
   conversation state (the key check is the one of the source: value_keys_checked) *)
Theorem C17_value_storable : forall v,
  supported_value value_keys_checked v = true -> forallb atom_storable (atoms v) = true.
Proof. exact supported_value_sound. Qed.
Print Assumptions C17_value_storable.

Theorem C17_value_keys_unchecked_refuted :
  exists v, supported_value false v = true /\ forallb atom_storable (atoms v) = false.
Proof. exact supported_value_keys_unchecked_refuted. Qed.
Print Assumptions C17_value_keys_unchecked_refuted.

(* taint: in the three-step turn no evaluator interprets an LLM text, and an LLM-produced
   utterance is exactly the post-processed third completion *)
Theorem C17_taint : forall llm render prompt_template predefined ctx data_env h m tr,
  turn_dialog llm render prompt_template predefined ctx data_env h = Ok (m, tr) ->
  programs_clean tr /\ (tg m = FromLLM -> bot_message_post (llm 2%nat) = Ok (txt m)).
Proof. exact turn_dialog_taint. Qed.
Print Assumptions C17_taint.

Theorem C17_taint_general : forall llm render prompt_template data_env h m tr,
  turn_general llm render prompt_template data_env h = Ok (m, tr) ->
  programs_clean tr /\ general_post (llm 0%nat) = Ok (txt m).
Proof. exact turn_general_taint. Qed.
Print Assumptions C17_taint_general.

Theorem C17_taint_single_call : forall llm render prompt_template data_env h m tr,
  turn_single_call llm render prompt_template data_env h = Ok (m, tr) ->
  programs_clean tr /\ exists ui bi, single_call_post (llm 0%nat) = Ok (ui, bi, txt m).
Proof. exact turn_single_call_taint. Qed.
Print Assumptions C17_taint_single_call.

(* multi-turn: with the number of rendering passes of taskmanager._render_string AS IN THE SOURCE
   (prompt_render_passes, read by the translator), over any number of turns and whatever the LLM
   and the user wrote in earlier turns, every text interpreted as a template is configuration:
   the history is inserted as data and never interpreted *)
Theorem C17_taint_multi_turn : forall llm render pt denv users k0 h h' tr,
  conversation llm render pt denv prompt_render_passes k0 h users = Ok (h', tr) -> programs_clean tr.
Proof.
  exact (fun llm render pt denv users k0 h h' tr =>
           conversation_taint llm render pt denv prompt_render_passes users k0 h h' tr (le_n 1)).
Qed.
Print Assumptions C17_taint_multi_turn.

(* ... a second pass over the rendered prompt interprets LLM text of an earlier turn *)
Theorem C17_taint_two_passes_refuted :
  exists llm users h' tr e t,
    conversation llm (fun t _ => t) (fun _ => s2t "tpl") (fun _ t => t) 2 0 [] users = Ok (h', tr) /\
    In (e, t) tr /\ e = Render /\ tg t = FromLLM.
Proof. exact conversation_two_passes_refuted. Qed.
Print Assumptions C17_taint_two_passes_refuted.
