(* C02 - Output rails gate every LLM-generated bot message, in every turn.
   Property theorems only; every proof is `exact` of a lemma or of a term built from lemmas;
   Print Assumptions beneath each.

   Same models as C01 (Pipe/TurnV1.v, Pipe/TurnV2.v) with the persistent flags explicit:
   Colang 1.0 `$skip_output_rails` (one-shot skip for predefined messages), Colang 2.x global
   `$output_rails_in_progress`.  External behaviour (rail actions, LLM, parsers, dialog policy,
   predefined messages) is universally quantified.

   Colang 2.x: guardrails.co without fixes/C02-output-rails-flag.patch (the PRE-FIX file) does not reset `$output_rails_in_progress` when the
   awaited `output rails` flow fails (a rail aborts): `C02_v2_flag_refuted` keeps the witness on
   the faithful model (fixd = false).  The main theorems are about the model of the CURRENT
   file, `current_fixd` being computed by the checker from Gen/C01Flows.v:
   `C02_T_v2_flag_reset_on_failure` holds only for the repaired file
   (fixes/C02-output-rails-flag.patch). *)
From Coq Require Import List String Bool Arith ZArith.
From NG Require Import Pipe.Rails Pipe.Rails_proofs Pipe.TurnV1 Pipe.TurnV1_proofs Pipe.TurnV2 Pipe.TurnV2_proofs
                       Pipe.Gates_proofs Pipe.FlowCheck Pipe.FlowCheck_proofs Gen.C01Flows Pipe.Flows_proofs
                       Pipe.FlowsOut_proofs Pipe.Gates_examples.
Import ListNotations.
Open Scope string_scope.
Open Scope list_scope.

(* C02_all_checked / C02_reject_hidden / C02_rewrite_returned in one statement (`out_gate`):
   from a state with the skip flag clear, either the turn has no LLM-generated bot message, or
   it has exactly one, `m`, and: the events after it are the output-rail calls `run_rails`
   produces from `m` over the WHOLE configured list (in order, each rail shown the rewrites of
   its predecessors, stopping at a rejection), followed by
     - the utterance of the FINAL text `m'` (reply = [m'], nothing else uttered) when all passed;
     - the refusal (or the rail exception) when a rail rejected: the reply is the refusal /
       exception and the only utterance is the refusal - neither `m` nor the text shown to the
       rejecting rail is uttered. *)
Theorem C02_all_checked :
  forall vf llm post_general intent_step next_of predefined msg_of refusal cf st u,
    skip st = false ->
    out_gate vf refusal cf st
      (snd (fst (turn_v1 vf llm post_general intent_step next_of predefined msg_of refusal cf st u)))
      (snd (turn_v1 vf llm post_general intent_step next_of predefined msg_of refusal cf st u)).
Proof. exact v1_out_gate. Qed.
Print Assumptions C02_all_checked.

(* the declarative reading of `run_rails` used above *)
Theorem C02_run_rails_meaning :
  forall v s rs c t tr c' res,
    run_rails v s rs c t = (tr, c', res) ->
    exists calls, tr = map (mk s) calls /\ chain v c t rs calls /\ c' = c + List.length calls /\
                  rres_ok v c t rs calls res.
Proof. exact run_rails_shape. Qed.
Print Assumptions C02_run_rails_meaning.

(* C02_reject_hidden: a rejected message is not in the reply; the refusal is *)
Theorem C02_reject_hidden :
  forall vf llm post_general intent_step next_of predefined msg_of refusal cf st u a m trO r x tail c',
    skip st = false ->
    let T := turn_v1 vf llm post_general intent_step next_of predefined msg_of refusal cf st u in
    snd (fst T) = a ++ TBot FromLLM m :: trO ++ tail ->
    Forall (fun e => is_from_llm e = false) a ->
    run_rails (vf (tidx st)) SOut (orails cf) (n_rail_calls a) m = (trO, c', Blocked r x) ->
    snd T = (if exceptions cf then RExc SOut r else RMsg [refusal]) /\
    emitted (snd (fst T)) = (if exceptions cf then [] else [refusal]).
Proof.
  exact (fun vf llm post_general intent_step next_of predefined msg_of refusal cf st u a m trO r x tail c' =>
           out_gate_determined vf llm post_general intent_step next_of predefined msg_of refusal
                                  cf st u a m trO tail c' (Blocked r x)).
Qed.
Print Assumptions C02_reject_hidden.

(* C02_rewrite_returned: when all rails pass, the reply is the text as rewritten by the rails *)
Theorem C02_rewrite_returned :
  forall vf llm post_general intent_step next_of predefined msg_of refusal cf st u a m trO m' tail c',
    skip st = false ->
    let T := turn_v1 vf llm post_general intent_step next_of predefined msg_of refusal cf st u in
    snd (fst T) = a ++ TBot FromLLM m :: trO ++ tail ->
    Forall (fun e => is_from_llm e = false) a ->
    run_rails (vf (tidx st)) SOut (orails cf) (n_rail_calls a) m = (trO, c', Passed m') ->
    snd T = RMsg [m'] /\ emitted (snd (fst T)) = [m'] /\
    m' = final_text (vf (tidx st)) (n_rail_calls a) m (orails cf).
Proof. exact v1_rewrite_returned. Qed.
Print Assumptions C02_rewrite_returned.

(* C02_flag_invariant (1.0): $skip_output_rails is false at every turn boundary, for every
   verdict history, LLM and dialog policy *)
Theorem C02_flag_invariant :
  forall vf llm post_general intent_step next_of predefined msg_of refusal cf us st,
    skip st = false ->
    Forall (fun r => skip (fst (fst r)) = false)
           (conv_v1 vf llm post_general intent_step next_of predefined msg_of refusal cf st us).
Proof. exact conv_v1_skip_invariant. Qed.
Print Assumptions C02_flag_invariant.

(* C02_later_turns (1.0): in every state a conversation can reach - whatever was blocked,
   rewritten or refused before - a bot message is checked exactly as in a fresh conversation *)
Theorem C02_later_turns :
  forall vf llm post_general intent_step next_of predefined msg_of refusal cf st c m,
    reachable vf llm post_general intent_step next_of predefined msg_of refusal cf st ->
    let r := process_bot vf refusal cf st c m in
    let r0 := process_bot vf refusal cf (fresh_at (tidx st)) c m in
    snd (fst (fst r)) = snd (fst (fst r0)) /\ snd (fst r) = snd (fst r0) /\ snd r = snd r0.
Proof.
  exact (fun vf llm post_general intent_step next_of predefined msg_of refusal cf st c m Hr =>
           process_bot_state_independent vf refusal cf st (fresh_at (tidx st)) c m
             (reachable_skip_false vf llm post_general intent_step next_of predefined msg_of refusal cf st Hr)
             eq_refl eq_refl).
Qed.
Print Assumptions C02_later_turns.

(* generation options are per call: in a conversation whose calls each bring their own options
   (e.g. output rails switched off for ONE call), the skip flag stays clear and every call that
   does not disable a category runs it in full - input rails in order over the whole list, the
   LLM-generated message through the whole output list - whatever the earlier calls disabled *)
Theorem C02_options_per_call :
  forall vf llm post_general intent_step next_of predefined msg_of refusal cf ous st,
    skip st = false ->
    Forall (fun sou => let '(s, o, u) := sou in
              let T := turn_v1_opts vf llm post_general intent_step next_of predefined msg_of refusal cf o s u in
              skip s = false /\
              (o_in o = true -> ordered_calls (vf (tidx s)) u (irails cf) (rail_calls SIn (snd (fst T)))) /\
              (o_out o = true -> orails (eff cf o) = orails cf /\
                                 out_gate vf refusal (eff cf o) s (snd (fst T)) (snd T)))
           (states_before_opts vf llm post_general intent_step next_of predefined msg_of refusal cf st ous).
Proof. exact v1_gates_with_options. Qed.
Print Assumptions C02_options_per_call.

(* the pre-fix file (fixd = false): a 3-turn conversation with one output rail that rejects at turn 1; after
   turn 1 the flag is True and at turn 2 the LLM message is uttered with ZERO output-rail calls *)
Theorem C02_v2_flag_refuted :
  exists vf llm value_of refusal_in refusal_out cf us,
    map (fun r => (orip (fst (fst r)), n_rail_calls (snd (fst r)), snd r))
        (conv_v2 false vf llm value_of refusal_in refusal_out cf init_state2 us)
    = [(false, 1, RMsg ["m"]); (true, 1, RMsg [refusal_out]); (true, 0, RMsg ["m"])] /\
    orails2 cf <> [].
Proof. exact v2_flag_refuted. Qed.
Print Assumptions C02_v2_flag_refuted.

(* (T) the CURRENT guardrails.co resets the flag on every path of `run output rails`, including
   the failure of the awaited `output rails` flow *)
Theorem C02_T_v2_flag_reset_on_failure : current_fixd = true.
Proof. exact current_file_resets_flag. Qed.
Print Assumptions C02_T_v2_flag_reset_on_failure.

(* C02_flag_invariant (2.x, model of the current file) *)
Theorem C02_v2_flag_invariant :
  forall vf llm value_of refusal_in refusal_out cf us st,
    orip st = false ->
    Forall (fun r => orip (fst (fst r)) = false)
           (conv_v2 current_fixd vf llm value_of refusal_in refusal_out cf st us).
Proof. exact v2_flag_invariant_current. Qed.
Print Assumptions C02_v2_flag_invariant.

(* C02_all_checked (2.x): with the flag clear at the start of the turn, the LLM-generated bot
   message passes the whole `output rails` list in order before it is uttered; a rejection
   hides it (reply = refusal / exception) *)
Theorem C02_v2_all_checked :
  forall vf llm value_of refusal_in refusal_out cf st u,
    orip st = false ->
    out_gate2 vf refusal_out cf st u
      (snd (fst (turn_v2 current_fixd vf llm value_of refusal_in refusal_out cf st u)))
      (snd (turn_v2 current_fixd vf llm value_of refusal_in refusal_out cf st u)).
Proof. exact (v2_out_gate current_fixd). Qed.
Print Assumptions C02_v2_all_checked.

(* C02_later_turns (2.x, repaired model: fixd = true, not `current_fixd`) *)
Theorem C02_v2_later_turns :
  forall vf llm value_of refusal_in refusal_out cf st c pv m,
    reachable2 vf llm value_of refusal_in refusal_out cf st ->
    let r := bot_say true vf refusal_out cf st c pv m in
    let r0 := bot_say true vf refusal_out cf (fresh2_at (tidx2 st)) c pv m in
    snd (fst (fst r)) = snd (fst (fst r0)) /\ snd (fst r) = snd (fst r0) /\ snd r = snd r0.
Proof.
  exact (fun vf llm value_of refusal_in refusal_out cf st c pv m Hr =>
           bot_say_state_independent true vf refusal_out cf st (fresh2_at (tidx2 st)) c pv m
             (reachable2_flag vf llm value_of refusal_in refusal_out cf st Hr) eq_refl eq_refl).
Qed.
Print Assumptions C02_v2_later_turns.

(* llm_flows.co `process bot message`, as compiled from the current source: every path to the
   creation of StartUtteranceBotAction passes `do run output rails`, unless no output rails are
   configured, the generation options disable them, or $skip_output_rails is set; on that
   branch the flag is reset before the utterance; the utterance is $bot_message *)
Theorem C02_T_output_gate :
  output_gate_ok v1_process_bot_message = true /\
  (forall p k, path v1_process_bot_message 0 p k ->
               is_create "StartUtteranceBotAction" (elem_at v1_process_bot_message k) = true ->
               passes v1_process_bot_message (is_flow "run output rails") out_excused p) /\
  (forall p k, path v1_process_bot_message skip_branch_entry p k ->
               is_create "StartUtteranceBotAction" (elem_at v1_process_bot_message k) = true ->
               passes v1_process_bot_message (is_set "skip_output_rails" "False") (fun _ => false) p).
Proof. exact (conj output_gate_checked (conj output_gate_dominates skip_flag_reset_dominates)). Qed.
Print Assumptions C02_T_output_gate.

Theorem C02_T_output_loop :
  forall (n : nat) i0, exists fuel,
    lrun out_loop v1_run_output_rails (Z.of_nat n) fuel 0 i0 [] = Some (zseq 0 n).
Proof. exact out_loop_visits. Qed.
Print Assumptions C02_T_output_loop.

(* library rail `self check output` (flows.v1.co and flows.co, as translated from the current
   source): a rejection reaches `stop` / `abort` on EVERY path, with and without
   enable_rails_exceptions - so that the rails loop does not run on to StartUtteranceBotAction
   (1.0) and `_bot_say` does not go on to UtteranceBotAction (2.x) with the rejected text.
   Holds only with fixes/C02-selfcheck-output-stop.patch applied: without it stop/abort stand
   under the `else` alone *)
Theorem C02_T_self_check_output_stops :
  reject_stops_ok v1_self_check_output [] = true /\
  v2_reject_aborts v2lib_self_check_output "not $allowed" = true.
Proof. exact (conj self_check_output_stops v2_self_check_output_aborts). Qed.
Print Assumptions C02_T_self_check_output_stops.

(* guardrails.co: `_bot_say` awaits `run output rails $text` before UtteranceBotAction(script=$text)
   unless the in-progress flag is set; `run output rails` awaits `output rails $output_text` *)
Theorem C02_T_v2_gates :
  v2_bot_say_ok v2_bot_say = true /\
  v2_run_rails_ok v2_run_output_rails "$output_rails_exist" "output rails" "$output_text" = true.
Proof. exact (conj (proj1 (proj2 v2_gates_checked)) (proj2 (proj2 (proj2 v2_gates_checked)))). Qed.
Print Assumptions C02_T_v2_gates.

(* 4 turns, two output rails: block at turn 1, rewrite at turn 2, both rails called at turn 3 *)
Theorem C02_example_conversation : ex_c02_statement.
Proof. exact ex_c02. Qed.
Print Assumptions C02_example_conversation.

(* a predefined message sets and resets the skip flag within its turn *)
Theorem C02_example_predefined : ex_predef_statement.
Proof. exact ex_predef. Qed.
Print Assumptions C02_example_predefined.

(* Colang 2, repaired model: the conversation of C02_v2_flag_refuted keeps the flag clear and
   checks the bot message of every turn (the hypotheses of C02_v2_flag_invariant are inhabited) *)
Theorem C02_example_v2_repaired :
  map (fun r => (orip (fst (fst r)), n_rail_calls (snd (fst r)), snd r))
      (conv_v2 true f3_vf (fun _ _ _ => "m") (fun o => o) "ri" "ro"
               (mkCfg2 [] [7] false) init_state2 ["a"; "b"; "c"])
  = [(false, 1, RMsg ["m"]); (false, 1, RMsg ["ro"]); (false, 1, RMsg ["m"])].
Proof. exact v2_flag_repaired_witness. Qed.
Print Assumptions C02_example_v2_repaired.
