(* C09 - After each event the interpreter is quiescent and its dispatch index is exact.
   Property theorems only; every proof is `exact` of a lemma or of a term built from lemmas;
   Print Assumptions beneath each.

   The index theorems are about V2.Index: flow instances, heads, State.event_matching_heads, the
   reverse map and exactly the mutations statemachine.py / flows.py perform on them, each with
   the side condition (the discipline) under which the real code performs it; `step` fails when
   a side condition is violated.  `run prog empty_state ops = Ok s` therefore reads: s is the
   state after ANY finite sequence of operations that respects the discipline, for ANY program
   table.  harness/c09.py checks on every explored run of the real interpreter that its traced
   mutations are such a sequence (IndexRun.check_seg, trace inclusion).  The theorems on action
   references (C09_refs_exist ...) are about the second, small model V2.Refs, tied to the real
   runs in the same way (Refs.check_aseg).

   NOT proved (needs the whole interpreter): "run_to_completion always ends in a quiescent
   state".  There is no theorem for that part; it is VALIDATED BY EXPLORATION: `quiescentb` is evaluated
   inside Coq (IndexRun.check_snap) on every distinct snapshot of the real State after an
   event; what IS proved about quiescence is below (C09_quiescent_index_exact,
   C09_done_instances_hold_no_position, C09_no_dispatch_to_dead). *)
From Coq Require Import NArith List Bool.
From NG Require Import V2.Index V2.Index_proofs V2.IndexRun V2.Index_examples V2.Refs V2.Refs_proofs.
Import ListNotations.
Open Scope N_scope.

(* the invariant (no duplicate, no stale entry, no missed head, reverse map exactly inverse,
   done instances without heads, dict keys unique) is preserved by every single operation *)
Theorem C09_invariant_preserved :
  forall prog s o s', Inv prog s -> step prog s o = Ok s' -> Inv prog s'.
Proof. exact step_inv. Qed.
Print Assumptions C09_invariant_preserved.

Theorem C09_invariant_initially : forall prog, Inv prog empty_state.
Proof. exact empty_inv. Qed.
Print Assumptions C09_invariant_initially.

(* exactness: after any finite sequence of operations, whenever no instance is in the transient
   STOPPING status (always the case at quiescence), the index holds per event name exactly the
   multiset a from-scratch scan of all listening instances finds *)
Theorem C09_index_exact :
  forall prog ops s,
    run prog empty_state ops = Ok s -> no_stopping s ->
    forall n k, count_occ key_dec (ix_get s n) k = count_occ key_dec (scan prog s n) k.
Proof. exact (fun prog ops s H => index_exact prog s (reachable_inv prog ops s H)). Qed.
Print Assumptions C09_index_exact.

(* ... and at every moment (STOPPING instances included): no duplicates, every head a scan finds
   is registered, every registered entry is an attached non-inactive head on that match *)
Theorem C09_index_sandwich :
  forall prog ops s,
    run prog empty_state ops = Ok s ->
    forall n k,
      (count_occ key_dec (ix_get s n) k <= 1)%nat /\
      (scanb prog s n k = true -> count_occ key_dec (ix_get s n) k = 1%nat) /\
      (count_occ key_dec (ix_get s n) k = 1%nat -> relevant prog s k = Some n).
Proof. exact (fun prog ops s H => index_sandwich prog s (reachable_inv prog ops s H)). Qed.
Print Assumptions C09_index_sandwich.

(* the reverse map is exactly the inverse of the index *)
Theorem C09_reverse_map_inverse :
  forall prog ops s,
    run prog empty_state ops = Ok s ->
    forall k n, rev_get s k = Some n <-> In k (ix_get s n).
Proof. exact (fun prog ops s H => rev_exact s (inv_cnt prog s (reachable_inv prog ops s H))). Qed.
Print Assumptions C09_reverse_map_inverse.

(* the same from any snapshot that satisfies the invariant (runs are continued from snapshots) *)
Theorem C09_index_exact_continued :
  forall prog s0 ops s,
    Inv prog s0 -> run prog s0 ops = Ok s -> no_stopping s ->
    forall n k, count_occ key_dec (ix_get s n) k = count_occ key_dec (scan prog s n) k.
Proof. exact (fun prog s0 ops s H0 H => index_exact prog s (run_inv prog ops s0 s H0 H)). Qed.
Print Assumptions C09_index_exact_continued.

(* quiescence part, on the model: a quiescent snapshot has an exact index *)
Theorem C09_quiescent_index_exact :
  forall prog ops sn,
    run prog empty_state ops = Ok (sn_state sn) -> quiescentb prog sn = true ->
    forall n k, count_occ key_dec (ix_get (sn_state sn) n) k = count_occ key_dec (scan prog (sn_state sn) n) k.
Proof. exact (fun prog ops sn H => quiescent_exact prog sn (reachable_inv prog ops _ H)). Qed.
Print Assumptions C09_quiescent_index_exact.

(* the decision procedure evaluated in Coq on the snapshots of the real State is sound: on a
   snapshot with unique dict keys it implies that the index is exactly the scan *)
Theorem C09_exactb_sound :
  forall prog s,
    WF s -> exactb prog s = true ->
    forall n k, count_occ key_dec (ix_get s n) k = count_occ key_dec (scan prog s n) k.
Proof. exact exactb_sound. Qed.
Print Assumptions C09_exactb_sound.

(* finished or failed instances hold no position *)
Theorem C09_done_instances_hold_no_position :
  forall prog ops s,
    run prog empty_state ops = Ok s ->
    forall f i, find_inst s f = Some i -> is_done (i_st i) = true -> i_heads i = [].
Proof. exact (fun prog ops s H => inv_done prog s (reachable_inv prog ops s H)). Qed.
Print Assumptions C09_done_instances_hold_no_position.

(* the next event is never dispatched to a dead instance or to a head that no longer exists *)
Theorem C09_no_dispatch_to_dead :
  forall prog ops s,
    run prog empty_state ops = Ok s ->
    forall n k, In k (ix_get s n) ->
      exists i hd, find_inst s (fst k) = Some i /\ is_done (i_st i) = false /\
                   aget N.eqb (i_heads i) (snd k) = Some hd /\ h_st hd <> HInactive /\
                   prog (fst k) (h_pos hd) = Some (EMatch n).
Proof. exact (fun prog ops s H => no_dispatch_to_dead prog s (reachable_inv prog ops s H)). Qed.
Print Assumptions C09_no_dispatch_to_dead.

(* every action referenced by a running flow still exists: V2.Refs models State.actions against
   the references of the instances (action_uids, scope action lists); an action is removed
   (del, or the rebuild of the 5-second clean-up) only if no listening instance references it.
   After any finite sequence of such operations - from the empty state or from a snapshot of the
   real State that passed refs_okb - every listening instance only references existing actions *)
Theorem C09_refs_exist :
  forall ops s, arun empty_astate ops = Some s -> ARefsOK s.
Proof. exact reachable_refs_exist. Qed.
Print Assumptions C09_refs_exist.

Theorem C09_refs_exist_continued :
  forall s0 ops s,
    refs_okb (a_actions s0) (a_insts s0) = true -> arun s0 ops = Some s -> ARefsOK s.
Proof. exact continued_refs_exist. Qed.
Print Assumptions C09_refs_exist_continued.

(* dropping a shared action together with its finished owner is not a step *)
Theorem C09_shared_action_dropped_is_no_step :
  arun empty_astate
    [ASetInst 1 true []; ASetInst 2 true []; AAddAction 7;
     ASetInst 1 true [7]; ASetInst 2 true [7];
     ASetInst 1 false [7]; ADropInst 1; AReplaceActions []]
  = None.
Proof. exact shared_action_dropped_is_no_step. Qed.
Print Assumptions C09_shared_action_dropped_is_no_step.

(* the operations a broken discipline would produce are not steps *)
Theorem C09_clear_without_removal_is_no_step :
  run (prog_of t0) empty_state (ops0 ++ [OClearHeads 1 []]) = Fail E_STALE.
Proof. exact clear_without_removal_rejected. Qed.
Print Assumptions C09_clear_without_removal_is_no_step.

Theorem C09_silent_setter_is_no_step :
  run (prog_of t0) empty_state (ops0 ++ [OSetStatus 1 11 HInactive NoFire]) = Fail E_FIRE.
Proof. exact silent_setter_rejected. Qed.
Print Assumptions C09_silent_setter_is_no_step.

(* the hypotheses above are inhabited by a non-trivial reachable, quiescent state *)
Theorem C09_hypotheses_inhabited :
  run (prog_of t0) empty_state ops0 = Ok s_ex
  /\ ix_get s_ex 2 = [(1, 11)]
  /\ quiescentb (prog_of t0) sn_ex = true
  /\ exactb (prog_of t0) s_ex = true.
Proof. exact reachable_nontrivial. Qed.
Print Assumptions C09_hypotheses_inhabited.
