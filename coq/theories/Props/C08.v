(* C08 - Flow calls bind parameters, defaults and return values; locals are private.
   Property theorems only; every proof is `exact` of a lemma or of a term built from lemmas;
   Print Assumptions beneath each.
   The model (V2/Bind.v) transcribes create_flow_instance, _start_flow, the Assignment/Return/
   Global cases of slide, finished_event and the call-argument parsing of the transformer; it is
   tied to the source on every run by the correspondence check of harness/c08.py.
   [eval : ctx -> expr -> value] is arbitrary (every expression language, every value).
   Theorems named C08_obs_* state what the code does where the property says nothing: O1-O3
   outside the premise `well_formed_call`, O4 a callee that ends without `return`, O6 a
   re-activation that omits a parameter without default; O5 (the caller's wait for FlowStarted)
   is C08_await_hang_refuted.  They are reported, not claimed as part of the property. *)
From Coq Require Import ZArith List String Arith Bool.
From NG Require Import Val.Value V2.Bind V2.Bind_proofs.
Import ListNotations.
Open Scope string_scope.

(* For every signature (any number of parameters, any defaults, return members) and every
   well-formed call (no more positional arguments than parameters; no parameter bound both
   positionally and by name), parameter i's value in the callee's context - and in
   `arguments` - is positional argument i if given, else the named argument, else the
   declared default evaluated in the EMPTY context, else None.  [cc] is the context in which
   the argument expressions are evaluated.  (Only the first half of the premise is used: a
   parameter given both ways receives the positional value, in spec_value as in the code.) *)
Theorem C08_binding :
  forall (expr : Type) (eval : ctx -> expr -> value)
         (ps rs : list (param expr)) (l : list (arg expr)) (cc : ctx) (R : reserved) (activated : bool),
    wf_signature expr ps rs = true ->
    syntactic_call expr l = true ->
    well_formed_call expr ps l = true ->
    exists a c,
      bind expr eval ps rs (start_event_args R activated (eval_args expr eval cc (parse_args expr l 0 []))) = Bound a c /\
      forall i p, nth_error ps i = Some p ->
        aget (p_name p) c = Some (spec_value expr eval cc l i p) /\
        aget (p_name p) a = Some (spec_value expr eval cc l i p).
Proof.
  exact (fun expr eval ps rs l cc R act Hwf Hsyn Hcall =>
           bind_call_spec expr eval l R act cc Hsyn ps rs Hwf (well_formed_call_length expr ps l Hcall)).
Qed.
Print Assumptions C08_binding.

(* the same rule on an arbitrary evaluated event_arguments dict whose positional keys are
   $0..$(k-1), k <= number of parameters (also when a parameter is bound both ways: the
   positional value wins) *)
Theorem C08_binding_event_arguments :
  forall (expr : Type) (eval : ctx -> expr -> value) (ps rs : list (param expr)) (ev : ctx) (k : nat),
    wf_signature expr ps rs = true ->
    pos_contig ev k -> k <= List.length ps ->
    exists a c, bind expr eval ps rs ev = Bound a c /\
      (forall i p, nth_error ps i = Some p ->
         aget (p_name p) c = Some (ev_value expr eval ev i p) /\
         aget (p_name p) a = Some (ev_value expr eval ev i p)) /\
      map fst a = (map p_name ps ++ map pos_key (seq 0 k))%list.
Proof. exact bind_spec. Qed.
Print Assumptions C08_binding_event_arguments.

(* the premises are inhabited by a non-trivial signature and call, and well_formed_call is
   not trivially true *)
Theorem C08_premises_inhabited :
  wf_signature Examples.xe Examples.ps Examples.rs = true /\
  syntactic_call Examples.xe Examples.call1 = true /\
  well_formed_call Examples.xe Examples.ps Examples.call1 = true /\
  well_formed_call Examples.xe Examples.ps [APos (Examples.XVar "y"); ANamed "a" (Examples.XVar "loc")] = false /\
  well_formed_call Examples.xe Examples.ps
    [APos (Examples.XLit VNone); APos (Examples.XLit VNone); APos (Examples.XLit VNone); APos (Examples.XLit VNone)] = false.
Proof. exact Examples.premises_inhabited. Qed.
Print Assumptions C08_premises_inhabited.

(* The call as a step of the machine: the values are those of the argument expressions
   evaluated in the CALLER's context at the call (eval_ctx st caller); the call changes no
   other instance's context and no global. *)
Theorem C08_caller_eval :
  forall (expr : Type) (eval : ctx -> expr -> value)
         (st : mstate) (caller callee : nat) (ps rs : list (param expr)) (R : reserved) (activated : bool)
         (l : list (arg expr)) (ec : ctx),
    wf_signature expr ps rs = true ->
    syntactic_call expr l = true ->
    well_formed_call expr ps l = true ->
    bounded st ->
    eval_ctx st caller = Some ec ->
    exists st',
      step expr eval st (OStart expr caller callee ps rs R activated (parse_args expr l 0 [])) = Ok st' /\
      (forall i p, nth_error ps i = Some p ->
         aget (p_name p) (ctx_of st' callee) = Some (spec_value expr eval ec l i p) /\
         aget (p_name p) (m_args st' callee) = Some (spec_value expr eval ec l i p)) /\
      (forall j, j <> callee -> ctx_of st' j = ctx_of st j) /\
      m_gctx st' = m_gctx st.
Proof.
  exact (fun expr eval st caller callee ps rs R act l ec Hwf Hsyn Hcall =>
           caller_eval expr eval st caller callee ps rs R act l ec Hwf Hsyn
             (well_formed_call_length expr ps l Hcall)).
Qed.
Print Assumptions C08_caller_eval.

(* every state reached from the initial one satisfies the side condition `bounded` *)
Theorem C08_reachable_bounded :
  forall (expr : Type) (eval : ctx -> expr -> value) (os : list (op expr)) (st : mstate),
    run expr eval m_init os = Ok st -> bounded st.
Proof. exact (fun expr eval os st => run_bounded expr eval os m_init st init_bounded). Qed.
Print Assumptions C08_reachable_bounded.

(* inside the premise every argument of the call is echoed, with the same value, by
   `arguments` and hence by the FlowStarted event the caller waits for *)
Theorem C08_call_args_echoed :
  forall (expr : Type) (eval : ctx -> expr -> value) (ps rs : list (param expr)) (ev : ctx) (k : nat),
    wf_signature expr ps rs = true -> pos_contig ev k -> k <= List.length ps ->
    (forall i p, i < k -> nth_error ps i = Some p -> ahas (p_name p) ev = false) ->
    exists a c, bind expr eval ps rs ev = Bound a c /\
      (forall j v, aget (pos_key j) ev = Some v -> aget (pos_key j) a = Some v) /\
      (forall p v, In p ps -> aget (p_name p) ev = Some v -> aget (p_name p) a = Some v).
Proof. exact call_args_echoed. Qed.
Print Assumptions C08_call_args_echoed.

(* `$x = await f(..)`: after the callee executed `return e` (bare `return`: None), the
   expansion's assignment stores exactly that value - evaluated in the callee's context at
   the return - in the caller's x; no third instance and no global changes *)
Theorem C08_return :
  forall (expr : Type) (eval : ctx -> expr -> value)
         (st : mstate) (callee : nat) (e : option expr) (st1 : mstate) (caller : nat) (x : string)
         (uid fid : value) (st2 : mstate) (ec : ctx),
    eval_ctx st callee = Some ec ->
    step expr eval st (OReturn expr callee e) = Ok st1 ->
    m_cell st caller <> m_cell st callee ->
    ahas (global_key x) (ctx_of st caller) = false ->
    step expr eval st1 (OAwaitAssign expr caller callee uid fid x) = Ok st2 ->
    aget x (ctx_of st2 caller) = Some (match e with Some e' => eval ec e' | None => VNone end) /\
    (forall j, m_cell st j <> m_cell st caller -> ctx_of st2 j = ctx_of st1 j) /\
    m_gctx st2 = m_gctx st.
Proof. exact return_spec. Qed.
Print Assumptions C08_return.

Theorem C08_return_inhabited :
  exists st st1 st2 ec,
    run Examples.xe Examples.xeval m_init Examples.ops1 = Ok st /\ eval_ctx st 1 = Some ec /\
    step Examples.xe Examples.xeval st (OReturn Examples.xe 1 (Some (Examples.XVar "b"))) = Ok st1 /\
    m_cell st 0 <> m_cell st 1 /\ ahas (global_key "x") (ctx_of st 0) = false /\
    step Examples.xe Examples.xeval st1 (OAwaitAssign Examples.xe 0 1 (VStr "(f)1") (VStr "f") "x") = Ok st2 /\
    aget "x" (ctx_of st2 0) = Some (VInt 3).
Proof. exact Examples.return_inhabited. Qed.
Print Assumptions C08_return_inhabited.

(* In every state reached without a shared-context start, an Assign to a key that instance
   i has not declared global changes instance i's context at that key and NOTHING else:
   no other instance's context (caller, callee or sibling), no `arguments`, no global. *)
Theorem C08_locals_private :
  forall (expr : Type) (eval : ctx -> expr -> value)
         (os : list (op expr)) (st : mstate) (i : nat) (k : string) (e : expr) (st' : mstate),
    no_shared_start expr os -> run expr eval m_init os = Ok st ->
    step expr eval st (OAssign expr i k e) = Ok st' ->
    ahas (global_key k) (ctx_of st i) = false ->
    (forall j, j <> i -> ctx_of st' j = ctx_of st j) /\
    m_gctx st' = m_gctx st /\
    (forall j, m_args st' j = m_args st j) /\
    exists ec, eval_ctx st i = Some ec /\ ctx_of st' i = aset k (eval ec e) (ctx_of st i).
Proof. exact locals_private. Qed.
Print Assumptions C08_locals_private.

Theorem C08_locals_private_inhabited :
  exists st st',
    no_shared_start Examples.xe Examples.ops1 /\ run Examples.xe Examples.xeval m_init Examples.ops1 = Ok st /\
    step Examples.xe Examples.xeval st (OAssign Examples.xe 1 "loc" (Examples.XLit (VInt 3))) = Ok st' /\
    ahas (global_key "loc") (ctx_of st 1) = false /\
    aget "loc" (ctx_of st 0) = Some (VInt 1) /\ aget "loc" (ctx_of st 1) = Some (VInt 2) /\
    aget "loc" (ctx_of st' 0) = Some (VInt 1) /\ aget "loc" (ctx_of st' 1) = Some (VInt 3) /\
    aget "c" (ctx_of st' 1) = Some (VInt 1).
Proof. exact Examples.locals_private_inhabited. Qed.
Print Assumptions C08_locals_private_inhabited.

(* the same frame statement in any state, shared-context starts included: only instances
   that own the SAME context cell as i see the assignment *)
Theorem C08_locals_private_cells :
  forall (expr : Type) (eval : ctx -> expr -> value) (st : mstate) (i : nat) (k : string) (e : expr) (st' : mstate),
    step expr eval st (OAssign expr i k e) = Ok st' ->
    ahas (global_key k) (ctx_of st i) = false ->
    (forall j, m_cell st j <> m_cell st i -> ctx_of st' j = ctx_of st j) /\
    m_gctx st' = m_gctx st /\
    (forall j, m_args st' j = m_args st j) /\
    (forall j, m_cell st' j = m_cell st j) /\
    exists ec, eval_ctx st i = Some ec /\ ctx_of st' i = aset k (eval ec e) (ctx_of st i).
Proof. exact assign_local_frame. Qed.
Print Assumptions C08_locals_private_cells.

(* the stated exception: StartFlow(.., context=$self.context) makes the two instances share
   one context, so an assignment in one is visible in the other *)
Theorem C08_shared_context_start_shares :
  forall (expr : Type) (eval : ctx -> expr -> value)
         (st : mstate) (caller callee : nat) (rs : list (param expr)) (st1 : mstate) (k : string) (e : expr) (st2 : mstate),
    step expr eval st (OStartShared expr caller callee rs) = Ok st1 ->
    step expr eval st1 (OAssign expr callee k e) = Ok st2 ->
    ahas (global_key k) (ctx_of st1 callee) = false ->
    m_cell st1 callee = m_cell st1 caller /\ ctx_of st2 caller = ctx_of st2 callee /\
    exists v, aget k (ctx_of st2 caller) = Some v.
Proof. exact shared_context_is_shared. Qed.
Print Assumptions C08_shared_context_start_shares.

(* O1: surplus positional arguments (k > n).  The call is rejected ("To many parameters")
   only when the flow has no parameter or more than 2n arguments were given.  Otherwise the
   callee runs with the first n values, `arguments` (hence FlowStarted) has no `$n` - the
   caller's FlowStarted match mentions `$n` and can never succeed - and the callee's context
   gains a key `$0` holding argument number n. *)
Theorem C08_obs_surplus_positional :
  forall (expr : Type) (eval : ctx -> expr -> value) (ps rs : list (param expr)) (ev : ctx) (k : nat),
    wf_signature expr ps rs = true ->
    pos_contig ev k -> List.length ps < k ->
    (bind expr eval ps rs ev = BTooMany <-> (List.length ps = 0 \/ 2 * List.length ps < k)) /\
    (forall a c, bind expr eval ps rs ev = Bound a c ->
       (forall i p, nth_error ps i = Some p ->
          aget (p_name p) c = aget (pos_key i) ev /\ aget (p_name p) a = aget (pos_key i) ev) /\
       aget (pos_key (List.length ps)) a = None /\
       aget (pos_key 0) c = aget (pos_key (List.length ps)) ev).
Proof. exact obs_surplus. Qed.
Print Assumptions C08_obs_surplus_positional.

Theorem C08_obs_surplus_witness :
  wf_signature Examples.xe Examples.gs [] = true /\ pos_contig [("$0", VInt 1); ("$1", VInt 2)] 2 /\
  bind Examples.xe Examples.xeval Examples.gs [] [("$0", VInt 1); ("$1", VInt 2)]
  = Bound [("a", VInt 1); ("$0", VInt 1)] [("a", VInt 1); ("$0", VInt 2)] /\
  bind Examples.xe Examples.xeval Examples.gs [] [("$0", VInt 1); ("$1", VInt 2); ("$2", VInt 3)] = BTooMany.
Proof.
  exact (conj (proj1 Examples.surplus_premises)
           (conj (proj2 Examples.surplus_premises) (conj Examples.surplus_not_rejected Examples.surplus_rejected))).
Qed.
Print Assumptions C08_obs_surplus_witness.

(* O2: a parameter given positionally AND by name gets the positional value, in the context
   and in `arguments`; the caller's FlowStarted match on name=w fails when v <> w *)
Theorem C08_obs_double_binding :
  forall (expr : Type) (eval : ctx -> expr -> value) (ps rs : list (param expr)) (ev : ctx) (k i : nat)
         (p : param expr) (v w : value),
    wf_signature expr ps rs = true -> pos_contig ev k -> k <= List.length ps ->
    nth_error ps i = Some p ->
    aget (pos_key i) ev = Some v -> aget (p_name p) ev = Some w ->
    exists a c, bind expr eval ps rs ev = Bound a c /\ aget (p_name p) c = Some v /\ aget (p_name p) a = Some v.
Proof.
  exact (fun expr eval ps rs ev k i p v w Hwf Hc Hk Hnth Hv _ =>
           bind_within expr eval ps rs ev k Hwf Hc _ Hk (bound_pos_wins expr eval ps rs ev k Hwf Hc i p v Hnth Hv)).
Qed.
Print Assumptions C08_obs_double_binding.

(* O3: a named argument that is no parameter is ignored: it is not in `arguments`, so the
   caller's FlowStarted match that mentions it fails *)
Theorem C08_obs_unknown_named :
  forall (expr : Type) (eval : ctx -> expr -> value) (ps rs : list (param expr)) (ev : ctx) (k : nat) (z : string),
    wf_signature expr ps rs = true -> pos_contig ev k -> k <= List.length ps ->
    plain z = true -> ~ In z (map p_name ps) ->
    exists a c, bind expr eval ps rs ev = Bound a c /\ aget z a = None.
Proof.
  exact (fun expr eval ps rs ev k z Hwf Hc Hk Hz Hnot =>
           bind_within expr eval ps rs ev k Hwf Hc _ Hk (bound_args_other expr eval ps ev z Hz Hnot)).
Qed.
Print Assumptions C08_obs_unknown_named.

(* O4: the callee ended without executing `return`: `.arguments.return_value` raises and the
   caller fails (it is NOT assigned None) *)
Theorem C08_obs_no_return :
  forall (expr : Type) (eval : ctx -> expr -> value) (st : mstate) (caller callee : nat) (uid fid : value) (x : string),
    aget "_return_value" (ctx_of st callee) = None ->
    aget "return_value" (m_args st callee) = None ->
    step expr eval st (OAwaitAssign expr caller callee uid fid x) = Err ENoReturnValue.
Proof. exact obs_no_return. Qed.
Print Assumptions C08_obs_no_return.

(* If the FlowStarted match carries only flow_id and flow_instance_uid (the candidate repair
   fixes/C08-flowstarted-match.patch), every call that binds - well-formed or not, whatever the
   callee does to globals before it is started - is echoed by the callee's FlowStarted event:
   the caller is never left waiting for the start. *)
Theorem C08_caller_resumes_if_match_is_uid_only :
  forall (expr : Type) (eval : ctx -> expr -> value) (ps rs : list (param expr)) (ev a c : ctx)
         (R : reserved) (evargs_at_match : ctx),
    wf_signature expr ps rs = true ->
    bind expr eval ps rs ev = Bound a c ->
    forall k v, aget k (started_pattern false R evargs_at_match) = Some v ->
                aget k (started_args (r_instance_uid R) (r_flow_id R) a) = Some v.
Proof. exact started_uid_only_echoed. Qed.
Print Assumptions C08_caller_resumes_if_match_is_uid_only.

(* The source as it is (the match carries the call arguments, started_pattern true): a
   WELL-FORMED call `$x = await g1($g)` whose callee assigns the
   global $g before it is started binds a = 1, yet the caller's pattern - evaluated when the
   event arrives - demands `$0` = 2 while the event carries `$0` = 1: the caller waits forever
   and `$x` is never assigned.  Recorded in KNOWN_FINDINGS.txt
   (sig=await-hangs-callee-changes-global-used-in-argument). *)
Theorem C08_await_hang_refuted :
  wf_signature Examples.xe Examples.gs [] = true /\ syntactic_call Examples.xe Examples.call5 = true /\
  well_formed_call Examples.xe Examples.gs Examples.call5 = true /\
  exists st ec2,
    run Examples.xe Examples.xeval m_init Examples.ops5 = Ok st /\ eval_ctx st 0 = Some ec2 /\
    aget "a" (ctx_of st 1) = Some (VInt 1) /\
    aget "$0" (started_pattern true Examples.R1
                 (eval_args Examples.xe Examples.xeval ec2 (parse_args Examples.xe Examples.call5 0 []))) = Some (VInt 2) /\
    aget "$0" (started_args (r_instance_uid Examples.R1) (r_flow_id Examples.R1) (m_args st 1)) = Some (VInt 1).
Proof. exact Examples.await_hang_witness. Qed.
Print Assumptions C08_await_hang_refuted.

(* `activate f(..)` of an already activated flow (_get_reference_activated_flow_instance) *)

(* Two activations are identified (the second reuses the first's instance instead of starting
   one) iff the parameter values they BIND - by the rule of C08_binding - are equal under
   Python's == [veq]; for every signature and every pair of calls in which no parameter is bound
   both ways and every omitted parameter has a declared default.  Hence an activation with a
   new parameter vector is never mistaken for an earlier one: it starts an instance, which by
   C08_binding receives exactly those values. *)
Theorem C08_activation_identified_iff_bound_values_equal :
  forall (expr : Type) (eval : ctx -> expr -> value) (veq : value -> value -> bool)
         (ps rs : list (param expr)) (ev0 : ctx) (k0 : nat) (a0 c0 : ctx) (ev : ctx),
    wf_signature expr ps rs = true -> pos_contig ev0 k0 -> k0 <= List.length ps ->
    bind expr eval ps rs ev0 = Bound a0 c0 ->
    (forall i p, nth_error ps i = Some p -> ahas (pos_key i) ev && ahas (p_name p) ev = false) ->
    (forall i p, nth_error ps i = Some p -> ahas (pos_key i) ev || ahas (p_name p) ev || has_default expr p = true) ->
    (params_match expr eval veq ps 0 ev a0 = Some true <->
     forall i p, nth_error ps i = Some p -> veq (ev_value expr eval ev0 i p) (ev_value expr eval ev i p) = true).
Proof.
  exact (fun expr eval veq ps rs ev0 k0 a0 c0 ev Hwf _ _ =>
           two_activations_identified_iff expr eval veq ps rs ev0 a0 c0 ev Hwf).
Qed.
Print Assumptions C08_activation_identified_iff_bound_values_equal.

(* the same against any `arguments` dict of an activated instance *)
Theorem C08_activation_identified_iff :
  forall (expr : Type) (eval : ctx -> expr -> value) (veq : value -> value -> bool)
         (ps : list (param expr)) (ev act : ctx),
    (forall i p, nth_error ps i = Some p -> ahas (pos_key i) ev && ahas (p_name p) ev = false) ->
    (forall i p, nth_error ps i = Some p -> ahas (pos_key i) ev || ahas (p_name p) ev || has_default expr p = true) ->
    (forall p, In p ps -> ahas (p_name p) act = true) ->
    (params_match expr eval veq ps 0 ev act = Some true <->
     forall i p, nth_error ps i = Some p -> veq (getN (p_name p) act) (ev_value expr eval ev i p) = true).
Proof. exact activation_identified_iff. Qed.
Print Assumptions C08_activation_identified_iff.

(* observation O6: an omitted parameter WITHOUT default never matches, so such an activation
   is never identified with an earlier one (a further instance is started each time) *)
Theorem C08_obs_activation_omitted_without_default :
  forall (expr : Type) (eval : ctx -> expr -> value) (veq : value -> value -> bool)
         (ps : list (param expr)) (ev act : ctx) (i : nat) (p : param expr),
    nth_error ps i = Some p ->
    ahas (pos_key i) ev = false -> ahas (p_name p) ev = false -> p_default p = None ->
    params_match expr eval veq ps 0 ev act <> Some true.
Proof. exact obs_activation_omitted_without_default. Qed.
Print Assumptions C08_obs_activation_omitted_without_default.

(* why the test is transcribed literally: the `or`-chain variant of it (a falsy named argument counts
   as absent) identifies `activate watch $level=0` with the default activation level = 1,
   although the two calls bind 0 and 1; the transcribed test does not *)
Theorem C08_activation_or_chain_variant_refuted :
  Examples.or_chain_matched Examples.ev_level0 (VInt 1) 0 (mkParam "level" (Some (Examples.XLit (VInt 1)))) = true /\
  params_match Examples.xe Examples.xeval Examples.xveq Examples.watch 0 Examples.ev_level0 [("level", VInt 1)] = Some false /\
  ev_value Examples.xe Examples.xeval Examples.ev_level0 0 (mkParam "level" (Some (Examples.XLit (VInt 1)))) = VInt 0 /\
  ev_value Examples.xe Examples.xeval [("flow_id", VStr "watch")] 0 (mkParam "level" (Some (Examples.XLit (VInt 1)))) = VInt 1.
Proof. exact Examples.or_chain_variant_refuted. Qed.
Print Assumptions C08_activation_or_chain_variant_refuted.

(* restart of an activated flow (FlowState.start_event in _finish_flow/_abort_flow) *)

(* The successor instance is started from the predecessor's `arguments`; it therefore binds
   every parameter to exactly the value the ORIGINAL call bound (positional, else named, else
   default) - whatever the predecessor assigned to its parameter variables and locals, which
   live in its context only (C08_locals_private: no Assign changes `arguments`). *)
Theorem C08_restart_binds_original_call :
  forall (expr : Type) (eval : ctx -> expr -> value) (ps rs : list (param expr)) (ev : ctx) (k : nat)
         (a c : ctx) (R : reserved) (activated : value),
    wf_signature expr ps rs = true -> pos_contig ev k -> k <= List.length ps ->
    bind expr eval ps rs ev = Bound a c ->
    exists a' c', bind expr eval ps rs (restart_event_args R activated a) = Bound a' c' /\
      forall i p, nth_error ps i = Some p ->
        aget (p_name p) c' = Some (ev_value expr eval ev i p) /\
        aget (p_name p) a' = Some (ev_value expr eval ev i p).
Proof.
  exact (fun expr eval ps rs ev k a c R act Hwf Hc _ =>
           restart_rebinds_original_values expr eval ps rs ev k a c R act Hwf Hc).
Qed.
Print Assumptions C08_restart_binds_original_call.
