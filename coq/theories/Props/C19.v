(* C19 - Embedding search returns each query's own embedding under caching and batching.
   Property theorems only; every proof is `exact` of a lemma or of a term built from lemmas;
   Print Assumptions beneath each.
   Models: Svc/EmbCache.v (cache_embeddings over KeyGenerator / CacheStore), Svc/Batch.v
   (transition system of _batch_get_embeddings / _run_batch with the cache wrapper around the
   model call).  Everything external is universally quantified: the types of texts, keys and
   vectors, the key generator kg, the embedding model emb, max_batch_size, the cache mode, the
   initial store, the schedule. *)
From Coq Require Import List Bool Arith.
From NG Require Import Gen.C19Consts Svc.EmbCache Svc.EmbCache_proofs Svc.Emb_now Svc.Batch Svc.Batch_proofs
                       Svc.Batch_live Svc.Batch_examples.
Import ListNotations.

(* (T) the shipped default max_batch_size, read from basic.py, satisfies the hypothesis of the
   batching theorems *)
Theorem C19_default_batch_size_positive : 1 <= default_max_batch_size.
Proof. exact (proj1 (Nat.leb_le 1 default_max_batch_size) eq_refl). Qed.
Print Assumptions C19_default_batch_size_positive.

(* cache: if the key generator is injective on the texts in play (P), then after ANY history
   of earlier calls on the same store, with the cache enabled or not, the decorated
   _get_embeddings returns exactly the model's vector of every input text, in input order
   (duplicates and empty strings are just texts) *)
Theorem C19_cache_correct :
  forall (text key vec : Type)
         (text_eq_dec : forall a b : text, {a = b} + {a <> b})
         (key_eq_dec : forall a b : key, {a = b} + {a <> b})
         (kg : text -> key) (emb : text -> vec) (P : text -> Prop),
    inj_on kg P ->
    forall (enabled : bool) (history : list (list text)) (texts : list text),
      Forall (Forall P) history -> Forall P texts ->
      w_results (wrapper text_eq_dec key_eq_dec kg enabled (map emb)
                   (store_after text_eq_dec key_eq_dec kg (map emb) [] history) texts)
      = map (fun t => Some (emb t)) texts.
Proof. exact cache_correct. Qed.
Print Assumptions C19_cache_correct.

(* ... and the same when other tasks wrote the shared store while the model call was awaited:
   the two halves of the call may see two different stores, each left by such calls *)
Theorem C19_cache_correct_interleaved :
  forall (text key vec : Type)
         (text_eq_dec : forall a b : text, {a = b} + {a <> b})
         (key_eq_dec : forall a b : key, {a = b} + {a <> b})
         (kg : text -> key) (emb : text -> vec) (P : text -> Prop),
    inj_on kg P ->
    forall (s1 s2 : store key vec) (texts : list text),
      Forall P texts -> consistent key_eq_dec kg emb P s1 -> consistent key_eq_dec kg emb P s2 ->
      let b := wrap_begin text_eq_dec key_eq_dec kg s1 texts in
      let e := wrap_end text_eq_dec key_eq_dec kg s2 texts (fst b) (snd b) (map emb (snd b)) in
      fst e = map (fun t => Some (emb t)) texts /\ consistent key_eq_dec kg emb P (snd e).
Proof. exact wrapper_interleaved. Qed.
Print Assumptions C19_cache_correct_interleaved.

(* the model is asked only for texts of the call at hand *)
Theorem C19_cache_asks_only_inputs :
  forall (text key vec : Type)
         (text_eq_dec : forall a b : text, {a = b} + {a <> b})
         (key_eq_dec : forall a b : key, {a = b} + {a <> b})
         (kg : text -> key) (enabled : bool) (model : list text -> list vec)
         (s : store key vec) (texts c : list text) (t : text),
    In c (w_calls (wrapper text_eq_dec key_eq_dec kg enabled model s texts)) -> In t c -> In t texts.
Proof. exact cache_calls_sub. Qed.
Print Assumptions C19_cache_asks_only_inputs.

(* the injectivity hypothesis is necessary: ANY two texts with one key and different
   embeddings are confused, already on an empty store.  The shipped generators are
   str(hash(text)) and md5(text): the property is claimed for texts on which they do not
   collide. *)
Theorem C19_cache_collision_refuted :
  forall (text key vec : Type)
         (text_eq_dec : forall a b : text, {a = b} + {a <> b})
         (key_eq_dec : forall a b : key, {a = b} + {a <> b})
         (kg : text -> key) (emb : text -> vec) (t1 t2 : text),
    kg t1 = kg t2 -> emb t1 <> emb t2 ->
    w_results (wrapper text_eq_dec key_eq_dec kg true (map emb) [] [t1; t2])
    <> map (fun t => Some (emb t)) [t1; t2].
Proof. exact cache_collision. Qed.
Print Assumptions C19_cache_collision_refuted.

(* (T) BasicEmbeddingsIndex.search in the current source has the shape the models assume: the
   vector it searches with is assigned only from an awaited _batch_get_embeddings(text) /
   _get_embeddings([text]) and search() reads no other instance state and writes none (a memo in
   front of the embedding calls, for instance, makes this obligation fail) *)
Theorem C19_search_shape_in_source : search_shape_as_modelled = true.
Proof. exact eq_refl. Qed.
Print Assumptions C19_search_shape_in_source.

(* (T) the cache keys of the current source contain the identity of the index's embedding
   model (read from cache.py by the translator) *)
Theorem C19_cache_key_includes_model_in_source : cache_key_includes_model = true.
Proof. exact includes_now. Qed.
Print Assumptions C19_cache_key_includes_model_in_source.

(* several indexes alive in one process, any assignment of cache configurations to stores
   (shared default folder included), keying AS IN THE CURRENT SOURCE: if the key generators in
   play are injective on (model identity, text) and the model identity determines the model,
   then after any interleaved history every index gets ITS OWN model's vectors.  No
   "different models use different stores" hypothesis. *)
Theorem C19_cache_isolation :
  forall (mid text key vec : Type)
         (text_eq_dec : forall a b : text, {a = b} + {a <> b})
         (key_eq_dec : forall a b : key, {a = b} + {a <> b})
         (P : text -> Prop) (ks : list (kindex mid text key vec)),
    pair_inj mid text key vec P ks -> mid_model mid text key vec ks ->
    forall (history : list (kindex mid text key vec * list text)) (a : kindex mid text key vec)
           (texts : list text),
      Forall (fun c => In (fst c) ks /\ Forall P (snd c)) history -> In a ks -> Forall P texts ->
      fst (mcall text_eq_dec key_eq_dec
             (mrun text_eq_dec key_eq_dec no_stores
                   (map (fun c => (index_now mid text key vec (fst c), snd c)) history))
             (index_now mid text key vec a) texts)
      = map (fun t => Some (kx_emb mid text key vec a t)) texts.
Proof. exact isolation_now. Qed.
Print Assumptions C19_cache_isolation.

(* regression documentation: with the keying BEFORE the fix (text alone) two indexes sharing a
   store and a key generator, with different models, are confused *)
Theorem C19_cache_text_only_keys_refuted :
  forall (mid text key vec : Type)
         (text_eq_dec : forall a b : text, {a = b} + {a <> b})
         (key_eq_dec : forall a b : key, {a = b} + {a <> b})
         (a b : kindex mid text key vec) (t : text),
    kx_sid mid text key vec a = kx_sid mid text key vec b ->
    kx_gen mid text key vec a (None, t) = kx_gen mid text key vec b (None, t) ->
    kx_emb mid text key vec a t <> kx_emb mid text key vec b t ->
    fst (mcall text_eq_dec key_eq_dec
           (mrun text_eq_dec key_eq_dec no_stores [(kx_index mid text key vec false a, [t])])
           (kx_index mid text key vec false b) [t])
    <> map (fun t => Some (kx_emb mid text key vec b t)) [t].
Proof. exact keyed_text_only_refuted. Qed.
Print Assumptions C19_cache_text_only_keys_refuted.

(* (secondary form, true before and after the fix) several indexes in one process, each with
   its own key generator, model and cache configuration: if configurations that name the same
   store agree on key generator and model
   (distinct models => distinct stores; the harness checks that distinct cache_dirs are
   distinct stores in the implementation), then after any interleaved history of calls every
   index gets ITS model's vectors *)
Theorem C19_cache_isolation_by_store :
  forall (text key vec : Type)
         (text_eq_dec : forall a b : text, {a = b} + {a <> b})
         (key_eq_dec : forall a b : key, {a = b} + {a <> b})
         (P : text -> Prop) (indexes : list (index text key vec)),
    all_inj text key vec P indexes -> compatible text key vec indexes ->
    forall (history : list (index text key vec * list text)) (a : index text key vec) (texts : list text),
      Forall (fun c => In (fst c) indexes /\ Forall P (snd c)) history -> In a indexes -> Forall P texts ->
      fst (mcall text_eq_dec key_eq_dec (mrun text_eq_dec key_eq_dec no_stores history) a texts)
      = map (fun t => Some (ix_emb a t)) texts.
Proof. exact multi_correct. Qed.
Print Assumptions C19_cache_isolation_by_store.

(* ... and the assumption is necessary: two indexes whose configurations name ONE store, with
   one key for a text and different models - the second index gets the first model's vector *)
Theorem C19_cache_shared_store_refuted :
  forall (text key vec : Type)
         (text_eq_dec : forall a b : text, {a = b} + {a <> b})
         (key_eq_dec : forall a b : key, {a = b} + {a <> b})
         (a b : index text key vec) (t : text),
    ix_sid a = ix_sid b -> ix_kg a t = ix_kg b t -> ix_emb a t <> ix_emb b t ->
    fst (mcall text_eq_dec key_eq_dec (mrun text_eq_dec key_eq_dec no_stores [(a, [t])]) b [t])
    = [Some (ix_emb a t)] /\
    fst (mcall text_eq_dec key_eq_dec (mrun text_eq_dec key_eq_dec no_stores [(a, [t])]) b [t])
    <> map (fun t => Some (ix_emb b t)) [t].
Proof. exact multi_shared_store_refuted. Qed.
Print Assumptions C19_cache_shared_store_refuted.

(* batching, safety: for every max_batch_size >= 1, every cache mode, every key generator
   injective on the texts in play, every consistent initial store and EVERY schedule of enabled
   steps (arrivals, timer expiry, model latency, task interleaving), a request that has
   returned has returned the embedding of its own text, and no task has raised or spins *)
Theorem C19_batch_safety :
  forall (text key vec : Type)
         (text_eq_dec : forall a b : text, {a = b} + {a <> b})
         (key_eq_dec : forall a b : key, {a = b} + {a <> b})
         (kg : text -> key) (emb : text -> vec) (max_batch_size : nat) (cmode : cache_mode)
         (P : text -> Prop),
    1 <= max_batch_size -> inj_on kg P ->
    forall (texts : list text) (st : store key vec) (sched : list label) (s : state text key vec),
      Forall P texts -> consistent key_eq_dec kg emb P st ->
      exec text_eq_dec key_eq_dec kg emb max_batch_size cmode sched (init texts st) = Some s ->
      (forall i t r, nth_error (reqs s) i = Some (t, RDone r) ->
                     nth_error texts i = Some t /\ r = Some (emb t)) /\
      no_error text key vec s.
Proof. exact batch_safety. Qed.
Print Assumptions C19_batch_safety.

(* without a cache nothing at all is assumed about key generators *)
Theorem C19_batch_safety_nocache :
  forall (text vec : Type) (text_eq_dec : forall a b : text, {a = b} + {a <> b})
         (emb : text -> vec) (max_batch_size : nat),
    1 <= max_batch_size ->
    forall (texts : list text) (sched : list label) (s : state text text vec),
      exec text_eq_dec text_eq_dec (fun t => t) emb max_batch_size CacheOff sched (init texts []) = Some s ->
      (forall i t r, nth_error (reqs s) i = Some (t, RDone r) ->
                     nth_error texts i = Some t /\ r = Some (emb t)) /\
      no_error text text vec s.
Proof. exact batch_safety_nocache. Qed.
Print Assumptions C19_batch_safety_nocache.

(* the safety invariant (req_results[id] = emb(queue text of id), ids unique, batch boundaries
   consistent: see Record Inv in Svc/Batch_proofs.v) is inductive *)
Theorem C19_batch_invariant :
  forall (text key vec : Type)
         (text_eq_dec : forall a b : text, {a = b} + {a <> b})
         (key_eq_dec : forall a b : key, {a = b} + {a <> b})
         (kg : text -> key) (emb : text -> vec) (max_batch_size : nat) (cmode : cache_mode)
         (P : text -> Prop),
    1 <= max_batch_size -> inj_on kg P ->
    forall (l : label) (s s' : state text key vec),
      Inv text key vec text_eq_dec key_eq_dec kg emb cmode P s ->
      step text_eq_dec key_eq_dec kg emb max_batch_size cmode l s = Some s' ->
      Inv text key vec text_eq_dec key_eq_dec kg emb cmode P s'.
Proof. exact Inv_step. Qed.
Print Assumptions C19_batch_invariant.

(* every atomic step strictly decreases a measure (unsubmitted requests, pending batches,
   runnable waiters): no schedule makes infinitely many steps *)
Theorem C19_batch_steps_bounded :
  forall (text key vec : Type)
         (text_eq_dec : forall a b : text, {a = b} + {a <> b})
         (key_eq_dec : forall a b : key, {a = b} + {a <> b})
         (kg : text -> key) (emb : text -> vec) (max_batch_size : nat) (cmode : cache_mode),
    1 <= max_batch_size ->
    forall (l : label) (s s' : state text key vec),
    step text_eq_dec key_eq_dec kg emb max_batch_size cmode l s = Some s' ->
    measure text key vec s' < measure text key vec s.
Proof. exact step_decreases. Qed.
Print Assumptions C19_batch_steps_bounded.

(* in a reachable state where some request has not returned, some step is enabled (no
   deadlock: no lost wake-up on _current_batch_submitted or on a finished event) *)
Theorem C19_batch_no_deadlock :
  forall (text key vec : Type)
         (text_eq_dec : forall a b : text, {a = b} + {a <> b})
         (key_eq_dec : forall a b : key, {a = b} + {a <> b})
         (kg : text -> key) (emb : text -> vec) (max_batch_size : nat) (cmode : cache_mode)
         (P : text -> Prop) (s : state text key vec),
    Inv text key vec text_eq_dec key_eq_dec kg emb cmode P s -> all_done s = false ->
    exists l, enabled text_eq_dec key_eq_dec kg emb max_batch_size cmode l s = true.
Proof. exact progress. Qed.
Print Assumptions C19_batch_no_deadlock.

(* batching, liveness: under every WEAKLY FAIR infinite schedule (an enabled step - timer
   expiry, model return, a runnable task - is eventually taken or disabled) a state is reached
   in which every request has returned the embedding of its own text.  Real time is not
   modelled. *)
Theorem C19_batch_liveness :
  forall (text key vec : Type)
         (text_eq_dec : forall a b : text, {a = b} + {a <> b})
         (key_eq_dec : forall a b : key, {a = b} + {a <> b})
         (kg : text -> key) (emb : text -> vec) (max_batch_size : nat) (cmode : cache_mode)
         (P : text -> Prop),
    1 <= max_batch_size -> inj_on kg P ->
    forall (texts : list text) (st : store key vec) (sched : nat -> label),
      Forall P texts -> consistent key_eq_dec kg emb P st ->
      weakly_fair text key vec text_eq_dec key_eq_dec kg emb max_batch_size cmode sched (init texts st) ->
      exists m, forall i t, nth_error texts i = Some t ->
        nth_error (reqs (run text_eq_dec key_eq_dec kg emb max_batch_size cmode sched (init texts st) m)) i
        = Some (t, RDone (Some (emb t))).
Proof. exact batch_liveness. Qed.
Print Assumptions C19_batch_liveness.

(* non-vacuity: a concrete three-request interleaving (queue-full wait, two batches in flight,
   answers out of order) satisfies the hypotheses of safety and of liveness *)
Theorem C19_example_schedule_completes :
  exec3 sched3 s0_3 = Some final3 /\ all_done final3 = true.
Proof. exact ex_exec3. Qed.
Print Assumptions C19_example_schedule_completes.

Theorem C19_example_fair_schedule :
  weakly_fair nat nat nat Nat.eq_dec Nat.eq_dec (fun t : nat => t) emb3 2 CacheOff isched3 s0_3.
Proof. exact ex_fair3. Qed.
Print Assumptions C19_example_fair_schedule.
