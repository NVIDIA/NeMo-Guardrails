(* C01 - Input rails gate every user message before anything else sees it.
   Property theorems only; every proof is `exact` of a lemma or of a term built from lemmas;
   Print Assumptions beneath each.

   Models: Pipe/Rails.v (the rails loop), Pipe/TurnV1.v (one Colang 1.0 `generate` turn),
   Pipe/TurnV2.v (one Colang 2.x turn with the guardrails library).  All external behaviour is
   universally quantified: the rail actions `vf : turn -> call index -> rail -> text -> verdict`,
   the LLM, the parsers of LLM output, the dialog policy, the predefined messages.  Rail lists
   have any length; `st` is ANY conversation state (not only reachable ones), so nothing a
   previous turn leaves behind can disable the gate.
   (T) `*_T_*` theorems are about the flows AS READ FROM THE CURRENT SOURCE by
   translator/gen_c01.py (Gen/C01Flows.v): an edit of llm_flows.co / guardrails.co that lets a
   path bypass the rails makes them fail to check. *)
From Coq Require Import List String Bool Arith ZArith.
From NG Require Import Pipe.Rails Pipe.TurnV1 Pipe.TurnV1_proofs Pipe.TurnV2 Pipe.TurnV2_proofs
                       Pipe.Gates_proofs Pipe.FlowCheck Pipe.FlowCheck_proofs Gen.C01Flows Pipe.Flows_proofs
                       Pipe.Gates_examples.
Import ListNotations.
Open Scope string_scope.
Open Scope list_scope.

(* the input-rail calls of a turn are a prefix of the configured list, in order; the first is
   shown the user's text, each later one the text as rewritten by its predecessors; a rejection
   is the last call; if nobody rejects, every configured rail was called *)
Theorem C01_order :
  forall vf llm post_general intent_step next_of predefined msg_of refusal cf st u,
    ordered_calls (vf (tidx st)) u (irails cf)
      (rail_calls SIn (snd (fst (turn_v1 vf llm post_general intent_step next_of predefined msg_of refusal cf st u)))).
Proof. exact v1_order. Qed.
Print Assumptions C01_order.

(* the trace of a turn is: input-rail calls, then everything else (release of the user message
   to the dialog, LLM calls, bot messages, output rails) - no input-rail call comes later *)
Theorem C01_before_dialog :
  forall vf llm post_general intent_step next_of predefined msg_of refusal cf st u,
    gate_first (snd (fst (turn_v1 vf llm post_general intent_step next_of predefined msg_of refusal cf st u))).
Proof. exact v1_before_dialog. Qed.
Print Assumptions C01_before_dialog.

(* ... hence every input-rail call precedes every LLM call and every dialog step *)
Theorem C01_before_dialog_order :
  forall tr, gate_first tr ->
  forall i j e1 e2, nth_error tr i = Some e1 -> nth_error tr j = Some e2 ->
                    is_in_rail e1 = true -> is_in_rail e2 = false -> i < j.
Proof. exact gate_first_order. Qed.
Print Assumptions C01_before_dialog_order.

(* if rail call j rejects: it is the last input-rail call, there is no LLM call and no output-rail
   call in the turn, the reply is the refusal - or the rail's exception when
   enable_rails_exceptions - and nothing else is uttered *)
Theorem C01_reject_stops :
  forall vf llm post_general intent_step next_of predefined msg_of refusal cf st u j r x,
    let tr := snd (fst (turn_v1 vf llm post_general intent_step next_of predefined msg_of refusal cf st u)) in
    nth_error (rail_calls SIn tr) j = Some (r, x) -> vf (tidx st) j r x = Reject ->
    List.length (rail_calls SIn tr) = S j /\ llm_calls tr = [] /\ rail_calls SOut tr = [] /\
    snd (turn_v1 vf llm post_general intent_step next_of predefined msg_of refusal cf st u)
    = (if exceptions cf then RExc SIn r else RMsg [refusal]) /\
    emitted tr = (if exceptions cf then [] else [refusal]).
Proof. exact v1_reject_stops. Qed.
Print Assumptions C01_reject_stops.

(* two inputs that leave the input rails as the same text: everything after the input rails
   (prompts of all LLM calls, output-rail calls, emitted utterances), the reply and the next
   conversation state are identical - the original text is not an input of any later stage *)
Theorem C01_rewrite_noninterference :
  forall vf llm post_general intent_step next_of predefined msg_of refusal cf st u1 u2 um tr1 c1 tr2 c2,
    run_rails (vf (tidx st)) SIn (irails cf) 0 u1 = (tr1, c1, Passed um) ->
    run_rails (vf (tidx st)) SIn (irails cf) 0 u2 = (tr2, c2, Passed um) ->
    let T := turn_v1 vf llm post_general intent_step next_of predefined msg_of refusal cf st in
    rest_of_turn vf llm post_general intent_step next_of predefined msg_of refusal cf st u1
    = rest_of_turn vf llm post_general intent_step next_of predefined msg_of refusal cf st u2 /\
    llm_calls (snd (fst (T u1))) = llm_calls (snd (fst (T u2))) /\
    snd (T u1) = snd (T u2) /\ fst (fst (T u1)) = fst (fst (T u2)).
Proof. exact v1_rewrite_noninterference. Qed.
Print Assumptions C01_rewrite_noninterference.

(* at every turn position of every conversation, from any initial state *)
Theorem C01_every_turn :
  forall vf llm post_general intent_step next_of predefined msg_of refusal cf us st,
    Forall (fun su => gate_ok vf llm post_general intent_step next_of predefined msg_of refusal cf (fst su) (snd su))
           (states_before vf llm post_general intent_step next_of predefined msg_of refusal cf st us).
Proof. exact v1_every_turn. Qed.
Print Assumptions C01_every_turn.

Theorem C01_v2_order :
  forall fixd vf llm value_of refusal_in refusal_out cf st u,
    ordered_calls (no_rewrite (vf (tidx2 st))) u (irails2 cf)
      (rail_calls SIn (snd (fst (turn_v2 fixd vf llm value_of refusal_in refusal_out cf st u)))).
Proof. exact v2_order. Qed.
Print Assumptions C01_v2_order.

Theorem C01_v2_before_dialog :
  forall fixd vf llm value_of refusal_in refusal_out cf st u,
    gate_first (snd (fst (turn_v2 fixd vf llm value_of refusal_in refusal_out cf st u))).
Proof. exact v2_before_dialog. Qed.
Print Assumptions C01_v2_before_dialog.

(* in Colang 2 the input refusal is a `bot say`: it passes the output rails like any bot message,
   so the reply is the rail exception, the input refusal, or what the output rails make of it *)
Theorem C01_v2_reject_stops :
  forall fixd vf llm value_of refusal_in refusal_out cf st u j r x,
    let tr := snd (fst (turn_v2 fixd vf llm value_of refusal_in refusal_out cf st u)) in
    nth_error (rail_calls SIn tr) j = Some (r, x) -> vf (tidx2 st) j r x = Reject ->
    List.length (rail_calls SIn tr) = S j /\ llm_calls tr = [] /\
    (snd (turn_v2 fixd vf llm value_of refusal_in refusal_out cf st u) = RExc SIn r \/
     snd (turn_v2 fixd vf llm value_of refusal_in refusal_out cf st u) = RMsg [refusal_in] \/
     exists r', snd (turn_v2 fixd vf llm value_of refusal_in refusal_out cf st u) = block_reply2 refusal_out cf r').
Proof. exact v2_reject_stops. Qed.
Print Assumptions C01_v2_reject_stops.

Theorem C01_v2_every_turn :
  forall fixd vf llm value_of refusal_in refusal_out cf us st,
    Forall (fun su => gate_ok2 fixd vf llm value_of refusal_in refusal_out cf (fst su) (snd su))
           (states_before2 fixd vf llm value_of refusal_in refusal_out cf st us).
Proof. exact v2_every_turn. Qed.
Print Assumptions C01_v2_every_turn.

(* the dominance checker is sound w.r.t. the control paths `slide` follows *)
Theorem C01_T_checker_sound :
  forall es gate target excused entry,
    gatedb es gate target excused entry = true ->
    forall p k, path es entry p k -> target (elem_at es k) = true ->
                passes es gate excused p \/ (exists e, elem_at es k = Some e /\ gate e = true).
Proof. exact gatedb_sound. Qed.
Print Assumptions C01_T_checker_sound.

(* llm_flows.co `process user input`, as compiled from the current source: every path to the
   creation of UserMessage passes `do run input rails`, unless no input rails are configured or
   the generation options disable them; the message carries $user_message *)
Theorem C01_T_input_gate :
  input_gate_ok v1_process_user_input = true /\
  forall p k, path v1_process_user_input 0 p k ->
              is_create "UserMessage" (elem_at v1_process_user_input k) = true ->
              passes v1_process_user_input (is_flow "run input rails") in_excused p.
Proof. exact (conj input_gate_checked input_gate_dominates). Qed.
Print Assumptions C01_T_input_gate.

(* llm_flows.co `run input rails`, as compiled from the current source: for EVERY length n of
   config.rails.input.flows the loop calls the rails 0, 1, ..., n-1 in this order *)
Theorem C01_T_input_loop :
  forall (n : nat) i0, exists fuel,
    lrun in_loop v1_run_input_rails (Z.of_nat n) fuel 0 i0 [] = Some (zseq 0 n).
Proof. exact in_loop_visits. Qed.
Print Assumptions C01_T_input_loop.

(* the dialog / generation flows are triggered only by the events the gate releases; the
   input-side flows call no LLM action *)
Theorem C01_T_dialog_triggers :
  first_match v1_run_dialog_rails = Some "UserMessage" /\
  first_match v1_generate_next_step = Some "UserIntent" /\
  first_match v1_process_user_input = Some "UtteranceUserActionFinished" /\
  first_match v1_process_bot_message = Some "BotMessage" /\
  no_llm_action v1_process_user_input = true /\ no_llm_action v1_run_input_rails = true /\
  has_action "generate_user_intent" v1_generate_user_intent = true /\
  has_action "generate_bot_message" v1_generate_bot_message = true.
Proof. exact dialog_triggers. Qed.
Print Assumptions C01_T_dialog_triggers.

(* library rail `self check input` (1.0 and 2.x): a rejection reaches `stop` / `abort` on every path *)
Theorem C01_T_self_check_input_stops :
  reject_stops_ok v1_self_check_input [] = true /\
  v2_reject_aborts v2lib_self_check_input "not $allowed" = true.
Proof. exact (conj self_check_input_stops v2_self_check_input_aborts). Qed.
Print Assumptions C01_T_self_check_input_stops.

(* guardrails.co: `_user_said` finishes only after `await run input rails $user_message`;
   `run input rails` awaits `input rails $input_text` when that flow is defined *)
Theorem C01_T_v2_gates :
  v2_user_said_ok v2_user_said = true /\
  v2_run_rails_ok v2_run_input_rails "$input_rails_exist" "input rails" "$input_text" = true.
Proof. exact (conj (proj1 v2_gates_checked) (proj1 (proj2 (proj2 v2_gates_checked)))). Qed.
Print Assumptions C01_T_v2_gates.

(* a 3-rail turn: rail 1 rewrites, rail 2 sees the rewrite, the prompt carries only the rewrite *)
Theorem C01_example_rewrite : ex_rewrite_statement.
Proof. exact ex_rewrite. Qed.
Print Assumptions C01_example_rewrite.

(* a turn in which rail 1 of 3 rejects: hypotheses of C01_reject_stops are inhabited *)
Theorem C01_example_reject : ex_reject_statement.
Proof. exact ex_reject. Qed.
Print Assumptions C01_example_reject.

(* two different inputs rewritten to the same text: hypotheses of C01_rewrite_noninterference are inhabited *)
Theorem C01_example_noninterference : ex_nonint_statement.
Proof. exact ex_nonint. Qed.
Print Assumptions C01_example_noninterference.
