(* C11 - a saved or aged conversation state continues exactly like the live one.
   Property theorems only; every proof is `exact` of a lemma or of a term built from lemmas; Print
   Assumptions beneath each.
   `flags_now`, `classes_now`, `cfg_now` are read from the CURRENT source by the translator
   (Gen/C11Consts.v): without the re.Pattern / non-str-key / Action branches in
   serialization.py, or with another removal condition in _clean_up_state, the theorems below
   fail to check.

   What is proved, what is not:
   * C11_total, C11_roundtrip: full strength for graphs of any size (decode_from_dict o
     encode_to_dict); callbacks (functools.partial) correspond to None at this level.
   * the re-creation of the head callbacks by json_to_state (second half of Serial.json_to_state)
     has its own theorem C11_callbacks_recreated; C11_state_roundtrip composes both halves for
     State-shaped graphs with canonical callbacks (decidable hypothesis `state_hyps`, evaluated
     on real states by the harness): json_to_state (state_to_json s) is isomorphic to s, callbacks
     included, and every restored head carries callbacks bound to the restored State and to its
     own restored FlowState.
   * clean-up: the reference closure `refs_ok` (every uid in a child list, a scope flow list, a
     per-flow list or an action list resolves; checked on every real state by the harness) is an
     invariant (C11_cleanup_preserves_refs), on such states the clean-up never raises
     (C11_cleanup_total), every lookup through a list of a remaining instance resolves to the
     frame-image of what it resolved to before (C11_cleanup_lookups), index entries likewise
     (C11_cleanup_commutes_partial), and a later second clean-up gives extensionally the state of
     one clean-up at the later clock (C11_cleanup_later_clock_ext: list orders not compared).
     What stays unproved: that the dispatch does nothing observable with the discarded (done,
     non-activated) instances and does not read parent_uid of a discarded parent, i.e. "same
     outgoing events" for the whole event loop - validated by exploration (X2).
   * bridge (V2/BridgeDef.v): `alpha` reads the abstract interpreter state of Cleanup.v off a State
     object graph of Serial.v (tied to the harness's abstraction of real states by the
     correspondence); it is invariant under the bisimulations of the round-trip theorems, so the
     clean-up of a restored state equals the clean-up of the live state on the abstract state
     (C11_cleanup_commutes_with_restore). *)
From Coq Require Import ZArith List String Bool.
From NG Require Import Gen.C11Consts V2.Serial V2.SerialRun V2.Serial_proofs V2.Serial_examples V2.Callbacks_proofs V2.State_proofs V2.State_examples
                       V2.Cleanup V2.Cleanup_proofs V2.Cleanup_clock V2.CleanupRun V2.Cleanup_now
                       V2.BridgeDef V2.Bridge V2.BridgeRun V2.Bridge_examples.
Import ListNotations.
Open Scope string_scope.
Open Scope Z_scope.

(* (T) the repaired branches are in the source *)
Theorem C11_fix_branches_in_source :
  fx_regex_src = true /\ fx_keys_src = true /\ fx_action_src = true.
Proof. exact (conj eq_refl (conj eq_refl eq_refl)). Qed.
Print Assumptions C11_fix_branches_in_source.

(* (T) shape of the source the model transcribes *)
Theorem C11_source_shape :
  enc_registers_after_children = true /\ dec_registers_after_children = true /\
  enc_branch_order = ["in:refs"; "list"; "str"; "int"; "float"; "None"; "functools.partial"; "dict"; "dataclass";
                      "RailsConfig"; "colang_ast_module.SpecType"; "Action"; "datetime"; "Enum"; "re.Pattern";
                      "deque"; "tuple"; "set"] /\
  dec_branch_order = ["ref"; "enum"; "RailsConfig"; "SpecType"; "Action"; "in:name_to_class"; "datetime"; "deque";
                      "tuple"; "re.Pattern"; "dict"; "set"] /\
  redo_callback_attrs = ["position_changed_callback"; "status_changed_callback"] /\
  redo_callback_target = ["partial(_flow_head_changed, state, flow_state)"] /\
  redo_loops = ["state.flow_states.items()"; "flow_state.heads.items()"] /\
  ctor_rejected_fields = [] /\ action_to_dict_keys = action_fields /\ action_is_dataclass = false /\
  action_to_dict_live = true /\
  late_tags_free classes_now.
Proof.
  exact (conj eq_refl (conj eq_refl (conj eq_refl (conj eq_refl (conj eq_refl (conj eq_refl (conj eq_refl
        (conj eq_refl (conj eq_refl (conj eq_refl (conj eq_refl late_tags_free_now))))))))))).
Qed.
Print Assumptions C11_source_shape.

(* the encoder succeeds on every supported graph of depth below the recursion limit *)
Theorem C11_total :
  forall h r rk limit,
    supported flags_now classes_now h r = true -> acyclic h rk -> (rank_of rk r < limit)%nat ->
    exists j, encode flags_now limit h r = Some j.
Proof. exact (fun h r rk limit => encode_total flags_now classes_now h r rk limit eq_refl). Qed.
Print Assumptions C11_total.

(* ... and decoding its output yields the same graph up to a renaming of object identities
   that is one-to-one on every object except lists (which are copied, see
   C11_shared_list_refuted): sharing is preserved *)
Theorem C11_roundtrip :
  forall h r rk limit,
    supported flags_now classes_now h r = true -> acyclic h rk -> (rank_of rk r < limit)%nat ->
    exists j h' r' M,
      encode flags_now limit h r = Some j /\ decode flags_now classes_now limit j = Some (h', r') /\
      bisim true h r h' r' M /\ sharing_preserved h M.
Proof. exact (fun h r rk limit => roundtrip_graph flags_now classes_now h r rk limit eq_refl late_tags_free_now). Qed.
Print Assumptions C11_roundtrip.

(* the hypotheses are inhabited by a state with a shared Action, a set, a regex, an int-keyed dict *)
Theorem C11_roundtrip_inhabited :
  supported flags_fixed classes_now h_state (VO 0) = true /\ acyclic h_state rk_state /\
  (rank_of rk_state (VO 0%Z) < 50)%nat.
Proof. exact (conj state_supported (conj state_acyclic state_rank)). Qed.
Print Assumptions C11_roundtrip_inhabited.

(* json_to_state, second half: on the decoded heap, every head reached through
   state.flow_states[*].heads[*] gets both callback attributes bound to a fresh
   partial(_flow_head_changed, state, <its own flow state>), its other attributes and every
   other object of the heap are unchanged *)
Theorem C11_callbacks_recreated :
  forall h n state W,
    collect_heads h state = Some W -> below h n -> heads_ok h W ->
    exists h' n',
      redo_callbacks h n state = Some (h', n') /\ below h' n' /\
      (forall fs x, In (fs, VO x) W ->
         exists c fl ks0 ks p q a b,
           lookup h x = Some (mk (HData c fl) ks0) /\ lookup h' x = Some (mk (HData c fl) ks) /\
           index_of pos_f fl = Some p /\ index_of stat_f fl = Some q /\
           nth_error ks p = Some (VO a) /\ nth_error ks q = Some (VO b) /\ a <> b /\ n <= a /\ n <= b /\
           lookup h' a = Some (partial_node state fs) /\ lookup h' b = Some (partial_node state fs) /\
           (forall m, m <> p -> m <> q -> nth_error ks m = nth_error ks0 m)) /\
      (forall j, j < n -> (forall fs, ~ In (fs, VO j) W) -> lookup h' j = lookup h j).
Proof. exact redo_callbacks_spec. Qed.
Print Assumptions C11_callbacks_recreated.

Theorem C11_callbacks_inhabited :
  collect_heads ex_cb_heap (VO 0) = Some [(VO 2, VO 6); (VO 2, VO 7); (VO 3, VO 8)].
Proof. exact ex_cb_collect. Qed.
Print Assumptions C11_callbacks_inhabited.

(* json_to_state o state_to_json on a State: ONE statement.  For every State-shaped graph whose
   heads carry the canonical callbacks partial(_flow_head_changed, state, flow_state) and in
   which nothing else refers to a functools.partial (`state_hyps`, decidable), the restored graph
   is related to the original by a bisimulation that also relates every callback to a callback
   of the same function whose bound arguments correspond (bisim2), sharing is preserved, and
   every restored head carries two distinct fresh callbacks bound to the RESTORED State and to
   its OWN restored FlowState. *)
Theorem C11_state_roundtrip :
  forall h rk limit s,
    supported flags_now classes_now h (VO s) = true -> acyclic h rk -> (rank_of rk (VO s) < limit)%nat ->
    state_hyps h s = true ->
    exists j h2 s' M W0,
      encode flags_now limit h (VO s) = Some j /\
      json_to_state flags_now classes_now limit j = Some (h2, VO s') /\
      bisim2 h (VO s) h2 (VO s') M /\ sharing_preserved h M /\
      collect_heads h (VO s) = Some W0 /\
      (forall fs x x', In (fs, VO x) W0 -> In (x, x') M ->
         exists fs' c fds ks p q a b,
           vrel true h M fs fs' /\ lookup h2 x' = Some (mk (HData c fds) ks) /\
           index_of pos_f fds = Some p /\ index_of stat_f fds = Some q /\
           nth_error ks p = Some (VO a) /\ nth_error ks q = Some (VO b) /\ a <> b /\
           lookup h2 a = Some (partial_node (VO s') fs') /\ lookup h2 b = Some (partial_node (VO s') fs')).
Proof. exact (fun h rk limit s => state_roundtrip_b flags_now classes_now h rk limit s eq_refl late_tags_free_now). Qed.
Print Assumptions C11_state_roundtrip.

(* inhabited by a State built from the field lists of the current source: two flow states, three
   heads with six callbacks, one Action shared by both flows, set / regex / int key *)
Theorem C11_state_roundtrip_inhabited :
  supported flags_fixed classes_now h_st (VO 0) = true /\ acyclic h_st rk_st /\
  (rank_of rk_st (VO 0%Z) < 50)%nat /\ state_hyps h_st 0 = true.
Proof. exact (conj st_supported (conj st_acyclic (conj st_rank st_hyps))). Qed.
Print Assumptions C11_state_roundtrip_inhabited.

(* (T) State.flow_states, FlowState.heads and the two callback attributes of FlowHead exist in
   the classes of the current source *)
Theorem C11_state_shape_in_source :
  (exists fs, class_fields classes_now "State" = Some fs /\ index_of "flow_states" fs <> None) /\
  (exists fs, class_fields classes_now "FlowState" = Some fs /\ index_of "heads" fs <> None) /\
  (exists fs, class_fields classes_now "FlowHead" = Some fs /\ index_of pos_f fs <> None /\ index_of stat_f fs <> None).
Proof. exact state_shape_in_source. Qed.
Print Assumptions C11_state_shape_in_source.

(* DESIGN section 5, F7: on the UNREPAIRED encoder a re.Pattern in a flow variable - a reachable
   value: `$r = regex("a")` - makes state_to_json raise at every recursion limit *)
Theorem C11_regex_refuted : forall limit, encode flags_orig limit h_regex (VO 0) = None.
Proof. exact regex_refuted. Qed.
Print Assumptions C11_regex_refuted.

(* ... a dict with a non-string key comes back with another key type *)
Theorem C11_nonstr_keys_refuted :
  exists j h' r',
    encode flags_orig 5 h_intkey (VO 0) = Some j /\ decode flags_orig classes_now 5 j = Some (h', r') /\
    ~ exists M, bisim false h_intkey (VO 0) h' r' M.
Proof. exact intkey_refuted. Qed.
Print Assumptions C11_nonstr_keys_refuted.

(* ... a pending Action whose arguments hold a set makes state_to_json raise *)
Theorem C11_action_args_refuted : forall limit, encode flags_orig limit h_action (VO 0) = None.
Proof. exact action_args_refuted. Qed.
Print Assumptions C11_action_args_refuted.

(* not repaired (recorded as known findings): a cyclic reference is a RecursionError at every
   limit; a list referenced twice is restored as two lists *)
Theorem C11_cyclic_refuted : forall fl limit, encode fl limit h_cyclic (VO 0) = None.
Proof. exact cyclic_refuted. Qed.
Print Assumptions C11_cyclic_refuted.

Theorem C11_shared_list_refuted :
  exists j h' r',
    encode flags_fixed 5 h_shared_list (VO 0) = Some j /\ decode flags_fixed classes_now 5 j = Some (h', r') /\
    ~ exists M, bisim false h_shared_list (VO 0) h' r' M /\ functional M.
Proof. exact shared_list_refuted. Qed.
Print Assumptions C11_shared_list_refuted.

(* The refs table is keyed by id(obj): the model `enc` (and C11_roundtrip) rely on "every object
   registered in refs stays alive until encoding ends" - true of the current source
   (C11_source_shape: action_to_dict_live).  An encoder whose Action branch registers TEMPORARY
   copies (`enc_tmp`) is restored correctly when the allocator never reuses an identity during
   one encoding, and is REFUTED under CPython's reuse: the second action is written as refs to
   the first action's dicts. *)
Theorem C11_tmp_reuse_refuted :
  exists j, encode_tmp alloc_reuse flags_fixed 10 h_two_actions (VO 0) = Some j /\
            canon_of 100 (decode flags_fixed classes_now 10 j) <> canon_of 100 (Some (h_two_actions, VO 0)).
Proof. exact tmp_reuse_refuted. Qed.
Print Assumptions C11_tmp_reuse_refuted.

Theorem C11_tmp_distinct_inhabited : tmp_ids_fresh alloc_distinct h_two_actions.
Proof. exact alloc_distinct_fresh. Qed.
Print Assumptions C11_tmp_distinct_inhabited.

(* (T) it runs once, before the processing loop of run_to_completion; the action table is
   rebuilt from the action_uids of the remaining flow states (the rule the model transcribes) *)
Theorem C11_cleanup_position_in_source :
  cleanup_before_loop = true /\ cleanup_actions_by_reference = true.
Proof. exact (conj eq_refl eq_refl). Qed.
Print Assumptions C11_cleanup_position_in_source.

(* it removes only instances that are FINISHED/STOPPED, not activated, strictly older than the
   age and not the parent of a running or activated instance, and only actions that no remaining
   instance references *)
Theorem C11_cleanup_only_done :
  forall now s s',
    NoDup (map fst (flows s)) -> cleanup_now now s = Some s' ->
    (forall u i, slook (flows s) u = Some i -> slook (flows s') u = None ->
       (i_status i = "FINISHED" \/ i_status i = "STOPPED") /\ i_activated i = 0 /\
       cleanup_age_s * 1000000 < now - i_updated i /\
       (forall v iv, In (v, iv) (flows s) -> i_parent iv = Some u ->
          (i_status iv = "FINISHED" \/ i_status iv = "STOPPED") /\ i_activated iv = 0)) /\
    (forall a x, slook (actions s) a = Some x -> slook (actions s') a = None ->
       forall u i, In (u, i) (flows s') -> ~ In a (i_actions i)).
Proof. exact only_done_now. Qed.
Print Assumptions C11_cleanup_only_done.

(* whole-state frame: the opaque rest of the state, every surviving instance (all fields except
   the cleared scores and the pruned children), every surviving action, the per-flow lists *)
Theorem C11_cleanup_frame :
  forall now s s',
    NoDup (map fst (flows s)) -> cleanup_now now s = Some s' ->
    s_rest s' = s_rest s /\
    (forall u i, slook (flows s) u = Some i -> rm cfg_now now s u i = false ->
       exists i', slook (flows s') u = Some i' /\ frame_rel (fun x => slook (flows s') x = None) i i') /\
    (forall u i', slook (flows s') u = Some i' ->
       exists i, slook (flows s) u = Some i /\ rm cfg_now now s u i = false) /\
    (forall a x, slook (actions s') a = Some x -> slook (actions s) a = Some x) /\
    (forall u i a, In (u, i) (flows s') -> In a (i_actions i) -> slook (actions s') a <> None) /\
    (forall f l', slook (by_flow s') f = Some l' ->
       exists l, slook (by_flow s) f = Some l /\ (forall x, In x l' -> In x l) /\
                 (forall x, In x l -> ~ In x l' -> slook (flows s') x = None)) /\
    (forall f l, slook (by_flow s) f = Some l -> exists l', slook (by_flow s') f = Some l').
Proof. exact frame_now. Qed.
Print Assumptions C11_cleanup_frame.

Theorem C11_cleanup_idempotent :
  forall now s s', NoDup (map fst (flows s)) -> cleanup_now now s = Some s' -> cleanup_now now s' = Some s'.
Proof. exact idempotent_now. Qed.
Print Assumptions C11_cleanup_idempotent.

(* PARTIAL (the modelled part of event dispatch): if the matcher index lists only heads of
   instances that are not done, every index entry resolves after the clean-up to the same head
   of the same instance (changed only as the frame allows) - no lookup of the dispatch reaches a
   removed instance.  The full claim (same outgoing events for every continuation and every
   clock advance) is validated by exploration on the real interpreter. *)
Theorem C11_cleanup_commutes_partial :
  forall now s s' (ix : index),
    NoDup (map fst (flows s)) -> cleanup_now now s = Some s' ->
    (forall name es e, slook ix name = Some es -> In e es ->
       exists i, slook (flows s) (fst e) = Some i /\ is_done cfg_now i = false /\ slook (i_heads i) (snd e) <> None) ->
    forall name,
      Forall2 (fun a b => exists fu hu i i', a = Some (fu, hu, i) /\ b = Some (fu, hu, i') /\
                                             frame_rel (fun x => slook (flows s') x = None) i i')
              (candidates ix s name) (candidates ix s' name).
Proof. exact candidates_now. Qed.
Print Assumptions C11_cleanup_commutes_partial.

(* the reference closure is an invariant of the clean-up (thanks to the purge of child and scope
   lists), and on a closed state _clean_up_state raises neither KeyError nor ValueError *)
Theorem C11_cleanup_preserves_refs :
  forall now s s', refs_ok s -> cleanup_now now s = Some s' -> refs_ok s'.
Proof. exact refs_ok_preserved. Qed.
Print Assumptions C11_cleanup_preserves_refs.

Theorem C11_cleanup_total : forall now s, refs_ok s -> exists s', cleanup_now now s = Some s'.
Proof. exact total_now. Qed.
Print Assumptions C11_cleanup_total.

(* every lookup the dispatch can make through the lists of a remaining instance: children and
   scope members resolve to the frame-image of the instance they resolved to before; a child
   that left the list was discarded by this clean-up (done, not activated, old); the listed
   actions are the very same objects *)
Theorem C11_cleanup_lookups :
  forall now s s',
    refs_ok s -> cleanup_now now s = Some s' ->
    forall u i i', slook (flows s) u = Some i -> slook (flows s') u = Some i' ->
      (forall x, In x (i_children i') ->
         exists ix ix', slook (flows s) x = Some ix /\ slook (flows s') x = Some ix' /\
                        frame_rel (fun y => slook (flows s') y = None) ix ix') /\
      (forall x, In x (i_children i) -> ~ In x (i_children i') ->
         exists ix, slook (flows s) x = Some ix /\ rm cfg_now now s x ix = true /\ slook (flows s') x = None) /\
      (forall k l' x, slook (i_scopes i') k = Some l' -> In x l' ->
         exists ix ix', slook (flows s) x = Some ix /\ slook (flows s') x = Some ix' /\
                        frame_rel (fun y => slook (flows s') y = None) ix ix') /\
      (forall a, In a (i_actions i') -> exists act, slook (actions s) a = Some act /\ slook (actions s') a = Some act).
Proof. exact lookups_now. Qed.
Print Assumptions C11_cleanup_lookups.

(* monotonicity in the clock: cleaning up at t1 and again at t2 >= t1 leaves the same instances,
   with the same fields, the same children and scope members, and the same actions as cleaning
   up once at t2 - the second clean-up removes exactly what became old enough in between.
   EXTENSIONAL (lookups / membership of every list, incl. the per-flow lists): only the ORDER of
   list elements is not compared. *)
Theorem C11_cleanup_later_clock_ext :
  forall t1 t2 s s1 s12 s2,
    t1 <= t2 -> refs_ok s ->
    cleanup_now t1 s = Some s1 -> cleanup_now t2 s1 = Some s12 -> cleanup_now t2 s = Some s2 ->
    (forall u, slook (flows s12) u = None <-> slook (flows s2) u = None) /\
    (forall u i12 i2, slook (flows s12) u = Some i12 -> slook (flows s2) u = Some i2 ->
       (i_flow i12 = i_flow i2 /\ i_status i12 = i_status i2 /\ i_updated i12 = i_updated i2 /\
        i_activated i12 = i_activated i2 /\ i_parent i12 = i_parent i2 /\ i_actions i12 = i_actions i2 /\
        i_rest i12 = i_rest i2 /\ i_heads i12 = i_heads i2 /\ map fst (i_scopes i12) = map fst (i_scopes i2)) /\
       (forall x, In x (i_children i12) <-> In x (i_children i2)) /\
       (forall k l12 l2, slook (i_scopes i12) k = Some l12 -> slook (i_scopes i2) k = Some l2 ->
                         forall x, In x l12 <-> In x l2)) /\
    (forall a, slook (actions s12) a = slook (actions s2) a) /\
    (forall f l12 l2, slook (by_flow s12) f = Some l12 -> slook (by_flow s2) f = Some l2 -> forall x, In x l12 <-> In x l2) /\
    s_rest s12 = s_rest s2.
Proof. exact later_clock_now. Qed.
Print Assumptions C11_cleanup_later_clock_ext.

(* clean-up commutes with save/restore: the abstract interpreter state read off the restored
   State graph (json_to_state o state_to_json) is THE SAME as the one read off the live graph,
   for every clock oracle ts; hence cleaning up after a restore = cleaning up the live state *)
Theorem C11_cleanup_commutes_with_restore :
  forall ts h rk limit s a,
    supported flags_now classes_now h (VO s) = true -> acyclic h rk -> (rank_of rk (VO s) < limit)%nat ->
    state_hyps h s = true ->
    alpha ts h (VO s) = Some a ->
    exists j h2 s',
      encode flags_now limit h (VO s) = Some j /\ json_to_state flags_now classes_now limit j = Some (h2, VO s') /\
      alpha ts h2 (VO s') = Some a /\
      forall c now, option_map (cleanup c now) (alpha ts h2 (VO s')) = option_map (cleanup c now) (alpha ts h (VO s)).
Proof. exact (fun ts h rk limit s a => alpha_restored ts flags_now classes_now h rk limit s a eq_refl late_tags_free_now). Qed.
Print Assumptions C11_cleanup_commutes_with_restore.

(* inhabited: the abstract state of the example State, with closed references *)
Theorem C11_bridge_inhabited :
  (exists a, alpha ts0 h_st (VO 0) = Some a /\ refs_okb a = true /\ List.length (flows a) = 2%nat).
Proof. exact bridge_inhabited. Qed.
Print Assumptions C11_bridge_inhabited.

Theorem C11_cleanup_refs_inhabited : refs_ok ex_state.
Proof. exact ex_state_refs_ok. Qed.
Print Assumptions C11_cleanup_refs_inhabited.

(* an ended flow that is still the parent of a running flow is kept, however old (the removal
   condition reads the parent links of the pre-state) *)
Theorem C11_cleanup_needed_parent_kept :
  exists s', cleanup_now 100000000 ex_parent_state = Some s' /\
             slook (flows s') "p" <> None /\ slook (flows s') "q" = None.
Proof. exact needed_parent_kept. Qed.
Print Assumptions C11_cleanup_needed_parent_kept.

Theorem C11_cleanup_inhabited :
  exists s', cleanup_now 10000000 ex_state = Some s' /\ slook (flows s') "a1" = None /\
             slook (flows s') "b1" <> None /\ slook (actions s') "act2" = None.
Proof. exact cleanup_now_example. Qed.
Print Assumptions C11_cleanup_inhabited.
