(* C04 - Colang 2 event matching follows the documented partial-match rules.
   Property theorems only; every proof is `exact` of a lemma or of a term built from lemmas;
   Print Assumptions beneath each.
   `score_now` / `event_score_now` are the matcher with the length guards AS READ FROM THE
   CURRENT SOURCE by the translator (Gen/MatchConsts.v): if a guard is missing in
   statemachine.py the first theorem fails to check. *)
From Coq Require Import ZArith QArith List String Bool.
From NG Require Import Gen.MatchConsts Val.Value Val.Match Val.MatchSpec Val.Match_proofs
                       Val.Match_examples.
Import ListNotations.
Open Scope string_scope.

(* (T) every container branch of the current source starts with the length guard *)
Theorem C04_length_guards_in_source :
  dict_length_guard = true /\ list_length_guard = true /\ set_length_guard = true.
Proof. exact (conj eq_refl (conj eq_refl eq_refl)). Qed.
Print Assumptions C04_length_guards_in_source.

(* (T) the specificity factor read from the source lies strictly between 0 and 1 *)
Theorem C04_factor_range : (0 < factor /\ factor < 1)%Q.
Proof. exact (conj factor_pos factor_lt_1). Qed.
Print Assumptions C04_factor_range.

(* the matcher advances exactly on the documented rules, for all patterns and payloads of
   any nesting depth (calls that raise - a comparison against another type - excluded) *)
Theorem C04_sound_complete :
  forall re_search str_of p v,
    score_now re_search str_of p v <> RErr ->
    (is_yes (score_now re_search str_of p v) <-> Matches re_search str_of p v).
Proof. exact score_sound_complete. Qed.
Print Assumptions C04_sound_complete.

(* ... never against a received container with fewer elements than expected *)
Theorem C04_no_smaller_container :
  forall re_search str_of,
    (forall ps vs, Matches re_search str_of (VList ps) (VList vs) -> (List.length ps <= List.length vs)%nat) /\
    (forall ps vs, Matches re_search str_of (VSet ps) (VSet vs) -> (List.length ps <= List.length vs)%nat) /\
    (forall ps vs, Matches re_search str_of (VDict ps) (VDict vs) -> (List.length ps <= List.length vs)%nat).
Proof. exact matches_no_smaller_container. Qed.
Print Assumptions C04_no_smaller_container.

(* parameters the statement does not mention never prevent a match; each one multiplies
   the score by `factor` *)
Theorem C04_unmentioned_harmless :
  forall re_search str_of pkvs vkvs extra k,
    score_now re_search str_of (VDict pkvs) (VDict vkvs) = RYes k ->
    score_now re_search str_of (VDict pkvs) (VDict (vkvs ++ extra))
    = RYes (k + Z.of_nat (List.length extra)).
Proof. exact (fun rs so => unmentioned_harmless rs so _ _ _). Qed.
Print Assumptions C04_unmentioned_harmless.

(* a positive score is factor^k with k >= 0: in (0, 1], strictly smaller with every further
   unmentioned parameter *)
Theorem C04_score_range :
  forall re_search str_of p v k,
    score_now re_search str_of p v = RYes k ->
    (0 <= k)%Z /\ (0 < factor ^ k /\ factor ^ k <= 1 /\ factor ^ (k + 1) < factor ^ k)%Q.
Proof. exact score_now_range. Qed.
Print Assumptions C04_score_range.

(* non-internal events: another name never matches *)
Theorem C04_event_name :
  forall re_search str_of action_args ev ref,
    umim ev ref -> e_name ref <> e_name ev ->
    event_score_now re_search str_of action_args ev ref = ENo.
Proof. exact (fun rs so => event_name_mismatch rs so _ _ _). Qed.
Print Assumptions C04_event_name.

(* a statement that refers to a specific action instance matches only that instance *)
Theorem C04_instance_action :
  forall re_search str_of action_args ev ref r eu,
    umim ev ref -> e_kind ref = KAction (Some r) -> e_kind ev = KAction eu -> eu <> Some r ->
    event_score_now re_search str_of action_args ev ref = ENo.
Proof. exact (fun rs so => event_action_instance rs so _ _ _). Qed.
Print Assumptions C04_instance_action.

(* a statement that refers to a specific flow instance never advances on another instance's event *)
Theorem C04_instance_flow :
  forall re_search str_of action_args ev ref u u' k,
    e_name ref <> ev_start_flow ->
    lookup "flow_instance_uid" (e_args ref) = Some (VStr u) ->
    lookup "flow_instance_uid" (e_args ev) = Some (VStr u') ->
    u <> u' ->
    event_score_now re_search str_of action_args ev ref <> EYes k.
Proof. exact (fun rs so aa ev ref u u' k => event_flow_instance rs so _ _ _ aa ev ref u u' k eq_refl). Qed.
Print Assumptions C04_instance_flow.

(* plain events: event-level score = argument-level score *)
Theorem C04_event_args :
  forall re_search str_of action_args ev ref,
    umim ev ref -> e_name ref = e_name ev -> e_kind ev = KPlain ->
    event_score_now re_search str_of action_args ev ref
    = eres_of_res (score_now re_search str_of (VDict (e_args ref)) (VDict (e_args ev))).
Proof. exact (fun rs so => event_umim_args rs so _ _ _). Qed.
Print Assumptions C04_event_args.

(* WITHOUT the set guard the property is false *)
Theorem C04_set_guard_missing_refuted :
  exists re_search str_of p v k,
    score re_search str_of true true false p v = RYes k /\ (k < 0)%Z /\ ~ Matches re_search str_of p v.
Proof. exact set_guard_missing_witness. Qed.
Print Assumptions C04_set_guard_missing_refuted.
