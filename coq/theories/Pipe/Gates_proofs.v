(* Pipe.Gates_proofs - the statements of C01 / C02 about the pipeline models, proved from the
   lemmas of Rails_proofs / TurnV1_proofs / TurnV2_proofs.  Props/C01.v and Props/C02.v
   re-export them, beside the (T) obligations of Flows_proofs / FlowsOut_proofs, the examples of
   Gates_examples and a few lemmas of the three files above.

   Both machines run a turn as "the input rails, then a rest that calls no input rail", and hand
   a generated bot message to the output rails after the released user message and some LLM
   calls: what does not depend on the machine is proved once (Sections InputGate, OutputGate). *)
From Coq Require Import List String Bool Arith.
From NG Require Import Pipe.Rails Pipe.Rails_proofs Pipe.TurnV1 Pipe.TurnV1_proofs Pipe.TurnV2 Pipe.TurnV2_proofs.
Import ListNotations.
Open Scope list_scope.

(* "called in the configured order; each rail is shown the composition of the rewrites of its
   predecessors; nobody is called after a rejection" - spelled out *)
Definition ordered_calls (v : nat -> rail -> text -> verdict) (u : text) (rs : list rail)
           (calls : list (rail * text)) : Prop :=
  map fst calls = firstn (List.length calls) rs /\
  (forall r x rest, calls = (r, x) :: rest -> x = u) /\
  (forall j r x r' x', nth_error calls j = Some (r, x) -> nth_error calls (S j) = Some (r', x') ->
                       v j r x <> Reject /\ x' = apply_verdict (v j r x) x) /\
  (forall j r x, nth_error calls j = Some (r, x) -> v j r x = Reject -> List.length calls = S j) /\
  ((forall j r x, nth_error calls j = Some (r, x) -> v j r x <> Reject) -> map fst calls = rs).

Lemma chain_ordered : forall v u rs calls, chain v 0 u rs calls -> ordered_calls v u rs calls.
Proof.
  intros v u rs calls H. unfold ordered_calls. split; [|split; [|split; [|split]]].
  - exact (chain_prefix _ _ _ _ _ H).
  - intros r x rest ->. exact (chain_first _ _ _ _ _ _ _ H).
  - intros j r x r' x'. exact (chain_step _ _ 0 _ _ j r x r' x' H).
  - intros j r x. exact (chain_reject_last _ _ 0 _ _ j r x H).
  - exact (chain_complete _ _ 0 _ _ H).
Qed.

(* the trace splits into the input-rail calls and a rest without any *)
Definition gate_first (tr : list tev) : Prop :=
  exists a b, tr = a ++ b /\ Forall (fun e => is_in_rail e = true) a /\
              Forall (fun e => is_in_rail e = false) b.

(* every input-rail call precedes every LLM call / released user message / bot message *)
Lemma gate_first_order :
  forall tr, gate_first tr ->
  forall i j e1 e2, nth_error tr i = Some e1 -> nth_error tr j = Some e2 ->
                    is_in_rail e1 = true -> is_in_rail e2 = false -> i < j.
Proof.
  intros tr (a & b & -> & Ha & Hb) i j e1 e2 Hi Hj H1 H2.
  assert (Hia : i < List.length a).
  { destruct (Nat.lt_ge_cases i (List.length a)) as [|Hge]; [assumption|].
    rewrite nth_error_app2 in Hi by exact Hge. apply nth_error_In in Hi.
    rewrite Forall_forall in Hb. rewrite (Hb _ Hi) in H1. discriminate. }
  assert (Hjb : List.length a <= j).
  { destruct (Nat.lt_ge_cases j (List.length a)) as [Hlt|]; [|assumption].
    rewrite nth_error_app1 in Hj by exact Hlt. apply nth_error_In in Hj.
    rewrite Forall_forall in Ha. rewrite (Ha _ Hj) in H2. discriminate. }
  exact (Nat.lt_le_trans _ _ _ Hia Hjb).
Qed.

Lemma first_split_unique :
  forall (P : tev -> bool) a1 x1 b1 a2 x2 b2,
    a1 ++ x1 :: b1 = a2 ++ x2 :: b2 ->
    Forall (fun e => P e = false) a1 -> Forall (fun e => P e = false) a2 ->
    P x1 = true -> P x2 = true -> a1 = a2 /\ x1 = x2 /\ b1 = b2.
Proof.
  intros P a1. induction a1 as [|y a1 IH]; intros x1 b1 [|z a2] x2 b2 He H1 H2 Hx1 Hx2;
    simpl in He; injection He as -> Hb.
  - subst. auto.
  - apply Forall_inv in H2. congruence.
  - apply Forall_inv in H1. congruence.
  - destruct (IH _ _ _ _ _ Hb (Forall_inv_tail H1) (Forall_inv_tail H2) Hx1 Hx2) as (-> & -> & ->). auto.
Qed.

Section InputGate.
  Variable v : nat -> rail -> text -> verdict.
  Variables (rs : list rail) (u : text) (trI : list tev) (c : nat) (res : rres) (rest : list tev).
  Hypothesis Hrun : run_rails v SIn rs 0 u = (trI, c, res).
  Hypothesis Hrest : Forall (fun e => is_in_rail e = false) rest.

  Lemma gate_in_calls : rail_calls SIn (trI ++ rest) = rail_calls SIn trI.
  Proof. rewrite rail_calls_app, (rail_calls_none SIn rest Hrest). apply app_nil_r. Qed.

  Lemma gate_order : ordered_calls v u rs (rail_calls SIn (trI ++ rest)).
  Proof.
    rewrite gate_in_calls. destruct (run_rails_shape _ _ _ _ _ _ _ _ Hrun) as (calls & -> & Hch & _).
    rewrite rail_calls_map_mk. exact (chain_ordered _ _ _ _ Hch).
  Qed.

  Lemma gate_split : gate_first (trI ++ rest).
  Proof.
    exists trI, rest. split; [reflexivity|]. split; [|exact Hrest].
    destruct (run_rails_shape _ _ _ _ _ _ _ _ Hrun) as (calls & -> & _).
    apply Forall_map_mk. reflexivity.
  Qed.

  Lemma gate_reject :
    forall j r x, nth_error (rail_calls SIn (trI ++ rest)) j = Some (r, x) -> v j r x = Reject ->
      List.length (rail_calls SIn (trI ++ rest)) = S j /\ res = Blocked r x.
  Proof. rewrite gate_in_calls. intros j r x. exact (run_rails_reject _ _ _ _ _ _ _ _ j r x Hrun). Qed.
End InputGate.

(* both machines check a generated bot message the same way: after the input rails' calls, the
   released user message and some LLM calls, it goes through the output rails from the call index
   the input rails left; what the machine appends (`tl`) is its own *)
Section OutputGate.
  Variable v : nat -> rail -> text -> verdict.
  Variables (rs : list rail) (calls : list (rail * text)) (um : text) (pre : list tev).
  Variables (m : text) (trO : list tev) (c' : nat) (res : rres).
  Hypothesis Hpre : Forall (fun e => is_llm e = true) pre.
  Hypothesis Hrun : run_rails v SOut rs (List.length calls) m = (trO, c', res).
  Let a := map (mk SIn) calls ++ TUser um :: pre.

  Lemma released_prefix :
    Forall (fun e => is_from_llm e = false) a /\ n_rail_calls a = List.length calls /\ emitted a = [].
  Proof.
    split.
    - apply Forall_app. split; [apply Forall_map_mk; reflexivity|].
      constructor; [reflexivity|exact (llm_only is_from_llm (fun _ _ => eq_refl) pre Hpre)].
    - unfold a. change (TUser um :: pre) with ([TUser um] ++ pre). autorewrite with rails_trace.
      destruct (llm_only_quiet pre Hpre) as (-> & ->). split; [apply Nat.add_0_r|reflexivity].
  Qed.

  Lemma checked_message :
    Forall (fun e => is_from_llm e = false) a /\
    run_rails v SOut rs (n_rail_calls a) m = (trO, n_rail_calls a + n_rail_calls trO, res) /\
    forall tl,
      map (mk SIn) calls ++ TUser um :: pre ++ TBot FromLLM m :: trO ++ tl = a ++ TBot FromLLM m :: trO ++ tl /\
      emitted (a ++ TBot FromLLM m :: trO ++ tl) = emitted tl.
  Proof.
    destruct released_prefix as (Hf & Hn & He). split; [exact Hf|].
    rewrite Hn, <- (run_rails_count _ _ _ _ _ _ _ _ Hrun). split; [exact Hrun|]. intros tl.
    split; [unfold a; rewrite <- app_assoc; reflexivity|].
    destruct (run_rails_shape _ _ _ _ _ _ _ _ Hrun) as (callsO & -> & _).
    change (TBot FromLLM m :: map (mk SOut) callsO ++ tl) with ([TBot FromLLM m] ++ map (mk SOut) callsO ++ tl).
    autorewrite with rails_trace. rewrite He. reflexivity.
  Qed.
End OutputGate.

Section V1.
  Variable vf : nat -> nat -> rail -> text -> verdict.
  Variable llm : nat -> nat -> prompt -> text.
  Variable post_general : text -> text.
  Variable intent_step : nat -> text -> dstep.
  Variable next_of : text -> string.
  Variable predefined : string -> option text.
  Variable msg_of : text -> text.
  Variable refusal : text.

  Notation after_input := (after_input vf llm post_general intent_step next_of predefined msg_of refusal).
  Notation turn_v1 := (turn_v1 vf llm post_general intent_step next_of predefined msg_of refusal).
  Notation conv_v1 := (conv_v1 vf llm post_general intent_step next_of predefined msg_of refusal).
  Notation rest_of_turn := (rest_of_turn vf llm post_general intent_step next_of predefined msg_of refusal).
  Notation turn_v1_parts := (turn_v1_parts vf llm post_general intent_step next_of predefined msg_of refusal).
  Notation after_input_blocked :=
    (after_input_blocked vf llm post_general intent_step next_of predefined msg_of refusal).
  Notation block_tail := (block_tail refusal).
  Notation block_reply := (block_reply refusal).

  (* C01_order *)
  Theorem v1_order :
    forall cf st u,
      ordered_calls (vf (tidx st)) u (irails cf) (rail_calls SIn (snd (fst (turn_v1 cf st u)))).
  Proof.
    intros cf st u.
    destruct (turn_v1_parts cf st u) as (trI & c & res & st1 & tr2 & rp & raw' & Hr & _ & Hf & ->).
    exact (gate_order _ _ _ _ _ _ _ Hr Hf).
  Qed.

  (* C01_before_dialog *)
  Theorem v1_before_dialog : forall cf st u, gate_first (snd (fst (turn_v1 cf st u))).
  Proof.
    intros cf st u.
    destruct (turn_v1_parts cf st u) as (trI & c & res & st1 & tr2 & rp & raw' & Hr & _ & Hf & ->).
    exact (gate_split _ _ _ _ _ _ _ Hr Hf).
  Qed.

  (* C01_reject_stops *)
  Theorem v1_reject_stops :
    forall cf st u j r x,
      let tr := snd (fst (turn_v1 cf st u)) in
      nth_error (rail_calls SIn tr) j = Some (r, x) -> vf (tidx st) j r x = Reject ->
      List.length (rail_calls SIn tr) = S j /\ llm_calls tr = [] /\ rail_calls SOut tr = [] /\
      snd (turn_v1 cf st u) = (if exceptions cf then RExc SIn r else RMsg [refusal]) /\
      emitted tr = (if exceptions cf then [] else [refusal]).
  Proof.
    intros cf st u j r x.
    destruct (turn_v1_parts cf st u) as (trI & c & res & st1 & tr2 & rp & raw' & Hr & Ha & Hf & ->).
    cbn [fst snd]. intros Hj Hrej.
    destruct (gate_reject _ _ _ _ _ _ _ Hr Hf j r x Hj Hrej) as (Hlen & ->). split; [exact Hlen|].
    destruct (after_input_blocked cf (set_user st u) c r x) as (st' & Hb & _).
    rewrite Hb in Ha. injection Ha as _ <- <-.
    destruct (run_rails_shape _ _ _ _ _ _ _ _ Hr) as (calls & -> & _).
    autorewrite with rails_trace. rewrite (rail_calls_other_side SOut SIn) by discriminate.
    unfold TurnV1_proofs.block_reply. destruct (exceptions cf); simpl; auto.
  Qed.

  (* C01_rewrite_noninterference: two inputs that leave the input rails as the same text give the
     same prompts, the same output-rail calls, the same reply and the same next state *)
  Theorem v1_rewrite_noninterference :
    forall cf st u1 u2 um tr1 c1 tr2 c2,
      run_rails (vf (tidx st)) SIn (irails cf) 0 u1 = (tr1, c1, Passed um) ->
      run_rails (vf (tidx st)) SIn (irails cf) 0 u2 = (tr2, c2, Passed um) ->
      rest_of_turn cf st u1 = rest_of_turn cf st u2 /\
      llm_calls (snd (fst (turn_v1 cf st u1))) = llm_calls (snd (fst (turn_v1 cf st u2))) /\
      snd (turn_v1 cf st u1) = snd (turn_v1 cf st u2) /\
      fst (fst (turn_v1 cf st u1)) = fst (fst (turn_v1 cf st u2)).
  Proof.
    intros cf st u1 u2 um tr1 c1 tr2 c2 H1 H2.
    pose proof (run_rails_shape _ _ _ _ _ _ _ _ H1) as (calls1 & Ht1 & _ & Hc1 & (_ & Hm1 & _)).
    pose proof (run_rails_shape _ _ _ _ _ _ _ _ H2) as (calls2 & Ht2 & _ & Hc2 & (_ & Hm2 & _)).
    (* all rails were called both times *)
    assert (Hc : c2 = c1).
    { rewrite Hc1, Hc2. f_equal. rewrite <- (map_length fst calls1), <- (map_length fst calls2), Hm1, Hm2. reflexivity. }
    rewrite Hc in H2.
    unfold TurnV1_proofs.rest_of_turn, TurnV1.turn_v1. rewrite H1, H2. cbv beta iota zeta.
    rewrite (after_input_passed_overwrites _ _ _ _ _ _ _ _ cf st u1 u2).
    destruct (after_input cf (set_user st u2) c1 (Passed um)) as [[st' tr] rp]. cbn [fst snd].
    repeat split; auto.
    subst tr1 tr2. autorewrite with rails_trace. reflexivity.
  Qed.

  (* C01_every_turn: the gate statements hold at every position of every conversation (they hold
     from EVERY state, so nothing a previous turn leaves behind can disable the gate) *)
  Definition gate_ok (cf : cfg) (st : pstate) (u : text) : Prop :=
    ordered_calls (vf (tidx st)) u (irails cf) (rail_calls SIn (snd (fst (turn_v1 cf st u)))) /\
    gate_first (snd (fst (turn_v1 cf st u))) /\
    (forall j r x, nth_error (rail_calls SIn (snd (fst (turn_v1 cf st u)))) j = Some (r, x) ->
                   vf (tidx st) j r x = Reject ->
                   llm_calls (snd (fst (turn_v1 cf st u))) = [] /\
                   snd (turn_v1 cf st u) = (if exceptions cf then RExc SIn r else RMsg [refusal])).

  Theorem v1_gate_any_state : forall cf st u, gate_ok cf st u.
  Proof.
    intros cf st u. split; [apply v1_order|]. split; [apply v1_before_dialog|].
    intros j r x Hj Hr. destruct (v1_reject_stops cf st u j r x Hj Hr) as (_ & Hl & _ & Hrp & _). auto.
  Qed.

  Fixpoint states_before (cf : cfg) (st : pstate) (us : list text) : list (pstate * text) :=
    match us with
    | [] => []
    | u :: us' => (st, u) :: states_before cf (fst (fst (turn_v1 cf st u))) us'
    end.

  Theorem v1_every_turn :
    forall cf us st, Forall (fun su => gate_ok cf (fst su) (snd su)) (states_before cf st us).
  Proof.
    intros cf us. induction us as [|u us IH]; intros st; simpl; constructor.
    - apply v1_gate_any_state.
    - apply IH.
  Qed.

  Lemma states_before_conv :
    forall cf us st,
      map (fun su => turn_v1 cf (fst su) (snd su)) (states_before cf st us) = conv_v1 cf st us.
  Proof. intros cf us. induction us as [|u us IH]; intros st; simpl; [reflexivity|]. f_equal. apply IH. Qed.

  (* what happens to the LLM-generated bot message of a turn (there is at most one) *)
  Definition out_gate (cf : cfg) (st : pstate) (tr : list tev) (rp : reply) : Prop :=
    Forall (fun e => is_from_llm e = false) tr
    \/
    exists a m trO res,
      Forall (fun e => is_from_llm e = false) a /\
      tr = a ++ TBot FromLLM m :: trO ++
           match res with Passed m' => [TEmit m'] | Blocked r _ => block_tail cf r end /\
      run_rails (vf (tidx st)) SOut (orails cf) (n_rail_calls a) m
      = (trO, n_rail_calls a + n_rail_calls trO, res) /\
      rp = match res with Passed m' => RMsg [m'] | Blocked r _ => block_reply cf SOut r end /\
      emitted tr = match res with
                   | Passed m' => [m']
                   | Blocked _ _ => if exceptions cf then [] else [refusal]
                   end.

  Theorem v1_out_gate :
    forall cf st u, skip st = false ->
      out_gate cf st (snd (fst (turn_v1 cf st u))) (snd (turn_v1 cf st u)).
  Proof.
    intros cf st u Hs.
    destruct (turn_v1_parts cf st u) as (trI & c & res & st1 & tr2 & rp & raw' & Hr & Ha & _ & ->).
    cbn [fst snd]. destruct (run_rails_shape _ _ _ _ _ _ _ _ Hr) as (calls & -> & _ & -> & _).
    destruct res as [um|r x].
    - destruct (after_input_passed _ _ _ _ _ _ _ _ _ _ _ _ _ _ _ Ha)
        as (st0 & pre & pv & m & stB & trB & cB & Hk & Ht & Hpre & -> & Hpb & _).
      simpl in Hk, Ht. apply process_bot_spec in Hpb. destruct Hpb as (_ & _ & Hpb).
      destruct pv; cbn [skip tidx set_skip] in Hpb.
      + rewrite Hk, Hs, Ht in Hpb. destruct Hpb as (trO & res & Hr' & Hres). right.
        destruct (checked_message _ _ calls um pre m trO _ res Hpre Hr') as (Hfa & Hrun & Hcm).
        exists (map (mk SIn) calls ++ TUser um :: pre), m, trO, res.
        (* what the machine appends, and the reply, by the outcome of the output rails *)
        destruct res as [m'|r x]; destruct Hres as (-> & ->).
        * destruct (Hcm [TEmit m']) as (Htr & Hem). rewrite Htr, Hem. repeat split; assumption.
        * destruct (Hcm (block_tail cf r)) as (Htr & Hem). rewrite Htr, Hem. repeat split; try assumption.
          unfold TurnV1_proofs.block_tail. destruct (exceptions cf); reflexivity.
      + destruct Hpb as (-> & _). left. rewrite app_comm_cons, app_assoc.
        apply Forall_app. split; [exact (proj1 (released_prefix calls um pre Hpre))|repeat constructor].
    - left. apply Forall_app. split; [apply Forall_map_mk; reflexivity|].
      destruct (after_input_blocked cf (set_user st u) (0 + List.length calls) r x) as (st' & Hb & _).
      rewrite Hb in Ha. injection Ha as _ <- _. destruct (exceptions cf); repeat constructor.
  Qed.

  (* C02_reject_hidden is the case `res = Blocked r x` *)
  Lemma out_gate_determined :
    forall cf st u a m trO tail c' res,
      skip st = false ->
      snd (fst (turn_v1 cf st u)) = a ++ TBot FromLLM m :: trO ++ tail ->
      Forall (fun e => is_from_llm e = false) a ->
      run_rails (vf (tidx st)) SOut (orails cf) (n_rail_calls a) m = (trO, c', res) ->
      snd (turn_v1 cf st u) = match res with Passed m' => RMsg [m'] | Blocked r _ => block_reply cf SOut r end /\
      emitted (snd (fst (turn_v1 cf st u))) =
      match res with Passed m' => [m'] | Blocked _ _ => if exceptions cf then [] else [refusal] end.
  Proof.
    intros cf st u a m trO tail c' res Hs Htr Ha Hr.
    destruct (v1_out_gate cf st u Hs) as [Hn|(a' & m' & trO' & res' & Ha' & Htr' & Hr' & Hrp & Hem)].
    - exfalso. rewrite Htr in Hn. apply Forall_app in Hn. destruct Hn as [_ Hn]. apply Forall_inv in Hn. discriminate.
    - rewrite Htr in Htr'.
      destruct (first_split_unique is_from_llm _ _ _ _ _ _ Htr' Ha Ha' eq_refl eq_refl) as (-> & Hm & _).
      injection Hm as <-. rewrite Hr in Hr'. injection Hr' as _ _ <-. split; assumption.
  Qed.

  (* C02_rewrite_returned *)
  Theorem v1_rewrite_returned :
    forall cf st u a m trO m' tail c',
      skip st = false ->
      snd (fst (turn_v1 cf st u)) = a ++ TBot FromLLM m :: trO ++ tail ->
      Forall (fun e => is_from_llm e = false) a ->
      run_rails (vf (tidx st)) SOut (orails cf) (n_rail_calls a) m = (trO, c', Passed m') ->
      snd (turn_v1 cf st u) = RMsg [m'] /\ emitted (snd (fst (turn_v1 cf st u))) = [m'] /\
      m' = final_text (vf (tidx st)) (n_rail_calls a) m (orails cf).
  Proof.
    intros cf st u a m trO m' tail c' Hs Htr Ha Hr.
    destruct (out_gate_determined cf st u a m trO tail c' (Passed m') Hs Htr Ha Hr) as (H1 & H2).
    split; [exact H1|]. split; [exact H2|].
    apply run_rails_shape in Hr. destruct Hr as (calls & _ & _ & _ & (Hf & _)). exact Hf.
  Qed.

  (* per-call generation options: whatever options EARLIER calls used (e.g. output rails
     switched off for one call), a call that does not disable a category runs it in full, and
     the skip flag stays clear *)
  Notation turn_v1_opts := (turn_v1_opts vf llm post_general intent_step next_of predefined msg_of refusal).
  Notation conv_v1_opts := (conv_v1_opts vf llm post_general intent_step next_of predefined msg_of refusal).

  Lemma turn_v1_opts_skip :
    forall cf st ou, skip st = false -> skip (fst (fst (turn_v1_opts cf (fst ou) st (snd ou)))) = false.
  Proof. intros cf st ou. apply turn_v1_skip_invariant. Qed.

  Theorem v1_flag_invariant_opts :
    forall cf ous st, skip st = false ->
      Forall (fun r => skip (fst (fst r)) = false) (conv_v1_opts cf st ous).
  Proof.
    intros cf.
    apply (conv_invariant _ _ _ (fun st => skip st = false) _
                          (fun st ou => turn_v1_opts cf (fst ou) st (snd ou)) (fun r => fst (fst r)));
      [reflexivity|intros s [o u] l; reflexivity|].
    intros st ou Hs. split; apply turn_v1_opts_skip; exact Hs.
  Qed.

  Fixpoint states_before_opts (cf : cfg) (st : pstate) (ous : list (topts * text)) : list (pstate * topts * text) :=
    match ous with
    | [] => []
    | (o, u) :: ous' => (st, o, u) :: states_before_opts cf (fst (fst (turn_v1_opts cf o st u))) ous'
    end.

  Theorem v1_gates_with_options :
    forall cf ous st, skip st = false ->
      Forall (fun sou => let '(s, o, u) := sou in
                skip s = false /\
                (o_in o = true ->
                 ordered_calls (vf (tidx s)) u (irails cf) (rail_calls SIn (snd (fst (turn_v1_opts cf o s u))))) /\
                (o_out o = true ->
                 orails (eff cf o) = orails cf /\
                 out_gate (eff cf o) s (snd (fst (turn_v1_opts cf o s u))) (snd (turn_v1_opts cf o s u))))
             (states_before_opts cf st ous).
  Proof.
    intros cf.
    (* `states_before_opts` as a conversation: a step only records the state it starts from with
       the options and the input; `next` is where the turn function is run *)
    apply (conv_invariant _ _ _ (fun st => skip st = false) _
                          (fun st ou => (st, fst ou, snd ou))
                          (fun sou => let '(s, o, u) := sou in fst (fst (turn_v1_opts cf o s u))));
      [reflexivity|intros s [o u] l; reflexivity|].
    intros st [o u] Hs. split; [|exact (turn_v1_opts_skip cf st (o, u) Hs)].
    cbn [fst snd]. split; [exact Hs|]. unfold TurnV1.turn_v1_opts. split.
    - intros Hi. replace (irails cf) with (irails (eff cf o)) by (simpl; rewrite Hi; reflexivity).
      apply v1_order.
    - intros Ho. split; [simpl; rewrite Ho; reflexivity|]. apply v1_out_gate. exact Hs.
  Qed.

  Definition fresh_at (t : nat) : pstate := mkSt t false None None None None [] [].
End V1.

Section V2.
  Variable fixd : bool.
  Variable vf : nat -> nat -> rail -> text -> verdict.
  Variable llm : nat -> nat -> prompt -> text.
  Variable value_of : text -> text.
  Variable refusal_in refusal_out : text.

  Notation bot_say := (bot_say fixd vf refusal_out).
  Notation after_input2 := (after_input2 fixd vf llm value_of refusal_in refusal_out).
  Notation turn_v2 := (turn_v2 fixd vf llm value_of refusal_in refusal_out).
  Notation turn_v2_parts := (turn_v2_parts fixd vf llm value_of refusal_in refusal_out).
  Notation block_reply2 := (block_reply2 refusal_out).

  Theorem v2_order :
    forall cf st u,
      ordered_calls (no_rewrite (vf (tidx2 st))) u (irails2 cf) (rail_calls SIn (snd (fst (turn_v2 cf st u)))).
  Proof.
    intros cf st u.
    destruct (turn_v2_parts cf st u) as (trI & c & res & st1 & tr2 & rp & Hr & _ & Hf & ->).
    exact (gate_order _ _ _ _ _ _ _ Hr Hf).
  Qed.

  Theorem v2_before_dialog : forall cf st u, gate_first (snd (fst (turn_v2 cf st u))).
  Proof.
    intros cf st u.
    destruct (turn_v2_parts cf st u) as (trI & c & res & st1 & tr2 & rp & Hr & _ & Hf & ->).
    exact (gate_split _ _ _ _ _ _ _ Hr Hf).
  Qed.

  (* a rejected input: no later rail, no LLM call; the reply is the rail exception, or the input
     refusal (which in Colang 2 is a `bot say`, hence itself subject to the output rails: if they
     reject it, their refusal / exception is the reply) *)
  Theorem v2_reject_stops :
    forall cf st u j r x,
      let tr := snd (fst (turn_v2 cf st u)) in
      nth_error (rail_calls SIn tr) j = Some (r, x) -> vf (tidx2 st) j r x = Reject ->
      List.length (rail_calls SIn tr) = S j /\ llm_calls tr = [] /\
      (snd (turn_v2 cf st u) = RExc SIn r \/ snd (turn_v2 cf st u) = RMsg [refusal_in] \/
       exists r', snd (turn_v2 cf st u) = block_reply2 cf r').
  Proof.
    intros cf st u j r x.
    destruct (turn_v2_parts cf st u) as (trI & c & res & st1 & tr2 & rp & Hr & Ha & Hf & ->).
    cbn [fst snd]. intros Hj Hrej. apply no_rewrite_reject in Hrej.
    destruct (gate_reject _ _ _ _ _ _ _ Hr Hf j r x Hj Hrej) as (Hlen & ->). split; [exact Hlen|].
    destruct (run_rails_shape _ _ _ _ _ _ _ _ Hr) as (calls & -> & _).
    autorewrite with rails_trace. simpl.
    destruct (after_input2_blocked _ _ _ _ _ _ _ _ _ _ _ _ _ _ _ Ha) as [(_ & -> & ->)|(st3 & c3 & Hb & _)].
    - auto.
    - split; [exact (proj2 (bot_say_events _ _ _ _ _ _ _ _ _ _ _ _ Hb))|].
      apply bot_say_spec in Hb. destruct Hb as (_ & Hb).
      destruct (orip (set_um2 st u)); [destruct Hb as (_ & _ & -> & _); auto|].
      destruct Hb as (trO & [m'|r' x'] & _ & _ & -> & _); eauto.
  Qed.

  Definition gate_ok2 (cf : cfg2) (st : pstate2) (u : text) : Prop :=
    ordered_calls (no_rewrite (vf (tidx2 st))) u (irails2 cf) (rail_calls SIn (snd (fst (turn_v2 cf st u)))) /\
    gate_first (snd (fst (turn_v2 cf st u))) /\
    (forall j r x, nth_error (rail_calls SIn (snd (fst (turn_v2 cf st u)))) j = Some (r, x) ->
                   vf (tidx2 st) j r x = Reject -> llm_calls (snd (fst (turn_v2 cf st u))) = []).

  Theorem v2_gate_any_state : forall cf st u, gate_ok2 cf st u.
  Proof.
    intros cf st u. split; [apply v2_order|]. split; [apply v2_before_dialog|].
    intros j r x Hj Hr. destruct (v2_reject_stops cf st u j r x Hj Hr) as (_ & Hl & _). exact Hl.
  Qed.

  Fixpoint states_before2 (cf : cfg2) (st : pstate2) (us : list text) : list (pstate2 * text) :=
    match us with
    | [] => []
    | u :: us' => (st, u) :: states_before2 cf (fst (fst (turn_v2 cf st u))) us'
    end.

  Theorem v2_every_turn :
    forall cf us st, Forall (fun su => gate_ok2 cf (fst su) (snd su)) (states_before2 cf st us).
  Proof.
    intros cf us. induction us as [|u us IH]; intros st; simpl; constructor.
    - apply v2_gate_any_state.
    - apply IH.
  Qed.

  (* the LLM-generated bot message of a turn, when the in-progress flag is clear at the start *)
  Definition out_gate2 (cf : cfg2) (st : pstate2) (u : text) (tr : list tev) (rp : reply) : Prop :=
    llm_calls tr = []
    \/
    exists a m trO res,
      Forall (fun e => is_from_llm e = false) a /\
      tr = a ++ TBot FromLLM m :: trO ++
           match res with Passed _ => [TEmit m] | Blocked r _ => TurnV2_proofs.block_tail2 refusal_out cf r end /\
      run_rails (no_rewrite (vf (tidx2 st))) SOut (orails2 cf) (n_rail_calls a) m
      = (trO, n_rail_calls a + n_rail_calls trO, res) /\
      rp = match res with Passed _ => RMsg [m] | Blocked r _ => block_reply2 cf r end.

  Theorem v2_out_gate :
    forall cf st u, orip st = false ->
      out_gate2 cf st u (snd (fst (turn_v2 cf st u))) (snd (turn_v2 cf st u)).
  Proof.
    intros cf st u Ho.
    destruct (turn_v2_parts cf st u) as (trI & c & res & st1 & tr2 & rp & Hr & Ha & _ & ->).
    cbn [fst snd]. destruct (run_rails_shape _ _ _ _ _ _ _ _ Hr) as (calls & -> & _ & -> & _).
    destruct res as [t|r x].
    - destruct (after_input2_passed _ _ _ _ _ _ _ _ _ _ _ _ _ _ Ha) as (p & m & st3 & tr3 & c3 & Hb & _ & ->).
      apply bot_say_spec in Hb. cbn [orip tidx2 push_hist2 set_um2] in Hb. rewrite Ho in Hb.
      destruct Hb as (_ & trO & res & Hr' & Hres). right.
      assert (Hpre : Forall (fun e => is_llm e = true) [TLLM 0 p]) by repeat constructor.
      destruct (checked_message _ _ calls u [TLLM 0 p] m trO _ res Hpre Hr') as (Hfa & Hrun & Hcm).
      exists (map (mk SIn) calls ++ [TUser u; TLLM 0 p]), m, trO, res. split; [exact Hfa|].
      destruct res as [m'|r x]; destruct Hres as (-> & -> & _).
      + split; [exact (proj1 (Hcm _))|]. split; [exact Hrun|reflexivity].
      + split; [exact (proj1 (Hcm _))|]. split; [exact Hrun|reflexivity].
    - left. autorewrite with rails_trace. simpl.
      destruct (after_input2_blocked _ _ _ _ _ _ _ _ _ _ _ _ _ _ _ Ha) as [(_ & -> & _)|(st3 & c3 & Hb & _)].
      + reflexivity.
      + exact (proj2 (bot_say_events _ _ _ _ _ _ _ _ _ _ _ _ Hb)).
  Qed.
End V2.

Definition fresh2_at (t : nat) : pstate2 := mkSt2 t false None None [].
