(* Pipe.Rails_proofs - facts about the rails loop `run_rails` and its declarative reading `chain`,
   for rail lists of any length and arbitrary verdict functions; what traces made of rail calls
   or of LLM calls contain; the invariant lemma for conversations. *)
From Coq Require Import List String Bool Arith.
From NG Require Import Pipe.Rails.
Import ListNotations.
Open Scope list_scope.

Lemma rail_calls_app : forall s a b, rail_calls s (a ++ b) = rail_calls s a ++ rail_calls s b.
Proof. intros s a b. unfold rail_calls. apply flat_map_app. Qed.

Lemma llm_calls_app : forall a b, llm_calls (a ++ b) = llm_calls a ++ llm_calls b.
Proof. intros. unfold llm_calls. apply flat_map_app. Qed.

Lemma emitted_app : forall a b, emitted (a ++ b) = emitted a ++ emitted b.
Proof. intros. unfold emitted. apply flat_map_app. Qed.

Lemma n_rail_calls_app : forall a b, n_rail_calls (a ++ b) = n_rail_calls a + n_rail_calls b.
Proof. intros. unfold n_rail_calls. rewrite filter_app, app_length. reflexivity. Qed.

Lemma rail_calls_none : forall s l, Forall (fun e => is_rail s e = false) l -> rail_calls s l = [].
Proof.
  intros s l H. induction H as [|e l He Hl IH]; [reflexivity|].
  simpl. destruct e; simpl in *; try exact IH. rewrite He. exact IH.
Qed.

Lemma llm_only :
  forall P : tev -> bool, (forall i p, P (TLLM i p) = false) ->
  forall pre, Forall (fun e => is_llm e = true) pre -> Forall (fun e => P e = false) pre.
Proof. intros P HP pre. apply Forall_impl. intros [] Ha; try discriminate Ha. apply HP. Qed.

Lemma llm_only_quiet :
  forall pre, Forall (fun e => is_llm e = true) pre -> n_rail_calls pre = 0 /\ emitted pre = [].
Proof.
  intros pre H. induction H as [|e l He Hl IH]; [split; reflexivity|].
  destruct e; simpl in *; try discriminate. exact IH.
Qed.

Definition mk (s : side) (c : rail * text) : tev := TRail s (fst c) (snd c).

Lemma Forall_map_mk :
  forall (P : tev -> Prop) s calls, (forall r x, P (TRail s r x)) -> Forall P (map (mk s) calls).
Proof. intros P s calls H. apply Forall_map, Forall_forall. intros [r x] _. apply H. Qed.

Lemma is_rail_mk : forall s c, is_rail s (mk s c) = true.
Proof. intros [] [r x]; reflexivity. Qed.

Lemma rail_calls_map_mk : forall s calls, rail_calls s (map (mk s) calls) = calls.
Proof.
  intros s calls. induction calls as [|[r x] rest IH]; [reflexivity|].
  simpl. destruct s; simpl; f_equal; exact IH.
Qed.

Lemma rail_calls_other_side : forall s s' calls, s <> s' -> rail_calls s (map (mk s') calls) = [].
Proof.
  intros s s' calls Hne. apply rail_calls_none, Forall_map_mk. intros r x.
  destruct s, s'; try reflexivity; congruence.
Qed.

Lemma llm_calls_map_mk : forall s calls, llm_calls (map (mk s) calls) = [].
Proof. intros s calls. induction calls as [|c rest IH]; [reflexivity|exact IH]. Qed.

Lemma emitted_map_mk : forall s calls, emitted (map (mk s) calls) = [].
Proof. intros s calls. induction calls as [|c rest IH]; [reflexivity|exact IH]. Qed.

Lemma n_rail_calls_map_mk : forall s calls, n_rail_calls (map (mk s) calls) = List.length calls.
Proof.
  intros s calls. induction calls as [|c rest IH]; [reflexivity|].
  unfold n_rail_calls in *. simpl. rewrite IH. reflexivity.
Qed.

(* computes the observations of a trace written with `++` and `map (mk s)` *)
Global Hint Rewrite rail_calls_app llm_calls_app emitted_app n_rail_calls_app
     rail_calls_map_mk llm_calls_map_mk emitted_map_mk n_rail_calls_map_mk : rails_trace.

Definition rres_ok (v : nat -> rail -> text -> verdict) (c : nat) (t : text) (rs : list rail)
           (calls : list (rail * text)) (res : rres) : Prop :=
  match res with
  | Passed t' => t' = final_text v c t rs /\ map fst calls = rs /\
                 (forall j r x, nth_error calls j = Some (r, x) -> v (c + j) r x <> Reject)
  | Blocked r x => exists pre, calls = pre ++ [(r, x)] /\ v (c + List.length pre) r x = Reject /\
                              (forall j r' x', nth_error pre j = Some (r', x') -> v (c + j) r' x' <> Reject)
  end.

Lemma run_rails_cons :
  forall v s r rs c t,
    run_rails v s (r :: rs) c t =
    if is_reject (v c r t) then ([TRail s r t], S c, Blocked r t)
    else let '(tr, c', res) := run_rails v s rs (S c) (apply_verdict (v c r t) t) in
         (TRail s r t :: tr, c', res).
Proof. intros. simpl. destruct (v c r t); reflexivity. Qed.

Lemma is_reject_true : forall w, is_reject w = true <-> w = Reject.
Proof. intros []; simpl; split; congruence. Qed.

Lemma is_reject_false : forall w, is_reject w = false <-> w <> Reject.
Proof. intros []; simpl; split; congruence. Qed.

Lemma run_rails_shape :
  forall v s rs c t tr c' res,
    run_rails v s rs c t = (tr, c', res) ->
    exists calls, tr = map (mk s) calls /\ chain v c t rs calls /\ c' = c + List.length calls /\
                  rres_ok v c t rs calls res.
Proof.
  intros v s rs. induction rs as [|r rs IH]; intros c t tr c' res H.
  - simpl in H. injection H as <- <- <-. exists []. simpl. rewrite Nat.add_0_r. repeat split.
    intros j r x Hn. destruct j; discriminate.
  - rewrite run_rails_cons in H. destruct (is_reject (v c r t)) eqn:Hv.
    + injection H as <- <- <-. exists [(r, t)]. simpl. rewrite Hv.
      rewrite Nat.add_1_r. repeat split. exists []. simpl. rewrite Nat.add_0_r. repeat split; auto.
      * apply is_reject_true; exact Hv.
      * intros j r' x' Hj. destruct j; discriminate.
    + destruct (run_rails v s rs (S c) (apply_verdict (v c r t) t)) as [[tr1 c1] res1] eqn:Hr.
      injection H as <- <- <-.
      destruct (IH _ _ _ _ _ Hr) as (calls & Htr & Hch & Hc & Hres).
      assert (Hnr : v c r t <> Reject) by (apply is_reject_false; exact Hv).
      (* the verdicts of the calls after the first, re-indexed from c *)
      assert (Hshift : forall l : list (rail * text),
                 (forall j r' x', nth_error l j = Some (r', x') -> v (S c + j) r' x' <> Reject) ->
                 forall j r' x', nth_error ((r, t) :: l) j = Some (r', x') -> v (c + j) r' x' <> Reject).
      { intros l Hl [|j] r' x' Hj; simpl in Hj.
        - injection Hj as <- <-. rewrite Nat.add_0_r. exact Hnr.
        - rewrite Nat.add_succ_r. exact (Hl j r' x' Hj). }
      exists ((r, t) :: calls). simpl. rewrite Hv.
      split; [unfold mk at 1; simpl; f_equal; exact Htr|].
      split; [auto|]. split; [rewrite Hc; apply Nat.add_succ_comm|].
      destruct res1 as [t'|r' x']; simpl in *.
      * destruct Hres as (Hf & Hm & Hn).
        repeat split; [exact Hf|f_equal; exact Hm|exact (Hshift _ Hn)].
      * destruct Hres as (pre & Hcalls & Hrej & Hn). exists ((r, t) :: pre). simpl.
        rewrite Nat.add_succ_r. repeat split; [f_equal; exact Hcalls|exact Hrej|exact (Hshift _ Hn)].
Qed.

Lemma run_rails_count :
  forall v s rs c t tr c' res, run_rails v s rs c t = (tr, c', res) -> c' = c + n_rail_calls tr.
Proof.
  intros v s rs c t tr c' res H.
  destruct (run_rails_shape _ _ _ _ _ _ _ _ H) as (calls & -> & _ & -> & _).
  rewrite n_rail_calls_map_mk. reflexivity.
Qed.

Lemma chain_nil : forall v c t rs, chain v c t rs [] -> rs = [].
Proof. intros v c t [|r rs] H; exact H. Qed.

Lemma chain_cons :
  forall v c t rs r x rest, chain v c t rs ((r, x) :: rest) ->
    exists rs', rs = r :: rs' /\ x = t /\
      if is_reject (v c r t) then rest = [] else chain v (S c) (apply_verdict (v c r t) t) rs' rest.
Proof.
  intros v c t [|r0 rs'] r x rest H; simpl in H; [contradiction|].
  destruct H as (-> & -> & H). eauto.
Qed.

Lemma chain_prefix :
  forall v rs c t calls, chain v c t rs calls -> map fst calls = firstn (List.length calls) rs.
Proof.
  intros v rs c t calls. revert rs c t. induction calls as [|[r x] rest IH]; intros rs c t H; [reflexivity|].
  apply chain_cons in H. destruct H as (rs' & -> & _ & H). simpl. f_equal.
  destruct (is_reject (v c r t)); [subst; reflexivity|eauto].
Qed.

Lemma chain_length : forall v rs c t calls, chain v c t rs calls -> List.length calls <= List.length rs.
Proof.
  intros v rs c t calls H. apply chain_prefix in H. apply (f_equal (@List.length rail)) in H.
  rewrite map_length, firstn_length in H. rewrite H. apply Nat.le_min_r.
Qed.

Lemma chain_first : forall v rs c t r x rest, chain v c t rs ((r, x) :: rest) -> x = t.
Proof. intros v rs c t r x rest H. apply chain_cons in H. destruct H as (rs' & _ & Hx & _). exact Hx. Qed.

Lemma chain_step :
  forall v rs c t calls j r x r' x',
    chain v c t rs calls ->
    nth_error calls j = Some (r, x) -> nth_error calls (S j) = Some (r', x') ->
    v (c + j) r x <> Reject /\ x' = apply_verdict (v (c + j) r x) x.
Proof.
  intros v rs c t calls. revert rs c t.
  induction calls as [|[a b] rest IH]; intros rs c t j r x r' x' H Hj Hj'; [destruct j; discriminate|].
  apply chain_cons in H. destruct H as (rs' & -> & -> & H).
  destruct (is_reject (v c a t)) eqn:Hrej; [subst rest; destruct j; discriminate|].
  destruct j as [|j]; simpl in Hj, Hj'.
  - injection Hj as <- <-. rewrite Nat.add_0_r. split; [apply is_reject_false; exact Hrej|].
    destruct rest as [|[a' b'] rest']; [discriminate|]. injection Hj' as <- <-.
    exact (chain_first _ _ _ _ _ _ _ H).
  - rewrite <- Nat.add_succ_comm. eauto.
Qed.

Lemma chain_reject_last :
  forall v rs c t calls j r x,
    chain v c t rs calls -> nth_error calls j = Some (r, x) -> v (c + j) r x = Reject ->
    List.length calls = S j.
Proof.
  intros v rs c t calls. revert rs c t.
  induction calls as [|[a b] rest IH]; intros rs c t j r x H Hj Hrej; [destruct j; discriminate|].
  apply chain_cons in H. destruct H as (rs' & -> & -> & H).
  destruct j as [|j]; simpl in Hj.
  - injection Hj as <- <-. rewrite Nat.add_0_r in Hrej. rewrite Hrej in H. simpl in H. subst. reflexivity.
  - destruct (is_reject (v c a t)); [subst rest; destruct j; discriminate|].
    simpl. f_equal. rewrite <- Nat.add_succ_comm in Hrej. eauto.
Qed.

Lemma chain_complete :
  forall v rs c t calls,
    chain v c t rs calls ->
    (forall j r x, nth_error calls j = Some (r, x) -> v (c + j) r x <> Reject) ->
    map fst calls = rs.
Proof.
  intros v rs c t calls. revert rs c t.
  induction calls as [|[a b] rest IH]; intros rs c t H Hn; [symmetry; exact (chain_nil _ _ _ _ H)|].
  apply chain_cons in H. destruct H as (rs' & -> & -> & H). simpl. f_equal.
  destruct (is_reject (v c a t)) eqn:Hr0.
  - destruct (Hn 0 a t eq_refl). rewrite Nat.add_0_r. apply is_reject_true; exact Hr0.
  - apply (IH _ _ _ H). intros j r x Hj. rewrite Nat.add_succ_comm. exact (Hn (S j) r x Hj).
Qed.

Lemma chain_functional :
  forall v rs c t calls1 calls2, chain v c t rs calls1 -> chain v c t rs calls2 -> calls1 = calls2.
Proof.
  intros v rs c t calls1. revert rs c t.
  induction calls1 as [|[a b] r1 IH]; intros rs c t [|[a' b'] r2] H1 H2.
  - reflexivity.
  - apply chain_nil in H1. subst. destruct H2.
  - apply chain_nil in H2. subst. destruct H1.
  - apply chain_cons in H1, H2. destruct H1 as (rs1 & -> & -> & H1), H2 as (rs2 & E & -> & H2).
    injection E as <- <-. f_equal. destruct (is_reject (v c a t)); [congruence|eauto].
Qed.

Lemma run_rails_reject :
  forall v s rs c t tr c' res j r x,
    run_rails v s rs c t = (tr, c', res) ->
    nth_error (rail_calls s tr) j = Some (r, x) -> v (c + j) r x = Reject ->
    List.length (rail_calls s tr) = S j /\ res = Blocked r x.
Proof.
  intros v s rs c t tr c' res j r x H Hj Hrej.
  destruct (run_rails_shape _ _ _ _ _ _ _ _ H) as (calls & -> & Hch & _ & Hres).
  rewrite rail_calls_map_mk in *.
  pose proof (chain_reject_last _ _ _ _ _ _ _ _ Hch Hj Hrej) as Hlen. split; [exact Hlen|].
  destruct res as [t'|r' x']; simpl in Hres.
  - destruct Hres as (_ & _ & Hn). destruct (Hn j r x Hj Hrej).
  - destruct Hres as (pre & -> & _). rewrite app_length, Nat.add_1_r in Hlen.
    injection Hlen as <-. rewrite nth_error_app2, Nat.sub_diag in Hj by apply le_n. simpl in Hj. congruence.
Qed.

Lemma run_rails_ext :
  forall v1 v2 s rs c t,
    (forall c' r x, v1 c' r x = v2 c' r x) -> run_rails v1 s rs c t = run_rails v2 s rs c t.
Proof.
  intros v1 v2 s rs. induction rs as [|r rs IH]; intros c t He; [reflexivity|].
  simpl. rewrite He. destruct (v2 c r t); try reflexivity; rewrite (IH _ _ He); reflexivity.
Qed.

Lemma run_rails_nil : forall v s c t, run_rails v s [] c t = ([], c, Passed t).
Proof. reflexivity. Qed.

Lemma final_text_no_rewrite :
  forall v rs c t, (forall c' r x t', v c' r x <> Rewrite t') -> final_text v c t rs = t.
Proof.
  intros v rs. induction rs as [|r rs IH]; intros c t Hn; [reflexivity|].
  simpl. destruct (v c r t) eqn:Hv; simpl; try apply IH; auto. exfalso. eapply Hn; eauto.
Qed.

(* `conv` runs `step` over the inputs, each from the state `next` extracts from the previous
   result: a property of results that every step establishes from an invariant it preserves
   holds of every result *)
Lemma conv_invariant :
  forall (St I O : Type) (Inv : St -> Prop) (P : O -> Prop) (step : St -> I -> O) (next : O -> St)
         (conv : St -> list I -> list O),
    (forall s, conv s [] = []) ->
    (forall s i l, conv s (i :: l) = step s i :: conv (next (step s i)) l) ->
    (forall s i, Inv s -> P (step s i) /\ Inv (next (step s i))) ->
    forall l s, Inv s -> Forall P (conv s l).
Proof.
  intros St I O Inv P step next conv Hnil Hcons Hstep l. induction l as [|i l IH]; intros s Hs.
  - rewrite Hnil. constructor.
  - rewrite Hcons. destruct (Hstep s i Hs) as [HP HI]. constructor; [exact HP|exact (IH _ HI)].
Qed.
