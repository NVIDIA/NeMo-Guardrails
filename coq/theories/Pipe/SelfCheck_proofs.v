(* Pipe/SelfCheck_proofs.v - (T) the SHIPPED self-check rails treat a None / falsy `$allowed` as a
   rejection (C03: a failed action hands the flow None).  Flows: Gen/C01Flows.v (translator/gen_c01.py:
   compiled Colang 1.0 elements, Colang 2.x statement trees); their guards parsed into `gexpr`:
   Gen/C03Guards.v (translator/gen_c03.py).  Checked facts, by vm_compute on the generated terms:
   the guard right after the action is in the table, the table entry re-prints to the guard string,
   the guard is TRUE for every falsy value of $allowed (None, False, an empty list) and FALSE for
   True - so `if $allowed == False` (None passes) does not check; and on the true branch the rail
   refuses and stops / aborts, for both settings of enable_rails_exceptions. *)
From Coq Require Import List String Bool ZArith.
From NG Require Import Pipe.FlowCheck Pipe.OptGuards Gen.C01Flows Gen.C03Guards.
Import ListNotations.
Open Scope string_scope.
Open Scope list_scope.

Definition sc_env (allowed : gval) (exc : bool) : env :=
  fun v =>
    if String.eqb v "allowed" then allowed
    else if String.eqb v "config" then VRec [("enable_rails_exceptions", VBool exc)]
    else if String.eqb v "system" then VRec [("config", VRec [("enable_rails_exceptions", VBool exc)])]
    else VNone.

(* the guard that follows the action whose result is stored in $allowed *)
Definition v1_verdict_guard (es : list elem) : option string :=
  match es with EAction _ "allowed" :: EIf x _ :: _ => Some x | _ => None end.
Definition v2_verdict_guard (b : list stmt) : option string :=
  match b with SAwait "action" _ _ :: SIf x _ _ :: _ => Some x | _ => None end.

Definition falsy_values : list gval := [VNone; VBool false; VList 0].

Definition rejects_falsy (s : option string) : bool :=
  match s with
  | None => false
  | Some x =>
    match lookup_guard x c03_guard_table with
    | None => false
    | Some e =>
      entry_ok (x, e) &&
      forallb (fun exc =>
                 forallb (fun v => match holds (sc_env v exc) e with Some true => true | _ => false end) falsy_values &&
                 match holds (sc_env (VBool true) exc) e with Some false => true | _ => false end)
              [true; false]
    end
  end.

Lemma c03_table_is_parse : forallb entry_ok c03_guard_table = true.
Proof. vm_compute. reflexivity. Qed.

Theorem shipped_rails_reject_falsy :
  rejects_falsy (v1_verdict_guard v1_self_check_input) = true /\
  rejects_falsy (v1_verdict_guard v1_self_check_output) = true /\
  rejects_falsy (v2_verdict_guard v2lib_self_check_input) = true /\
  rejects_falsy (v2_verdict_guard v2lib_self_check_output) = true.
Proof. vm_compute. repeat split. Qed.

(* what `rejects_falsy` says, spelled out *)
Lemma rejects_falsy_spec : forall s,
  rejects_falsy (Some s) = true ->
  exists e, lookup_guard s c03_guard_table = Some e /\ s = show e /\
            forall exc, holds (sc_env VNone exc) e = Some true /\ holds (sc_env (VBool false) exc) e = Some true /\
                        holds (sc_env (VBool true) exc) e = Some false.
Proof.
  intros s H. unfold rejects_falsy in H.
  destruct (lookup_guard s c03_guard_table) as [e|]; [|discriminate].
  apply andb_true_iff in H. destruct H as [Hok H]. rewrite forallb_forall in H.
  exists e. split; [reflexivity|]. split.
  { apply andb_true_iff in Hok. apply String.eqb_eq, Hok. }
  intros exc. assert (Hexc : In exc [true; false]) by (destruct exc; simpl; auto).
  apply H, andb_true_iff in Hexc. destruct Hexc as [Hf Ht]. rewrite forallb_forall in Hf.
  assert (Hfalsy : forall v, In v falsy_values -> holds (sc_env v exc) e = Some true).
  { intros v Hv. apply Hf in Hv. destruct (holds (sc_env v exc) e) as [[|]|]; [reflexivity|discriminate..]. }
  split; [apply Hfalsy; simpl; auto|]. split; [apply Hfalsy; simpl; auto|].
  destruct (holds (sc_env (VBool true) exc) e) as [[|]|]; [discriminate|reflexivity|discriminate].
Qed.

(* Colang 1.0: what the rail executes, under the meaning of its guards *)
Definition run_sc (es : list elem) (allowed : gval) (exc : bool) : option (list elem) :=
  run_flow es c03_guard_table (sc_env allowed exc).

Theorem v1_self_check_behaviour :
  (forall v, In v falsy_values ->
     option_map (trace_beq [EAction "self_check_input" "allowed"; EUtter "refuse to respond"; EUtter "stop"])
                (run_sc v1_self_check_input v false) = Some true /\
     option_map (trace_beq [EAction "self_check_output" "allowed"; EUtter "refuse to respond"; EUtter "stop"])
                (run_sc v1_self_check_output v false) = Some true /\
     option_map (existsb (is_utter "stop")) (run_sc v1_self_check_input v true) = Some true /\
     option_map (existsb (is_utter "stop")) (run_sc v1_self_check_output v true) = Some true) /\
  (forall exc, option_map (trace_beq [EAction "self_check_input" "allowed"]) (run_sc v1_self_check_input (VBool true) exc) = Some true /\
               option_map (trace_beq [EAction "self_check_output" "allowed"]) (run_sc v1_self_check_output (VBool true) exc) = Some true).
Proof.
  split.
  - intros v [<-|[<-|[<-|[]]]]; vm_compute; repeat split.
  - intros [|]; vm_compute; split; reflexivity.
Qed.

(* Colang 2.x: whenever the verdict guard holds the rail does not finish normally (abort), for both
   settings of enable_rails_exceptions (checker of Pipe/FlowCheck.v over all statement paths).
   Pipe/Flows_proofs.v and Pipe/FlowsOut_proofs.v evaluate the same checker with the guard string
   written out (C01, C02); here the guard is the one `v2_verdict_guard` finds after the action. *)
Theorem v2_self_check_aborts_on_reject :
  match v2_verdict_guard v2lib_self_check_input with Some s => v2_reject_aborts v2lib_self_check_input s | None => false end = true /\
  match v2_verdict_guard v2lib_self_check_output with Some s => v2_reject_aborts v2lib_self_check_output s | None => false end = true.
Proof. vm_compute. split; reflexivity. Qed.
