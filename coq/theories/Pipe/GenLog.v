(* Pipe/GenLog.v - executable model of
   nemoguardrails/logging/processing_log.py::compute_generation_log
   as a fold over (timing-free) processing-log entries.

   What is modelled: activated rails (type, name, decisions, executed actions with the tasks of
   their LLM calls, `stop`), the "current rail" / "current action" cursors of the Python loop,
   the Python exceptions of the loop (attribute access on None, empty log) as `None`.
   Not modelled: timestamps, durations, token statistics (out of scope of C16).
   Constants (`ignored_actions`, `ignored_flows`, `generation_flows`, the rail marker events,
   the stop rule, the re-typing rule) come from Gen/C16Consts.v, i.e. from the current source. *)
From Coq Require Import String List Bool Arith.
From NG Require Import Gen.C16Consts.
Import ListNotations.
Open Scope string_scope.

(* one element of `next_steps` of a "step" entry: StartInternalSystemAction / BotIntent / other *)
Inductive sitem := SAct (a : string) | SIntent (i : string) | SOther.

(* a processing-log entry: {"type": "step"} / {"type": "event"} / {"type": "llm_call_info"}.
   For events `arg` is flow_id (rail markers) or action_name (action events), "" otherwise. *)
Inductive pentry :=
| PStep (flow : string) (items : list sitem)
| PEvent (ty arg : string)
| PLlm (task : string).

Record xaction := mkX { xa_name : string; xa_llm : list string }.
Record arail := mkR { ar_type : string; ar_name : string; ar_decisions : list string;
                      ar_actions : list xaction; ar_stop : bool }.

Definition mem (s : string) (l : list string) : bool := existsb (String.eqb s) l.
Arguments mem : simpl never.

(* Working state.  `g_rails` is REVERSED (head = the rail appended last), and inside a rail
   the decisions, the actions and the llm tasks are reversed too; `finalize` restores the order.
   `activated_rail is not None` <-> g_active (it is then the head of g_rails: the variable is
   only ever assigned the rail just appended).  `executed_action` = head action of the rail at
   depth d (g_action = Some d): it is always the action appended last to its rail. *)
Record gstate := mkG { g_rails : list arail; g_active : bool; g_action : option nat }.

Definition g_init : gstate := mkG [] false None.

Fixpoint upd_nth {A} (n : nat) (f : A -> A) (l : list A) : list A :=
  match l, n with
  | [], _ => []
  | x :: r, O => f x :: r
  | x :: r, S m => x :: upd_nth m f r
  end.

Definition new_rail (ty name : string) : arail := mkR ty name [] [] false.

Definition rail_type_of_flow (f : string) : string :=
  if mem f generation_flows then "generation" else "dialog".

Definition push_rail (r : arail) (st : gstate) : gstate :=
  mkG (r :: g_rails st) true (option_map S (g_action st)).

Definition add_decision (d : string) (r : arail) : arail :=
  mkR (ar_type r) (ar_name r) (d :: ar_decisions r) (ar_actions r) (ar_stop r).

Definition add_item (r : arail) (it : sitem) : arail :=
  match it with
  | SAct a => if mem a ignored_actions then r else add_decision ("execute " ++ a) r
  | SIntent i => add_decision i r
  | SOther => r
  end.

Definition add_items (items : list sitem) (r : arail) : arail := fold_left add_item items r.

Definition on_head (f : arail -> arail) (st : gstate) : gstate :=
  mkG (upd_nth 0 f (g_rails st)) (g_active st) (g_action st).

(* a "step" entry *)
Definition g_step (flow : string) (items : list sitem) (st : gstate) : option gstate :=
  let fresh := push_rail (new_rail (rail_type_of_flow flow) flow) st in
  if g_active st then
    match g_rails st with
    | [] => None
    | r :: _ =>
      if String.eqb (ar_type r) "dialog" && negb (String.eqb (ar_name r) flow) then
        if mem flow ignored_flows then Some st else Some (on_head (add_items items) fresh)
      else Some (on_head (add_items items) st)
    end
  else if mem flow ignored_flows then Some st
  else Some (on_head (add_items items) fresh).

Definition add_action (a : string) (r : arail) : arail :=
  mkR (ar_type r) (ar_name r) (ar_decisions r) (mkX a [] :: ar_actions r) (ar_stop r).

Definition add_llm (task : string) (r : arail) : arail :=
  match ar_actions r with
  | [] => r
  | x :: xs => mkR (ar_type r) (ar_name r) (ar_decisions r) (mkX (xa_name x) (task :: xa_llm x) :: xs) (ar_stop r)
  end.

(* an "event" entry *)
Definition g_event (ty arg : string) (st : gstate) : option gstate :=
  if String.eqb ty ev_start_input_rail then Some (push_rail (new_rail "input" arg) st)
  else if String.eqb ty ev_start_output_rail then Some (push_rail (new_rail "output" arg) st)
  else if String.eqb ty "StartInternalSystemAction" then
    if mem arg ignored_actions then Some st
    else if g_active st then Some (mkG (upd_nth 0 (add_action arg) (g_rails st)) true (Some 0))
    else None                                   (* activated_rail.executed_actions on None *)
  else if String.eqb ty "InternalSystemActionFinished" then
    if mem arg ignored_actions then Some st
    else match g_action st with
         | Some _ => Some (mkG (g_rails st) (g_active st) None)
         | None => None                         (* executed_action.finished_at on None *)
         end
  else if mem ty ev_rail_finished then
    if g_active st then Some (mkG (g_rails st) false (g_action st))
    else None                                   (* activated_rail.finished_at on None *)
  else Some st.

Definition g_llm (task : string) (st : gstate) : option gstate :=
  match g_action st with
  | Some d => Some (mkG (upd_nth d (add_llm task) (g_rails st)) (g_active st) (g_action st))
  | None => None                                (* executed_action.llm_calls on None *)
  end.

Definition g_entry (e : pentry) (st : gstate) : option gstate :=
  match e with
  | PStep flow items => g_step flow items st
  | PEvent ty arg => g_event ty arg st
  | PLlm task => g_llm task st
  end.

Fixpoint g_run (l : list pentry) (st : gstate) : option gstate :=
  match l with
  | [] => Some st
  | e :: r => match g_entry e st with Some st' => g_run r st' | None => None end
  end.

(* after the loop: the rail still open took a `stop` *)
Definition mark_stop (r : arail) : arail :=
  if mem (ar_type r) stop_types
  then mkR (ar_type r) (ar_name r) (stop_decision :: ar_decisions r) (ar_actions r) true
  else r.

Definition retype (r : arail) : arail :=
  if String.eqb (ar_name r) retype_name then
    match ar_actions r with
    | [x] => match xa_llm x with
             | [t] => if String.eqb t retype_task
                      then mkR retype_to (ar_name r) (ar_decisions r) (ar_actions r) (ar_stop r) else r
             | _ => r
             end
    | _ => r
    end
  else r.

Definition unrev_action (x : xaction) : xaction := mkX (xa_name x) (rev (xa_llm x)).
Definition unrev_rail (r : arail) : arail :=
  mkR (ar_type r) (ar_name r) (rev (ar_decisions r)) (rev (map unrev_action (ar_actions r))) (ar_stop r).

Definition finalize (st : gstate) : list arail :=
  let rs := if g_active st then upd_nth 0 mark_stop (g_rails st) else g_rails st in
  rev (map (fun r => unrev_rail (retype r)) rs).

(* compute_generation_log(processing_log).activated_rails ; None = the Python call raises *)
Definition gen_log (l : list pentry) : option (list arail) :=
  match l with
  | [] => None                                  (* processing_log[-1] on an empty list *)
  | _ => option_map finalize (g_run l g_init)
  end.

Example gen_log_blocked_input :
  gen_log [PEvent "UtteranceUserActionFinished" "";
           PStep "process user input" [SOther; SAct "create_event"];
           PEvent "StartInputRails" "";
           PEvent "StartInputRail" "r0";
           PStep "r0" [SAct "check"];
           PEvent "StartInternalSystemAction" "check";
           PEvent "InternalSystemActionFinished" "check";
           PStep "r0" [SIntent "refuse to respond"];
           PEvent "Listen" ""]
  = Some [mkR "input" "r0" ["execute check"; "refuse to respond"; "stop"] [mkX "check" []] true].
Proof. vm_compute. reflexivity. Qed.

Example gen_log_general_retyped :
  gen_log [PStep "generate user intent" [SAct "generate_user_intent"];
           PEvent "StartInternalSystemAction" "generate_user_intent";
           PLlm "general";
           PEvent "InternalSystemActionFinished" "generate_user_intent"]
  = Some [mkR "generation" "generate user intent" ["execute generate_user_intent"]
              [mkX "generate_user_intent" ["general"]] false].
Proof. vm_compute. reflexivity. Qed.

Example gen_log_raises : gen_log [PLlm "x"] = None /\ gen_log [] = None.
Proof. split; reflexivity. Qed.
