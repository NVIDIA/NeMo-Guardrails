(* Pipe/Options_proofs.v - the documented table of the `rails` generation option, proved of the
   turn machine of Pipe/Options.v for every configuration, verdict function and text. *)
From Coq Require Import String List Bool.
From NG Require Import Pipe.Options.
Import ListNotations.
Open Scope string_scope.

(* independent specification of a sequential rail category: first rejection blocks, rewrites thread *)
Inductive rails_rel (vf : nat -> string -> verdict) : nat -> list rail -> string -> rres -> Prop :=
| rr_nil : forall k t, rails_rel vf k [] t (Passed t)
| rr_reject : forall k r rs t, vf k t = Reject -> rails_rel vf k (r :: rs) t (Blocked (r_flow r))
| rr_accept : forall k r rs t res, vf k t = Accept -> rails_rel vf (S k) rs t res -> rails_rel vf k (r :: rs) t res
| rr_rewrite : forall k r rs t t' res, vf k t = Rewrite t' -> rails_rel vf (S k) rs t' res -> rails_rel vf k (r :: rs) t res.

Lemma run_rails_rel : forall K vf rs k t, rails_rel vf k rs t (s_res (run_rails K vf k rs t)).
Proof.
  induction rs as [|r rs IH]; intros k t; cbn [run_rails].
  - constructor.
  - destruct (vf k t) eqn:E; cbn [s_res].
    + apply rr_accept; [exact E|apply IH].
    + apply rr_reject; exact E.
    + eapply rr_rewrite; [exact E|apply IH].
Qed.

Lemma rails_rel_passed : forall vf rs k t t',
  rails_rel vf k rs t (Passed t') -> t' = t \/ exists k0 t0, vf k0 t0 = Rewrite t'.
Proof.
  intros vf rs k t t' H. remember (Passed t') as res eqn:Hres.
  induction H as [k t|k r rs t E|k r rs t res E H IH|k r rs t t1 res E H IH].
  - inversion Hres. left. reflexivity.
  - discriminate.
  - apply IH. exact Hres.
  - destruct (IH Hres) as [->|Hx]; [right; eauto|right; exact Hx].
Qed.

Lemma rails_rel_all_accept : forall vf rs k t res,
  (forall k0 t0, vf k0 t0 = Accept) -> rails_rel vf k rs t res -> res = Passed t.
Proof.
  intros vf rs k t res Hall H.
  induction H as [k t|k r rs t E|k r rs t res E H IH|k r rs t t1 res E H IH].
  - reflexivity.
  - rewrite Hall in E. discriminate.
  - exact IH.
  - rewrite Hall in E. discriminate.
Qed.

(* the category of the call is one the options leave on *)
Definition cat_enabled (g : option ropts) (k : category) : bool :=
  match k with CIn => input_enabled g | COut => output_enabled g | CRet => retrieval_enabled g end.
Definition allowed (g : option ropts) (cl : call) : Prop := cat_enabled g (k_cat cl) = true.

Lemma rails_allowed : forall g K vf rs k t,
  cat_enabled g (kcat K) = true -> Forall (allowed g) (s_calls (run_rails K vf k rs t)).
Proof.
  intros g K vf rs k t H. revert k t.
  induction rs as [|r rs IH]; intros k t; cbn [run_rails]; [constructor|].
  destruct (vf k t); cbn [s_calls]; repeat constructor; auto.
Qed.

Lemma ret_calls_allowed : forall g rs k, retrieval_enabled g = true -> Forall (allowed g) (ret_calls k rs).
Proof. intros g rs k H. revert k. induction rs; intros k; constructor; auto. Qed.

Section Table.
  Variables (iv ov : nat -> string -> verdict) (lt rf pt : string) (c : cfg).

  Notation T g := (turn iv ov lt rf pt c g).

  Lemma ret_cl_allowed : forall g, Forall (allowed g) (ret_cl c g).
  Proof.
    intros g. unfold ret_cl. destruct (ret_active c g) eqn:Ha; [|constructor].
    apply andb_true_iff in Ha. apply ret_calls_allowed, Ha.
  Qed.

  Lemma output_phase_allowed : forall g b skip, Forall (allowed g) (calls (output_phase ov rf c g b skip)).
  Proof.
    intros g b skip. unfold output_phase.
    destruct skip; [constructor|]. destruct (out_active c g) eqn:Ha; [|constructor].
    apply andb_true_iff in Ha. pose proof (rails_allowed g KOut ov (c_out c) 0 b (proj2 Ha)) as H.
    cbv zeta. destruct (s_res _); cbn [calls]; [exact H|].
    apply Forall_app. split; [exact H|apply ret_cl_allowed].
  Qed.

  Lemma output_phase_llm : forall g b skip, llm (output_phase ov rf c g b skip) = [].
  Proof.
    intros g b skip. unfold output_phase.
    destruct skip; [reflexivity|]. destruct (out_active c g); [|reflexivity].
    cbv zeta. destruct (s_res _); reflexivity.
  Qed.

  Lemma dialog_phase_allowed : forall g t bot, Forall (allowed g) (calls (dialog_phase ov lt rf pt c g t bot)).
  Proof.
    intros g t bot. unfold dialog_phase.
    destruct (dialog_disabled g); [destruct (output_off g); [|destruct bot]|destruct (c_dmode c)];
      cbn [calls prepend app]; try constructor; try apply output_phase_allowed.
    apply Forall_app. split; [apply ret_cl_allowed|apply output_phase_allowed].
  Qed.

  Lemma dialog_phase_llm_disabled : forall g t bot,
    dialog_disabled g = true -> llm (dialog_phase ov lt rf pt c g t bot) = [].
  Proof.
    intros g t bot H. unfold dialog_phase. rewrite H.
    destruct (output_off g); [reflexivity|].
    destruct bot; [|reflexivity]. apply output_phase_llm.
  Qed.

  Lemma dialog_phase_disabled_answer : forall g t bot,
    dialog_disabled g = true ->
    answer (dialog_phase ov lt rf pt c g t bot) =
    if output_off g then RText t
    else match bot with Some b => answer (output_phase ov rf c g b false) | None => RUndefBot end.
  Proof.
    intros g t bot H. unfold dialog_phase. rewrite H.
    destruct (output_off g); [|destruct bot]; reflexivity.
  Qed.

  (* a turn is the input rails, then the refusal or the dialog phase; the lemmas below read the fields of
     a turn off this equation instead of unfolding `turn` again *)
  Lemma turn_shape : forall g user bot,
    exists res l rn,
      (input_enabled g = true -> rails_rel iv 0 (c_in c) user res) /\
      (input_enabled g = false -> res = Passed user) /\
      let cs := if in_active c g then s_calls (run_rails KIn iv 0 (c_in c) user) else [] in
      T g user bot = match res with
                     | Passed t => prepend l cs [] rn (dialog_phase ov lt rf pt c g t (injected_bot g bot))
                     | Blocked f => mkOut l (cs ++ ret_cl c g) [] rn (Some f) (RText rf)
                     end.
  Proof.
    intros g user bot. unfold turn. cbv zeta.
    destruct (in_active c g) eqn:Ha.
    - apply andb_true_iff in Ha. destruct Ha as [_ Hen].
      exists (s_res (run_rails KIn iv 0 (c_in c) user)).
      destruct (s_res _) eqn:E; do 2 eexists; (split; [intros _; rewrite <- E; apply run_rails_rel|]);
        (split; [congruence|reflexivity]).
    - exists (Passed user). do 2 eexists. split; [|split; reflexivity].
      intros Hen. unfold in_active in Ha. rewrite Hen, andb_true_r in Ha.
      destruct (c_in c); [constructor|discriminate].
  Qed.

  (* every rail action a turn calls is of a category the options leave on *)
  Lemma turn_allowed : forall g user bot, Forall (allowed g) (calls (T g user bot)).
  Proof.
    intros g user bot. destruct (turn_shape g user bot) as (res & l & rn & _ & _ & ->).
    assert (H : Forall (allowed g) (if in_active c g then s_calls (run_rails KIn iv 0 (c_in c) user) else [])).
    { destruct (in_active c g) eqn:Ha; [|constructor].
      apply andb_true_iff in Ha. apply (rails_allowed g KIn), Ha. }
    destruct res; cbn [calls prepend]; apply Forall_app;
      (split; [exact H|]); [apply dialog_phase_allowed|apply ret_cl_allowed].
  Qed.

  Lemma output_phase_spec : forall g b,
    exists res,
      (output_enabled g = true -> rails_rel ov 0 (c_out c) b res) /\
      (output_enabled g = false -> res = Passed b) /\
      answer (output_phase ov rf c g b false) = RText (match res with Passed t => t | Blocked _ => rf end).
  Proof.
    intros g b. unfold output_phase.
    destruct (out_active c g) eqn:Ha.
    - apply andb_true_iff in Ha. destruct Ha as [_ Hen].
      exists (s_res (run_rails KOut ov 0 (c_out c) b)).
      split; [intros _; apply run_rails_rel|]. split; [congruence|].
      cbv zeta. destruct (s_res _); reflexivity.
    - exists (Passed b). split; [|split; reflexivity].
      intros Hen. unfold out_active in Ha. rewrite Hen, andb_true_r in Ha.
      destruct (c_out c); [constructor|discriminate].
  Qed.

  Lemma turn_llm_disabled : forall g user bot, dialog_disabled g = true -> llm (T g user bot) = [].
  Proof.
    intros g user bot H. destruct (turn_shape g user bot) as ([t|f] & l & rn & _ & _ & ->); [|reflexivity].
    apply dialog_phase_llm_disabled, H.
  Qed.

  (* disabled categories make no calls; no LLM generation without dialog rails *)
  Theorem disabled_no_calls : forall o user bot,
    let r := T (Some o) user bot in
    (o_input o = false -> forall cl, In cl (calls r) -> k_cat cl <> CIn) /\
    (o_output o = false -> forall cl, In cl (calls r) -> k_cat cl <> COut) /\
    (o_retrieval o = false -> forall cl, In cl (calls r) -> k_cat cl <> CRet) /\
    (o_dialog o = false -> llm r = []).
  Proof.
    intros o user bot r.
    assert (H : forall cl, In cl (calls r) -> cat_enabled (Some o) (k_cat cl) = true)
      by exact (proj1 (Forall_forall _ _) (turn_allowed (Some o) user bot)).
    repeat split; try (intros Ho cl Hin E; specialize (H cl Hin); rewrite E in H; simpl in H; congruence).
    intros Ho. apply turn_llm_disabled. simpl. rewrite Ho. reflexivity.
  Qed.

  (* only input checking: reply = user text / rewritten text / refusal, no LLM *)
  Theorem input_only : forall o user bot,
    o_dialog o = false -> o_output o = false ->
    let r := T (Some o) user bot in
    llm r = [] /\
    (o_input o = false -> answer r = RText user) /\
    (o_input o = true ->
       exists res, rails_rel iv 0 (c_in c) user res /\
                   answer r = RText (match res with Passed t => t | Blocked _ => rf end)).
  Proof.
    intros o user bot Hd Ho r. subst r.
    split; [apply (disabled_no_calls o user bot); exact Hd|].
    destruct (turn_shape (Some o) user bot) as (res & l & rn & Hen & Hdis & ->).
    assert (Hdp : forall t b, answer (dialog_phase ov lt rf pt c (Some o) t b) = RText t).
    { intros t b. rewrite dialog_phase_disabled_answer; [|simpl; rewrite Hd; reflexivity].
      cbn [output_off]. rewrite Ho. reflexivity. }
    split.
    - intros Hi. rewrite (Hdis Hi). apply Hdp.
    - intros Hi. exists res. split; [apply Hen; exact Hi|].
      destruct res as [t|f]; [apply Hdp|reflexivity].
  Qed.

  (* checking a supplied bot message (input+output or output only) *)
  Theorem output_check : forall o user b,
    o_dialog o = false -> o_output o = true ->
    let r := T (Some o) user (Some b) in
    llm r = [] /\
    exists res_in,
      (o_input o = true -> rails_rel iv 0 (c_in c) user res_in) /\
      (o_input o = false -> res_in = Passed user) /\
      match res_in with
      | Blocked _ => answer r = RText rf
      | Passed _ => exists res, rails_rel ov 0 (c_out c) b res /\
                                answer r = RText (match res with Passed t => t | Blocked _ => rf end)
      end.
  Proof.
    intros o user b Hd Ho r. subst r.
    split; [apply (disabled_no_calls o user (Some b)); exact Hd|].
    destruct (turn_shape (Some o) user (Some b)) as (res & l & rn & Hen & Hdis & ->).
    exists res. split; [exact Hen|]. split; [exact Hdis|].
    destruct res as [t|f]; [|reflexivity]. cbn [answer prepend].
    assert (Hdd : dialog_disabled (Some o) = true) by (simpl; rewrite Hd; reflexivity).
    assert (Hoo : output_off (Some o) = false) by (simpl; rewrite Ho; reflexivity).
    unfold injected_bot. rewrite Hdd, (dialog_phase_disabled_answer _ _ _ Hdd), Hoo.
    destruct (output_phase_spec (Some o) b) as (res & Hoen & _ & Hans).
    exists res. split; [apply Hoen; exact Ho|exact Hans].
  Qed.
End Table.

(* the literal membership statements of the documentation *)
Section Membership.
  Variables (iv ov : nat -> string -> verdict) (lt rf pt : string) (c : cfg).

  Theorem input_only_membership : forall o user bot,
    o_dialog o = false -> o_output o = false ->
    let r := turn iv ov lt rf pt c (Some o) user bot in
    answer r = RText user \/ answer r = RText rf \/
    exists k t0 t', iv k t0 = Rewrite t' /\ answer r = RText t'.
  Proof.
    intros o user bot Hd Ho r.
    destruct (input_only iv ov lt rf pt c o user bot Hd Ho) as (_ & Hoff & Hon).
    destruct (o_input o) eqn:Hi.
    - destruct (Hon eq_refl) as (res & Hrel & Hans). fold r in Hans.
      destruct res as [t|f]; [|right; left; exact Hans].
      destruct (rails_rel_passed _ _ _ _ _ Hrel) as [->|(k0 & t0 & Hk)]; [left; exact Hans|].
      right. right. exists k0, t0, t. split; assumption.
    - left. apply Hoff. reflexivity.
  Qed.

  Theorem output_check_membership : forall o user b,
    o_dialog o = false -> o_output o = true ->
    let r := turn iv ov lt rf pt c (Some o) user (Some b) in
    answer r = RText b \/ answer r = RText rf \/
    exists k t0 t', ov k t0 = Rewrite t' /\ answer r = RText t'.
  Proof.
    intros o user b Hd Ho r.
    destruct (output_check iv ov lt rf pt c o user b Hd Ho) as (_ & res_in & _ & _ & Hres). fold r in Hres.
    destruct res_in as [t|f]; [|right; left; exact Hres].
    destruct Hres as (res & Hrel & Hans).
    destruct res as [t'|f]; [|right; left; exact Hans].
    destruct (rails_rel_passed _ _ _ _ _ Hrel) as [->|(k0 & t0 & Hk)]; [left; exact Hans|].
    right. right. exists k0, t0, t'. split; assumption.
  Qed.

  (* nothing rewrites, nothing rejects: the text comes back unchanged *)
  Theorem input_only_all_accept : forall o user bot,
    o_dialog o = false -> o_output o = false -> (forall k t, iv k t = Accept) ->
    answer (turn iv ov lt rf pt c (Some o) user bot) = RText user.
  Proof.
    intros o user bot Hd Ho Hall.
    destruct (input_only iv ov lt rf pt c o user bot Hd Ho) as (_ & Hoff & Hon).
    destruct (o_input o) eqn:Hi; [|apply Hoff; reflexivity].
    destruct (Hon eq_refl) as (res & Hrel & Hans).
    rewrite (rails_rel_all_accept _ _ _ _ _ Hall Hrel) in Hans. exact Hans.
  Qed.
End Membership.

(* non-vacuity: rows of the table are inhabited by non-trivial configurations *)
Example in_table_input_output : in_table (parse_rails (RList ["input"; "output"])) (Some "bot text").
Proof. split; simpl; [discriminate|intros _ _; discriminate]. Qed.

Example table_rows_inhabited :
  let o := parse_rails (RList ["input"; "output"]) in
  o_dialog o = false /\ o_output o = true /\
  answer (turn ex_iv ex_ov "LLM" "REFUSED" "PRE" ex_cfg (Some o) "hello" (Some "bot text")) = RText "REFUSED" /\
  answer (turn ex_iv (fun _ _ => Rewrite "clean") "LLM" "REFUSED" "PRE" ex_cfg (Some o) "hello" (Some "bot text")) = RText "clean" /\
  List.length (calls (turn ex_iv (fun _ _ => Accept) "LLM" "REFUSED" "PRE" ex_cfg (Some o) "hello" (Some "bot text"))) = 3.
Proof. vm_compute. repeat split. Qed.
