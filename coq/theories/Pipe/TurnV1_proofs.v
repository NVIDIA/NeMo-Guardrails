(* Pipe.TurnV1_proofs - the gates of the Colang 1.0 pipeline model: for rail lists of any length,
   every verdict function, every LLM, every dialog policy, every text and every prior state.
   Each stage function of the turn gets a lemma that says what it returns (`process_bot_spec`,
   `gen_reply_cases`, `after_input_*`, `turn_v1_parts`); the statements are read off those. *)
From Coq Require Import List String Bool Arith.
From NG Require Import Pipe.Rails Pipe.Rails_proofs Pipe.TurnV1.
Import ListNotations.
Open Scope list_scope.

Definition is_from_llm (e : tev) : bool := match e with TBot FromLLM _ => true | _ => false end.
Definition is_in_rail (e : tev) : bool := is_rail SIn e.

Section V1.
  Variable vf : nat -> nat -> rail -> text -> verdict.
  Variable llm : nat -> nat -> prompt -> text.
  Variable post_general : text -> text.
  Variable intent_step : nat -> text -> dstep.
  Variable next_of : text -> string.
  Variable predefined : string -> option text.
  Variable msg_of : text -> text.
  Variable refusal : text.

  Notation process_bot := (process_bot vf refusal).
  Notation gen_reply := (gen_reply vf llm post_general intent_step next_of predefined msg_of refusal).
  Notation after_input := (after_input vf llm post_general intent_step next_of predefined msg_of refusal).
  Notation turn_v1 := (turn_v1 vf llm post_general intent_step next_of predefined msg_of refusal).
  Notation conv_v1 := (conv_v1 vf llm post_general intent_step next_of predefined msg_of refusal).

  (* what follows a blocked bot message *)
  Definition block_tail (cf : cfg) (r : rail) : list tev :=
    if exceptions cf then [TExc SOut r] else [TBot Predefined refusal; TEmit refusal].
  Definition block_reply (cf : cfg) (s : side) (r : rail) : reply :=
    if exceptions cf then RExc s r else RMsg [refusal].

  (* a set skip flag is used up by the message that finds it; otherwise the message goes
     through the output rails.  Either way the flag is clear afterwards *)
  Lemma process_bot_spec :
    forall cf st c m st' tr c' rp,
      process_bot cf st c m = (st', tr, c', rp) ->
      skip st' = false /\ tidx st' = tidx st /\
      if skip st then tr = [TEmit m] /\ c' = c /\ rp = RMsg [m]
      else exists trO res,
          run_rails (vf (tidx st)) SOut (orails cf) c m = (trO, c', res) /\
          match res with
          | Passed m' => tr = trO ++ [TEmit m'] /\ rp = RMsg [m']
          | Blocked r x => tr = trO ++ block_tail cf r /\ rp = block_reply cf SOut r
          end.
  Proof.
    intros cf st c m st' tr c' rp H. unfold TurnV1.process_bot in H. simpl in H.
    destruct (skip st) eqn:Hs; [injection H as <- <- <- <-; auto|].
    destruct (orails cf) as [|r0 rs] eqn:Ho.
    - injection H as <- <- <- <-. repeat split; auto. exists [], (Passed m). auto.
    - destruct (run_rails (vf (tidx st)) SOut (r0 :: rs) c m) as [[trO cO] [m'|r x]] eqn:Hr.
      + injection H as <- <- <- <-. repeat split; auto. exists trO, (Passed m'). auto.
      + unfold block_tail, block_reply.
        destruct (exceptions cf); injection H as <- <- <- <-;
          (repeat split; auto); exists trO, (Blocked r x); auto.
  Qed.

  (* the checking of a bot message depends on the conversation state only through the turn
     index and the (always reset) skip flag *)
  Lemma process_bot_state_independent :
    forall cf st1 st2 c m,
      skip st1 = false -> skip st2 = false -> tidx st1 = tidx st2 ->
      snd (fst (fst (process_bot cf st1 c m))) = snd (fst (fst (process_bot cf st2 c m))) /\
      snd (fst (process_bot cf st1 c m)) = snd (fst (process_bot cf st2 c m)) /\
      snd (process_bot cf st1 c m) = snd (process_bot cf st2 c m).
  Proof.
    intros cf st1 st2 c m H1 H2 Ht.
    destruct (process_bot cf st1 c m) as [[[s1 t1] c1] r1] eqn:E1.
    destruct (process_bot cf st2 c m) as [[[s2 t2] c2] r2] eqn:E2.
    apply process_bot_spec in E1, E2. rewrite H1 in E1. rewrite H2, <- Ht in E2.
    destruct E1 as (_ & _ & trO & res & Hr & Hres), E2 as (_ & _ & trO' & res' & Hr' & Hres').
    rewrite Hr in Hr'. injection Hr' as <- <- <-.
    destruct res; destruct Hres as (-> & ->), Hres' as (-> & ->); auto.
  Qed.

  Lemma process_bot_no_in_rail :
    forall cf st c m st' tr c' rp,
      process_bot cf st c m = (st', tr, c', rp) -> Forall (fun e => is_in_rail e = false) tr.
  Proof.
    intros cf st c m st' tr c' rp H. apply process_bot_spec in H. destruct H as (_ & _ & H).
    destruct (skip st); [destruct H as (-> & _); repeat constructor|].
    destruct H as (trO & res & Hr & Hres).
    apply run_rails_shape in Hr. destruct Hr as (calls & -> & _).
    assert (Hout : Forall (fun e => is_in_rail e = false) (map (mk SOut) calls))
      by (apply Forall_map_mk; reflexivity).
    destruct res as [m'|r x]; destruct Hres as (-> & _); apply Forall_app; (split; [exact Hout|]).
    - repeat constructor.
    - unfold block_tail. destruct (exceptions cf); repeat constructor.
  Qed.

  Definition is_llm_ev (e : tev) : bool := is_llm e.

  (* after some LLM calls a bot message is handed to `process bot message`: a predefined one
     with the skip flag set, an LLM-generated one in the state the stage started from *)
  Lemma gen_reply_cases :
    forall cf st c um st' tr c' rp,
      gen_reply cf st c um = (st', tr, c', rp) ->
      exists pre pv m tr',
        Forall (fun e => is_llm e = true) pre /\ tr = pre ++ TBot pv m :: tr' /\
        process_bot cf (match pv with Predefined => set_skip st true | FromLLM => st end) c m
        = (st', tr', c', rp).
  Proof.
    intros cf st c um st' tr c' rp H. unfold TurnV1.gen_reply in H.
    destruct (dialog cf).
    - destruct (intent_step (tidx st) (llm (tidx st) 0 (mkPrompt KIntent (hist st) um))) as [bi| |mv].
      + destruct (predefined bi) as [m|];
          destruct (process_bot cf _ c _) as [[[st1 tr1] c1] rp1] eqn:Hpb; injection H as <- <- <- <-.
        * eexists [TLLM 0 _], Predefined, _, _. repeat split; [repeat constructor|exact Hpb].
        * eexists [TLLM 0 _; TLLM 1 _], FromLLM, _, _. repeat split; [repeat constructor|exact Hpb].
      + destruct (predefined _) as [m|];
          destruct (process_bot cf _ c _) as [[[st1 tr1] c1] rp1] eqn:Hpb; injection H as <- <- <- <-.
        * eexists [TLLM 0 _; TLLM 1 _], Predefined, _, _. repeat split; [repeat constructor|exact Hpb].
        * eexists [TLLM 0 _; TLLM 1 _; TLLM 2 _], FromLLM, _, _. repeat split; [repeat constructor|exact Hpb].
      + destruct (process_bot cf st c mv) as [[[st1 tr1] c1] rp1] eqn:Hpb. injection H as <- <- <- <-.
        eexists [TLLM 0 _], FromLLM, _, _. repeat split; [repeat constructor|exact Hpb].
    - destruct (process_bot cf st c _) as [[[st1 tr1] c1] rp1] eqn:Hpb. injection H as <- <- <- <-.
      eexists [TLLM 0 _], FromLLM, _, _. repeat split; [repeat constructor|exact Hpb].
  Qed.

  (* a passed input is released, then generation runs from a state with the flag and the turn
     index the stage started from *)
  Lemma after_input_passed :
    forall cf st0 c um st' tr rp,
      after_input cf st0 c (Passed um) = (st', tr, rp) ->
      exists st1 pre pv m stB trB cB,
        skip st1 = skip st0 /\ tidx st1 = tidx st0 /\
        Forall (fun e => is_llm e = true) pre /\ tr = TUser um :: pre ++ TBot pv m :: trB /\
        process_bot cf (match pv with Predefined => set_skip st1 true | FromLLM => st1 end) c m
        = (stB, trB, cB, rp) /\
        st' = bump stB.
  Proof.
    intros cf st0 c um st' tr rp H. unfold TurnV1.after_input in H.
    match type of H with context [set_user ?s um] => set (s0 := s) in H end.
    destruct (gen_reply cf _ c um) as [[[st2 tr2] c2] rp2] eqn:Hg. injection H as <- <- <-.
    apply gen_reply_cases in Hg. destruct Hg as (pre & pv & m & trB & Hpre & -> & Hpb).
    exists (push_hist (set_user s0 um) (HUser um)), pre, pv, m, st2, trB, c2.
    repeat split; try assumption; unfold s0; destruct (irails cf); reflexivity.
  Qed.

  (* the text that passed the input rails overwrites the user's *)
  Lemma after_input_passed_overwrites :
    forall cf st u1 u2 c um,
      after_input cf (set_user st u1) c (Passed um) = after_input cf (set_user st u2) c (Passed um).
  Proof. intros. unfold TurnV1.after_input. destruct (irails cf); reflexivity. Qed.

  (* a rejected input: no LLM call, no output rail, the reply is the refusal / the exception *)
  Lemma after_input_blocked :
    forall cf st0 c r x,
      exists st', after_input cf st0 c (Blocked r x) =
                  (st', (if exceptions cf then [TExc SIn r] else [TBot Predefined refusal; TEmit refusal]),
                   block_reply cf SIn r) /\
                  tidx st' = S (tidx st0) /\ (skip st0 = false -> skip st' = false).
  Proof.
    intros cf st0 c r x. unfold TurnV1.after_input, block_reply.
    destruct (exceptions cf); eexists; repeat split; auto.
  Qed.

  Lemma after_input_state :
    forall cf st0 c res st' tr rp,
      after_input cf st0 c res = (st', tr, rp) ->
      tidx st' = S (tidx st0) /\ (skip st0 = false -> skip st' = false).
  Proof.
    intros cf st0 c res st' tr rp H. destruct res as [um|r x].
    - destruct (after_input_passed _ _ _ _ _ _ _ H)
        as (st1 & pre & pv & m & stB & trB & cB & _ & Ht & _ & _ & Hpb & ->).
      apply process_bot_spec in Hpb. destruct Hpb as (Hs & HtB & _).
      simpl. rewrite HtB. split; [destruct pv; simpl; rewrite Ht; reflexivity|intros _; exact Hs].
    - destruct (after_input_blocked cf st0 c r x) as (st1 & Hb & Hst).
      rewrite Hb in H. injection H as <- _ _. exact Hst.
  Qed.

  Lemma after_input_no_in_rail :
    forall cf st0 c res st' tr rp,
      after_input cf st0 c res = (st', tr, rp) ->
      Forall (fun e => is_in_rail e = false) tr.
  Proof.
    intros cf st0 c res st' tr rp H. destruct res as [um|r x].
    - destruct (after_input_passed _ _ _ _ _ _ _ H)
        as (st1 & pre & pv & m & stB & trB & cB & _ & _ & Hpre & -> & Hpb & _).
      constructor; [reflexivity|].
      apply Forall_app. split; [exact (llm_only is_in_rail (fun _ _ => eq_refl) pre Hpre)|].
      constructor; [destruct pv; reflexivity|]. exact (process_bot_no_in_rail _ _ _ _ _ _ _ _ Hpb).
    - destruct (after_input_blocked cf st0 c r x) as (st1 & Hb & _).
      rewrite Hb in H. injection H as _ <- _. destruct (exceptions cf); repeat constructor.
  Qed.

  (* the decomposition every statement about a turn starts from *)
  Lemma turn_v1_parts :
    forall cf st u,
    exists trI c res st1 tr2 rp raw',
      run_rails (vf (tidx st)) SIn (irails cf) 0 u = (trI, c, res) /\
      after_input cf (set_user st u) c res = (st1, tr2, rp) /\
      Forall (fun e => is_in_rail e = false) tr2 /\
      turn_v1 cf st u = (push_raw st1 raw', trI ++ tr2, rp).
  Proof.
    intros cf st u. unfold TurnV1.turn_v1.
    destruct (run_rails (vf (tidx st)) SIn (irails cf) 0 u) as [[trI c] res].
    destruct (after_input cf (set_user st u) c res) as [[st1 tr2] rp] eqn:Ha.
    exists trI, c, res, st1, tr2, rp. eexists. repeat split; [exact Ha|].
    exact (after_input_no_in_rail _ _ _ _ _ _ _ Ha).
  Qed.

  (* the part of a turn after the input rails *)
  Definition rest_of_turn (cf : cfg) (st : pstate) (u : text) : list tev :=
    let '(trI, c, res) := run_rails (vf (tidx st)) SIn (irails cf) 0 u in
    snd (fst (after_input cf (set_user st u) c res)).

  Lemma turn_trace_split :
    forall cf st u,
      snd (fst (turn_v1 cf st u)) =
      fst (fst (run_rails (vf (tidx st)) SIn (irails cf) 0 u)) ++ rest_of_turn cf st u.
  Proof.
    intros cf st u. unfold rest_of_turn.
    destruct (turn_v1_parts cf st u) as (trI & c & res & st1 & tr2 & rp & raw' & -> & -> & _ & ->).
    reflexivity.
  Qed.

  Lemma turn_v1_state :
    forall cf st u,
      tidx (fst (fst (turn_v1 cf st u))) = S (tidx st) /\
      (skip st = false -> skip (fst (fst (turn_v1 cf st u))) = false).
  Proof.
    intros cf st u.
    destruct (turn_v1_parts cf st u) as (trI & c & res & st1 & tr2 & rp & raw' & _ & Ha & _ & ->).
    exact (after_input_state _ _ _ _ _ _ _ Ha).
  Qed.

  Lemma turn_v1_skip_invariant :
    forall cf st u, skip st = false -> skip (fst (fst (turn_v1 cf st u))) = false.
  Proof. intros cf st u. apply turn_v1_state. Qed.

  Lemma turn_v1_tidx : forall cf st u, tidx (fst (fst (turn_v1 cf st u))) = S (tidx st).
  Proof. intros cf st u. apply turn_v1_state. Qed.

  Lemma conv_v1_skip_invariant :
    forall cf us st, skip st = false ->
      Forall (fun r => skip (fst (fst r)) = false) (conv_v1 cf st us).
  Proof.
    intros cf. apply (conv_invariant _ _ _ (fun st => skip st = false) _ (turn_v1 cf) (fun r => fst (fst r)));
      try reflexivity.
    intros st u Hs. split; apply turn_v1_skip_invariant; exact Hs.
  Qed.

  (* states reachable from the initial state by any conversation *)
  Inductive reachable (cf : cfg) : pstate -> Prop :=
  | reach_init : reachable cf init_state
  | reach_turn : forall st u, reachable cf st -> reachable cf (fst (fst (turn_v1 cf st u))).

  Lemma reachable_skip_false : forall cf st, reachable cf st -> skip st = false.
  Proof. intros cf st H. induction H; [reflexivity|apply turn_v1_skip_invariant; assumption]. Qed.
End V1.
