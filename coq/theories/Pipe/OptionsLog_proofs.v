(* Pipe/OptionsLog_proofs.v - the log computed by compute_generation_log (Pipe/GenLog.v) from the
   processing log of a turn (Pipe/Options.v) lists exactly the rails that ran, in order, and sets
   `stop` on exactly the rail that blocked.  For every configuration whose user flow names do not
   collide with the system flow names, every verdict function, option value and text. *)
From Coq Require Import String List Bool.
From NG Require Import Gen.C16Consts Pipe.GenLog Pipe.GenLog_proofs Pipe.Options.
Import ListNotations.
Open Scope string_scope.
Open Scope list_scope.

Definition user_flow_ok (f : string) : Prop :=
  mem f ignored_flows = false /\ mem f generation_flows = false /\ String.eqb f retype_name = false.

Definition rail_ok (r : rail) : Prop := String.eqb (r_flow r) retype_name = false.

Definition wf_cfg (c : cfg) : Prop :=
  Forall rail_ok (c_in c) /\ Forall rail_ok (c_out c) /\ user_flow_ok (c_flow c).

(* (type after the re-typing pass, name) *)
Definition tn' (r : arail) : string * string := (ar_type (retype r), ar_name r).
Definition nostop (r : arail) : Prop := ar_stop r = false.

Definition calm (rails : list arail) (a : bool) : Prop :=
  a = true -> exists h t, rails = h :: t /\ mem (ar_type h) stop_types = false.
Definition idle (rails : list arail) (a : bool) : Prop := a = false.

(* the "current rail" cursor of compute_generation_log points at a rail *)
Definition ne (rails : list arail) (a : bool) : Prop := a = true -> rails <> [].

Lemma calm_nonempty : forall rails a, calm rails a -> ne rails a.
Proof. intros rails a H Ha. destruct (H Ha) as (h & t & -> & _). discriminate. Qed.

Lemma idle_calm : forall rails a, idle rails a -> calm rails a.
Proof. unfold idle, calm. intros rails a -> H. discriminate. Qed.

Lemma calm_nil_idle : forall rails a, calm rails a -> a = true -> rails <> [].
Proof. exact calm_nonempty. Qed.

Lemma idle_ne : forall rails a, idle rails a -> ne rails a.
Proof. intros rails a H. apply calm_nonempty, idle_calm, H. Qed.

Lemma retype_not_gui : forall r, String.eqb (ar_name r) retype_name = false -> retype r = r.
Proof. intros r H. unfold retype. rewrite H. reflexivity. Qed.

Lemma tn'_sig : forall r ty f s, sig r = (ty, f, s) -> String.eqb f retype_name = false -> tn' r = (ty, f).
Proof.
  intros r ty f s H Hf. destruct (sig_inv _ _ _ _ H) as (<- & <- & _).
  unfold tn'. rewrite retype_not_gui; [reflexivity|exact Hf].
Qed.

(* a segment of the processing log that leaves the fold where it is *)
Definition neutral (l : list pentry) : Prop :=
  forall rails a, ne rails a -> g_run l (mkG rails a None) = Some (mkG rails a None).

Lemma neutral_nil : neutral [].
Proof. intros rails a _. reflexivity. Qed.

Lemma neutral_app : forall l1 l2, neutral l1 -> neutral l2 -> neutral (l1 ++ l2).
Proof. intros l1 l2 H1 H2 rails a Hne. rewrite g_run_app, H1, H2; [reflexivity|exact Hne|exact Hne]. Qed.

Lemma plain_neutral : forall ty arg, plain_event ty -> neutral [PEvent ty arg].
Proof. intros ty arg Hp rails a _. cbn [g_run g_entry]. rewrite g_event_plain; [reflexivity|exact Hp]. Qed.

Lemma g_run_ce : forall flow ty arg st,
  mem flow ignored_flows = true ->
  (g_active st = true -> g_rails st <> []) ->
  g_run (ce flow ty arg) st = g_event ty arg st.
Proof.
  intros flow ty arg st Hig Hwf. unfold ce. simpl.
  rewrite (g_step_ce flow st Hig Hwf). simpl.
  destruct (g_event ty arg st); reflexivity.
Qed.

Lemma ce_neutral : forall flow ty arg,
  mem flow ignored_flows = true -> plain_event ty -> neutral (ce flow ty arg).
Proof.
  intros flow ty arg Hig Hp rails a Hne.
  rewrite g_run_ce; [apply g_event_plain; exact Hp|exact Hig|exact Hne].
Qed.

(* the side conditions above are closed comparisons of event and flow names with the constants
   of processing_log.py *)
Create HintDb seg discriminated.
#[local] Hint Extern 0 (plain_event _) => repeat split : seg.
#[local] Hint Extern 0 (mem _ _ = _) => reflexivity : seg.
#[local] Hint Resolve neutral_nil neutral_app plain_neutral ce_neutral : seg.

Lemma utter_neutral : neutral utter.
Proof. unfold utter. auto with seg. Qed.

(* a segment that works on the current rail (not of type dialog) and keeps its signature *)
Definition on_rail (l : list pentry) : Prop :=
  forall r rest, String.eqb (ar_type r) "dialog" = false ->
  exists r', g_run l (mkG (r :: rest) true None) = Some (mkG (r' :: rest) true None) /\ sig r' = sig r.

Lemma on_rail_app : forall l1 l2, on_rail l1 -> on_rail l2 -> on_rail (l1 ++ l2).
Proof.
  intros l1 l2 H1 H2 r rest Hnd.
  destruct (H1 r rest Hnd) as (r1 & E1 & S1).
  destruct (H2 r1 rest) as (r2 & E2 & S2); [rewrite (proj1 (sig_inv _ _ _ _ S1)); exact Hnd|].
  exists r2. rewrite g_run_app, E1. split; [exact E2|]. rewrite S2. exact S1.
Qed.

Lemma on_rail_cons : forall e e' l, on_rail [e] -> on_rail (e' :: l) -> on_rail (e :: e' :: l).
Proof. intros e e' l. exact (on_rail_app [e] (e' :: l)). Qed.

Lemma neutral_on_rail : forall l, neutral l -> on_rail l.
Proof. intros l H r rest _. exists r. split; [apply H; discriminate|reflexivity]. Qed.

Lemma step_on_rail : forall flow items, on_rail [PStep flow items].
Proof.
  intros flow items r rest Hnd. eexists. cbn [g_run g_entry].
  rewrite g_step_stays; [|apply stays_non_dialog; exact Hnd]. split; [reflexivity|apply add_items_sig].
Qed.

Lemma act_events_on_rail : forall action tasks,
  tasks = [] \/ mem action ignored_actions = false ->
  on_rail (PEvent "StartInternalSystemAction" action :: map PLlm tasks ++ [PEvent "InternalSystemActionFinished" action]).
Proof. intros action tasks Hc r rest _. apply g_run_action_events, Hc. Qed.

Lemma act_on_rail : forall flow action tasks,
  tasks = [] \/ mem action ignored_actions = false -> on_rail (act_seg flow action tasks).
Proof.
  intros flow action tasks Hc.
  apply (on_rail_app [PStep flow [SAct action]] _ (step_on_rail _ _) (act_events_on_rail action tasks Hc)).
Qed.

#[local] Hint Resolve on_rail_app on_rail_cons neutral_on_rail step_on_rail act_on_rail : seg.

Section Segments.
  Variables (c : cfg) (g : option ropts).

  Lemma ret_seg_on_rail : on_rail (ret_seg c g).
  Proof.
    unfold ret_seg. destruct (ret_active c g); [|auto with seg].
    induction (c_ret c) as [|x xs IH]; [auto with seg|].
    cbn [flat_map]. auto with seg.
  Qed.

  (* `generate bot message` after its first step, which either stays on the current rail or opens one *)
  Definition genbot_rest (uses_llm : bool) : list pentry :=
    [PEvent "StartInternalSystemAction" "retrieve_relevant_chunks";
     PEvent "InternalSystemActionFinished" "retrieve_relevant_chunks"]
    ++ ret_seg c g
    ++ act_seg "generate bot message" "generate_bot_message" (if uses_llm then ["generate_bot_message"] else [])
    ++ [PEvent "BotMessage" ""].

  Lemma genbot_seg_eq : forall uses,
    genbot_seg c g uses = PStep "generate bot message" [SAct "retrieve_relevant_chunks"] :: genbot_rest uses.
  Proof. reflexivity. Qed.

  Lemma genbot_rest_on_rail : forall uses, on_rail (genbot_rest uses).
  Proof.
    intros uses. unfold genbot_rest.
    pose proof (act_events_on_rail "retrieve_relevant_chunks" [] (or_introl eq_refl)).
    (* the pieces are joined by on_rail_app; the two action segments are the fact above and act_on_rail *)
    pose proof ret_seg_on_rail. auto 6 with seg.
  Qed.

  Lemma genbot_on_rail : forall uses, on_rail (genbot_seg c g uses).
  Proof.
    intros uses. rewrite genbot_seg_eq.
    exact (on_rail_app [_] _ (step_on_rail _ _) (genbot_rest_on_rail uses)).
  Qed.

  (* `bot refuse to respond` (+ `stop`) inside the blocking rail *)
  Lemma refusal_on_rail : forall f, on_rail (refusal_seg c g f).
  Proof.
    intros f. unfold refusal_seg. pose proof (genbot_on_rail false).
    (* joined by on_rail_app / on_rail_cons: the intent steps are step_on_rail, `generate bot message` is
       genbot_on_rail, the events and the create_event segment are neutral (plain_neutral, ce_neutral) *)
    destruct (ret_active c g); auto 7 with seg.
  Qed.
End Segments.

Lemma ktype_not_dialog : forall K, String.eqb (ktype K) "dialog" = false.
Proof. destruct K; reflexivity. Qed.
Lemma ktype_stop : forall K, mem (ktype K) stop_types = true.
Proof. destruct K; reflexivity. Qed.

Lemma start_rail_event : forall K f rails a,
  g_event (start_ev K) f (mkG rails a None) = Some (mkG (new_rail (ktype K) f :: rails) true None).
Proof. destruct K; reflexivity. Qed.

Lemma fin_rail_event : forall K f r rest,
  g_event (fin_ev K) f (mkG (r :: rest) true None) = Some (mkG (r :: rest) false None).
Proof. destruct K; reflexivity. Qed.

Lemma loop_flow_ignored : forall K, mem (loop_flow K) ignored_flows = true.
Proof. destruct K; reflexivity. Qed.

Lemma rail_pre_log : forall K r rails0 a0,
  ne rails0 a0 ->
  exists r1, g_run (rail_pre K r) (mkG rails0 a0 None) = Some (mkG (r1 :: rails0) true None)
             /\ sig r1 = (ktype K, r_flow r, false).
Proof.
  intros K r rails0 a0 Hne. unfold rail_pre. rewrite g_run_app.
  rewrite g_run_ce; [|apply loop_flow_ignored|exact Hne].
  rewrite start_rail_event.
  apply (act_on_rail (r_flow r) (r_action r) [] (or_introl eq_refl)), ktype_not_dialog.
Qed.

(* What a piece of the turn does to the fold: from a state satisfying P, the log `l` pushes the rails
   that the computed log will list as `rn`, none of them stopped, changes nothing below them, and
   reaches a state satisfying Q. *)
Definition seg_spec (P Q : list arail -> bool -> Prop) (l : list pentry) (rn : list (string * string)) : Prop :=
  forall rails0 a0, P rails0 a0 ->
  exists done a1,
    g_run l (mkG rails0 a0 None) = Some (mkG (done ++ rails0) a1 None) /\
    map tn' (rev done) = rn /\ Forall nostop done /\ Q (done ++ rails0) a1.

(* the log ends inside the input or output rail `f`, which compute_generation_log marks as stopped *)
Definition stopped_in (f : string) (rails : list arail) (a : bool) : Prop :=
  a = true /\ String.eqb f retype_name = false /\
  exists K hd tl, rails = hd :: tl /\ sig hd = (ktype K, f, false).

Definition phase_spec (P : list arail -> bool -> Prop) (o : outcome) : Prop :=
  seg_spec P (match blocked o with None => calm | Some f => stopped_in f end) (plog o) (ran o).

Lemma seq_spec : forall P Q R l1 rn1 l2 rn2,
  seg_spec P Q l1 rn1 -> seg_spec Q R l2 rn2 -> seg_spec P R (l1 ++ l2) (rn1 ++ rn2).
Proof.
  intros P Q R l1 rn1 l2 rn2 H1 H2 rails0 a0 HP.
  destruct (H1 rails0 a0 HP) as (d1 & a1 & Hrun1 & Hrn1 & Hns1 & HQ).
  destruct (H2 (d1 ++ rails0) a1 HQ) as (d2 & a2 & Hrun2 & Hrn2 & Hns2 & HR).
  exists (d2 ++ d1), a2.
  rewrite g_run_app, Hrun1, Hrun2, <- app_assoc.
  split; [reflexivity|].
  split; [rewrite rev_app_distr, map_app, Hrn1, Hrn2; reflexivity|].
  split; [apply Forall_app; split; assumption|exact HR].
Qed.

Lemma prepend_spec : forall P Q l cs ts rn o,
  seg_spec P Q l rn -> phase_spec Q o -> phase_spec P (prepend l cs ts rn o).
Proof. intros P Q l cs ts rn o. exact (seq_spec P Q _ l rn (plog o) (ran o)). Qed.

Lemma neutral_spec : forall (P Q : list arail -> bool -> Prop) l,
  (forall rails a, P rails a -> ne rails a) -> (forall rails a, P rails a -> Q rails a) ->
  neutral l -> seg_spec P Q l [].
Proof.
  intros P Q l Hne HPQ H rails0 a0 HP. exists [], a0.
  rewrite H by exact (Hne _ _ HP). repeat split; [constructor|exact (HPQ _ _ HP)].
Qed.

Lemma neutral_seq : forall (P Q : list arail -> bool -> Prop) l1 l2 rn,
  (forall rails a, P rails a -> ne rails a) -> neutral l1 -> seg_spec P Q l2 rn -> seg_spec P Q (l1 ++ l2) rn.
Proof.
  intros P Q l1 l2 rn Hne H1. apply (seq_spec P P Q l1 [] l2 rn), neutral_spec; [exact Hne|auto|exact H1].
Qed.

#[local] Hint Resolve calm_nonempty idle_ne idle_calm neutral_spec neutral_seq utter_neutral : seg.

Section Phases.
  Variables (iv ov : nat -> string -> verdict) (lt rf pt : string) (c : cfg) (g : option ropts).
  Hypothesis WF : wf_cfg c.

  Section OneCategory.
    Variables (K : kind) (vf : nat -> string -> verdict).

    Lemma rail_passes : forall (P R : list arail -> bool -> Prop) r l rn,
      (forall rails a, P rails a -> ne rails a) -> rail_ok r -> seg_spec idle R l rn ->
      seg_spec P R (rail_pre K r ++ ce (loop_flow K) (fin_ev K) (r_flow r) ++ l) ((ktype K, r_flow r) :: rn).
    Proof.
      intros P R r l rn HP Hr Hl. rewrite app_assoc.
      apply (seq_spec P idle R _ [(ktype K, r_flow r)] l rn); [|exact Hl].
      intros rails0 a0 H0.
      destruct (rail_pre_log K r rails0 a0 (HP _ _ H0)) as (r1 & Hpre & Hs1).
      exists [r1], false.
      rewrite g_run_app, Hpre, g_run_ce, fin_rail_event by (apply loop_flow_ignored || discriminate).
      split; [reflexivity|]. split; [cbn [rev app map]; rewrite (tn'_sig _ _ _ _ Hs1 Hr); reflexivity|].
      split; [repeat constructor; apply (sig_inv _ _ _ _ Hs1)|reflexivity].
    Qed.

    (* the refusal is written into the rejecting rail *)
    Lemma rail_rejects : forall (P : list arail -> bool -> Prop) r,
      (forall rails a, P rails a -> ne rails a) -> rail_ok r ->
      seg_spec P (stopped_in (r_flow r)) (rail_pre K r ++ refusal_seg c g (r_flow r)) [(ktype K, r_flow r)].
    Proof.
      intros P r HP Hr rails0 a0 H0.
      destruct (rail_pre_log K r rails0 a0 (HP _ _ H0)) as (r1 & Hpre & Hs1).
      destruct (refusal_on_rail c g (r_flow r) r1 rails0) as (r2 & Href & Hs2);
        [rewrite (proj1 (sig_inv _ _ _ _ Hs1)); apply ktype_not_dialog|].
      rewrite Hs1 in Hs2.
      exists [r2], true. rewrite g_run_app, Hpre.
      split; [exact Href|]. split; [cbn [rev app map]; rewrite (tn'_sig _ _ _ _ Hs2 Hr); reflexivity|].
      split; [repeat constructor; apply (sig_inv _ _ _ _ Hs2)|].
      split; [reflexivity|]. split; [exact Hr|]. exists K, r2, rails0. split; [reflexivity|exact Hs2].
    Qed.

    (* the rails of one category, followed by what the caller does when all pass (`post`) or by the
       refusal: the passing rails are pushed in order and closed, a rejecting one stays open *)
    Lemma run_rails_log : forall post (Q : list arail -> bool -> Prop),
      neutral post -> (forall rails, Q rails false) ->
      forall rs k t (P : list arail -> bool -> Prop),
        (forall rails a, P rails a -> ne rails a) -> (rs = [] -> forall rails a, P rails a -> Q rails a) ->
        Forall rail_ok rs ->
        let S := run_rails K vf k rs t in
        seg_spec P (match s_res S with Passed _ => Q | Blocked f => stopped_in f end)
                 (s_log S ++ match s_res S with Passed _ => post | Blocked f => refusal_seg c g f end)
                 (s_ran S).
    Proof.
      intros post Q Hpost HQ. induction rs as [|r rs IH]; intros k t P HP Hnil Hok.
      - apply neutral_spec; [exact HP|exact (Hnil eq_refl)|exact Hpost].
      - inversion Hok as [|? ? Hr Hrs]; subst. cbn [run_rails].
        destruct (vf k t) as [| |t']; cbn [s_log s_res s_ran].
        1, 3: rewrite <- !app_assoc; apply rail_passes; [exact HP|exact Hr|];
          apply IH; [apply idle_ne|intros _ rails a ->; apply HQ|exact Hrs].
        apply rail_rejects; assumption.
    Qed.
  End OneCategory.

  Lemma active_nonempty : forall (rs : list rail) b, negb (match rs with [] => true | _ => false end) && b = true -> rs <> [].
  Proof. intros [|r rs] b H; discriminate. Qed.

  Lemma output_phase_log : forall b skip, phase_spec calm (output_phase ov rf c g b skip).
  Proof.
    intros b skip. unfold output_phase, phase_spec.
    destruct skip; [cbn [plog ran blocked]; auto with seg|].
    destruct (out_active c g) eqn:Ha; [|cbn [plog ran blocked]; auto with seg].
    apply active_nonempty in Ha. destruct WF as (_ & Hout & _). cbv zeta.
    assert (Hpost : neutral (ce "process bot message" "OutputRailsFinished" "" ++ utter)) by auto with seg.
    assert (HQ : forall rails, calm rails false) by (intros rails H'; discriminate).
    pose proof (run_rails_log KOut ov _ calm Hpost HQ (c_out c) 0 b calm calm_nonempty
                              (fun E => False_ind _ (Ha E)) Hout) as H.
    cbv zeta in H.
    destruct (s_res (run_rails KOut ov 0 (c_out c) b)) as [t|f]; cbn [plog ran blocked];
      (apply neutral_seq; [exact calm_nonempty|auto with seg|exact H]).
  Qed.

  Lemma g_step_opens : forall flow items r rest,
    String.eqb (ar_type r) "dialog" = true -> String.eqb (ar_name r) flow = false -> mem flow ignored_flows = false ->
    g_step flow items (mkG (r :: rest) true None)
    = Some (mkG (add_items items (new_rail (rail_type_of_flow flow) flow) :: r :: rest) true None).
  Proof.
    intros flow items r rest Ht Hn Hig. unfold g_step. cbn [g_active g_rails].
    rewrite Ht, Hn, Hig. reflexivity.
  Qed.

  Definition gui_rail (task : string) : arail :=
    mkR "dialog" "generate user intent" ["execute generate_user_intent"] [mkX "generate_user_intent" [task]] false.

  Lemma gui_seg_log : forall task rails0,
    g_run (act_seg "generate user intent" "generate_user_intent" [task]) (mkG rails0 false None)
    = Some (mkG (gui_rail task :: rails0) true None).
  Proof. reflexivity. Qed.

  Lemma genbot_seg_opens : forall uses r rest,
    String.eqb (ar_type r) "dialog" = true -> String.eqb (ar_name r) "generate bot message" = false ->
    exists r', g_run (genbot_seg c g uses) (mkG (r :: rest) true None) = Some (mkG (r' :: r :: rest) true None)
               /\ sig r' = ("generation", "generate bot message", false).
  Proof.
    intros uses r rest Ht Hn. rewrite genbot_seg_eq. cbn [g_run g_entry].
    rewrite g_step_opens; [|exact Ht|exact Hn|reflexivity].
    apply (genbot_rest_on_rail c g uses). reflexivity.
  Qed.

  (* General mode: the `general` call answers inside `generate user intent`, re-typed to generation *)
  Lemma general_prefix :
    seg_spec idle calm (act_seg "generate user intent" "generate_user_intent" ["general"] ++ [PEvent "BotMessage" ""])
             [("generation", "generate user intent")].
  Proof.
    intros rails0 a0 Hi. unfold idle in Hi. subst a0. exists [gui_rail "general"], true.
    rewrite g_run_app, gui_seg_log, (plain_neutral "BotMessage" "") by (auto with seg || discriminate).
    repeat split; [constructor; [reflexivity|constructor]|].
    intros _; exists (gui_rail "general"), rails0; split; reflexivity.
  Qed.

  (* Flows mode: user intent, then the matched flow and `generate bot message` each open a rail *)
  Lemma flows_prefix : forall uses_llm,
    seg_spec idle calm
             (act_seg "generate user intent" "generate_user_intent" ["generate_user_intent"]
              ++ [PEvent "UserIntent" ""; PStep (c_flow c) [SIntent (c_bot_intent c)]; PEvent "BotIntent" ""]
              ++ genbot_seg c g uses_llm)
             [("dialog", "generate user intent"); ("dialog", c_flow c); ("generation", "generate bot message")].
  Proof.
    intros uses_llm rails0 a0 Hi. unfold idle in Hi. subst a0.
    destruct WF as (_ & _ & (Hig & Hgen & Hgui)).
    assert (Hgb : String.eqb (c_flow c) "generate bot message" = false).
    { unfold mem in Hgen. cbn [generation_flows existsb] in Hgen. apply orb_false_iff in Hgen. tauto. }
    pose (rf1 := add_items [SIntent (c_bot_intent c)] (new_rail "dialog" (c_flow c))).
    destruct (genbot_seg_opens uses_llm rf1 (gui_rail "generate_user_intent" :: rails0) eq_refl Hgb) as (r3 & H3 & S3).
    exists [r3; rf1; gui_rail "generate_user_intent"], true.
    split.
    { rewrite g_run_app, gui_seg_log. cbn [app g_run g_entry].
      rewrite g_event_plain by (auto with seg).
      rewrite g_step_opens; [|reflexivity|rewrite String.eqb_sym; exact Hgui|exact Hig].
      rewrite g_event_plain by (auto with seg).
      unfold rail_type_of_flow. rewrite Hgen. exact H3. }
    split.
    { cbn [rev app map]. rewrite (tn'_sig r3 _ _ _ S3 eq_refl), (tn'_sig rf1 _ _ _ eq_refl Hgui). reflexivity. }
    injection S3 as Ht3 _ Hs3.
    split; [repeat constructor; exact Hs3|].
    intros _; exists r3, (rf1 :: gui_rail "generate_user_intent" :: rails0); rewrite Ht3; split; reflexivity.
  Qed.

  Lemma dialog_phase_log : forall t bot, phase_spec idle (dialog_phase ov lt rf pt c g t bot).
  Proof.
    intros t bot. unfold dialog_phase.
    destruct (dialog_disabled g).
    - destruct (output_off g); [|destruct bot as [b|]].
      + unfold phase_spec. cbn [plog ran blocked]. auto with seg.
      + apply prepend_spec with (Q := calm); [auto with seg|apply output_phase_log].
      + unfold phase_spec. cbn [plog ran blocked]. auto with seg.
    - destruct (c_dmode c) as [|predefined].
      + apply prepend_spec with (Q := calm); [apply general_prefix|apply output_phase_log].
      + apply prepend_spec with (Q := calm); [apply flows_prefix|apply output_phase_log].
  Qed.

  Lemma turn_log : forall user bot, phase_spec idle (turn iv ov lt rf pt c g user bot).
  Proof.
    intros user bot. unfold turn. cbv zeta.
    destruct (in_active c g) eqn:Ha.
    - apply active_nonempty in Ha. destruct WF as (Hin & _ & _).
      assert (Hpost : neutral (ce "process user input" "InputRailsFinished" "" ++ ce "process user input" "UserMessage" ""))
        by auto with seg.
      pose proof (run_rails_log KIn iv _ idle Hpost (fun _ => eq_refl) (c_in c) 0 user idle idle_ne
                                (fun E => False_ind _ (Ha E)) Hin) as H.
      cbv zeta in H.
      destruct (s_res (run_rails KIn iv 0 (c_in c) user)) as [t|f].
      + apply prepend_spec with (Q := idle); [|apply dialog_phase_log].
        do 2 (apply neutral_seq; [exact idle_ne|auto with seg|]). exact H.
      + unfold phase_spec. cbn [plog ran blocked].
        do 2 (apply neutral_seq; [exact idle_ne|auto with seg|]). exact H.
    - apply prepend_spec with (Q := idle); [auto with seg|apply dialog_phase_log].
  Qed.
End Phases.

(* the condition of the re-typing rule of compute_generation_log *)
Definition retyped (r : arail) : bool :=
  String.eqb (ar_name r) retype_name &&
  match ar_actions r with
  | [x] => match xa_llm x with [t] => String.eqb t retype_task | _ => false end
  | _ => false
  end.

Lemma retype_eq : forall r,
  retype r = if retyped r then mkR retype_to (ar_name r) (ar_decisions r) (ar_actions r) (ar_stop r) else r.
Proof.
  intros r. unfold retype, retyped. destruct (String.eqb (ar_name r) retype_name); [|reflexivity].
  destruct (ar_actions r) as [|x [|y l]]; try reflexivity.
  destruct (xa_llm x) as [|t [|t' l']]; reflexivity.
Qed.

Lemma retype_name_same : forall r, ar_name (retype r) = ar_name r.
Proof. intros r. rewrite retype_eq. destruct (retyped r); reflexivity. Qed.

Lemma retype_stop_same : forall r, ar_stop (retype r) = ar_stop r.
Proof. intros r. rewrite retype_eq. destruct (retyped r); reflexivity. Qed.

Lemma retype_mark_stop_type : forall r,
  mem (ar_type r) stop_types = true -> ar_type (retype (mark_stop r)) = ar_type (retype r).
Proof.
  intros r H. unfold mark_stop. rewrite H, !retype_eq.
  change (retyped (mkR _ _ _ _ _)) with (retyped r). destruct (retyped r); reflexivity.
Qed.

Definition tn (a : arail) : string * string := (ar_type a, ar_name a).
Definition fin1 (r : arail) : arail := unrev_rail (retype r).

Lemma tn_fin1 : forall r, tn (fin1 r) = tn' r.
Proof. intros r. unfold tn, fin1, tn'. cbn [unrev_rail ar_type ar_name]. rewrite retype_name_same. reflexivity. Qed.

Lemma stop_fin1 : forall r, ar_stop (fin1 r) = ar_stop r.
Proof. intros r. unfold fin1. cbn [unrev_rail ar_stop]. apply retype_stop_same. Qed.

Lemma fin_tn : forall l, map tn (rev (map fin1 l)) = map tn' (rev l).
Proof. intros l. rewrite !map_rev, map_map. f_equal. apply map_ext, tn_fin1. Qed.

Lemma fin_nostop : forall l, Forall nostop l -> Forall (fun a => ar_stop a = false) (rev (map fin1 l)).
Proof.
  intros l H. apply Forall_rev, Forall_map. eapply Forall_impl; [|exact H].
  intros x Hx. rewrite stop_fin1. exact Hx.
Qed.

Lemma fin_mark_stop : forall K hd f,
  sig hd = (ktype K, f, false) -> String.eqb f retype_name = false ->
  sig (fin1 (mark_stop hd)) = (ktype K, f, true).
Proof.
  intros K hd f H Hg. destruct (sig_inv _ _ _ _ H) as (Hty & Hn & _).
  unfold mark_stop. rewrite Hty, ktype_stop. unfold fin1.
  rewrite retype_not_gui by (cbn [ar_name]; rewrite Hn; exact Hg).
  unfold sig. cbn [unrev_rail ar_type ar_name ar_stop]. rewrite Hn. reflexivity.
Qed.

Lemma turn_plog_nonempty : forall iv ov lt rf pt c g user bot,
  plog (turn iv ov lt rf pt c g user bot) <> [].
Proof.
  intros. unfold turn. destruct (in_active c g); [destruct (s_res _)|]; discriminate.
Qed.

Lemma finalize_calm : forall rails a, calm rails a -> finalize (mkG rails a None) = rev (map fin1 rails).
Proof.
  intros rails a Hc. unfold finalize. cbn [g_active g_rails]. destruct a; [|reflexivity].
  destruct (Hc eq_refl) as (h & t & -> & Hm). cbn [upd_nth]. unfold mark_stop. rewrite Hm. reflexivity.
Qed.

(* the computed log of ANY processing log that meets the specification from the initial state *)
Theorem log_of_phase : forall o,
  phase_spec idle o -> plog o <> [] ->
  exists rails,
    gen_log (plog o) = Some rails /\
    map tn rails = ran o /\
    match blocked o with
    | None => Forall (fun a => ar_stop a = false) rails
    | Some f => exists pre a, rails = pre ++ [a] /\ ar_name a = f /\ ar_stop a = true /\
                              (ar_type a = "input" \/ ar_type a = "output") /\
                              Forall (fun x => ar_stop x = false) pre
    end.
Proof.
  intros o Ho Hne.
  destruct (Ho [] false eq_refl) as (done & a1 & Hrun & Hran & Hns & Hb). rewrite app_nil_r in Hrun, Hb.
  unfold gen_log. destruct (plog o) as [|e l]; [congruence|]. unfold g_init. rewrite Hrun. cbn [option_map].
  eexists. split; [reflexivity|]. rewrite <- Hran.
  destruct (blocked o) as [f|].
  - destruct Hb as (-> & Hg & K & hd & tl & -> & Hs).
    change (finalize (mkG (hd :: tl) true None)) with (rev (map fin1 tl) ++ [fin1 (mark_stop hd)]).
    destruct (sig_inv _ _ _ _ (fin_mark_stop K hd f Hs Hg)) as (Hft & Hfn & Hfs).
    split.
    { cbn [rev]. rewrite !map_app, fin_tn. cbn [map]. rewrite (tn'_sig _ _ _ _ Hs Hg). unfold tn. rewrite Hft, Hfn. reflexivity. }
    exists (rev (map fin1 tl)), (fin1 (mark_stop hd)).
    split; [reflexivity|]. split; [exact Hfn|]. split; [exact Hfs|].
    split; [rewrite Hft; destruct K; [left|right]; reflexivity|apply fin_nostop, (Forall_inv_tail Hns)].
  - rewrite (finalize_calm _ _ Hb). split; [apply fin_tn|apply fin_nostop; exact Hns].
Qed.

Theorem log_of_turn : forall iv ov lt rf pt c g user bot,
  wf_cfg c ->
  let r := turn iv ov lt rf pt c g user bot in
  exists rails,
    gen_log (plog r) = Some rails /\
    map tn rails = ran r /\
    match blocked r with
    | None => Forall (fun a => ar_stop a = false) rails
    | Some f => exists pre a, rails = pre ++ [a] /\ ar_name a = f /\ ar_stop a = true /\
                              (ar_type a = "input" \/ ar_type a = "output") /\
                              Forall (fun x => ar_stop x = false) pre
    end.
Proof.
  intros iv ov lt rf pt c g user bot WF.
  exact (log_of_phase _ (turn_log iv ov lt rf pt c g WF user bot) (turn_plog_nonempty iv ov lt rf pt c g user bot)).
Qed.

(* non-vacuity: the hypothesis of log_of_turn holds of a configuration with rails in every
   category, and both outcomes (blocked / not blocked) occur *)
Example wf_ex_cfg : wf_cfg ex_cfg.
Proof. repeat split; repeat constructor. Qed.

Example log_of_turn_blocked_instance :
  let r := turn ex_iv ex_ov "LLM" "REFUSED" "PRE" ex_cfg None "hello" None in
  blocked r = Some "out0" /\
  option_map (map (fun a => (ar_type a, ar_name a, ar_stop a))) (gen_log (plog r))
  = Some [("input", "in0", false); ("input", "in1", false); ("dialog", "generate user intent", false);
          ("dialog", "greet", false); ("generation", "generate bot message", false); ("output", "out0", true)].
Proof. vm_compute. split; reflexivity. Qed.

Theorem log_stop_flags : forall iv ov lt rf pt c g user bot rails,
  wf_cfg c ->
  let r := turn iv ov lt rf pt c g user bot in
  gen_log (plog r) = Some rails ->
  (blocked r = None -> forall a, In a rails -> ar_stop a = false) /\
  (forall f, blocked r = Some f ->
     exists pre a, rails = pre ++ [a] /\ ar_name a = f /\ ar_stop a = true /\
                   forall x, In x pre -> ar_stop x = false).
Proof.
  intros iv ov lt rf pt c g user bot rails WF r Hlog.
  destruct (log_of_turn iv ov lt rf pt c g user bot WF) as (rails' & Hlog' & _ & Hb).
  fold r in Hlog', Hb. rewrite Hlog in Hlog'. inversion Hlog'; subst rails'.
  split.
  - intros Hn. rewrite Hn in Hb. apply Forall_forall. exact Hb.
  - intros f Hf. rewrite Hf in Hb. destruct Hb as (pre & a & -> & Hna & Hsa & _ & Hpre).
    exists pre, a. repeat split; try assumption. apply Forall_forall. exact Hpre.
Qed.
