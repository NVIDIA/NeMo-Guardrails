(* Pipe.FlowCheck_proofs - soundness of the dominance checker and the rails-loop lemma. *)
From Coq Require Import List String Bool ZArith Lia.
From NG Require Import Pipe.FlowCheck.
Import ListNotations.
Open Scope list_scope.

(* a path of the control-flow graph `slide` follows: (index, edge taken) steps from i to k *)
Inductive path (es : list elem) : Z -> list (Z * edge) -> Z -> Prop :=
| path_nil : forall i, path es i [] i
| path_cons : forall i e l j p k,
    elem_at es i = Some e -> In (l, j) (succs i e) -> path es j p k -> path es i ((i, l) :: p) k.

Lemma zmem_In : forall x l, zmem x l = true <-> In x l.
Proof.
  intros x l. unfold zmem. rewrite existsb_exists. split.
  - intros (y & Hy & He). apply Z.eqb_eq in He. subst. exact Hy.
  - intros H. exists x. split; [exact H|apply Z.eqb_refl].
Qed.

Section Sound.
  Variable es : list elem.
  Variable gate : elem -> bool.
  Variable target : option elem -> bool.
  Variable excused : edge -> bool.

  (* a step of the path passes the gate element or takes an excused guard edge *)
  Definition passes (p : list (Z * edge)) : Prop :=
    exists i l e, In (i, l) p /\ elem_at es i = Some e /\ (gate e = true \/ excused l = true).

  (* what an accepted certificate R says *)
  Lemma closedb_true :
    forall entry R, closedb es gate target excused entry R = true ->
      zmem entry R = true /\
      (forall i l j, zmem i R = true -> In (l, j) (out_edges es gate excused i) -> zmem j R = true) /\
      (forall k, zmem k R = true -> target (elem_at es k) = true ->
                 exists e, elem_at es k = Some e /\ gate e = true).
  Proof.
    intros entry R Hc. unfold closedb in Hc.
    apply andb_true_iff in Hc. destruct Hc as [Hc Htg].
    apply andb_true_iff in Hc. destruct Hc as [Hentry Hcl].
    rewrite forallb_forall in Hcl, Htg. split; [exact Hentry|]. split.
    - intros i l j Hi Hin. apply zmem_In in Hi. specialize (Hcl i Hi). rewrite forallb_forall in Hcl.
      exact (Hcl (l, j) Hin).
    - intros k Hk Ht. apply zmem_In in Hk. specialize (Htg k Hk). rewrite Ht in Htg. simpl in Htg.
      destruct (elem_at es k) as [e|]; [|discriminate]. exists e. split; [reflexivity|exact Htg].
  Qed.

  Lemma closed_path :
    forall entry R, closedb es gate target excused entry R = true ->
    forall i p k, path es i p k -> zmem i R = true -> zmem k R = true \/ passes p.
  Proof.
    intros entry R Hc. destruct (closedb_true _ _ Hc) as (_ & Hcl & _).
    intros i p k Hp. induction Hp as [i|i e l j p k He Hin Hp IH]; intros Hi.
    - left. exact Hi.
    - destruct (gate e) eqn:Hg.
      { right. exists i, l, e. split; [left; reflexivity|]. split; [exact He|left; exact Hg]. }
      destruct (excused l) eqn:Hx.
      { right. exists i, l, e. split; [left; reflexivity|]. split; [exact He|right; exact Hx]. }
      (* the edge is neither gated nor excused: the certificate contains its end *)
      assert (Hj : zmem j R = true).
      { apply (Hcl i l j Hi). unfold out_edges. rewrite He, Hg. apply filter_In. split; [exact Hin|].
        simpl. rewrite Hx. reflexivity. }
      destruct (IH Hj) as [Hk|(i' & l' & e' & Hin' & He' & Hor)].
      + left. exact Hk.
      + right. exists i', l', e'. split; [right; exact Hin'|]. split; assumption.
  Qed.

  (* SOUNDNESS: if the checker accepts, every path from the entry to a target element passes
     the gate or takes an excused edge *)
  Theorem gatedb_sound :
    forall entry, gatedb es gate target excused entry = true ->
    forall p k, path es entry p k -> target (elem_at es k) = true ->
                passes p \/ (exists e, elem_at es k = Some e /\ gate e = true).
  Proof.
    intros entry H p k Hp Ht. unfold gatedb in H.
    destruct (closedb_true _ _ H) as (Hentry & _ & Htg).
    destruct (closed_path _ _ H _ _ _ Hp Hentry) as [Hk|Hpass]; [right; exact (Htg k Hk Ht)|left; exact Hpass].
  Qed.

  (* when no target element is itself a gate, the gate or an excused edge is on the path *)
  Corollary gatedb_passes :
    forall entry, gatedb es gate target excused entry = true ->
    (forall e, target (Some e) = true -> gate e = false) ->
    forall p k, path es entry p k -> target (elem_at es k) = true -> passes p.
  Proof.
    intros entry H Hdisj p k Hp Ht.
    destruct (gatedb_sound entry H p k Hp Ht) as [Hpass|(e & He & Hg)]; [exact Hpass|].
    rewrite He in Ht. rewrite (Hdisj e Ht) in Hg. discriminate.
  Qed.
End Sound.

Lemma create_not_flow : forall n m e, is_create n (Some e) = true -> is_flow m e = false.
Proof. intros n m [] H; try discriminate H; reflexivity. Qed.

Lemma create_not_set : forall n k x e, is_create n (Some e) = true -> is_set k x e = false.
Proof. intros n k x [] H; try discriminate H; reflexivity. Qed.

(* the rails loop: from three computational facts about the flow (the prologue reaches the
   `while` with counter 0; one iteration visits rail i and comes back with i+1; a false
   condition leaves the flow) the loop visits 0 .. n-1 in order, for every n *)
Lemma zseq_snoc_free : forall i m, zseq i (S m) = i :: zseq (i + 1) m.
Proof. reflexivity. Qed.

Lemma loop_generic :
  forall s es w kpre kbody kexit,
    (forall f n i0 acc, lrun s es n (kpre + f) 0 i0 acc = lrun s es n f w 0%Z acc) ->
    (forall f n i acc, (i <? n)%Z = true ->
                       lrun s es n (kbody + f) w i acc = lrun s es n f w (i + 1)%Z (i :: acc)) ->
    (forall f n i acc, (i <? n)%Z = false -> lrun s es n (kexit + f) w i acc = Some (rev acc)) ->
    forall (n : nat) i0, exists fuel, lrun s es (Z.of_nat n) fuel 0 i0 [] = Some (zseq 0 n).
Proof.
  intros s es w kpre kbody kexit Hpre Hbody Hexit n i0.
  assert (Hloop : forall m i acc, (i + Z.of_nat m = Z.of_nat n)%Z ->
                                  exists fuel, lrun s es (Z.of_nat n) fuel w i acc = Some (rev acc ++ zseq i m)).
  { induction m as [|m IH]; intros i acc Hi.
    - exists (kexit + 0). rewrite Hexit by (apply Z.ltb_ge; lia). simpl. rewrite app_nil_r. reflexivity.
    - destruct (IH (i + 1)%Z (i :: acc)) as [fuel Hf]; [lia|].
      exists (kbody + fuel). rewrite Hbody by (apply Z.ltb_lt; lia).
      rewrite Hf. simpl. rewrite <- app_assoc. reflexivity. }
  destruct (Hloop n 0%Z []) as [fuel Hf]; [lia|].
  exists (kpre + fuel). rewrite Hpre. exact Hf.
Qed.
