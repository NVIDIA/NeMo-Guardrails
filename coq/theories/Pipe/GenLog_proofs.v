(* Pipe/GenLog_proofs.v - lemmas about the fold of compute_generation_log (Pipe/GenLog.v):
   how the cursor state moves over the segments a turn produces. *)
From Coq Require Import String List Bool.
From NG Require Import Gen.C16Consts Pipe.GenLog.
Import ListNotations.
Open Scope string_scope.

Lemma g_run_app : forall a b st,
  g_run (a ++ b) st = match g_run a st with Some st' => g_run b st' | None => None end.
Proof.
  induction a as [|e a IH]; intros b st; simpl; [reflexivity|].
  destruct (g_entry e st); [apply IH|reflexivity].
Qed.

(* (type, name, stop) of a rail: what C16 states about the log *)
Definition sig (r : arail) : string * string * bool := (ar_type r, ar_name r, ar_stop r).

Definition same_sig (r r' : arail) : Prop := sig r = sig r'.

(* the rail is not touched by the `generate user intent` re-typing rule *)
Definition not_gui (r : arail) : Prop := String.eqb (ar_name r) retype_name = false.

Lemma add_decision_sig : forall d r, sig (add_decision d r) = sig r.
Proof. reflexivity. Qed.

Lemma add_item_sig : forall r it, sig (add_item r it) = sig r.
Proof. intros r [a|i|]; unfold add_item; [destruct (mem a ignored_actions)|..]; reflexivity. Qed.

Lemma add_items_sig : forall items r, sig (add_items items r) = sig r.
Proof.
  unfold add_items. induction items as [|it items IH]; intros r; simpl; [reflexivity|].
  rewrite IH. apply add_item_sig.
Qed.

Lemma add_action_sig : forall a r, sig (add_action a r) = sig r.
Proof. reflexivity. Qed.

Lemma sig_inv : forall r ty f s, sig r = (ty, f, s) -> ar_type r = ty /\ ar_name r = f /\ ar_stop r = s.
Proof. intros r ty f s H. injection H as Hty Hf Hs. repeat split; assumption. Qed.

(* the head rail does not make a step of `flow` open a new rail *)
Definition stays (r : arail) (flow : string) : Prop :=
  String.eqb (ar_type r) "dialog" && negb (String.eqb (ar_name r) flow) = false.

Lemma stays_non_dialog : forall r flow, String.eqb (ar_type r) "dialog" = false -> stays r flow.
Proof. unfold stays. intros r flow H. rewrite H. reflexivity. Qed.

Lemma stays_sig : forall r r' flow, sig r = sig r' -> stays r flow -> stays r' flow.
Proof.
  unfold stays. intros r r' flow H S. destruct (sig_inv _ _ _ _ H) as (<- & <- & _). exact S.
Qed.

Lemma g_step_stays : forall flow items r rest act,
  stays r flow ->
  g_step flow items (mkG (r :: rest) true act) = Some (mkG (add_items items r :: rest) true act).
Proof.
  intros flow items r rest act S. unfold g_step. simpl. unfold stays in S. rewrite S. reflexivity.
Qed.

(* a step of an ignored flow never opens a rail; with only ignored actions it changes nothing *)
Lemma g_step_ce : forall flow st,
  mem flow ignored_flows = true ->
  (g_active st = true -> g_rails st <> []) ->
  g_step flow [SAct "create_event"] st = Some st.
Proof.
  intros flow [rails active act] Hig Hwf. unfold g_step. simpl in *.
  destruct active.
  - destruct rails as [|r rest]; [exfalso; apply Hwf; reflexivity|].
    destruct (String.eqb (ar_type r) "dialog" && negb (String.eqb (ar_name r) flow)).
    + rewrite Hig. reflexivity.
    + unfold on_head. simpl. destruct r; reflexivity.
  - rewrite Hig. reflexivity.
Qed.

Definition plain_event (ty : string) : Prop :=
  String.eqb ty ev_start_input_rail = false /\ String.eqb ty ev_start_output_rail = false /\
  String.eqb ty "StartInternalSystemAction" = false /\ String.eqb ty "InternalSystemActionFinished" = false /\
  mem ty ev_rail_finished = false.

Lemma g_event_plain : forall ty arg st, plain_event ty -> g_event ty arg st = Some st.
Proof.
  intros ty arg st (H1 & H2 & H3 & H4 & H5). unfold g_event. rewrite H1, H2, H3, H4, H5. reflexivity.
Qed.

Lemma g_event_start_action : forall a st,
  g_event "StartInternalSystemAction" a st =
  if mem a ignored_actions then Some st
  else if g_active st then Some (mkG (upd_nth 0 (add_action a) (g_rails st)) true (Some 0)) else None.
Proof. reflexivity. Qed.

Lemma g_event_action_finished : forall a st,
  g_event "InternalSystemActionFinished" a st =
  if mem a ignored_actions then Some st
  else match g_action st with Some _ => Some (mkG (g_rails st) (g_active st) None) | None => None end.
Proof. reflexivity. Qed.

Lemma add_llm_sig : forall t r, sig (add_llm t r) = sig r.
Proof. intros t r. unfold add_llm. destruct (ar_actions r); reflexivity. Qed.

Lemma llm_tail : forall tasks r rest,
  exists r', g_run (map PLlm tasks) (mkG (r :: rest) true (Some 0)) = Some (mkG (r' :: rest) true (Some 0))
             /\ sig r' = sig r.
Proof.
  induction tasks as [|t tasks IH]; intros r rest.
  - exists r. split; reflexivity.
  - cbn [map g_run g_entry g_llm g_action g_rails g_active upd_nth].
    destruct (IH (add_llm t r) rest) as (r' & Hrun & Hs).
    exists r'. split; [exact Hrun|]. rewrite Hs. apply add_llm_sig.
Qed.

(* the events of an action of the current rail: only an ignored action is without the cursor that
   LLM calls need *)
Lemma g_run_action_events : forall action tasks r rest,
  tasks = [] \/ mem action ignored_actions = false ->
  exists r', g_run (PEvent "StartInternalSystemAction" action :: map PLlm tasks
                    ++ [PEvent "InternalSystemActionFinished" action]) (mkG (r :: rest) true None)
             = Some (mkG (r' :: rest) true None) /\ sig r' = sig r.
Proof.
  intros action tasks r rest Hc. cbn [g_run g_entry]. rewrite g_event_start_action.
  destruct (mem action ignored_actions) eqn:Hig.
  - destruct Hc as [->|Hc]; [|discriminate].
    cbn [map app g_run g_entry]. rewrite g_event_action_finished, Hig. exists r. split; reflexivity.
  - cbn [g_active g_rails upd_nth]. rewrite g_run_app.
    destruct (llm_tail tasks (add_action action r) rest) as (r' & Hrun & Hs).
    rewrite Hrun. cbn [g_run g_entry]. rewrite g_event_action_finished, Hig.
    exists r'. split; [reflexivity|]. rewrite Hs. apply add_action_sig.
Qed.

Lemma g_run_action_stays : forall flow action r rest,
  stays r flow ->
  exists r', g_run [PStep flow [SAct action]; PEvent "StartInternalSystemAction" action;
                    PEvent "InternalSystemActionFinished" action] (mkG (r :: rest) true None)
             = Some (mkG (r' :: rest) true None) /\ sig r' = sig r.
Proof.
  intros flow action r rest S. cbn [g_run g_entry]. rewrite (g_step_stays flow _ r rest None S).
  destruct (g_run_action_events action [] (add_items [SAct action] r) rest (or_introl eq_refl)) as (r' & E & Hs).
  exists r'. split; [exact E|]. rewrite Hs. apply add_items_sig.
Qed.
