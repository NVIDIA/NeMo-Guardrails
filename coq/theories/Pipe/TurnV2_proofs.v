(* Pipe.TurnV2_proofs - the gates of the Colang 2.x guardrails model. *)
From Coq Require Import List String Bool Arith.
From NG Require Import Pipe.Rails Pipe.Rails_proofs Pipe.TurnV1_proofs Pipe.TurnV2.
Import ListNotations.
Open Scope list_scope.

Lemma no_rewrite_reject : forall v c r x, v c r x = Reject -> no_rewrite v c r x = Reject.
Proof. intros v c r x H. unfold no_rewrite. rewrite H. reflexivity. Qed.

Section V2.
  Variable fixd : bool.
  Variable vf : nat -> nat -> rail -> text -> verdict.
  Variable llm : nat -> nat -> prompt -> text.
  Variable value_of : text -> text.
  Variable refusal_in refusal_out : text.

  Notation bot_say := (bot_say fixd vf refusal_out).
  Notation after_input2 := (after_input2 fixd vf llm value_of refusal_in refusal_out).
  Notation turn_v2 := (turn_v2 fixd vf llm value_of refusal_in refusal_out).
  Notation conv_v2 := (conv_v2 fixd vf llm value_of refusal_in refusal_out).

  Definition block_tail2 (cf : cfg2) (r : rail) : list tev :=
    if exceptions2 cf then [TExc SOut r] else [TBot Predefined refusal_out; TEmit refusal_out].
  Definition block_reply2 (cf : cfg2) (r : rail) : reply :=
    if exceptions2 cf then RExc SOut r else RMsg [refusal_out].

  (* with the flag set, `_bot_say` utters WITHOUT consulting the output rails; with the flag
     clear, the message passes all output rails in order before it is uttered *)
  Lemma bot_say_spec :
    forall cf st c pv m st' tr c' rp,
      bot_say cf st c pv m = (st', tr, c', rp) ->
      tidx2 st' = tidx2 st /\
      if orip st then tr = [TBot pv m; TEmit m] /\ c' = c /\ rp = RMsg [m] /\ orip st' = true
      else exists trO res,
          run_rails (no_rewrite (vf (tidx2 st))) SOut (orails2 cf) c m = (trO, c', res) /\
          match res with
          | Passed _ => tr = TBot pv m :: trO ++ [TEmit m] /\ rp = RMsg [m] /\ orip st' = false
          | Blocked r _ => tr = TBot pv m :: trO ++ block_tail2 cf r /\ rp = block_reply2 cf r /\
                           orip st' = negb fixd
          end.
  Proof.
    intros cf st c pv m st' tr c' rp H. unfold TurnV2.bot_say in H. simpl in H.
    destruct (orip st) eqn:Ho; [injection H as <- <- <- <-; auto|].
    destruct (orails2 cf) as [|r0 rs] eqn:Hrs.
    - injection H as <- <- <- <-. split; [reflexivity|]. exists [], (Passed m). auto.
    - destruct (run_rails (no_rewrite (vf (tidx2 st))) SOut (r0 :: rs) c m) as [[trO cO] [m'|r x]] eqn:Hr.
      + injection H as <- <- <- <-. split; [reflexivity|]. exists trO, (Passed m'). auto.
      + unfold block_tail2, block_reply2.
        destruct (exceptions2 cf); injection H as <- <- <- <-;
          (split; [reflexivity|]); exists trO, (Blocked r x); auto.
  Qed.

  Lemma bot_say_state_independent :
    forall cf st1 st2 c pv m,
      orip st1 = false -> orip st2 = false -> tidx2 st1 = tidx2 st2 ->
      snd (fst (fst (bot_say cf st1 c pv m))) = snd (fst (fst (bot_say cf st2 c pv m))) /\
      snd (fst (bot_say cf st1 c pv m)) = snd (fst (bot_say cf st2 c pv m)) /\
      snd (bot_say cf st1 c pv m) = snd (bot_say cf st2 c pv m).
  Proof.
    intros cf st1 st2 c pv m H1 H2 Ht.
    destruct (bot_say cf st1 c pv m) as [[[s1 t1] c1] r1] eqn:E1.
    destruct (bot_say cf st2 c pv m) as [[[s2 t2] c2] r2] eqn:E2.
    apply bot_say_spec in E1, E2. rewrite H1 in E1. rewrite H2, <- Ht in E2.
    destruct E1 as (_ & trO & res & Hr & Hres), E2 as (_ & trO' & res' & Hr' & Hres').
    rewrite Hr in Hr'. injection Hr' as <- <- <-.
    destruct res; destruct Hres as (-> & -> & _), Hres' as (-> & -> & _); auto.
  Qed.

  Lemma bot_say_events :
    forall cf st c pv m st' tr c' rp,
      bot_say cf st c pv m = (st', tr, c', rp) ->
      Forall (fun e => is_in_rail e = false) tr /\ llm_calls tr = [].
  Proof.
    intros cf st c pv m st' tr c' rp H. apply bot_say_spec in H. destruct H as (_ & H).
    destruct (orip st); [destruct H as (-> & _); split; [repeat constructor|reflexivity]|].
    destruct H as (trO & res & Hr & Hres).
    apply run_rails_shape in Hr. destruct Hr as (calls & -> & _).
    assert (exists tl, tr = TBot pv m :: map (mk SOut) calls ++ tl /\
                       Forall (fun e => is_in_rail e = false) tl /\ llm_calls tl = []) as (tl & -> & Hf & Hl).
    { destruct res; destruct Hres as (-> & _); eexists; (split; [reflexivity|]);
        [|unfold block_tail2; destruct (exceptions2 cf)]; split; repeat constructor. }
    split.
    - constructor; [reflexivity|]. apply Forall_app. split; [apply Forall_map_mk; reflexivity|exact Hf].
    - simpl. autorewrite with rails_trace. exact Hl.
  Qed.

  (* a passed input is released, a value is asked from the LLM and said *)
  Lemma after_input2_passed :
    forall cf st1 c u t st' tr rp,
      after_input2 cf st1 c u (Passed t) = (st', tr, rp) ->
      exists p m st3 tr3 c3,
        bot_say cf (push_hist2 st1 (HUser u)) c FromLLM m = (st3, tr3, c3, rp) /\
        st' = bump2 st3 /\ tr = TUser u :: TLLM 0 p :: tr3.
  Proof.
    intros cf st1 c u t st' tr rp H. unfold TurnV2.after_input2 in H.
    destruct (bot_say cf _ c FromLLM _) as [[[st3 tr3] c3] rp3] eqn:Hb. injection H as <- <- <-.
    repeat eexists. exact Hb.
  Qed.

  (* a blocked input ends in the rail exception, or its refusal is said *)
  Lemma after_input2_blocked :
    forall cf st1 c u r x st' tr rp,
      after_input2 cf st1 c u (Blocked r x) = (st', tr, rp) ->
      (st' = bump2 st1 /\ tr = [TExc SIn r] /\ rp = RExc SIn r) \/
      exists st3 c3, bot_say cf st1 c Predefined refusal_in = (st3, tr, c3, rp) /\ st' = bump2 st3.
  Proof.
    intros cf st1 c u r x st' tr rp H. unfold TurnV2.after_input2 in H.
    destruct (exceptions2 cf); [injection H as <- <- <-; left; repeat split|].
    destruct (bot_say cf st1 c Predefined refusal_in) as [[[st3 tr3] c3] rp3] eqn:Hb.
    injection H as <- <- <-. right. exists st3, c3. split; reflexivity.
  Qed.

  Lemma after_input2_no_in_rail :
    forall cf st1 c u res st' tr rp,
      after_input2 cf st1 c u res = (st', tr, rp) -> Forall (fun e => is_in_rail e = false) tr.
  Proof.
    intros cf st1 c u res st' tr rp H. destruct res as [t|r x].
    - destruct (after_input2_passed _ _ _ _ _ _ _ _ H) as (p & m & st3 & tr3 & c3 & Hb & _ & ->).
      constructor; [reflexivity|]. constructor; [reflexivity|]. exact (proj1 (bot_say_events _ _ _ _ _ _ _ _ _ Hb)).
    - destruct (after_input2_blocked _ _ _ _ _ _ _ _ _ H) as [(_ & -> & _)|(st3 & c3 & Hb & _)].
      + repeat constructor.
      + exact (proj1 (bot_say_events _ _ _ _ _ _ _ _ _ Hb)).
  Qed.

  Lemma after_input2_tidx :
    forall cf st1 c u res st' tr rp,
      after_input2 cf st1 c u res = (st', tr, rp) -> tidx2 st' = S (tidx2 st1).
  Proof.
    intros cf st1 c u res st' tr rp H. destruct res as [t|r x].
    - destruct (after_input2_passed _ _ _ _ _ _ _ _ H) as (p & m & st3 & tr3 & c3 & Hb & -> & _).
      apply bot_say_spec in Hb. destruct Hb as (Ht & _). simpl. rewrite Ht. reflexivity.
    - destruct (after_input2_blocked _ _ _ _ _ _ _ _ _ H) as [(-> & _)|(st3 & c3 & Hb & ->)]; [reflexivity|].
      apply bot_say_spec in Hb. destruct Hb as (Ht & _). simpl. rewrite Ht. reflexivity.
  Qed.

  Lemma turn_v2_parts :
    forall cf st u,
    exists trI c res st1 tr2 rp,
      run_rails (no_rewrite (vf (tidx2 st))) SIn (irails2 cf) 0 u = (trI, c, res) /\
      after_input2 cf (set_um2 st u) c u res = (st1, tr2, rp) /\
      Forall (fun e => is_in_rail e = false) tr2 /\
      turn_v2 cf st u = (st1, trI ++ tr2, rp).
  Proof.
    intros cf st u. unfold TurnV2.turn_v2.
    destruct (run_rails (no_rewrite (vf (tidx2 st))) SIn (irails2 cf) 0 u) as [[trI c] res].
    destruct (after_input2 cf (set_um2 st u) c u res) as [[st1 tr2] rp] eqn:Ha.
    exists trI, c, res, st1, tr2, rp. repeat split; [exact Ha|].
    exact (after_input2_no_in_rail _ _ _ _ _ _ _ _ Ha).
  Qed.

  Lemma turn_v2_tidx : forall cf st u, tidx2 (fst (fst (turn_v2 cf st u))) = S (tidx2 st).
  Proof.
    intros cf st u.
    destruct (turn_v2_parts cf st u) as (trI & c & res & st1 & tr2 & rp & _ & Ha & _ & ->).
    exact (after_input2_tidx _ _ _ _ _ _ _ _ Ha).
  Qed.
End V2.

(* the flag invariant holds for the REPAIRED file (fixd = true) *)
Section V2fixed.
  Variable vf : nat -> nat -> rail -> text -> verdict.
  Variable llm : nat -> nat -> prompt -> text.
  Variable value_of : text -> text.
  Variable refusal_in refusal_out : text.

  Notation bot_say := (bot_say true vf refusal_out).
  Notation turn_v2 := (turn_v2 true vf llm value_of refusal_in refusal_out).
  Notation conv_v2 := (conv_v2 true vf llm value_of refusal_in refusal_out).

  Lemma bot_say_fixed_flag :
    forall cf st c pv m st' tr c' rp,
      orip st = false -> bot_say cf st c pv m = (st', tr, c', rp) -> orip st' = false.
  Proof.
    intros cf st c pv m st' tr c' rp Ho Hb.
    apply bot_say_spec in Hb. rewrite Ho in Hb. destruct Hb as (_ & trO & res & _ & Hres).
    destruct res; simpl in Hres; tauto.
  Qed.

  Lemma turn_v2_fixed_flag :
    forall cf st u, orip st = false -> orip (fst (fst (turn_v2 cf st u))) = false.
  Proof.
    intros cf st u Ho.
    destruct (turn_v2_parts true vf llm value_of refusal_in refusal_out cf st u)
      as (trI & c & res & st1 & tr2 & rp & _ & Ha & _ & ->).
    destruct res as [t|r x].
    - destruct (after_input2_passed _ _ _ _ _ _ _ _ _ _ _ _ _ _ Ha) as (p & m & st3 & tr3 & c3 & Hb & -> & _).
      apply bot_say_fixed_flag in Hb; [exact Hb|exact Ho].
    - destruct (after_input2_blocked _ _ _ _ _ _ _ _ _ _ _ _ _ _ _ Ha) as [(-> & _)|(st3 & c3 & Hb & ->)]; [exact Ho|].
      apply bot_say_fixed_flag in Hb; [exact Hb|exact Ho].
  Qed.

  Lemma conv_v2_fixed_flag :
    forall cf us st, orip st = false -> Forall (fun r => orip (fst (fst r)) = false) (conv_v2 cf st us).
  Proof.
    intros cf. apply (conv_invariant _ _ _ (fun st => orip st = false) _ (turn_v2 cf) (fun r => fst (fst r)));
      try reflexivity.
    intros st u Ho. split; apply turn_v2_fixed_flag; exact Ho.
  Qed.

  Inductive reachable2 (cf : cfg2) : pstate2 -> Prop :=
  | reach2_init : reachable2 cf init_state2
  | reach2_turn : forall st u, reachable2 cf st -> reachable2 cf (fst (fst (turn_v2 cf st u))).

  Lemma reachable2_flag : forall cf st, reachable2 cf st -> orip st = false.
  Proof. intros cf st H. induction H; [reflexivity|apply turn_v2_fixed_flag; assumption]. Qed.
End V2fixed.

(* the PRE-FIX file (fixd = false: guardrails.co without fixes/C02-output-rails-flag.patch) does
   not keep the invariant: after one blocked bot message the flag stays set and the next
   LLM-generated message is uttered without any output-rail call (DESIGN section 5, F3; the same
   conversation is replayed on the implementation by harness/c02.py) *)
Definition f3_vf (t c : nat) (r : rail) (x : text) : verdict := if Nat.eqb t 1 then Reject else Accept.

Lemma v2_flag_refuted :
  exists vf llm value_of refusal_in refusal_out cf us,
    map (fun r => (orip (fst (fst r)), n_rail_calls (snd (fst r)), snd r))
        (conv_v2 false vf llm value_of refusal_in refusal_out cf init_state2 us)
    = [(false, 1, RMsg ["m"%string]); (true, 1, RMsg [refusal_out]); (true, 0, RMsg ["m"%string])] /\
    orails2 cf <> [].
Proof.
  exists f3_vf, (fun _ _ _ => "m"%string), (fun o => o), "ri"%string, "ro"%string, (mkCfg2 [] [7] false),
         ["a"%string; "b"%string; "c"%string].
  split; [vm_compute; reflexivity|discriminate].
Qed.

Lemma v2_flag_repaired_witness :
  map (fun r => (orip (fst (fst r)), n_rail_calls (snd (fst r)), snd r))
      (conv_v2 true f3_vf (fun _ _ _ => "m"%string) (fun o => o) "ri"%string "ro"%string
               (mkCfg2 [] [7] false) init_state2 ["a"%string; "b"%string; "c"%string])
  = [(false, 1, RMsg ["m"%string]); (false, 1, RMsg ["ro"%string]); (false, 1, RMsg ["m"%string])].
Proof. vm_compute. reflexivity. Qed.
