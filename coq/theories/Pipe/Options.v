(* Pipe/Options.v - one `LLMRails.generate` call with generation options (Colang 1.0).

   Modelled code:
   * rails/llm/options.py: the `rails` option (dict form over the defaults, list form over the
     all-False base; both tables come from Gen/C16Consts.v);
   * rails/llm/llmrails.py::generate_async: `$generation_options` context message and the
     injection of a trailing assistant message into `$bot_message` when dialog rails are off;
   * rails/llm/llm_flows.co: the guards of `process user input`, `run dialog rails`,
     `generate bot message`, `process bot message`, the `run input/output/retrieval rails`
     loops, written as the sequence of processing-log entries (steps decided by which flow,
     events, LLM calls) that the v1 runtime produces for them;
   * rails of the self-check shape (`$allowed = execute a(text=...)`, `if not $allowed: bot refuse
     to respond; stop`), whose action may also rewrite the checked text (context update).
   External behaviour = Section variables: the verdict of every rail action, the LLM text. *)
From Coq Require Import String List Bool Arith.
From NG Require Import Gen.C16Consts Pipe.GenLog.
Import ListNotations.
Open Scope string_scope.

Inductive verdict := Accept | Reject | Rewrite (t : string).

Record rail := mkRail { r_flow : string; r_action : string }.

(* how dialog rails produce the bot message *)
Inductive dmode :=
| General                      (* no user messages defined: generate_user_intent makes the `general` LLM call *)
| Flows (predefined : bool).   (* intent -> flow -> bot intent; message predefined or LLM generated *)

Record cfg := mkCfg { c_in : list rail; c_out : list rail; c_ret : list rail; c_dmode : dmode;
                      c_flow : string; c_bot_intent : string }.

Record ropts := mkO { o_input : bool; o_dialog : bool; o_retrieval : bool; o_output : bool }.

(* options.py *)
Fixpoint lookup (k : string) (l : list (string * bool)) (d : bool) : bool :=
  match l with [] => d | (k', v) :: r => if String.eqb k k' then v else lookup k r d end.

Definition ropts_of_table (t : list (string * bool)) : ropts :=
  mkO (lookup "input" t false) (lookup "dialog" t false) (lookup "retrieval" t false) (lookup "output" t false).

Inductive rails_spec :=
| RAbsent                                   (* `rails` key not given: GenerationRailsOptions() *)
| RList (names : list string)               (* "rails": ["input", ...] *)
| RDict (kvs : list (string * bool)).       (* "rails": {"input": False, ...} *)

Definition parse_rails (s : rails_spec) : ropts :=
  match s with
  | RAbsent => ropts_of_table rails_option_defaults
  | RList names => ropts_of_table (map (fun n => (n, true)) names ++ rails_list_form_base)
  | RDict kvs => ropts_of_table (kvs ++ rails_option_defaults)
  end.

(* generate_async: what reaches the context *)
(* g = None : generate called without options ($generation_options is None) *)
Definition input_enabled (g : option ropts) := match g with None => true | Some o => o_input o end.
Definition retrieval_enabled (g : option ropts) := match g with None => true | Some o => o_retrieval o end.
Definition output_enabled (g : option ropts) := match g with None => true | Some o => o_output o end.
(* `if $generation_options and $generation_options.rails.dialog == False` *)
Definition dialog_disabled (g : option ropts) := match g with None => false | Some o => negb (o_dialog o) end.
(* `if $generation_options.rails.output == False` (only reached when dialog is disabled) *)
Definition output_off (g : option ropts) := match g with None => false | Some o => negb (o_output o) end.

(* the trailing assistant message is moved to $bot_message only when options are given and
   dialog rails are disabled *)
Definition injected_bot (g : option ropts) (bot : option string) : option string :=
  if dialog_disabled g then bot else None.

(* rows of the documented table *)
Definition in_table (o : ropts) (bot : option string) : Prop :=
  (o_dialog o = true -> bot = None) /\
  (o_dialog o = false -> o_output o = true -> bot <> None).

Inductive category := CIn | COut | CRet.
Record call := mkCall { k_cat : category; k_idx : nat; k_action : string; k_text : string }.

Inductive reply :=
| RText (s : string)
| RUndefBot.   (* BotMessage(text=None): outside the documented table (see DESIGN C16) *)

Record outcome := mkOut {
  plog : list pentry;                  (* processing log, timing-free *)
  calls : list call;                   (* rail action invocations, in order *)
  llm : list string;                   (* tasks of the LLM calls, in order *)
  ran : list (string * string);        (* (type, name) of the rails that ran, in order *)
  blocked : option string;             (* flow of the rail that blocked *)
  answer : reply }.

Definition ce (flow ty arg : string) : list pentry :=
  [PStep flow [SAct "create_event"];
   PEvent "StartInternalSystemAction" "create_event";
   PEvent "InternalSystemActionFinished" "create_event";
   PEvent ty arg].

Definition act_seg (flow action : string) (tasks : list string) : list pentry :=
  [PStep flow [SAct action]; PEvent "StartInternalSystemAction" action]
  ++ map PLlm tasks ++ [PEvent "InternalSystemActionFinished" action].

Inductive kind := KIn | KOut.
Definition loop_flow (K : kind) := match K with KIn => "run input rails" | KOut => "run output rails" end.
Definition start_ev (K : kind) := match K with KIn => "StartInputRail" | KOut => "StartOutputRail" end.
Definition fin_ev (K : kind) := match K with KIn => "InputRailFinished" | KOut => "OutputRailFinished" end.
Definition ktype (K : kind) := match K with KIn => "input" | KOut => "output" end.
Definition kcat (K : kind) := match K with KIn => CIn | KOut => COut end.

Inductive rres := Passed (t : string) | Blocked (flow : string).

Record seg := mkSeg { s_log : list pentry; s_calls : list call; s_ran : list (string * string); s_res : rres }.

Section Turn.
  Variables (iv ov : nat -> string -> verdict).
  Variables (llm_text refusal predefined_text : string).
  Variable (c : cfg).
  Variable (g : option ropts).

  Definition rail_pre (K : kind) (r : rail) : list pentry :=
    ce (loop_flow K) (start_ev K) (r_flow r) ++ act_seg (r_flow r) (r_action r) [].

  Fixpoint run_rails (K : kind) (vf : nat -> string -> verdict) (k : nat) (rs : list rail) (t : string) : seg :=
    match rs with
    | [] => mkSeg [] [] [] (Passed t)
    | r :: rest =>
      let cl := mkCall (kcat K) k (r_action r) t in
      let continue (t' : string) :=
          let s := run_rails K vf (S k) rest t' in
          mkSeg (rail_pre K r ++ ce (loop_flow K) (fin_ev K) (r_flow r) ++ s_log s)
                (cl :: s_calls s) ((ktype K, r_flow r) :: s_ran s) (s_res s) in
      match vf k t with
      | Reject => mkSeg (rail_pre K r) [cl] [(ktype K, r_flow r)] (Blocked (r_flow r))
      | Accept => continue t
      | Rewrite t' => continue t'
      end
    end.

  Definition ret_active : bool := negb (match c_ret c with [] => true | _ => false end) && retrieval_enabled g.
  Definition in_active : bool := negb (match c_in c with [] => true | _ => false end) && input_enabled g.
  Definition out_active : bool := negb (match c_out c with [] => true | _ => false end) && output_enabled g.

  Fixpoint ret_calls (k : nat) (rs : list rail) : list call :=
    match rs with [] => [] | r :: rest => mkCall CRet k (r_action r) "" :: ret_calls (S k) rest end.

  Definition ret_seg : list pentry :=
    if ret_active then flat_map (fun r => act_seg (r_flow r) (r_action r) []) (c_ret c) else [].
  Definition ret_cl : list call := if ret_active then ret_calls 0 (c_ret c) else [].

  (* flow `generate bot message` *)
  Definition genbot_seg (uses_llm : bool) : list pentry :=
    act_seg "generate bot message" "retrieve_relevant_chunks" [] ++ ret_seg
    ++ act_seg "generate bot message" "generate_bot_message" (if uses_llm then ["generate_bot_message"] else [])
    ++ [PEvent "BotMessage" ""].

  (* `bot refuse to respond` + `stop` inside rail flow f.  With retrieval rails running inside
     `generate bot message` the rail flow is left ABORTED by the v1 interpreter and its `stop`
     is never reached (observed; validated by the correspondence). *)
  Definition refusal_seg (f : string) : list pentry :=
    [PStep f [SIntent "refuse to respond"]; PEvent "BotIntent" ""]
    ++ genbot_seg false
    ++ ce "process bot message" "StartUtteranceBotAction" ""
    ++ (if ret_active then [] else [PStep f [SIntent "stop"]; PEvent "BotIntent" ""])
    ++ [PEvent "Listen" ""].

  Definition utter : list pentry := ce "process bot message" "StartUtteranceBotAction" "" ++ [PEvent "Listen" ""].

  (* flow `process bot message` on BotMessage(text=b); skip = $skip_output_rails *)
  Definition output_phase (b : string) (skip : bool) : outcome :=
    if skip then mkOut utter [] [] [] None (RText b)
    else if out_active then
      let s := run_rails KOut ov 0 (c_out c) b in
      match s_res s with
      | Passed b' =>
        mkOut (ce "process bot message" "StartOutputRails" "" ++ s_log s
               ++ ce "process bot message" "OutputRailsFinished" "" ++ utter)
              (s_calls s) [] (s_ran s) None (RText b')
      | Blocked f =>
        mkOut (ce "process bot message" "StartOutputRails" "" ++ s_log s ++ refusal_seg f)
              (s_calls s ++ ret_cl) [] (s_ran s) (Some f) (RText refusal)
      end
    else mkOut utter [] [] [] None (RText b).

  Definition prepend (l : list pentry) (cs : list call) (ts : list string) (rn : list (string * string)) (o : outcome) : outcome :=
    mkOut (l ++ plog o) (cs ++ calls o) (ts ++ llm o) (rn ++ ran o) (blocked o) (answer o).

  (* after UserMessage(text=t) *)
  Definition dialog_phase (t : string) (bot : option string) : outcome :=
    if dialog_disabled g then
      if output_off g then
        mkOut (ce "run dialog rails" "StartUtteranceBotAction" "" ++ [PEvent "Listen" ""]) [] [] [] None (RText t)
      else
        match bot with
        | None => mkOut (ce "run dialog rails" "BotMessage" "") [] [] [] None RUndefBot
        | Some b => prepend (ce "run dialog rails" "BotMessage" "") [] [] [] (output_phase b false)
        end
    else
      match c_dmode c with
      | General =>
        prepend (act_seg "generate user intent" "generate_user_intent" ["general"] ++ [PEvent "BotMessage" ""])
                [] ["general"] [("generation", "generate user intent")]
                (output_phase llm_text false)
      | Flows predefined =>
        prepend (act_seg "generate user intent" "generate_user_intent" ["generate_user_intent"]
                 ++ [PEvent "UserIntent" ""; PStep (c_flow c) [SIntent (c_bot_intent c)]; PEvent "BotIntent" ""]
                 ++ genbot_seg (negb predefined))
                ret_cl
                ("generate_user_intent" :: if predefined then [] else ["generate_bot_message"])
                [("dialog", "generate user intent"); ("dialog", c_flow c); ("generation", "generate bot message")]
                (output_phase (if predefined then predefined_text else llm_text) predefined)
      end.

  (* flow `process user input` on UtteranceUserActionFinished(final_transcript=user) *)
  Definition turn (user : string) (bot_msg : option string) : outcome :=
    let bot := injected_bot g bot_msg in
    let first := [PEvent "UtteranceUserActionFinished" ""] in
    if in_active then
      let s := run_rails KIn iv 0 (c_in c) user in
      match s_res s with
      | Passed t =>
        prepend (first ++ ce "process user input" "StartInputRails" "" ++ s_log s
                 ++ ce "process user input" "InputRailsFinished" ""
                 ++ ce "process user input" "UserMessage" "")
                (s_calls s) [] (s_ran s) (dialog_phase t bot)
      | Blocked f =>
        mkOut (first ++ ce "process user input" "StartInputRails" "" ++ s_log s ++ refusal_seg f)
              (s_calls s ++ ret_cl) [] (s_ran s) (Some f) (RText refusal)
      end
    else prepend (first ++ ce "process user input" "UserMessage" "") [] [] [] (dialog_phase user bot).
End Turn.

Definition ex_cfg := mkCfg [mkRail "in0" "in_rail_0"; mkRail "in1" "in_rail_1"] [mkRail "out0" "out_rail_0"]
                           [mkRail "ret0" "ret_rail_0"] (Flows false) "greet" "express greeting".
Definition ex_iv (k : nat) (t : string) := match k with 0 => Rewrite "masked" | _ => Accept end.
Definition ex_ov (k : nat) (t : string) := Reject.

Example parse_list : parse_rails (RList ["input"; "output"]) = mkO true false false true.
Proof. reflexivity. Qed.
Example parse_default : parse_rails RAbsent = mkO true true true true.
Proof. reflexivity. Qed.
Example parse_dict : parse_rails (RDict [("dialog", false)]) = mkO true false true true.
Proof. reflexivity. Qed.

Example input_only_rewrite :
  let r := turn ex_iv ex_ov "LLM" "REFUSED" "PRE" ex_cfg (Some (parse_rails (RList ["input"]))) "hello" None in
  answer r = RText "masked" /\ llm r = [] /\ List.length (calls r) = 2 /\ ran r = [("input", "in0"); ("input", "in1")].
Proof. vm_compute. repeat split. Qed.

Example io_block :
  let r := turn ex_iv ex_ov "LLM" "REFUSED" "PRE" ex_cfg (Some (parse_rails (RList ["input"; "output"]))) "hello" (Some "bot text") in
  answer r = RText "REFUSED" /\ llm r = [] /\ blocked r = Some "out0"
  /\ option_map (map (fun a => (ar_type a, ar_name a, ar_stop a))) (gen_log (plog r))
     = Some [("input", "in0", false); ("input", "in1", false); ("output", "out0", true)].
Proof. vm_compute. repeat split. Qed.

Example all_rails_general_log :
  let r := turn (fun _ _ => Accept) (fun _ _ => Accept) "LLM" "REFUSED" "PRE"
                (mkCfg [mkRail "in0" "a"] [mkRail "out0" "b"] [] General "greet" "x") None "hello" None in
  answer r = RText "LLM" /\
  option_map (map (fun a => (ar_type a, ar_name a))) (gen_log (plog r))
  = Some [("input", "in0"); ("generation", "generate user intent"); ("output", "out0")].
Proof. vm_compute. repeat split. Qed.
