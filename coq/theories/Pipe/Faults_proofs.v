(* Pipe/Faults_proofs.v - containment, fail-closed and no-poison theorems of Pipe/Faults.v.

   Both machines consult their rails in order and stop at the first one that does not accept
   (`first_fault`).  For each machine ONE turn is specified by where that first fault falls
   (Colang 1.0: `turn_v1_spec` and `spec_turn_cases`, Colang 2.x: `turn_v2_spec`); the theorems
   about conversations are inductions on the number of turns over these. *)
From Coq Require Import String List Bool Arith Lia.
From NG Require Import Gen.C03Consts Pipe.Faults.
Import ListNotations.
Open Scope string_scope.
Open Scope list_scope.

Definition actual (rh : list hev) : option (list hev) := actual_rev (rev rh) [].

Definition step_hist (e : hev) (a : list hev) : option (list hev) :=
  match e with HHide => drop_turn a | _ => Some (e :: a) end.

Lemma actual_rev_app : forall l e acc,
  actual_rev (l ++ [e]) acc = match actual_rev l acc with Some a => step_hist e a | None => None end.
Proof.
  induction l as [|x l IH]; intros e acc.
  - destruct e; cbn; try reflexivity. destruct (drop_turn acc); reflexivity.
  - cbn [app actual_rev].
    destruct x; try apply IH.
    destruct (drop_turn acc); [apply IH|reflexivity].
Qed.

Lemma actual_push : forall e rh,
  actual (e :: rh) = match actual rh with Some a => step_hist e a | None => None end.
Proof. intros e rh. unfold actual. cbn [rev]. apply actual_rev_app. Qed.

Lemma flow_ctx_actual : forall rh, flow_ctx rh = option_map ctx_of_rev (actual rh).
Proof. reflexivity. Qed.

Fixpoint no_user (l : list hev) : Prop :=
  match l with [] => True | HUser :: _ => False | _ :: r => no_user r end.

Lemma drop_turn_frame : forall evs a0, no_user evs -> drop_turn (evs ++ HUser :: a0) = Some a0.
Proof.
  induction evs as [|e evs IH]; intros a0 H; [reflexivity|].
  destruct e; cbn in *; try contradiction; apply IH; exact H.
Qed.

Lemma ctx_of_rev_other : forall l, ctx_of_rev (HOther :: l) = ctx_of_rev l.
Proof. reflexivity. Qed.
Lemma ctx_of_rev_user : forall l, ctx_of_rev (HUser :: l) = ctx_of_rev l.
Proof. reflexivity. Qed.

Lemma opt_bool_eqb_eq : forall a b, opt_bool_eqb a b = true -> a = b.
Proof. intros [[|]|] [[|]|] H; try reflexivity; discriminate. Qed.

(* what the flow finds in $allowed / as return value: a raise is Python's None *)
Definition verdict (o : outcome) : option bool :=
  match o with OAccept => Some true | OReject => Some false | ORaise => None end.

(* a site that is not a rail matters only through whether it raises *)
Lemma match_raise : forall A (o : outcome) (x y : A),
  match o with ORaise => x | _ => y end = match verdict o with None => x | Some _ => y end.
Proof. intros A [| |] x y; reflexivity. Qed.

Lemma runtime_result_returns : forall status o, runtime_result status (execute_action false o) <> AEscapes.
Proof.
  intros status [| |]; cbn [execute_action runtime_result]; try discriminate.
  destruct (String.eqb dispatch_failed_status status); discriminate.
Qed.

(* rails k .. k+n-1 are consulted in order; the first one that does not accept decides *)
Section FirstFault.
  Variable a : nat -> outcome.

  Fixpoint first_fault (k n : nat) : option nat :=
    match n with
    | O => None
    | S n' => match a k with OAccept => first_fault (S k) n' | _ => Some k end
    end.

  Lemma first_fault_spec : forall n k,
    match first_fault k n with
    | None => forall j, k <= j < k + n -> a j = OAccept
    | Some j => k <= j < k + n /\ (forall i, k <= i < j -> a i = OAccept) /\ a j <> OAccept
    end.
  Proof.
    induction n as [|n IH]; intros k; cbn [first_fault]; [intros j Hj; lia|].
    destruct (a k) eqn:E.
    2, 3: split; [lia|]; split; [intros i Hi; lia|congruence].
    specialize (IH (S k)). destruct (first_fault (S k) n) as [j|].
    - destruct IH as (Hj & Hpre & Hf). split; [lia|]. split; [|exact Hf].
      intros i Hi. destruct (Nat.eq_dec i k) as [->|Hne]; [exact E|apply Hpre; lia].
    - intros j Hj. destruct (Nat.eq_dec j k) as [->|Hne]; [exact E|apply IH; lia].
  Qed.

  Lemma first_fault_None : forall n, first_fault 0 n = None -> forall j, j < n -> a j = OAccept.
  Proof. intros n H j Hj. pose proof (first_fault_spec n 0) as Hs. rewrite H in Hs. apply Hs. lia. Qed.

  Lemma first_fault_intro : forall n k j,
    k <= j < k + n -> (forall i, k <= i < j -> a i = OAccept) -> a j <> OAccept -> first_fault k n = Some j.
  Proof.
    intros n k j Hj Hpre Hf. pose proof (first_fault_spec n k) as H.
    destruct (first_fault k n) as [j'|]; [|contradiction (Hf (H j Hj))].
    destruct H as (Hj' & Hpre' & Hf').
    destruct (Nat.lt_trichotomy j' j) as [Hlt|[->|Hgt]]; [|reflexivity|].
    - contradiction Hf'. apply Hpre. lia.
    - contradiction Hf. apply Hpre'. lia.
  Qed.
End FirstFault.

Definition ie_reply : tres := TReply ie_utterances.

Definition calls_t := list (site * option string).

Definition obs_of (x : tres * calls_t * nat) : obs := mkObs (fst (fst x)) (snd (fst x)) (snd x).

Section Spec.
  Variable (sc : script).
  Variables (user_text llm_text : nat -> string) (refusal : string).
  Variable (cfg : vcfg).
  Variable (t : nat).

  Definition spec_ret (calls : calls_t) (occ : nat) : bool * calls_t * nat :=
    if has_ret cfg
    then (match sc t SRet occ with ORaise => true | _ => false end, calls ++ [(SRet, None)], S occ)
    else (false, calls, occ).

  Definition spec_refuse (calls : calls_t) (occ : nat) : tres * calls_t :=
    let '(raised, calls, _) := spec_ret calls occ in
    if raised then (ie_reply, calls) else (TReply [refusal], calls).

  Fixpoint spec_rails (mk : nat -> site) (k n : nat) (text : string) (calls : calls_t) (occ : nat)
           (cont : calls_t -> tres * calls_t * nat) (nllm : nat) : tres * calls_t * nat :=
    match n with
    | O => cont calls
    | S n' =>
      let calls := calls ++ [(mk k, Some text)] in
      match sc t (mk k) 0 with
      | ORaise => (ie_reply, calls, nllm)
      | OReject => let '(r, c) := spec_refuse calls occ in (r, c, nllm)
      | OAccept => spec_rails mk (S k) n' text calls occ cont nllm
      end
    end.

  Definition spec_dialog (calls : calls_t) : tres * calls_t * nat :=
    let calls := calls ++ [(SDialog, None)] in
    match sc t SDialog 0 with
    | ORaise => (ie_reply, calls, 1)
    | _ =>
      let '(raised, calls, occ) := spec_ret calls 0 in
      if raised then (ie_reply, calls, 1)
      else spec_rails SOut 0 (n_out cfg) (llm_text t) calls occ (fun calls => (TReply [llm_text t], calls, 2)) 2
    end.

  Definition spec_turn : tres * calls_t * nat :=
    spec_rails SIn 0 (n_in cfg) (user_text t) [] 0 spec_dialog 0.

  (* the two replies of a turn that does not let the LLM text through *)
  Definition blocked (r : tres) : Prop := r = ie_reply \/ r = TReply [refusal].

  Lemma spec_refuse_blocked : forall calls occ, blocked (fst (spec_refuse calls occ)).
  Proof.
    intros calls occ. unfold spec_refuse, spec_ret, blocked.
    destruct (has_ret cfg); [destruct (sc t SRet occ)|]; cbn; auto.
  Qed.

  (* one category of rails: either every rail accepted and the continuation runs, or the first rail
     that did not accept decides: a raise gives the internal-error message, a rejection the refusal
     (or the internal-error message if the retrieval action raises while the refusal is produced) *)
  Lemma spec_rails_cases : forall mk text cont nllm n k calls occ,
    match first_fault (fun j => sc t (mk j) 0) k n with
    | None => exists calls', spec_rails mk k n text calls occ cont nllm = cont calls'
    | Some j => blocked (fst (fst (spec_rails mk k n text calls occ cont nllm))) /\
                (sc t (mk j) 0 = ORaise -> fst (fst (spec_rails mk k n text calls occ cont nllm)) = ie_reply)
    end.
  Proof.
    intros mk text cont nllm. induction n as [|n IH]; intros k calls occ; cbn [spec_rails first_fault];
      [eexists; reflexivity|].
    destruct (sc t (mk k) 0) eqn:E; [apply IH| |].
    - split; [|rewrite E; discriminate].
      pose proof (spec_refuse_blocked (calls ++ [(mk k, Some text)]) occ) as H.
      destruct (spec_refuse (calls ++ [(mk k, Some text)]) occ) as [r c]. exact H.
    - split; [left|]; reflexivity.
  Qed.

  Lemma spec_turn_cases :
    match first_fault (fun j => sc t (SIn j) 0) 0 (n_in cfg) with
    | Some j => blocked (fst (fst spec_turn)) /\ (sc t (SIn j) 0 = ORaise -> fst (fst spec_turn) = ie_reply)
    | None => blocked (fst (fst spec_turn)) \/
              (fst (fst spec_turn) = TReply [llm_text t] /\
               first_fault (fun j => sc t (SOut j) 0) 0 (n_out cfg) = None)
    end.
  Proof.
    unfold spec_turn.
    pose proof (spec_rails_cases SIn (user_text t) spec_dialog 0 (n_in cfg) 0 [] 0) as H.
    destruct (first_fault _ 0 (n_in cfg)); [exact H|]. destruct H as (c & ->). unfold spec_dialog.
    rewrite match_raise. destruct (verdict (sc t SDialog 0)); [|left; left; reflexivity].
    destruct (spec_ret (c ++ [(SDialog, None)]) 0) as [[[|] calls] occ]; [left; left; reflexivity|].
    pose proof (spec_rails_cases SOut (llm_text t) (fun calls => (TReply [llm_text t], calls, 2)) 2
                                 (n_out cfg) 0 calls occ) as H.
    destruct (first_fault _ 0 (n_out cfg)); [left; apply H|].
    destruct H as (c2 & ->). right. split; reflexivity.
  Qed.

  Lemma spec_turn_reply :
    fst (fst spec_turn) = ie_reply \/ fst (fst spec_turn) = TReply [refusal] \/ fst (fst spec_turn) = TReply [llm_text t].
  Proof.
    pose proof spec_turn_cases as H. unfold blocked in H.
    destruct (first_fault _ 0 (n_in cfg)); tauto.
  Qed.

  Lemma spec_turn_is_reply : exists us, fst (fst spec_turn) = TReply us.
  Proof. destruct spec_turn_reply as [ -> | [ -> | -> ] ]; eexists; reflexivity. Qed.

  (* fail closed: the LLM text is the reply only if every input rail and every output rail was
     consulted and accepted (and nothing else raised) *)
  Theorem spec_turn_llm_only_if_all_accept :
    TReply [llm_text t] <> ie_reply -> llm_text t <> refusal ->
    fst (fst spec_turn) = TReply [llm_text t] ->
    (forall k, k < n_in cfg -> sc t (SIn k) 0 = OAccept) /\ (forall k, k < n_out cfg -> sc t (SOut k) 0 = OAccept).
  Proof.
    intros Hne1 Hne2 H.
    assert (Hnb : ~ blocked (fst (fst spec_turn))).
    { rewrite H. intros [X|X]; [contradiction|]. inversion X. contradiction. }
    pose proof spec_turn_cases as Hc.
    destruct (first_fault _ 0 (n_in cfg)) eqn:Ein; [contradiction (Hnb (proj1 Hc))|].
    destruct Hc as [Hc|(_ & Eout)]; [contradiction|].
    split; apply first_fault_None; assumption.
  Qed.

  Theorem spec_turn_input_rail_raises : forall k,
    k < n_in cfg -> (forall i, i < k -> sc t (SIn i) 0 = OAccept) -> sc t (SIn k) 0 = ORaise ->
    fst (fst spec_turn) = ie_reply.
  Proof.
    intros k Hk Hpre Hr. pose proof spec_turn_cases as H.
    rewrite (first_fault_intro (fun j => sc t (SIn j) 0) (n_in cfg) 0 k) in H;
      [apply H; exact Hr|lia|intros i Hi; apply Hpre; lia|rewrite Hr; discriminate].
  Qed.
End Spec.

(* the gate invariant at a turn boundary: the flows' history exists and $skip_output_rails is off *)
Definition inv (rh : list hev) : Prop :=
  exists a, actual rh = Some a /\ c_skip (ctx_of_rev a) = false.

Lemma inv_nil : inv [].
Proof. exists []. split; reflexivity. Qed.

Section V1P.
  Variable (sc : script).
  Variables (user_text llm_text : nat -> string) (refusal : string).
  Variable (cfg : vcfg).
  Variable (t : nat).

  Hypothesis H_status : String.eqb dispatch_failed_status v1_failed_status_test = true.
  Hypothesis H_hide : ie_has_hide = true.

  (* the flows' history a0 at the start of the turn *)
  Variable a0 : list hev.
  Hypothesis H_a0 : c_skip (ctx_of_rev a0) = false.

  Notation call_action := (call_action false true sc t).
  Notation retrieval := (retrieval false true sc cfg t).
  Notation refuse := (refuse false true sc refusal cfg t).
  Notation run_rails := (run_rails false true sc refusal cfg t).

  (* inside the turn: the flows see the history a0, the user utterance and events of this turn *)
  Definition good (rh : list hev) : Prop :=
    exists evs, actual rh = Some (evs ++ HUser :: a0) /\ no_user evs /\
                c_skip (ctx_of_rev (evs ++ HUser :: a0)) = false.

  Lemma good_inv : forall rh, good rh -> inv rh.
  Proof. intros rh (evs & Ha & _ & Hs). eexists. split; [exact Ha|exact Hs]. Qed.

  Lemma good_push : forall e rh,
    good rh -> match e with HOther | HAllowed _ => True | _ => False end -> good (e :: rh).
  Proof.
    intros e rh (evs & Ha & Hn & Hs) He. exists (e :: evs). rewrite actual_push, Ha.
    destruct e; try contradiction; repeat split; assumption.
  Qed.

  Lemma good_hide : forall rh, good rh -> actual (HHide :: HOther :: rh) = Some a0.
  Proof.
    intros rh (evs & Ha & Hn & _). rewrite !actual_push, Ha.
    exact (drop_turn_frame (HOther :: evs) a0 Hn).
  Qed.

  Lemma action_ctx_good : forall rh evs,
    actual rh = Some (evs ++ HUser :: a0) -> action_ctx true rh = Some (ctx_of_rev (evs ++ HUser :: a0)).
  Proof. intros rh evs Ha. unfold action_ctx. rewrite flow_ctx_actual, Ha. reflexivity. Qed.

  (* what the flows read in $allowed *)
  Definition allowed_of (rh : list hev) : option (option bool) := option_map c_allowed (flow_ctx rh).

  Lemma allowed_of_other : forall rh v, allowed_of rh = Some v -> allowed_of (HOther :: rh) = Some v.
  Proof.
    intros rh v. unfold allowed_of. rewrite !flow_ctx_actual, actual_push.
    destruct (actual rh); [intros H; exact H|discriminate].
  Qed.

  Lemma flow_allows_after : forall rh calls l ro v,
    allowed_of rh = Some v -> flow_allows (mkT rh calls l ro) = Some (allows v).
  Proof.
    intros rh calls l ro v H. unfold flow_allows, allowed_of in *. cbn [t_rh].
    destruct (flow_ctx rh) as [c|]; [|discriminate]. inversion H. reflexivity.
  Qed.

  Lemma emit_allowed_good : forall v rh calls l ro,
    good rh ->
    exists rh', emit_allowed true v (mkT rh calls l ro) = Some (mkT rh' calls l ro) /\
                good rh' /\ allowed_of rh' = Some v.
  Proof.
    intros v rh calls l ro Hg. pose proof Hg as (evs & Ha & _).
    unfold emit_allowed. cbn [t_rh]. rewrite (action_ctx_good rh evs Ha).
    destruct (v1_context_update_only_on_change && opt_bool_eqb (c_allowed (ctx_of_rev (evs ++ HUser :: a0))) v) eqn:E.
    - exists rh. split; [reflexivity|]. split; [exact Hg|].
      apply andb_true_iff in E. destruct E as [_ E]. apply opt_bool_eqb_eq in E.
      unfold allowed_of. rewrite flow_ctx_actual, Ha, <- E. reflexivity.
    - exists (HAllowed v :: rh). split; [reflexivity|]. split; [apply good_push; [exact Hg|exact I]|].
      unfold allowed_of. rewrite flow_ctx_actual, actual_push, Ha. reflexivity.
  Qed.

  Lemma runtime_result_spec : forall o,
    runtime_result v1_failed_status_test (execute_action false o) =
    match verdict o with Some b => AValue (Some b) | None => AInternalError end.
  Proof. intros o. destruct o; cbn [execute_action runtime_result verdict]; [reflexivity|reflexivity|rewrite H_status; reflexivity]. Qed.

  Lemma call_action_spec : forall st occ text keyed rh calls l ro,
    good rh ->
    match verdict (sc t st occ) with
    | Some b => exists rh', call_action st occ text keyed (mkT rh calls l ro)
                            = Continue (Some b) (mkT rh' (calls ++ [(st, text)]) l ro) /\
                            good rh' /\ (keyed = true -> allowed_of rh' = Some (Some b))
    | None => exists rh', call_action st occ text keyed (mkT rh calls l ro)
                          = Finished ie_reply (mkT rh' (calls ++ [(st, text)]) l ro) /\
                          actual rh' = Some a0
    end.
  Proof.
    intros st occ text keyed rh calls l ro Hg.
    unfold Faults.call_action. rewrite runtime_result_spec. cbn [t_rh t_calls t_llm t_ret_occ].
    destruct (verdict (sc t st occ)) as [b|].
    - destruct keyed.
      + destruct (emit_allowed_good (Some b) rh (calls ++ [(st, text)]) l ro Hg) as (rh' & -> & Hg' & Hv).
        exists (HOther :: rh'). split; [reflexivity|]. split; [apply good_push; [exact Hg'|exact I]|].
        intros _. apply allowed_of_other. exact Hv.
      + exists (HOther :: rh). split; [reflexivity|]. split; [apply good_push; [exact Hg|exact I]|discriminate].
    - rewrite H_hide. destruct keyed.
      + destruct (emit_allowed_good None rh (calls ++ [(st, text)]) l ro Hg) as (rh' & -> & Hg' & _).
        exists (HHide :: HOther :: rh'). split; [reflexivity|apply good_hide; exact Hg'].
      + exists (HHide :: HOther :: rh). split; [reflexivity|apply good_hide; exact Hg].
  Qed.

  Lemma retrieval_spec : forall rh calls l ro,
    good rh ->
    let '(raised, calls', ro') := spec_ret sc cfg t calls ro in
    if raised
    then exists rh', retrieval (mkT rh calls l ro) = Finished ie_reply (mkT rh' calls' l ro) /\
                     actual rh' = Some a0
    else exists v rh', retrieval (mkT rh calls l ro) = Continue v (mkT rh' calls' l ro') /\ good rh'.
  Proof.
    intros rh calls l ro Hg. unfold spec_ret, Faults.retrieval.
    destruct (has_ret cfg); [|exists None, rh; split; [reflexivity|exact Hg]].
    cbn [t_ret_occ]. pose proof (call_action_spec SRet ro None false rh calls l ro Hg) as H.
    destruct (sc t SRet ro); cbn [verdict] in H; destruct H as (rh' & -> & H).
    1, 2: eexists; exists rh'; split; [reflexivity|apply H].
    exists rh'. split; [reflexivity|exact H].
  Qed.

  (* what a finished (part of a) turn leaves behind: the specified reply, calls and number of LLM
     calls, and a history at a turn boundary *)
  Definition refines (x : tres * tstate) (y : tres * calls_t * nat) : Prop :=
    exists rh ro, x = (fst (fst y), mkT rh (snd (fst y)) (snd y) ro) /\ inv rh.

  Lemma refines_hidden : forall r rh c l ro, actual rh = Some a0 -> refines (r, mkT rh c l ro) (r, c, l).
  Proof. intros r rh c l ro Ha. exists rh, ro. split; [reflexivity|]. exists a0. split; [exact Ha|exact H_a0]. Qed.

  Lemma refuse_spec : forall rh calls l ro,
    good rh ->
    refines (refuse (mkT rh calls l ro)) (let '(r, c) := spec_refuse sc refusal cfg t calls ro in (r, c, l)).
  Proof.
    intros rh calls l ro Hg. unfold Faults.refuse, spec_refuse.
    pose proof (retrieval_spec rh calls l ro Hg) as H.
    destruct (spec_ret sc cfg t calls ro) as [[[|] calls'] ro'].
    - destruct H as (rh' & -> & Ha). apply refines_hidden. exact Ha.
    - destruct H as (v & rh' & -> & evs & Ha & _ & Hs).
      unfold emit_skip. cbn [t_rh]. rewrite (action_ctx_good rh' evs Ha), Hs. cbn [Bool.eqb]. rewrite andb_false_r.
      cbn [push t_rh t_calls t_llm t_ret_occ]. rewrite flow_ctx_actual, actual_push, Ha.
      cbn [step_hist option_map ctx_of_rev c_skip].
      exists (HSkip false :: HSkip true :: rh'), ro'. split; [reflexivity|].
      eexists. rewrite !actual_push, Ha. split; reflexivity.
  Qed.

  Lemma run_rails_v1_spec : forall mk text spec_cont cont l n k rh calls ro,
    good rh ->
    (forall rh' calls', good rh' -> refines (cont (mkT rh' calls' l ro)) (spec_cont calls')) ->
    refines (run_rails mk k n text (mkT rh calls l ro) cont) (spec_rails sc refusal cfg t mk k n text calls ro spec_cont l).
  Proof.
    intros mk text spec_cont cont l. induction n as [|n IH]; intros k rh calls ro Hg Hcont;
      cbn [Faults.run_rails spec_rails]; [apply Hcont; exact Hg|].
    pose proof (call_action_spec (mk k) 0 (Some text) true rh calls l ro Hg) as H.
    destruct (sc t (mk k) 0); cbn [verdict] in H; destruct H as (rh' & -> & H).
    - destruct H as (Hg' & Hv). rewrite (flow_allows_after _ _ _ _ _ (Hv eq_refl)). cbn [allows].
      apply IH; assumption.
    - destruct H as (Hg' & Hv). rewrite (flow_allows_after _ _ _ _ _ (Hv eq_refl)). cbn [allows].
      apply refuse_spec. exact Hg'.
    - apply refines_hidden. exact H.
  Qed.

  Lemma process_bot_message_spec : forall rh calls ro,
    good rh ->
    refines (process_bot_message false true sc refusal cfg t (llm_text t) (mkT rh calls 2 ro))
            (spec_rails sc refusal cfg t SOut 0 (n_out cfg) (llm_text t) calls ro (fun calls => (TReply [llm_text t], calls, 2)) 2).
  Proof.
    intros rh calls ro Hg. pose proof Hg as (evs & Ha & _ & Hs).
    unfold process_bot_message. cbn [t_rh]. rewrite flow_ctx_actual, Ha. cbn [option_map]. rewrite Hs.
    apply run_rails_v1_spec; [exact Hg|].
    intros rh' calls' Hg'. exists rh', ro. split; [reflexivity|apply good_inv; exact Hg'].
  Qed.

  Lemma dialog_spec : forall rh calls,
    good rh ->
    refines (dialog false true sc llm_text refusal cfg t (mkT rh calls 0 0))
            (spec_dialog sc llm_text refusal cfg t calls).
  Proof.
    intros rh calls Hg. unfold dialog, spec_dialog, add_llm at 1. cbn [t_rh t_calls t_llm t_ret_occ].
    pose proof (call_action_spec SDialog 0 None false rh calls 1 0 Hg) as H.
    rewrite match_raise. destruct (verdict (sc t SDialog 0)); destruct H as (rh1 & -> & H);
      [|apply refines_hidden; exact H].
    (* `generate bot message`: the retrieval rail, then the LLM text through the output rails *)
    destruct H as (Hg1 & _). pose proof (retrieval_spec rh1 (calls ++ [(SDialog, None)]) 1 0 Hg1) as H.
    destruct (spec_ret sc cfg t (calls ++ [(SDialog, None)]) 0) as [[[|] calls'] ro'].
    - destruct H as (rh' & -> & Ha). apply refines_hidden. exact Ha.
    - destruct H as (v & rh' & -> & Hg'). apply process_bot_message_spec. exact Hg'.
  Qed.
End V1P.

Theorem turn_v1_spec : forall sc user_text llm_text refusal cfg t rh,
  String.eqb dispatch_failed_status v1_failed_status_test = true -> ie_has_hide = true ->
  inv rh ->
  refines (turn_v1 false true sc user_text llm_text refusal cfg t rh) (spec_turn sc user_text llm_text refusal cfg t).
Proof.
  intros sc user_text llm_text refusal cfg t rh H_status H_hide (a0 & Ha & Hs).
  apply (run_rails_v1_spec sc refusal cfg t H_status H_hide a0 Hs).
  - exists []. rewrite actual_push, Ha. repeat split. exact Hs.
  - intros rh' calls' Hg. apply (dialog_spec sc llm_text refusal cfg t H_status H_hide a0 Hs). exact Hg.
Qed.

(* no poison: whatever happened before, every turn is the turn of a fresh conversation *)
Theorem conv_v1_memoryless : forall sc user_text llm_text refusal cfg,
  String.eqb dispatch_failed_status v1_failed_status_test = true -> ie_has_hide = true ->
  forall n t rh,
  inv rh ->
  fst (conv_v1 false true sc user_text llm_text refusal cfg t n rh)
  = map (fun i => obs_of (spec_turn sc user_text llm_text refusal cfg i)) (seq t n)
  /\ inv (snd (conv_v1 false true sc user_text llm_text refusal cfg t n rh)).
Proof.
  intros sc user_text llm_text refusal cfg H_status H_hide.
  induction n as [|n IH]; intros t rh Hinv; [split; [reflexivity|exact Hinv]|].
  cbn [conv_v1 seq map]. unfold obs_of at 1.
  destruct (turn_v1_spec sc user_text llm_text refusal cfg t rh H_status H_hide Hinv) as (rh1 & ro & -> & Hi).
  destruct (spec_turn_is_reply sc user_text llm_text refusal cfg t) as (us & ->). cbn [t_rh t_calls t_llm].
  specialize (IH (S t) rh1 Hi).
  destruct (conv_v1 false true sc user_text llm_text refusal cfg (S t) n rh1) as [os rh'].
  cbn [fst snd] in *. destruct IH as (-> & IH). split; [reflexivity|exact IH].
Qed.

(* generate returns: no exceptional outcome when the dispatcher does not re-raise *)

Section Returns.
  Variables (honours : bool) (sc : script).
  Variables (user_text llm_text : nat -> string) (refusal : string) (cfg : vcfg).

  Definition returns (x : tres * tstate) : Prop := fst x <> TEscapes.
  Definition step_returns (x : step_res) : Prop := forall s, x <> Finished TEscapes s.

  (* the shape of every sequencing in the model: a finished step is the result *)
  Lemma returns_bind : forall x k,
    step_returns x -> (forall v s, returns (k v s)) ->
    returns (match x with Finished r s' => (r, s') | Continue v s => k v s end).
  Proof.
    intros [v s|r s'] k Hx Hk; [apply Hk|].
    intros E. cbn in E. subst r. exact (Hx s' eq_refl).
  Qed.

  Lemma call_action_returns : forall t st occ text keyed s,
    step_returns (call_action false honours sc t st occ text keyed s).
  Proof.
    intros t st occ text keyed s s'. unfold call_action.
    pose proof (runtime_result_returns v1_failed_status_test (sc t st occ)) as H.
    destruct (runtime_result _ _); [| |contradiction].
    - destruct keyed; [destruct (emit_allowed _ _ _)|]; discriminate.
    - destruct (if keyed then _ else _); [destruct ie_has_hide|]; discriminate.
  Qed.

  Lemma retrieval_returns : forall t s, step_returns (retrieval false honours sc cfg t s).
  Proof.
    intros t s. unfold retrieval. destruct (has_ret cfg); [|discriminate].
    pose proof (call_action_returns t SRet (t_ret_occ s) None false s) as H.
    destruct (call_action _ _ _ _ _ _ _ _ _); [discriminate|exact H].
  Qed.

  Lemma refuse_returns : forall t s, returns (refuse false honours sc refusal cfg t s).
  Proof.
    intros t s. unfold refuse. apply returns_bind; [apply retrieval_returns|]. intros _ s1.
    destruct (emit_skip honours true s1) as [s2|]; [|discriminate].
    destruct (flow_ctx (t_rh s2)) as [c|]; [destruct (c_skip c)|]; discriminate.
  Qed.

  Lemma run_rails_returns : forall t mk text cont n k s,
    (forall s', returns (cont s')) ->
    returns (run_rails false honours sc refusal cfg t mk k n text s cont).
  Proof.
    intros t mk text cont. induction n as [|n IH]; intros k s Hc; cbn [run_rails]; [apply Hc|].
    apply returns_bind; [apply call_action_returns|]. intros _ s'.
    destruct (flow_allows s') as [[|]|]; [apply IH; exact Hc|apply refuse_returns|discriminate].
  Qed.

  Theorem turn_v1_returns : forall t rh,
    fst (turn_v1 false honours sc user_text llm_text refusal cfg t rh) <> TEscapes.
  Proof.
    intros t rh. apply run_rails_returns. intros s. unfold dialog.
    apply returns_bind; [apply call_action_returns|]. intros _ s1.
    apply returns_bind; [apply retrieval_returns|]. intros _ s2. unfold process_bot_message.
    destruct (flow_ctx _) as [c|]; [destruct (c_skip c)|]; try discriminate.
    apply run_rails_returns. discriminate.
  Qed.

  Theorem conv_v1_returns : forall n t rh,
    Forall (fun o => o_res o <> TEscapes) (fst (conv_v1 false honours sc user_text llm_text refusal cfg t n rh)).
  Proof.
    induction n as [|n IH]; intros t rh; cbn [conv_v1]; [constructor|].
    pose proof (turn_v1_returns t rh) as H.
    destruct (turn_v1 false honours sc user_text llm_text refusal cfg t rh) as [r s]. cbn [fst] in H.
    destruct r; [|contradiction|repeat constructor; exact H].
    specialize (IH (S t) (t_rh s)).
    destruct (conv_v1 false honours sc user_text llm_text refusal cfg (S t) n (t_rh s)) as [os rh'].
    constructor; [exact H|exact IH].
  Qed.
End Returns.

Definition clean : v2state := mkS2 false false.

Section V2P.
  Variables (reset contained : bool) (sc : script).
  Variables (user_text llm_text : nat -> string) (refusal : string) (cfg : vcfg).

  Lemma v2_value_spec : forall t st occ, v2_value false sc t st occ = Some (verdict (sc t st occ)).
  Proof.
    intros t st occ. unfold v2_value, execute_action, runtime_result.
    destruct (sc t st occ); cbv beta iota; try reflexivity;
      destruct (String.eqb dispatch_failed_status v2_failed_status_test); reflexivity.
  Qed.

  Lemma rails2_first_fault : forall t mk text n k calls,
    exists calls', rails2 false sc t mk k n text calls
                   = (Some (match first_fault (fun j => sc t (mk j) 0) k n with None => true | Some _ => false end), calls').
  Proof.
    intros t mk text. induction n as [|n IH]; intros k calls; cbn [rails2 first_fault]; [eexists; reflexivity|].
    rewrite v2_value_spec. destruct (sc t (mk k) 0); cbn [verdict allows]; [apply IH|eexists; reflexivity..].
  Qed.

  (* `_bot_say` from a clean state utters what it is given unless an output rail does not accept:
     a rail that raises is a rail that rejects *)
  Definition v2_say_reply (t : nat) (utterances : list string) : tres :=
    match first_fault (fun j => sc t (SOut j) 0) 0 (n_out cfg) with
    | None => TReply utterances
    | Some _ => TReply [refusal]
    end.

  (* the reply of a turn from a clean state, by where the first fault falls; a raising dialog action
     leaves nothing to say *)
  Definition v2_reply (t : nat) : tres :=
    v2_say_reply t match first_fault (fun j => sc t (SIn j) 0) 0 (n_in cfg) with
                   | Some _ => [refusal]
                   | None => match sc t SDialog 0 with ORaise => [] | _ => [llm_text t] end
                   end.

  Lemma say_clean : forall t text calls,
    reset = true -> (text = None -> contained = true) ->
    let y := say false reset contained sc refusal cfg t text clean calls in
    snd (fst y) = clean /\ fst (fst y) = v2_say_reply t (match text with Some s => [s] | None => [] end).
  Proof.
    intros t text calls -> Hc y. subst y. unfold say, v2_say_reply.
    change (oip clean) with false. change (dead clean) with false. cbv iota.
    destruct (rails2_first_fault t SOut text (n_out cfg) 0 calls) as (calls' & ->).
    destruct (first_fault _ 0 (n_out cfg)); [split; reflexivity|].
    destruct text; [split; reflexivity|]. rewrite (Hc eq_refl). split; reflexivity.
  Qed.

  Theorem turn_v2_spec : forall t,
    reset = true -> (contained = true \/ sc t SDialog 0 <> ORaise) ->
    let x := turn_v2 false reset contained sc user_text llm_text refusal cfg t clean in
    snd (fst x) = clean /\ fst (fst x) = v2_reply t.
  Proof.
    intros t Hreset Hd x. subst x. unfold turn_v2, v2_reply. change (dead clean) with false. cbv iota.
    destruct (rails2_first_fault t SIn (Some (user_text t)) (n_in cfg) 0 []) as (c & ->).
    destruct (first_fault _ 0 (n_in cfg)); [apply (say_clean t (Some refusal)); [exact Hreset|discriminate]|].
    replace (if has_ret cfg then v2_value false sc t SRet 0 else Some None)
      with (Some (if has_ret cfg then verdict (sc t SRet 0) else None))
      by (destruct (has_ret cfg); [rewrite v2_value_spec|]; reflexivity).
    cbv iota. destruct (sc t SDialog 0).
    1, 2: apply (say_clean t (Some (llm_text t))); [exact Hreset|discriminate].
    apply (say_clean t None); [exact Hreset|]. intros _. destruct Hd as [Hd|Hd]; [exact Hd|contradiction Hd; reflexivity].
  Qed.

  (* what C03 asks of the reply r of turn t: one of three replies; the LLM text only if every rail
     accepted; nothing at all only if the dialog action raised *)
  Definition fail_closed_v2 (t : nat) (r : tres) : Prop :=
    (r = TReply [refusal] \/ r = TReply [llm_text t] \/ r = TReply []) /\
    (llm_text t <> refusal -> r = TReply [llm_text t] ->
     (forall k, k < n_in cfg -> sc t (SIn k) 0 = OAccept) /\ (forall k, k < n_out cfg -> sc t (SOut k) 0 = OAccept)) /\
    (r = TReply [] -> sc t SDialog 0 = ORaise).

  Lemma v2_reply_fail_closed : forall t, fail_closed_v2 t (v2_reply t).
  Proof.
    intros t. unfold v2_reply, v2_say_reply.
    assert (Hrefused : fail_closed_v2 t (TReply [refusal])).
    { split; [left; reflexivity|]. split; [|discriminate].
      intros Hne H. inversion H as [E]. symmetry in E. contradiction. }
    destruct (first_fault _ 0 (n_out cfg)) eqn:Eout; [exact Hrefused|].
    destruct (first_fault _ 0 (n_in cfg)) eqn:Ein; [exact Hrefused|].
    pose proof (conj (first_fault_None _ _ Ein) (first_fault_None _ _ Eout)) as Hall.
    destruct (sc t SDialog 0) eqn:Ed.
    1, 2: split; [right; left; reflexivity|]; split; [intros _ _; exact Hall|discriminate].
    split; [right; right; reflexivity|]. split; [discriminate|intros _; exact Ed].
  Qed.

  Theorem turn_v2_clean : forall t,
    reset = true -> (contained = true \/ sc t SDialog 0 <> ORaise) ->
    let x := turn_v2 false reset contained sc user_text llm_text refusal cfg t clean in
    snd (fst x) = clean /\ fail_closed_v2 t (fst (fst x)).
  Proof.
    intros t Hreset Hd x. destruct (turn_v2_spec t Hreset Hd) as (H1 & H2). fold x in H1, H2.
    rewrite H2. split; [exact H1|apply v2_reply_fail_closed].
  Qed.

  (* no poison: after any number of turns with any faults the state is clean, every turn replied *)
  Theorem conv_v2_clean : forall n t,
    reset = true -> (contained = true \/ forall i, sc i SDialog 0 <> ORaise) ->
    snd (conv_v2 false reset contained sc user_text llm_text refusal cfg t n clean) = clean /\
    List.length (fst (conv_v2 false reset contained sc user_text llm_text refusal cfg t n clean)) = n /\
    Forall (fun o => exists us, o_res o = TReply us)
           (fst (conv_v2 false reset contained sc user_text llm_text refusal cfg t n clean)).
  Proof.
    induction n as [|n IH]; intros t Hr Hd; cbn [conv_v2]; [repeat split; constructor|].
    destruct (turn_v2_clean t Hr) as (H1 & H2 & _); [destruct Hd as [Hd|Hd]; [left; exact Hd|right; apply Hd]|].
    destruct (turn_v2 false reset contained sc user_text llm_text refusal cfg t clean) as [[r st'] calls].
    cbn [fst snd] in H1, H2. subst st'.
    assert (Hrep : exists us, r = TReply us) by (destruct H2 as [ -> | [ -> | -> ] ]; eexists; reflexivity).
    destruct Hrep as (us & ->). destruct (IH (S t) Hr Hd) as (I1 & I2 & I3).
    destruct (conv_v2 false reset contained sc user_text llm_text refusal cfg (S t) n clean) as [os st''].
    cbn [fst snd List.length] in *. split; [exact I1|]. split; [rewrite I2; reflexivity|].
    constructor; [eexists; reflexivity|exact I3].
  Qed.

  Theorem turn_v2_returns : forall t st,
    fst (fst (turn_v2 false reset contained sc user_text llm_text refusal cfg t st)) <> TEscapes.
  Proof.
    intros t st. unfold turn_v2.
    assert (Hsay : forall text st calls, fst (fst (say false reset contained sc refusal cfg t text st calls)) <> TEscapes).
    { intros text st0 calls. unfold say. destruct (oip st0); [destruct text; discriminate|].
      destruct (rails2_first_fault t SOut text (n_out cfg) 0 calls) as (c & ->).
      destruct (first_fault _ 0 (n_out cfg)); [|destruct text]; discriminate. }
    destruct (dead st); [discriminate|].
    destruct (rails2_first_fault t SIn (Some (user_text t)) (n_in cfg) 0 []) as (c & ->).
    destruct (first_fault _ 0 (n_in cfg)); [apply Hsay|].
    destruct (has_ret cfg); [rewrite v2_value_spec|]; (destruct (sc t SDialog 0); apply Hsay).
  Qed.
End V2P.

(* with the other value of a flag the statements are false: one witness per flag *)

Definition sc_stale : script :=
  fun t s o => match t, s with
               | 1, SIn 0 => OReject | 1, SRet => ORaise
               | 2, SIn 0 => OReject
               | _, _ => OAccept end.

(* compute_context over ALL events (honours = false): the input rail rejects in turn 2 and the LLM text is returned *)
Lemma v1_stale_context_witness :
  sc_stale 2 (SIn 0) 0 = OReject /\
  nth_error (map o_res (fst (conv_v1 false false sc_stale (fun _ => "user") (fun _ => "LLM") "REFUSED" (mkV 2 2 true) 0 3 [])))
            2 = Some (TReply ["LLM"]).
Proof. vm_compute. split; reflexivity. Qed.

Definition sc_outblock : script :=
  fun t s o => match t, s with 0, SOut 0 => ORaise | 1, SOut 0 => OReject | _, _ => OAccept end.

(* guardrails.co without the reset on failure: after turn 0 no output rail is ever called again *)
Lemma v2_flag_witness :
  sc_outblock 1 (SOut 0) 0 = OReject /\
  nth_error (fst (conv_v2 false false true sc_outblock (fun _ => "user") (fun _ => "LLM") "REFUSED" (mkV 2 2 true) 0 2 (mkS2 false false)))
            1 = Some (mkObs (TReply ["LLM"]) [(SIn 0, Some "user"); (SIn 1, Some "user"); (SRet, None); (SDialog, None)] 0).
Proof. vm_compute. split; reflexivity. Qed.

Definition sc_gen : script := fun t s o => match t, s with 0, SDialog => ORaise | _, _ => OAccept end.

(* action-event errors not contained: a raising dialog action silences the conversation *)
Lemma v2_dialog_witness :
  nth_error (fst (conv_v2 false true false sc_gen (fun _ => "user") (fun _ => "LLM") "REFUSED" (mkV 2 2 true) 0 2 (mkS2 false false)))
            1 = Some (mkObs (TReply []) [] 0).
Proof. vm_compute. reflexivity. Qed.

(* non-vacuity: a conversation with faults at every kind of site, under the repaired flags *)
Definition sc_mixed : script :=
  fun t s o => match t, s with
               | 0, SIn 1 => ORaise | 1, SOut 0 => ORaise | 2, SDialog => ORaise | 3, SRet => ORaise
               | 4, SIn 0 => OReject
               | _, _ => OAccept end.

Example conv_v1_mixed :
  map o_res (fst (conv_v1 false true sc_mixed (fun _ => "user") (fun _ => "LLM") "REFUSED" (mkV 2 2 true) 0 6 []))
  = [TReply ie_utterances; TReply ie_utterances; TReply ie_utterances; TReply ie_utterances; TReply ["REFUSED"]; TReply ["LLM"]].
Proof. vm_compute. reflexivity. Qed.

Example conv_v2_mixed :
  map o_res (fst (conv_v2 false true true sc_mixed (fun _ => "user") (fun _ => "LLM") "REFUSED" (mkV 2 2 true) 0 6 (mkS2 false false)))
  = [TReply ["REFUSED"]; TReply ["REFUSED"]; TReply []; TReply ["LLM"]; TReply ["REFUSED"]; TReply ["LLM"]].
Proof. vm_compute. reflexivity. Qed.

(* sanity examples of the model; they evaluate constants read from the source (Gen/C03Consts.v) *)
Example v1_input_fault :
  fst (conv_v1 false true (fun t s o => match t, s with 0, SIn 1 => ORaise | _, _ => OAccept end)
               ex_user ex_llm "REFUSED" ex_cfg 0 2 [])
  = [mkObs (TReply [v1_internal_error_message]) [(SIn 0, Some "user"); (SIn 1, Some "user")] 0;
     mkObs (TReply ["LLM"]) [(SIn 0, Some "user"); (SIn 1, Some "user"); (SDialog, None); (SRet, None);
                             (SOut 0, Some "LLM"); (SOut 1, Some "LLM")] 2].
Proof. vm_compute. reflexivity. Qed.

(* compute_context over ALL events (honours = false): a dialog fault in turn 0 makes every later turn a refusal *)
Example v1_stale_refusal :
  map o_res (fst (conv_v1 false false (fun t s o => match t, s with 0, SDialog => ORaise | _, _ => OAccept end)
                          ex_user ex_llm "REFUSED" ex_cfg 0 2 []))
  = [TReply [v1_internal_error_message]; TReply ["REFUSED"]].
Proof. vm_compute. reflexivity. Qed.
