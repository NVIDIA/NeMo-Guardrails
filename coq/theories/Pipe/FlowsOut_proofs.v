(* Pipe.FlowsOut_proofs - what only C02 needs of the CURRENT source.  Kept apart from
   Flows_proofs.v so that C01 does not depend on the output-side flows:
     - the library rail `self check output` (Colang 1.0 flows.v1.co and Colang 2.x flows.co): a
       rejection stops / aborts on every path;
     - guardrails.co `run output rails` resets $output_rails_in_progress on every path, including
       the failure of the awaited `output rails` flow.  Holds only with
       fixes/C02-output-rails-flag.patch applied (DESIGN section 5, F3). *)
From Coq Require Import List String Bool ZArith.
From NG Require Import Pipe.TurnV2 Pipe.TurnV2_proofs Pipe.FlowCheck Gen.C01Flows Pipe.Flows_proofs.
Import ListNotations.
Open Scope string_scope.

(* `self check output`: a rejection reaches `stop` on every path - also when
   enable_rails_exceptions is set.  Holds only with fixes/C02-selfcheck-output-stop.patch
   applied: without it `stop` stands under the `else` alone *)
Lemma self_check_output_stops : reject_stops_ok v1_self_check_output [] = true.
Proof. vm_compute. reflexivity. Qed.

Lemma v2_self_check_output_aborts : v2_reject_aborts v2lib_self_check_output "not $allowed" = true.
Proof. vm_compute. reflexivity. Qed.

Lemma current_file_resets_flag : current_fixd = true.
Proof. vm_compute. reflexivity. Qed.

(* the flag invariant for the model of the current file *)
Lemma v2_flag_invariant_current :
  forall vf llm value_of refusal_in refusal_out cf us st,
    orip st = false ->
    Forall (fun r => orip (fst (fst r)) = false)
           (conv_v2 current_fixd vf llm value_of refusal_in refusal_out cf st us).
Proof. rewrite current_file_resets_flag. exact conv_v2_fixed_flag. Qed.
