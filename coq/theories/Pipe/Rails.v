(* Pipe.Rails - the rails loop shared by the Colang 1.0 and 2.x pipeline models (C01, C02).

   `run_rails` is the fold with early exit that `run input rails` / `run output rails`
   (llm_flows.co:47-66, 131-149) and a guardrails `input rails` / `output rails` flow perform:
   the rails of the configured list are called in order, each is shown the text as rewritten by
   its predecessors, the first rejection ends the loop.

   A rail is an ARBITRARY custom action: `v : nat -> rail -> text -> verdict` (call index within
   the turn, rail, text shown).  Definitions only; proofs are in Rails_proofs.v. *)
From Coq Require Import List String Bool Arith.
Import ListNotations.
Open Scope string_scope.

Definition text := string.
Definition rail := nat.

Inductive verdict := Accept | Reject | Rewrite (t : text).

Inductive side := SIn | SOut.

Inductive prov := FromLLM | Predefined.

Inductive lkind := KGeneral | KPassthrough | KIntent | KNext | KBotMsg | KValue.

(* what is visible of the conversation to a later stage: UserMessage texts and
   StartUtteranceBotAction scripts of the history, in order *)
Inductive hentry := HUser (t : text) | HBot (t : text).

(* what flows into a prompt: the call site, the visible history, the current user text *)
Record prompt := mkPrompt { p_kind : lkind; p_hist : list hentry; p_user : text }.

Inductive tev :=
| TRail (s : side) (r : rail) (seen : text)        (* a rail action was invoked and shown `seen` *)
| TUser (t : text)                                 (* the user message is released to the dialog (UserMessage / _user_said finished) *)
| TLLM (idx : nat) (p : prompt)                    (* an LLM call *)
| TBot (p : prov) (t : text)                       (* a bot message was produced (before output rails) *)
| TEmit (t : text)                                 (* a bot utterance was released (StartUtteranceBotAction) *)
| TExc (s : side) (r : rail).                      (* a rail exception event *)

Inductive reply :=
| RMsg (parts : list text)                         (* assistant message: the released utterances *)
| RExc (s : side) (r : rail).                      (* exception message of rail r *)

Inductive rres := Passed (t : text) | Blocked (r : rail) (t : text).

Definition apply_verdict (v : verdict) (t : text) : text :=
  match v with Rewrite t' => t' | _ => t end.

Definition is_reject (v : verdict) : bool := match v with Reject => true | _ => false end.

(* c = index of the next rail-action call of this turn *)
Fixpoint run_rails (v : nat -> rail -> text -> verdict) (s : side) (rs : list rail) (c : nat) (t : text)
  : list tev * nat * rres :=
  match rs with
  | [] => ([], c, Passed t)
  | r :: rs' =>
    match v c r t with
    | Reject => ([TRail s r t], S c, Blocked r t)
    | w => let '(tr, c', res) := run_rails v s rs' (S c) (apply_verdict w t) in
           (TRail s r t :: tr, c', res)
    end
  end.

Definition is_rail (s : side) (e : tev) : bool :=
  match e, s with
  | TRail SIn _ _, SIn => true
  | TRail SOut _ _, SOut => true
  | _, _ => false
  end.

Definition is_any_rail (e : tev) : bool := match e with TRail _ _ _ => true | _ => false end.
Definition is_llm (e : tev) : bool := match e with TLLM _ _ => true | _ => false end.
Definition is_emit (e : tev) : bool := match e with TEmit _ => true | _ => false end.

Definition rail_calls (s : side) (tr : list tev) : list (rail * text) :=
  flat_map (fun e => match e with
                     | TRail s' r t => if is_rail s e then [(r, t)] else []
                     | _ => [] end) tr.

Definition llm_calls (tr : list tev) : list (nat * prompt) :=
  flat_map (fun e => match e with TLLM i p => [(i, p)] | _ => [] end) tr.

Definition emitted (tr : list tev) : list text :=
  flat_map (fun e => match e with TEmit t => [t] | _ => [] end) tr.

Definition n_rail_calls (tr : list tev) : nat := List.length (filter is_any_rail tr).

(* declarative reading of "called in the configured order, each shown the composition of the
   rewrites of its predecessors, stopping at the first rejection":
   `chain v c t rs calls` - calls is what the list rs produces from call index c and text t *)
Fixpoint chain (v : nat -> rail -> text -> verdict) (c : nat) (t : text) (rs : list rail)
         (calls : list (rail * text)) : Prop :=
  match calls with
  | [] => rs = []
  | (r, x) :: rest =>
    match rs with
    | [] => False
    | r0 :: rs' =>
      r = r0 /\ x = t /\
      (if is_reject (v c r t) then rest = []
       else chain v (S c) (apply_verdict (v c r t) t) rs' rest)
    end
  end.

(* the text that leaves the rails when nobody rejects *)
Fixpoint final_text (v : nat -> rail -> text -> verdict) (c : nat) (t : text) (rs : list rail) : text :=
  match rs with
  | [] => t
  | r :: rs' => final_text v (S c) (apply_verdict (v c r t) t) rs'
  end.

Example run_rails_ex1 :
  run_rails (fun c r t => if Nat.eqb r 1 then Rewrite "B" else Accept) SIn [0; 1; 2] 0 "A"
  = ([TRail SIn 0 "A"; TRail SIn 1 "A"; TRail SIn 2 "B"], 3, Passed "B").
Proof. reflexivity. Qed.

Example run_rails_ex2 :
  run_rails (fun c r t => if Nat.eqb r 1 then Reject else Rewrite "Z") SOut [0; 1; 2] 4 "A"
  = ([TRail SOut 0 "A"; TRail SOut 1 "Z"], 6, Blocked 1 "Z").
Proof. reflexivity. Qed.
