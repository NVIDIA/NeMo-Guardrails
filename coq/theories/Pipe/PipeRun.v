(* Pipe.PipeRun - concrete executable instances of the pipeline models for the correspondence
   check (harness/c01.py, harness/c02.py): the Section variables are instantiated with the
   scripts the harness drives the real LLMRails with (scripted verdicts per turn and rail,
   scripted LLM completions, the dialog flows of the test configuration).  Nothing here is used
   by the theorems. *)
From Coq Require Import List String Bool Arith.
From NG Require Import Pipe.Rails Pipe.TurnV1 Pipe.TurnV2 Pipe.FlowCheck Gen.C01Flows.
Import ListNotations.
Open Scope string_scope.
Open Scope list_scope.

(* input rail k has id k, output rail k has id 100 + k *)
Record turn_case := mkTC { tc_user : text; tc_iv : list verdict; tc_ov : list verdict; tc_llm : list text;
                           tc_act : text;     (* what the scripted custom action `rag` returns in this turn *)
                           tc_in_on : bool; tc_out_on : bool }.   (* the call's generation options: rails.input / rails.output *)

Definition tc_default := mkTC "" [] [] [] "" true true.

Definition vf_c (turns : list turn_case) (t c : nat) (r : rail) (x : text) : verdict :=
  let tc := nth t turns tc_default in
  if Nat.ltb r 100 then nth r (tc_iv tc) Accept else nth (r - 100) (tc_ov tc) Accept.

Definition llm_c (turns : list turn_case) (t i : nat) (p : prompt) : text :=
  nth i (tc_llm (nth t turns tc_default)) "".

Definition refusal_c := "RFz".
Definition refusal_out_c := "RFOz".
Definition predef_c := "PDz".

Definition intent_step_c (turns : list turn_case) (t : nat) (o : text) : dstep :=
  if String.eqb o "  express greeting" then DBot "express greeting"
  else if String.eqb o "  ask question" then DBot "answer question"
  else if String.eqb o "  ask rag" then DBotVar (tc_act (nth t turns tc_default))
  else DAsk.

Definition next_of_c (o : text) : string :=
  if String.eqb o "bot respond something" then "respond something" else "general response".

Definition predefined_c (bi : string) : option text :=
  if String.eqb bi "express greeting" then Some predef_c
  else if String.eqb bi "refuse to respond" then Some refusal_c else None.

(* `  "TEXT"` -> TEXT *)
Definition msg_of_c (o : text) : text := substring 3 (String.length o - 4) o.
(* `"TEXT"` -> TEXT *)
Definition value_of_c (o : text) : text := substring 1 (String.length o - 2) o.

Definition turn_v1_c (turns : list turn_case) :=
  turn_v1 (vf_c turns) (llm_c turns) (fun o => o) (intent_step_c turns) next_of_c predefined_c msg_of_c refusal_c.

Definition conv_v1_c (turns : list turn_case) (cf : cfg) :=
  conv_v1_opts (vf_c turns) (llm_c turns) (fun o => o) (intent_step_c turns) next_of_c predefined_c msg_of_c refusal_c
          cf init_state (map (fun tc => (mkOpts (tc_in_on tc) (tc_out_on tc), tc_user tc)) turns).

Definition conv_v2_c (fixd : bool) (turns : list turn_case) (cf : cfg2) :=
  conv_v2 fixd (vf_c turns) (llm_c turns) value_of_c refusal_c refusal_out_c cf init_state2 (map tc_user turns).

(* observations, as the harness records them on the implementation *)
Inductive obs :=
| ORail (s : side) (r : rail) (seen : text)
| OLLM (k : lkind) (i : nat) (markers : list string).   (* marker texts found in the prompt *)

Record texp := mkExp {
  e_obs : list obs; e_reply : reply; e_flag : bool;
  e_um : option text; e_bm : option text; e_ti : option rail; e_to : option rail;
  e_utter : list text }.      (* scripts of the StartUtteranceBotAction events the runtime returned (event level) *)

Definition side_eqb (a b : side) : bool := match a, b with SIn, SIn | SOut, SOut => true | _, _ => false end.
Definition lkind_eqb (a b : lkind) : bool :=
  match a, b with
  | KGeneral, KGeneral | KPassthrough, KPassthrough | KIntent, KIntent | KNext, KNext
  | KBotMsg, KBotMsg | KValue, KValue => true
  | _, _ => false
  end.

Definition mem (x : string) (l : list string) : bool := existsb (String.eqb x) l.
Definition subset (a b : list string) : bool := forallb (fun x => mem x b) a.

Definition hentry_text (h : hentry) : text := match h with HUser t => t | HBot t => t end.
Definition prompt_texts (p : prompt) : list text := map hentry_text (p_hist p) ++ [p_user p].

Fixpoint list_eqb {A B} (eqb : A -> B -> bool) (a : list A) (b : list B) : bool :=
  match a, b with
  | [], [] => true
  | x :: a', y :: b' => eqb x y && list_eqb eqb a' b'
  | _, _ => false
  end.

Definition option_eqb {A} (eqb : A -> A -> bool) (a b : option A) : bool :=
  match a, b with None, None => true | Some x, Some y => eqb x y | _, _ => false end.

Definition reply_eqb (a b : reply) : bool :=
  match a, b with
  | RMsg x, RMsg y => list_eqb String.eqb x y
  | RExc s r, RExc s' r' => side_eqb s s' && Nat.eqb r r'
  | _, _ => false
  end.

(* the part of a model trace the harness can observe *)
Definition trace_obs (tr : list tev) : list tev :=
  filter (fun e => match e with TRail _ _ _ | TLLM _ _ => true | _ => false end) tr.

(* the predefined messages of the configuration are constants: they also reach prompts as
   few-shot examples (bot_message_index), so they are left out of the comparison *)
Definition is_const (t : string) : bool :=
  String.eqb t refusal_c || String.eqb t refusal_out_c || String.eqb t predef_c ||
  String.eqb t "" || String.eqb t "  ".     (* empty / blank texts carry no marker *)
Definition no_consts (l : list string) : list string := filter (fun t => negb (is_const t)) l.

(* a prompt of the implementation agrees with the model's provenance when the marker texts it
   contains are exactly the texts the model lets flow into it; the next-step prompt strips
   message texts (`remove_text_messages`), so there only inclusion is required *)
Definition obs_match (m : tev) (o : obs) : bool :=
  match m, o with
  | TRail s r t, ORail s' r' t' => side_eqb s s' && Nat.eqb r r' && String.eqb t t'
  | TLLM i p, OLLM k i' ms =>
    lkind_eqb (p_kind p) k && Nat.eqb i i' && subset (no_consts ms) (prompt_texts p) &&
    (match k with KNext => true | _ => subset (no_consts (prompt_texts p)) ms end)
  | _, _ => false
  end.

Definition check_turn_v1 (r : pstate * list tev * reply) (e : texp) : bool :=
  let '(st, tr, rp) := r in
  list_eqb obs_match (trace_obs tr) (e_obs e) && reply_eqb rp (e_reply e) &&
  Bool.eqb (skip st) (e_flag e) &&
  option_eqb String.eqb (user_message st) (e_um e) && option_eqb String.eqb (bot_message st) (e_bm e) &&
  option_eqb Nat.eqb (trig_in st) (e_ti e) && option_eqb Nat.eqb (trig_out st) (e_to e) &&
  list_eqb String.eqb (emitted tr) (e_utter e).

Definition check_v1 (c : cfg * list turn_case * list texp) : bool :=
  let '(cf, turns, exps) := c in
  list_eqb check_turn_v1 (conv_v1_c turns cf) exps.

(* Colang 1.0 served through the explicit state API: `GenerationResponse.state` holds the events
   of the LAST call only (generate_async stores `events` without the `state_events` it started
   from), so a call sees the history of the previous call and nothing older.  The turn itself is
   the same function; only the state it starts from is cut.  (The theorems hold from every start
   state with the skip flag clear, so they cover this serving mode.)  Context variables older
   than one call are not compared in this mode. *)
Definition set_hist (st : pstate) (h : list hentry) : pstate :=
  mkSt (tidx st) (skip st) (user_message st) (bot_message st) (trig_in st) (trig_out st) h (raw st).

Fixpoint conv_v1_state (turns : list turn_case) (cf : cfg) (st : pstate) (mark : nat) (ts : list turn_case)
  : list (pstate * list tev * reply) :=
  match ts with
  | [] => []
  | tc :: ts' =>
    let st0 := set_hist st (skipn mark (hist st)) in
    let r := turn_v1_opts (vf_c turns) (llm_c turns) (fun o => o) (intent_step_c turns) next_of_c predefined_c
                          msg_of_c refusal_c cf (mkOpts (tc_in_on tc) (tc_out_on tc)) st0 (tc_user tc) in
    r :: conv_v1_state turns cf (fst (fst r)) (List.length (hist st0)) ts'
  end.

Definition check_turn_v1_state (r : pstate * list tev * reply) (e : texp) : bool :=
  let '(st, tr, rp) := r in
  list_eqb obs_match (trace_obs tr) (e_obs e) && reply_eqb rp (e_reply e) &&
  Bool.eqb (skip st) (e_flag e) && list_eqb String.eqb (emitted tr) (e_utter e).

Definition check_v1_state (c : cfg * list turn_case * list texp) : bool :=
  let '(cf, turns, exps) := c in
  list_eqb check_turn_v1_state (conv_v1_state turns cf init_state 0 turns) exps.

Definition check_turn_v2 (r : pstate2 * list tev * reply) (e : texp) : bool :=
  let '(st, tr, rp) := r in
  list_eqb obs_match (trace_obs tr) (e_obs e) && reply_eqb rp (e_reply e) &&
  Bool.eqb (orip st) (e_flag e) &&
  option_eqb String.eqb (um2 st) (e_um e) && option_eqb String.eqb (bm2 st) (e_bm e) &&
  list_eqb String.eqb (emitted tr) (e_utter e).

Definition check_v2_with (fixd : bool) (c : cfg2 * list turn_case * list texp) : bool :=
  let '(cf, turns, exps) := c in
  list_eqb check_turn_v2 (conv_v2_c fixd turns cf) exps.

(* the Colang 2 model that corresponds to the CURRENT guardrails.co: whether `run output rails`
   resets the flag on the failure path is decided by the checker on the translated file *)
Definition current_fixd_run : bool := v2_resets_on_failure v2_run_output_rails.
Definition check_v2 (c : cfg2 * list turn_case * list texp) : bool := check_v2_with current_fixd_run c.

(* the F3 scenario on the pre-fix model (fixd = false) and on the repaired one *)
Definition f3_turns :=
  [mkTC "U0z" [] [Accept] ["""L0z"""] "" true true; mkTC "U1z" [] [Reject] ["""L1z"""] "" true true;
   mkTC "U2z" [] [Accept] ["""L2z"""] "" true true].

Example f3_shipped :
  map (fun r => (n_rail_calls (snd (fst r)), orip (fst (fst r)))) (conv_v2_c false f3_turns (mkCfg2 [] [100] false))
  = [(1, false); (1, true); (0, true)].
Proof. vm_compute. reflexivity. Qed.

Example f3_repaired :
  map (fun r => (n_rail_calls (snd (fst r)), orip (fst (fst r)))) (conv_v2_c true f3_turns (mkCfg2 [] [100] false))
  = [(1, false); (1, false); (1, false)].
Proof. vm_compute. reflexivity. Qed.
