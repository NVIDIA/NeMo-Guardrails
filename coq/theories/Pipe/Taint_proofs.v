(* Pipe/Taint_proofs.v - C17: in the turns and conversations of Pipe/Taint.v every text that an
   evaluator interprets as a program is configuration; an LLM-produced utterance is the
   post-processed completion. *)
From Coq Require Import List String Lia.
From NG Require Import Svc.TextPost Pipe.Taint.
Import ListNotations.
Open Scope string_scope.
Open Scope list_scope.

Lemma programs_clean_app : forall a b, programs_clean a -> programs_clean b -> programs_clean (a ++ b).
Proof.
  intros a b Ha Hb e t I E. apply in_app_or in I. destruct I as [I|I]; [eapply Ha|eapply Hb]; eauto.
Qed.

Lemma programs_clean_one_config : forall e m, programs_clean [(e, mk m Config)].
Proof. intros e m e' t I _. destruct I as [I|[]]. inversion I; subst. reflexivity. Qed.

Lemma programs_clean_cons_config : forall e m tr, programs_clean tr -> programs_clean ((e, mk m Config) :: tr).
Proof. intros e m tr H. apply (programs_clean_app [(e, mk m Config)] tr); [apply programs_clean_one_config|exact H]. Qed.

Lemma programs_clean_lookup : forall t, programs_clean [(Lookup, t)].
Proof. intros t e t' I E. destruct I as [I|[]]. inversion I; subst. destruct E; discriminate. Qed.

Section T.
  Variable llm : nat -> text.
  Variable render : text -> (text -> text) -> text.
  Variable prompt_template : nat -> text.
  Variable predefined : text -> option text.
  Variable ctx : text -> option text.
  Variable data_env : list tv -> text -> text.

  Let call' := call llm render prompt_template data_env.
  Let bot_message' := bot_message llm render prompt_template predefined ctx data_env.

  Lemma call_clean : forall k h, programs_clean (snd (call' k h)) /\ fst (call' k h) = mk (llm k) FromLLM.
  Proof. intros k h. split; [apply programs_clean_one_config|reflexivity]. Qed.

  (* the bot-message step: no evaluator interprets an LLM text; an LLM-produced utterance is the
     post-processed completion itself *)
  Lemma bot_message_taint : forall k h bi m tr,
    bot_message' k h bi = Ok (m, tr) ->
    programs_clean tr /\
    (tg m = FromLLM -> bot_message_post (llm k) = Ok (txt m)) /\
    (tg m = Config -> exists tpl, predefined (txt bi) = Some tpl /\ txt m = render tpl (data_env h)).
  Proof.
    intros k h bi m tr H. unfold bot_message', bot_message in H.
    destruct (bot_message_source _ _ (txt bi)) as [src|e]; [|discriminate]. cbn [bind] in H.
    destruct src as [|v|].
    - destruct (predefined (txt bi)) as [tpl|] eqn:P; [|discriminate]. inversion H; subst. clear H.
      split; [apply programs_clean_one_config|]. split; [discriminate|]. intros _. exists tpl. split; reflexivity.
    - destruct (ctx v) as [val|]; [|discriminate]. inversion H; subst. clear H.
      split; [apply programs_clean_lookup|]. split; discriminate.
    - unfold call in H. cbv beta iota zeta in H. cbn [txt] in H.
      destruct (bot_message_post (llm k)) as [mm|e] eqn:B; cbn [bind] in H; [|discriminate H].
      inversion H; subst. clear H. split; [apply programs_clean_one_config|]. split; [reflexivity|discriminate].
  Qed.

  Lemma turn_dialog_taint : forall h m tr,
    turn_dialog llm render prompt_template predefined ctx data_env h = Ok (m, tr) ->
    programs_clean tr /\ (tg m = FromLLM -> bot_message_post (llm 2) = Ok (txt m)).
  Proof.
    intros h m tr H. unfold turn_dialog, call in H. cbv beta iota zeta in H. cbn [txt] in H.
    destruct (user_intent_post (llm 0)) as [ui|e]; cbn [bind] in H; [|discriminate H].
    destruct (next_step_post (llm 1)) as [bi|e]; cbn [bind] in H; [|discriminate H].
    match type of H with context [bind ?X _] =>
      destruct X as [[m' t3]|e] eqn:B; cbn [bind fst snd] in H; [|discriminate H] end.
    inversion H; subst. clear H.
    destruct (bot_message_taint _ _ _ _ _ B) as [C [L _]].
    split; [|exact L].
    apply programs_clean_cons_config. apply programs_clean_cons_config. exact C.
  Qed.

  Lemma turn_general_taint : forall h m tr,
    turn_general llm render prompt_template data_env h = Ok (m, tr) ->
    programs_clean tr /\ general_post (llm 0) = Ok (txt m).
  Proof.
    intros h m tr H. unfold turn_general, call in H. cbv beta iota zeta in H. cbn [txt] in H.
    destruct (general_post (llm 0)) as [g|e] eqn:G; cbn [bind] in H; [|discriminate H]. inversion H; subst.
    split; [apply programs_clean_one_config|reflexivity].
  Qed.

  Lemma turn_single_call_taint : forall h m tr,
    turn_single_call llm render prompt_template data_env h = Ok (m, tr) ->
    programs_clean tr /\ exists ui bi, single_call_post (llm 0) = Ok (ui, bi, txt m).
  Proof.
    intros h m tr H. unfold turn_single_call, call in H. cbv beta iota zeta in H. cbn [txt] in H.
    destruct (single_call_post (llm 0)) as [[[ui bi] bm]|e] eqn:G; cbn [bind snd] in H; [|discriminate H].
    inversion H; subst. split; [apply programs_clean_one_config|]. exists ui, bi. reflexivity.
  Qed.
End T.

(* non-vacuity: a turn whose three completions are hostile template text ends with that text *)
Example taint_example :
  let llm := fun k : nat => match k with
                            | 0%nat => s2t "  ask x"
                            | 1%nat => s2t "bot inform y"
                            | _ => s2t "  ""{{ 7*191 }} $secret"""
                            end in
  exists tr, turn_dialog llm (fun t _ => t) (fun _ => s2t "tpl") (fun _ => None) (fun _ => None) (fun _ t => t) []
             = Ok (mk (s2t "{{ 7*191 }} $secret") FromLLM, tr).
Proof. eexists. vm_compute. reflexivity. Qed.

Lemma call_p_clean : forall llm render pt denv passes k h,
  (passes <= 1)%nat -> programs_clean (snd (call_p llm render pt denv passes k h)).
Proof.
  intros llm render pt denv passes k h P.
  destruct passes as [|[|p]]; [apply programs_clean_one_config..|lia].
Qed.

(* with a single rendering pass, over ANY number of turns and whatever the LLM and the user wrote
   in earlier turns, every text interpreted as a template is configuration *)
Lemma conversation_taint : forall llm render pt denv passes users k0 h h' tr,
  (passes <= 1)%nat ->
  conversation llm render pt denv passes k0 h users = Ok (h', tr) ->
  programs_clean tr.
Proof.
  intros llm render pt denv passes users. induction users as [|u rest IH]; intros k0 h h' tr P H.
  - inversion H. intros e t [].
  - cbn [conversation] in H.
    pose proof (call_p_clean llm render pt denv passes k0 (mk u Caller :: h) P) as C.
    destruct (call_p llm render pt denv passes k0 (mk u Caller :: h)) as [o t].
    destruct (general_post (txt o)) as [m|e]; [|discriminate H]. cbn [bind] in H.
    destruct (conversation llm render pt denv passes (S k0) _ rest) as [[h2 t2]|e] eqn:R; [|discriminate H].
    inversion H; subst. apply programs_clean_app; [exact C|]. eapply IH; eassumption.
Qed.

(* a second pass interprets LLM-produced text of an earlier turn: two turns suffice *)
Lemma conversation_two_passes_refuted :
  exists llm users h' tr e t,
    conversation llm (fun t _ => t) (fun _ => s2t "tpl") (fun _ t => t) 2 0 [] users = Ok (h', tr) /\
    In (e, t) tr /\ e = Render /\ tg t = FromLLM.
Proof.
  exists (fun _ => s2t "{{ 7*191 }}"), [s2t "hi"; s2t "more"].
  eexists. eexists. exists Render. exists (mk (s2t "tpl") FromLLM).
  split; [vm_compute; reflexivity|]. split; [|split; reflexivity].
  simpl. auto.
Qed.
