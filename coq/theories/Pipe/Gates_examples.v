(* Pipe.Gates_examples - non-vacuity: concrete turns / conversations that inhabit the hypotheses
   of the C01 / C02 theorems (evaluated by vm_compute on the models). *)
From Coq Require Import List String Bool Arith.
From NG Require Import Pipe.Rails Pipe.TurnV1 Pipe.TurnV2.
Import ListNotations.
Open Scope string_scope.
Open Scope list_scope.

Definition ex_llm (t i : nat) (p : prompt) : text :=
  (* the completion echoes what flowed into the prompt, so leaks would be visible *)
  String.concat "|" (map (fun h => match h with HUser x => x | HBot x => x end) (p_hist p) ++ [p_user p]).

Definition ex_turn (vf : nat -> nat -> rail -> text -> verdict) :=
  turn_v1 vf ex_llm (fun o => o) (fun _ _ => DAsk) (fun o => o) (fun _ => None) (fun o => o) "REFUSED".

Definition ex_cf := mkCfg [10; 11; 12] [20; 21] false false false.

(* rail 11 rewrites *)
Definition vf_rw (t c : nat) (r : rail) (x : text) : verdict :=
  if Nat.eqb r 11 then Rewrite "clean" else if Nat.eqb r 21 then Rewrite (x ++ "!")%string else Accept.

Definition ex_rewrite_statement : Prop :=
  let '(st, tr, rp) := ex_turn vf_rw ex_cf init_state "secret" in
  rail_calls SIn tr = [(10, "secret"); (11, "secret"); (12, "clean")] /\
  map (fun ip => p_user (snd ip)) (llm_calls tr) = ["clean"] /\
  rail_calls SOut tr = [(20, "clean|clean"); (21, "clean|clean")] /\
  rp = RMsg ["clean|clean!"] /\ user_message st = Some "clean" /\ skip st = false.

Lemma ex_rewrite : ex_rewrite_statement.
Proof. vm_compute. repeat split; reflexivity. Qed.

(* rail 11 rejects *)
Definition vf_rej (t c : nat) (r : rail) (x : text) : verdict := if Nat.eqb r 11 then Reject else Accept.

Definition ex_reject_statement : Prop :=
  let '(st, tr, rp) := ex_turn vf_rej ex_cf init_state "bad" in
  nth_error (rail_calls SIn tr) 1 = Some (11, "bad") /\ vf_rej (tidx init_state) 1 11 "bad" = Reject /\
  rail_calls SIn tr = [(10, "bad"); (11, "bad")] /\ llm_calls tr = [] /\ rp = RMsg ["REFUSED"].

Lemma ex_reject : ex_reject_statement.
Proof. vm_compute. repeat split; reflexivity. Qed.

(* two inputs, same rewritten text *)
Definition ex_nonint_statement : Prop :=
  exists tr1 c1 tr2 c2,
    run_rails (vf_rw 0) SIn (irails ex_cf) 0 "secret one" = (tr1, c1, Passed "clean") /\
    run_rails (vf_rw 0) SIn (irails ex_cf) 0 "another secret" = (tr2, c2, Passed "clean") /\
    tr1 <> tr2.

Lemma ex_nonint : ex_nonint_statement.
Proof. do 4 eexists. split; [vm_compute; reflexivity|]. split; [vm_compute; reflexivity|]. discriminate. Qed.

(* C02: a 4-turn conversation in which turn 1 is blocked by an output rail and turn 2 is
   rewritten; turn 3 is checked by both rails again; the flag is false at every boundary *)
Definition vf_c02 (t c : nat) (r : rail) (x : text) : verdict :=
  if Nat.eqb t 1 && Nat.eqb r 21 then Reject
  else if Nat.eqb t 2 && Nat.eqb r 20 then Rewrite "softened" else Accept.

Definition ex_conv :=
  conv_v1 vf_c02 (fun t i p => "answer") (fun o => o) (fun _ _ => DAsk) (fun o => o) (fun _ => None) (fun o => o)
          "REFUSED" (mkCfg [] [20; 21] false false false) init_state ["q0"; "q1"; "q2"; "q3"].

Definition ex_c02_statement : Prop :=
  map (fun r => (skip (fst (fst r)), rail_calls SOut (snd (fst r)), snd r)) ex_conv =
  [ (false, [(20, "answer"); (21, "answer")], RMsg ["answer"]);
    (false, [(20, "answer"); (21, "answer")], RMsg ["REFUSED"]);
    (false, [(20, "answer"); (21, "softened")], RMsg ["softened"]);
    (false, [(20, "answer"); (21, "answer")], RMsg ["answer"]) ].

Lemma ex_c02 : ex_c02_statement.
Proof. vm_compute. reflexivity. Qed.

(* a dialog-mode turn with a predefined message: the skip flag is set and reset within the turn,
   the next turn's LLM message is checked *)
Definition ex_predef_conv :=
  conv_v1 (fun _ _ _ _ => Accept) (fun t i p => "llm text") (fun o => o)
          (fun t o => if Nat.eqb t 0 then DBot "greet" else DBot "answer") (fun o => o)
          (fun bi => if String.eqb bi "greet" then Some "Hello!" else None) (fun o => o)
          "REFUSED" (mkCfg [] [20] true false false) init_state ["hi"; "question"].

Definition ex_predef_statement : Prop :=
  map (fun r => (skip (fst (fst r)), rail_calls SOut (snd (fst r)), snd r)) ex_predef_conv =
  [ (false, [], RMsg ["Hello!"]); (false, [(20, "llm text")], RMsg ["llm text"]) ].

Lemma ex_predef : ex_predef_statement.
Proof. vm_compute. reflexivity. Qed.
