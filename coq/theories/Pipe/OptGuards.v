(* Pipe/OptGuards.v - the guard expressions of the shipped Colang flows as data with a meaning.

   * `gexpr`: the fragment of Colang 1.0 / Python expressions the `if` guards of llm_flows.co and of
     the self-check rails are written in; `show` prints an expression back to source text (no
     parentheses: `prec_ok` says none are needed), so Coq can CHECK that a translated AST is the
     parse of the guard string found in the compiled flow (Gen/C01Flows.v);
   * `eval` / `truthy`: the meaning eval_expression + `if` give to it (undefined variable = None,
     dict / object attribute access, Python `and`/`or` returning operands, truthiness of None,
     bools, dicts/objects and lists; attribute access on None etc. = exception = `None` here);
   * `walk`: the path `slide` follows through a compiled flat flow under a valuation of its
     guards (proved to be a `path` of Pipe/FlowCheck_proofs.v in OptGuards_proofs.v).
   Definitions only.  Types of the compiled flows come from Pipe/FlowCheck.v.  The values of a
   turn's context ($generation_options, $config) are in Pipe/OptGuardsEnv.v (C16 only). *)
From Coq Require Import List String Bool ZArith.
From NG Require Import Pipe.FlowCheck.
Import ListNotations.
Open Scope string_scope.
Open Scope list_scope.

Inductive gexpr :=
| GVar (v : string)                 (* $v *)
| GAttr (e : gexpr) (a : string)    (* e.a *)
| GNone | GTrue | GFalse
| GIs (a b : gexpr)                 (* a is b *)
| GEq (a b : gexpr)                 (* a == b *)
| GNot (e : gexpr)
| GAnd (a b : gexpr)
| GOr (a b : gexpr).

(* Python precedence: or < and < not < comparisons < atoms *)
Definition level (e : gexpr) : nat :=
  match e with
  | GOr _ _ => 1 | GAnd _ _ => 2 | GNot _ => 3 | GIs _ _ | GEq _ _ => 4
  | _ => 5
  end.

Fixpoint show (e : gexpr) : string :=
  match e with
  | GVar v => "$" ++ v
  | GAttr e a => show e ++ "." ++ a
  | GNone => "None" | GTrue => "True" | GFalse => "False"
  | GIs a b => show a ++ " is " ++ show b
  | GEq a b => show a ++ " == " ++ show b
  | GNot e => "not " ++ show e
  | GAnd a b => show a ++ " and " ++ show b
  | GOr a b => show a ++ " or " ++ show b
  end.

(* the un-parenthesised print is the source of exactly this tree *)
Fixpoint prec_ok (e : gexpr) : bool :=
  match e with
  | GVar _ | GNone | GTrue | GFalse => true
  | GAttr e _ => Nat.eqb (level e) 5 && prec_ok e
  | GIs a b | GEq a b => Nat.eqb (level a) 5 && Nat.eqb (level b) 5 && prec_ok a && prec_ok b
  | GNot e => Nat.leb 3 (level e) && prec_ok e
  | GAnd a b => Nat.leb 2 (level a) && Nat.leb 3 (level b) && prec_ok a && prec_ok b
  | GOr a b => Nat.leb 1 (level a) && Nat.leb 2 (level b) && prec_ok a && prec_ok b
  end.

Inductive gval :=
| VNone
| VBool (b : bool)
| VRec (fields : list (string * gval))    (* a dict (AttributeDict) or an object with attributes *)
| VList (n : nat).                        (* a list of n elements *)

Definition truthy (v : gval) : bool :=
  match v with
  | VNone => false
  | VBool b => b
  | VRec f => negb (match f with [] => true | _ => false end)
  | VList n => negb (Nat.eqb n 0)
  end.

Fixpoint field (a : string) (f : list (string * gval)) : option gval :=
  match f with
  | [] => None
  | (k, v) :: r => if String.eqb a k then Some v else field a r
  end.

(* comparison with a constant (the only comparisons of the fragment); None = not modelled *)
Definition const_cmp (va vb : gval) : option bool :=
  match va, vb with
  | VNone, VNone => Some true
  | VBool x, VBool y => Some (Bool.eqb x y)
  | VNone, VBool _ | VBool _, VNone => Some false
  | (VRec _ | VList _), (VNone | VBool _) => Some false
  | _, _ => None
  end.

Definition env := string -> gval.     (* context.get(name): an undefined variable is None *)

Fixpoint eval (rho : env) (e : gexpr) : option gval :=
  match e with
  | GVar v => Some (rho v)
  | GAttr e a => match eval rho e with
                 | Some (VRec f) => field a f       (* missing attribute / key: exception *)
                 | _ => None                        (* attribute of None, bool, list: exception *)
                 end
  | GNone => Some VNone
  | GTrue => Some (VBool true)
  | GFalse => Some (VBool false)
  | GIs a b | GEq a b =>
    match eval rho a, eval rho b with
    | Some va, Some vb => option_map VBool (const_cmp va vb)
    | _, _ => None
    end
  | GNot e => option_map (fun v => VBool (negb (truthy v))) (eval rho e)
  | GAnd a b => match eval rho a with
                | Some va => if truthy va then eval rho b else Some va
                | None => None
                end
  | GOr a b => match eval rho a with
               | Some va => if truthy va then Some va else eval rho b
               | None => None
               end
  end.

(* the `if` of sliding.py: truthiness of the value; None = the evaluation raises *)
Definition holds (rho : env) (e : gexpr) : option bool := option_map truthy (eval rho e).

(* a table guard string -> AST (generated), checked entry by entry *)
Definition entry_ok (p : string * gexpr) : bool := String.eqb (fst p) (show (snd p)) && prec_ok (snd p).

Fixpoint lookup_guard (s : string) (t : list (string * gexpr)) : option gexpr :=
  match t with
  | [] => None
  | (k, e) :: r => if String.eqb s k then Some e else lookup_guard s r
  end.

(* valuation of guard strings induced by a table and an environment *)
Definition valuation (t : list (string * gexpr)) (rho : env) (s : string) : option bool :=
  match lookup_guard s t with Some e => holds rho e | None => None end.

(* steps (index, edge taken) until the flow ends; None = a guard raises / a loop / out of fuel *)
Fixpoint walk (es : list elem) (val : string -> option bool) (fuel : nat) (pc : Z) : option (list (Z * edge)) :=
  match fuel with
  | O => None
  | S f =>
    match elem_at es pc with
    | None => Some []
    | Some e =>
      match e with
      | EIf x ne =>
        match val x with
        | Some true => option_map (cons (pc, LTrue x)) (walk es val f (pc + 1)%Z)
        | Some false => option_map (cons (pc, LFalse x)) (walk es val f (pc + ne)%Z)
        | None => None
        end
      | EWhile _ _ => None
      | EJump n => option_map (cons (pc, LNext)) (walk es val f (pc + n)%Z)
      | _ => option_map (cons (pc, LNext)) (walk es val f (pc + 1)%Z)
      end
    end
  end.

(* the elements executed on the way that are not control elements *)
Definition visible (es : list elem) (p : list (Z * edge)) : list elem :=
  flat_map (fun s => match elem_at es (fst s) with
                     | Some (EIf _ _) | Some (EJump _) | Some EMeta | None => []
                     | Some e => [e]
                     end) p.

Definition run_flow (es : list elem) (t : list (string * gexpr)) (rho : env) : option (list elem) :=
  option_map (visible es) (walk es (valuation t rho) (S (List.length es)) 0%Z).

Definition calls_flow (n : string) (tr : option (list elem)) : option bool :=
  option_map (existsb (is_flow n)) tr.

Definition elem_beq (a b : elem) : bool :=
  match a, b with
  | EMatch x, EMatch y | EFlow x, EFlow y | EUtter x, EUtter y => String.eqb x y
  | EAction x k, EAction y k' => String.eqb x y && String.eqb k k'
  | ESet k x, ESet k' x' => String.eqb k k' && String.eqb x x'
  | ECreate x ps, ECreate y qs =>
    String.eqb x y && (Nat.eqb (List.length ps) (List.length qs)) &&
    forallb (fun pq => String.eqb (fst (fst pq)) (fst (snd pq)) && String.eqb (snd (fst pq)) (snd (snd pq))) (combine ps qs)
  | EMeta, EMeta => true
  | _, _ => false
  end.

Fixpoint trace_beq (a b : list elem) : bool :=
  match a, b with
  | [], [] => true
  | x :: a', y :: b' => elem_beq x y && trace_beq a' b'
  | _, _ => false
  end.

(* the guard strings occurring in a flow *)
Definition guards_of (es : list elem) : list string :=
  flat_map (fun e => match e with EIf x _ => [x] | EWhile x _ => [x] | _ => [] end) es.

Definition all_guards_known (es : list elem) (t : list (string * gexpr)) : bool :=
  forallb (fun s => match lookup_guard s t with Some _ => true | None => false end) (guards_of es).

Example show_or : show (GOr (GIs (GVar "generation_options") GNone)
                           (GAttr (GAttr (GVar "generation_options") "rails") "input"))
                  = "$generation_options is None or $generation_options.rails.input".
Proof. reflexivity. Qed.

Example eval_none_attr : eval (fun _ => VNone) (GAttr (GVar "x") "a") = None.
Proof. reflexivity. Qed.
