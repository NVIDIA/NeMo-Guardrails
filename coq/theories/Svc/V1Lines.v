(* C13 (layout, Colang 1.0) - the line pre-processing of the hand-written parser.

   Model of nemoguardrails/colang/v1_0/lang/utils.py :: get_numbered_lines, in three layers:
   `pre` - its simple core: every raw line is stripped; empty lines and lines starting with
   '#' are dropped; a kept line records its stripped text, its 1-based number and its
   indentation = the number of leading ' ' characters (a tab ends the count);
   `pre_c` - the same with the continuation join (trailing backslash / " or");
   `pre_cm` - the core with the pending line comment attached to each statement.
   NOT modelled (the differential only uses files without them): multi-line strings,
   triple-quoted comments, and the removal of an end-of-line comment from the text
   (word_split is quote-aware).
   Everything after this function - the 1 900-line parser, which compares these
   indentation numbers and in places adds constants to them - is explored, not modelled. *)
From Coq Require Import NArith List Bool.
Import ListNotations.
Open Scope N_scope.

Inductive ch := CSp | CTab | CHash | CChr (c : N).

Definition is_wsc (c : ch) : bool := match c with CSp | CTab => true | _ => false end.

Fixpoint lstrip (l : list ch) : list ch :=
  match l with
  | [] => []
  | c :: r => if is_wsc c then lstrip r else l
  end.

Fixpoint rstrip (l : list ch) : list ch :=
  match l with
  | [] => []
  | c :: r => match rstrip r with
              | [] => if is_wsc c then [] else [c]
              | r' => c :: r'
              end
  end.

Definition strip (l : list ch) : list ch := rstrip (lstrip l).

(* `ind = 0; while raw_lines[i][ind] == " ": ind += 1` *)
Fixpoint lead_sp (l : list ch) : N :=
  match l with CSp :: r => 1 + lead_sp r | _ => 0 end.

Record nline := { n_text : list ch; n_number : N; n_ind : N }.

Fixpoint pre_go (i : N) (ls : list (list ch)) : list nline :=
  match ls with
  | [] => []
  | l :: r =>
      match strip l with
      | [] => pre_go (i + 1) r
      | CHash :: _ => pre_go (i + 1) r
      | s => {| n_text := s; n_number := i + 1; n_ind := lead_sp l |} :: pre_go (i + 1) r
      end
  end.

Definition pre (ls : list (list ch)) : list nline := pre_go 0 ls.

(* a line modulo its source position *)
Definition unnumbered (n : nline) : list ch * N := (n_text n, n_ind n).

Fixpoint scale_line (k : nat) (l : list ch) : list ch :=
  match l with CSp :: r => repeat CSp k ++ scale_line k r | _ => l end.

Definition scale_ind (k : nat) (n : nline) : nline :=
  {| n_text := n_text n; n_number := n_number n; n_ind := N.of_nat k * n_ind n |}.

(* sanity: "define flow a", "", "  # c", "  user hi  ", "\tbot x" *)
Example pre_ex :
  pre [[CChr 1; CSp; CChr 2]; []; [CSp; CSp; CHash; CChr 3]; [CSp; CSp; CChr 4; CSp; CChr 5; CSp; CSp]; [CTab; CChr 6]]
  = [ {| n_text := [CChr 1; CSp; CChr 2]; n_number := 1; n_ind := 0 |};
      {| n_text := [CChr 4; CSp; CChr 5]; n_number := 4; n_ind := 2 |};
      {| n_text := [CChr 6]; n_number := 5; n_ind := 0 |} ].
Proof. reflexivity. Qed.

(* The continuation join of get_numbered_lines:

       text = raw_line
       while i < len(raw_lines) - 1 and text[-1] == "\\" or text.endswith(" or"):
           i += 1
           if text[-1] == "\\": text = text[0:-1]
           if text[-1] != " ":  text = text + " "
           text = text + raw_lines[i].strip()
       lines.append({"text": text, "number": i + 1, "indentation": ind, ...})

   (`and` binds tighter than `or`).  The physical lines that are appended are NOT filtered
   (a blank or comment line after a backslash is appended like any other).  Python's
   IndexError - `raw_lines[i]` past the last line when the text ends in " or", `text[-1]`
   on a text that was only a backslash - is the result None.
   `go` walks the physical lines once; `pend` is the statement being continued. *)

Fixpoint last_ch (l : list ch) : option ch :=
  match l with
  | [] => None
  | [c] => Some c
  | _ :: r => last_ch r
  end.

Definition ends_bsl (t : list ch) : bool :=
  match last_ch t with Some (CChr c) => c =? 92 | _ => false end.            (* "\\" *)

Definition ends_sp (t : list ch) : bool :=
  match last_ch t with Some CSp => true | _ => false end.

Definition ends_or (t : list ch) : bool :=                                     (* " or" *)
  match rev t with
  | CChr r :: CChr o :: CSp :: _ => (r =? 114) && (o =? 111)
  | _ => false
  end.

Definition join_next (text l : list ch) : option (list ch) :=
  let t1 := if ends_bsl text then removelast text else text in
  match t1 with
  | [] => None
  | _ => Some ((if ends_sp t1 then t1 else t1 ++ [CSp]) ++ strip l)
  end.

Fixpoint go (i : N) (pend : option (list ch * N)) (ls : list (list ch)) : option (list nline) :=
  match ls with
  | [] => match pend with None => Some [] | Some _ => None end
  | l :: r =>
      let has_next := match r with [] => false | _ => true end in
      let finish := fun (text : list ch) (ind : N) =>
        if (ends_bsl text && has_next) || ends_or text
        then go (i + 1) (Some (text, ind)) r
        else option_map (cons {| n_text := text; n_number := i + 1; n_ind := ind |}) (go (i + 1) None r) in
      match pend with
      | Some (text, ind) =>
          match join_next text l with
          | None => None
          | Some t => finish t ind
          end
      | None =>
          match strip l with
          | [] => go (i + 1) None r
          | CHash :: _ => go (i + 1) None r
          | s => finish s (lead_sp l)
          end
      end
  end.

Definition pre_c (ls : list (list ch)) : option (list nline) := go 0 None ls.

(* sanity: "if $a and \", "   $b and \  ", "   $c", "  user x or", "  user y" *)
Example pre_c_ex :
  pre_c [[CChr 1; CSp; CChr 92]; [CSp; CSp; CChr 2; CSp; CChr 92; CSp; CSp]; [CSp; CChr 3];
         [CSp; CSp; CChr 4; CSp; CChr 111; CChr 114]; [CSp; CSp; CChr 5]]
  = Some [ {| n_text := [CChr 1; CSp; CChr 2; CSp; CChr 3]; n_number := 3; n_ind := 0 |};
           {| n_text := [CChr 4; CSp; CChr 111; CChr 114; CSp; CChr 5]; n_number := 5; n_ind := 2 |} ].
Proof. vm_compute. reflexivity. Qed.

(* " or" on the last line: raw_lines[i] raises IndexError *)
Example pre_c_trailing_or : pre_c [[CChr 4; CSp; CChr 111; CChr 114]] = None.
Proof. reflexivity. Qed.

(* The pending line comment of get_numbered_lines (continuation-free core):

       if raw_line.startswith("#"):
           current_comment = raw_line[1:].strip()  if current_comment is None
                             else current_comment + "\n" + raw_line[1:].strip()
       if len(raw_line) == 0 or raw_line[0] == "#":  skip the line    (current_comment is KEPT)
       ...
       lines.append({..., "comment": current_comment});  current_comment = None

   The comment travels in `_source_mapping` and becomes the `instructions` of the
   generate_value action built for `$var = ...`, so it is part of what a file parses to.
   A comment is the list of its lines (joined with "\n" by the code). *)

Definition comment := option (list (list ch)).

Definition add_comment (cm : comment) (t : list ch) : comment :=
  match cm with None => Some [strip t] | Some c => Some (c ++ [strip t]) end.

Fixpoint pre_cm_go (i : N) (cm : comment) (ls : list (list ch)) : list (nline * comment) :=
  match ls with
  | [] => []
  | l :: r =>
      match strip l with
      | [] => pre_cm_go (i + 1) cm r
      | CHash :: t => pre_cm_go (i + 1) (add_comment cm t) r
      | s => ({| n_text := s; n_number := i + 1; n_ind := lead_sp l |}, cm) :: pre_cm_go (i + 1) None r
      end
  end.

Definition pre_cm (ls : list (list ch)) : list (nline * comment) := pre_cm_go 0 None ls.

Definition unnumbered_cm (x : nline * comment) : list ch * N * comment := (n_text (fst x), n_ind (fst x), snd x).

(* "  # Extract the question.", "", "  # second line", "  $q = ..." *)
Example pre_cm_ex :
  map unnumbered_cm (pre_cm [[CSp; CSp; CHash; CSp; CChr 1; CSp]; []; [CSp; CHash; CChr 2]; [CSp; CSp; CChr 3]])
  = [([CChr 3], 2, Some [[CChr 1]; [CChr 2]])].
Proof. reflexivity. Qed.
