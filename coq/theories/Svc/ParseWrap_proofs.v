(* C13 (error path) - the wrapping contract of Svc/ParseWrap.v: a formatter with the three guards
   never raises, so any except-clause list accepted by `cfg_ok` turns every parser outcome into
   success or a parsing error naming the file; the pinned, unguarded code is refuted by three
   exception shapes. *)
From Coq Require Import ZArith List String Bool Ascii Lia.
From NG Require Import Svc.ParseWrap.
Import ListNotations.
Open Scope string_scope.
Open Scope Z_scope.

Lemma sapp_assoc : forall a b c : string, (a ++ b) ++ c = a ++ (b ++ c).
Proof. induction a as [|x a IH]; intros b c; simpl; [reflexivity | now rewrite IH]. Qed.

Lemma sapp_nil_r : forall a : string, a ++ "" = a.
Proof. induction a as [|x a IH]; simpl; [reflexivity | now rewrite IH]. Qed.

Lemma contains_self : forall p, contains p p.
Proof. intros p. exists "", "". simpl. now rewrite sapp_nil_r. Qed.

Lemma contains_app_l : forall p s t, contains p s -> contains p (s ++ t).
Proof.
  intros p s t [a [b Hs]]. exists a, (b ++ t). subst s.
  now rewrite !sapp_assoc.
Qed.

Lemma contains_app_r : forall p s t, contains p t -> contains p (s ++ t).
Proof.
  intros p s t [a [b Ht]]. exists (s ++ a), b. subst t.
  now rewrite !sapp_assoc.
Qed.

Lemma render_names_path :
  forall path version t, tpl_names_path t = true -> contains path (render path version t).
Proof.
  intros path version t. induction t as [|p r IH]; simpl; intros H; [discriminate|].
  destruct p as [s| | |nm]; simpl in *.
  - apply contains_app_r. now apply IH.
  - apply contains_app_l. apply contains_self.
  - apply contains_app_r. now apply IH.
  - now apply IH.
Qed.

Lemma py_index_in_range :
  forall lines z, 1 <= z <= Z.of_nat (List.length lines) -> exists l, py_index lines (z - 1) = Some l.
Proof.
  intros lines z Hz. unfold py_index.
  replace ((0 <=? z - 1) && (z - 1 <? Z.of_nat (List.length lines))) with true
    by (symmetry; apply andb_true_intro; split; [apply Z.leb_le | apply Z.ltb_lt]; lia).
  destruct (nth_error lines (Z.to_nat (z - 1))) as [l|] eqn:Hn; [eauto|].
  apply nth_error_None in Hn. lia.
Qed.

Lemma get_column_guarded :
  forall fc e, f_col_guard fc = true -> exists c, get_column fc e = AInt c.
Proof.
  intros fc e Hc. unfold get_column. rewrite Hc.
  destruct (e_column e) as [| |z|]; try (exists 1; reflexivity). destruct (z <? 1); eauto.
Qed.

(* the defensive formatter never raises: a line that is not a usable int gives str(e), a
   usable one indexes inside the list, and the column is an int *)
Lemma fmt_defensive_total :
  forall fc e lines,
    f_line_getattr fc = true -> f_line_guard fc = true -> f_col_guard fc = true ->
    exists m, fmt fc e lines = Val m.
Proof.
  intros fc e lines Hg Hl Hc. unfold fmt, get_line. rewrite Hg, Hl.
  destruct (e_line e) as [| |z|]; simpl; eauto.
  destruct ((1 <=? z) && (z <=? Z.of_nat (List.length lines))) eqn:Hr; simpl; [|eauto].
  apply andb_prop in Hr. destruct Hr as [H1 H2]. apply Z.leb_le in H1, H2.
  destruct (py_index_in_range lines z (conj H1 H2)) as [l ->].
  destruct (get_column_guarded fc e Hc) as [c ->]. eauto.
Qed.

Lemma find_exists :
  forall (A : Type) (f g : A -> bool) (l : list A),
    existsb g l = true -> (forall x, g x = true -> f x = true) -> exists h, find f l = Some h.
Proof.
  intros A f g l. induction l as [|x l IH]; simpl; intros He Hi; [discriminate|].
  destruct (f x) eqn:Hf; [eauto|].
  destruct (g x) eqn:Hgx.
  - rewrite (Hi x Hgx) in Hf. discriminate.
  - simpl in He. now apply IH.
Qed.

(* the wrapping contract, for any except-clause list / formatter shape accepted by cfg_ok *)
Theorem wrapper_total :
  forall hs fc, cfg_ok hs fc = true ->
  forall path version o lines,
    (forall e, o = PRaise e -> isinstance e "Exception" = true) ->
    good path (wrap hs fc path version o lines).
Proof.
  intros hs fc Hok path version o lines Hexc.
  unfold cfg_ok in Hok. apply andb_prop in Hok. destruct Hok as [Hall Hex].
  destruct o as [|e]; simpl; [exact I|].
  specialize (Hexc e eq_refl).
  destruct (find_exists handler (fun h => isinstance e (h_class h))
                        (fun h => String.eqb (h_class h) "Exception") hs Hex) as [h Hfind].
  { intros x Hx. apply String.eqb_eq in Hx. now rewrite Hx. }
  rewrite Hfind.
  destruct (find_some _ _ Hfind) as [Hin _].
  rewrite forallb_forall in Hall. specialize (Hall h Hin).
  unfold handler_ok in Hall.
  apply andb_prop in Hall. destruct Hall as [Hall Hfmt].
  apply andb_prop in Hall. destruct Hall as [Hcpe Htpl].
  rewrite Hcpe.
  pose proof (render_names_path path version (h_tpl h) Htpl) as Hc.
  destruct (h_fmt h) eqn:Hf; simpl in *.
  - apply andb_prop in Hfmt. destruct Hfmt as [Hfmt H3].
    apply andb_prop in Hfmt. destruct Hfmt as [H1 H2].
    destruct (fmt_defensive_total fc e lines H1 H2 H3) as [m Hm].
    rewrite Hm. simpl. now apply contains_app_l.
  - exact Hc.
Qed.

(* the pinned code is accepted only with the repaired formatter *)
Example cfg_ok_repaired : cfg_ok handlers_orig fmt_defensive = true.
Proof. reflexivity. Qed.
Example cfg_ok_pinned_false : cfg_ok handlers_orig fmt_orig = false /\ cfg_ok handlers_content_orig fmt_defensive = false.
Proof. split; reflexivity. Qed.

(* Refutation on the faithful model of the pinned code: three exception shapes the real
   parsers produce escape from_path as AttributeError / TypeError / IndexError, and from
   from_content anything the parser raises escapes unchanged. *)
Lemma wrapper_refuted_pinned :
  (exists o lines, (forall e, o = PRaise e -> isinstance e "Exception" = true) /\
       wrap handlers_orig fmt_orig "/cfg/bad.co" "2.x" o lines = LEscape (EscPy AttributeError)) /\
  (exists o lines, (forall e, o = PRaise e -> isinstance e "Exception" = true) /\
       wrap handlers_orig fmt_orig "/cfg/bad.co" "2.x" o lines = LEscape (EscPy TypeError)) /\
  (exists o lines, (forall e, o = PRaise e -> isinstance e "Exception" = true) /\
       wrap handlers_orig fmt_orig "/cfg/bad.co" "2.x" o lines = LEscape (EscPy IndexError)) /\
  (exists o lines, (forall e, o = PRaise e -> isinstance e "Exception" = true) /\
       wrap handlers_content_orig fmt_orig "main.co" "2.x" o lines = LEscape EscOriginal).
Proof.
  assert (R : forall x, isinstance x "Exception" = true ->
                        forall e, PRaise x = PRaise e -> isinstance e "Exception" = true)
    by (intros x H e [= <-]; exact H).
  repeat split.
  - exists (PRaise dedent_error), ["flow main"; "    match A"; "  match B"].
    split; [now apply R | exact orig_dedent].
  - exists (PRaise unexpected_eof), ["flow main"; "  match (A"]. split; [now apply R | exact orig_eof].
  - exists (PRaise beyond_last_line), ["a"; "b"]. split; [now apply R | exact orig_beyond].
  - exists (PRaise dedent_error), ["flow main"]. split; [now apply R | reflexivity].
Qed.

Corollary wrapper_refuted :
  exists hs fc path version o lines,
    hs = handlers_orig /\ fc = fmt_orig /\
    (forall e, o = PRaise e -> isinstance e "Exception" = true) /\
    ~ good path (wrap hs fc path version o lines).
Proof.
  destruct wrapper_refuted_pinned as [[o [lines [He Hw]]] _].
  exists handlers_orig, fmt_orig, "/cfg/bad.co", "2.x", o, lines.
  repeat (split; [reflexivity|]). split; [exact He|]. rewrite Hw. intros [].
Qed.

(* on a usable position the guarded and the unguarded formatter produce the same message *)
Lemma fmt_defensive_agrees_when_usable :
  forall e lines z c,
    e_line e = AInt z -> 1 <= z <= Z.of_nat (List.length lines) ->
    e_column e = AInt c -> 1 <= c ->
    fmt fmt_defensive e lines = fmt fmt_orig e lines.
Proof.
  intros e lines z c Hl Hz Hc Hc1. unfold fmt, get_line, get_column, fmt_defensive, fmt_orig. simpl.
  rewrite Hl, Hc. simpl.
  assert (Hu : (1 <=? z) && (z <=? Z.of_nat (List.length lines)) = true).
  { apply andb_true_intro. split; apply Z.leb_le; lia. }
  rewrite Hu. simpl.
  assert (Hlt : c <? 1 = false) by (apply Z.ltb_ge; lia).
  rewrite Hlt. reflexivity.
Qed.
