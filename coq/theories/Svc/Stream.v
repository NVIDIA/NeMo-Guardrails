(* C18 - model of nemoguardrails/streaming.py : StreamingHandler (push_chunk, _process,
   on_llm_end, __anext__), transcribed branch by branch, over strings = lists over an
   abstract alphabet A with a boolean equality.  Definitions only.

   Two transcriptions are kept:
     * `push` / `process` / `on_llm_end`            : the handler AFTER fixes/C18-streaming.patch
     * `push_old` / `process_old` / `on_llm_end_old`: the handler of the pinned snapshot (pre-fix),
       kept for the `_refuted` witnesses (regression documentation).

   What is modelled: buffering disabled (enable_buffer = False), one producer, the sink
   (asyncio.Queue, or the piped handler that receives exactly the same items) as the list of
   items put, asyncio events as booleans.  `None`/`""` chunks are end-of-stream markers. *)
From Coq Require Import List Bool Arith Lia.
Import ListNotations.

Set Implicit Arguments.

Section Stream.
Variable A : Type.
Variable eqb : A -> A -> bool.
Notation str := (list A).

(* ------------------------------------------------------------------------------------ *)
(* Python string primitives                                                              *)

(* s.startswith(p) *)
Fixpoint prefixb (p s : str) : bool :=
  match p, s with
  | [], _ => true
  | _ :: _, [] => false
  | a :: p', b :: s' => eqb a b && prefixb p' s'
  end.

(* s.endswith(p) *)
Definition endswith (s p : str) : bool := prefixb (rev p) (rev s).

(* s.find(p) : leftmost index at which p occurs in s; None for -1.  `p in s` is `find p s <> None`.
   As in Python, the empty string occurs at index 0 of every string. *)
Fixpoint find (p s : str) : option nat :=
  if prefixb p s then Some 0 else
  match s with
  | [] => None
  | _ :: s' => option_map S (find p s')
  end.

(* p occurs in s at index i (specification-level reading of `find`) *)
Definition occ (p s : str) (i : nat) : Prop := exists a b, s = a ++ p ++ b /\ length a = i.

(* s[a:b] for 0 <= a, 0 <= b *)
Definition slice (a b : nat) (s : str) : str := skipn a (firstn b s).

(* truthiness of an Optional[str] attribute: `if self.prefix:` *)
Definition truthy (o : option str) : bool :=
  match o with Some (_ :: _) => true | _ => false end.
Definition oget (o : option str) : str := match o with Some s => s | None => [] end.
Definition nonempty {B} (l : list B) : bool := match l with [] => false | _ => true end.

(* min([completion.find(s) for s in stop if s in completion]) ; None when that list is empty *)
Fixpoint first_stop (stops : list str) (t : str) : option nat :=
  match stops with
  | [] => None
  | s :: rest =>
      match find s t, first_stop rest t with
      | Some i, Some j => Some (Nat.min i j)
      | Some i, None => Some i
      | None, r => r
      end
  end.

(* `if self.suffix and chunk.endswith(self.suffix): chunk = chunk[0 : -1 * len(self.suffix)]` *)
Definition strip_suffix (suf : option str) (c : str) : str :=
  if truthy suf && endswith c (oget suf) then firstn (length c - length (oget suf)) c else c.

(* the hold-back test of push_chunk:
     for _chunk in _chunks: for _len in range(len(_chunk)):
         if self.current_chunk.endswith(_chunk[0 : _len + 1]): skip_processing = True *)
Definition partial_end_of (cur p : str) : bool :=
  existsb (fun l => endswith cur (firstn (S l) p)) (seq 0 (length p)).
Definition partial_end (cur : str) (pats : list str) : bool := existsb (partial_end_of cur) pats.

(* ------------------------------------------------------------------------------------ *)
(* State                                                                                 *)

Record state := mkState {
  s_prefix : option str;          (* self.prefix *)
  s_suffix : option str;          (* self.suffix *)
  s_stop : list str;              (* self.stop *)
  s_cur : str;                    (* self.current_chunk *)
  s_completion : str;             (* self.completion *)
  s_finished : bool;              (* self.streaming_finished_event.is_set() *)
  s_queue : list (option str);    (* every item put in self.queue (or piped), oldest first *)
  s_err : bool                    (* only the pre-fix model: ValueError of split("") / fuel exhausted *)
}.

Record config := mkConfig { c_prefix : option str; c_suffix : option str; c_stop : list str }.

Definition init (c : config) : state :=
  mkState (c_prefix c) (c_suffix c) (c_stop c) [] [] false [] false.

Definition set_cur (st : state) (c : str) : state :=
  mkState (s_prefix st) (s_suffix st) (s_stop st) c (s_completion st) (s_finished st) (s_queue st) (s_err st).
Definition set_completion (st : state) (c : str) : state :=
  mkState (s_prefix st) (s_suffix st) (s_stop st) (s_cur st) c (s_finished st) (s_queue st) (s_err st).
Definition set_finished (st : state) : state :=
  mkState (s_prefix st) (s_suffix st) (s_stop st) (s_cur st) (s_completion st) true (s_queue st) (s_err st).
Definition set_err (st : state) : state :=
  mkState (s_prefix st) (s_suffix st) (s_stop st) (s_cur st) (s_completion st) (s_finished st) (s_queue st) true.
Definition clear_prefix (st : state) : state :=
  mkState None (s_suffix st) (s_stop st) (s_cur st) (s_completion st) (s_finished st) (s_queue st) (s_err st).
Definition clear_patterns (st : state) : state :=
  mkState None None (s_stop st) (s_cur st) (s_completion st) (s_finished st) (s_queue st) (s_err st).

(* `chunk is None or chunk == ""` *)
Definition is_end (chunk : option str) : bool :=
  match chunk with None => true | Some [] => true | Some _ => false end.

(* tail of _process:  await self.queue.put(chunk)  (or the piped push);
   `if stopped or chunk is None or chunk == "": self.streaming_finished_event.set()` *)
Definition emit (st : state) (chunk : option str) (stopped : bool) : state :=
  mkState (s_prefix st) (s_suffix st) (s_stop st) (s_cur st) (s_completion st)
          (s_finished st || stopped || is_end chunk) (s_queue st ++ [chunk]) (s_err st).

(* what the consumer of the async iterator receives: __anext__ raises StopAsyncIteration on the
   first None / "" item *)
Fixpoint delivered (q : list (option str)) : list str :=
  match q with
  | [] => []
  | None :: _ => []
  | Some [] :: _ => []
  | Some c :: q' => c :: delivered q'
  end.

(* ------------------------------------------------------------------------------------ *)
(* The repaired handler                                                                  *)

(* _process(chunk, last_chunk) with enable_buffer = False *)
Definition process (st : state) (chunk : option str) (last : bool) : state :=
  match chunk with
  | None => emit st None false
  | Some c =>
      let comp := s_completion st ++ c in
      match first_stop (s_stop st) comp with
      | Some m =>
          (* chunk = completion[len(self.completion) : min(stop_indices)] ; stopped = True *)
          match slice (length (s_completion st)) m comp with
          | [] => set_finished st                         (* `if not chunk:` ... return *)
          | c1 =>
              let c2 := strip_suffix (s_suffix st) c1 in
              emit (set_completion st (s_completion st ++ c2)) (Some c2) true
          end
      | None =>
          let c2 := if last then strip_suffix (s_suffix st) c else c in
          emit (set_completion st (s_completion st ++ c2)) (Some c2) false
      end
  end.

(* the suffix / stop patterns whose partial occurrence at the end holds a chunk back *)
Definition hold_patterns (st : state) : list str :=
  (if truthy (s_suffix st) then [oget (s_suffix st)] else []) ++ s_stop st.

(* push_chunk below the `if self.prefix:` test: the `elif self.suffix or self.stop:` and `else:` arms *)
Definition push_np (st : state) (chunk : option str) : state :=
  if truthy (s_suffix st) || nonempty (s_stop st) then
    let cur := s_cur st ++ oget chunk in            (* if chunk is not None: self.current_chunk += chunk *)
    if partial_end cur (hold_patterns st) && negb (is_end chunk) then
      set_cur st cur                                 (* held back: return *)
    else
      set_cur (process (set_cur st cur) (Some cur) (is_end chunk)) []
  else process st chunk false.

(* push_chunk *)
Definition push (st : state) (chunk : option str) : state :=
  if s_finished st then st                           (* "CHUNK after finish" *)
  else if truthy (s_prefix st) then
    let cur := s_cur st ++ oget chunk in
    if prefixb (oget (s_prefix st)) cur then
      let rest := skipn (length (oget (s_prefix st))) cur in
      let st1 := clear_prefix (set_cur st []) in
      match rest with
      | [] => st1
      | _ => if s_finished st1 then st1 else push_np st1 (Some rest)   (* await self.push_chunk(chunk) *)
      end
    else set_cur st cur
  else push_np st chunk.

(* on_llm_end *)
Definition on_llm_end (st : state) : state :=
  let st1 := match s_cur st with
             | [] => st
             | c => set_cur (process st (Some c) true) []
             end in
  clear_patterns (process st1 (Some []) false).

(* how the end of the LLM output is signalled to the handler *)
Inductive end_mode := EndLLM (* on_llm_end, the LangChain callback *)
                    | EndEmpty (* push_chunk("") *)
                    | EndNone (* push_chunk(None) *).

(* the end markers that go through push_chunk *)
Definition is_push_end (e : end_mode) : bool := match e with EndLLM => false | _ => true end.

Definition finish (e : end_mode) (st : state) : state :=
  match e with
  | EndLLM => on_llm_end st
  | EndEmpty => push st (Some [])
  | EndNone => push st None
  end.

Definition feed (st : state) (chunks : list str) : state :=
  fold_left (fun s c => push s (Some c)) chunks st.

Definition run (c : config) (chunks : list str) (e : end_mode) : state :=
  finish e (feed (init c) chunks).

(* ------------------------------------------------------------------------------------ *)
(* The LangChain callback entry path: on_chat_model_start, on_llm_new_token per token,    *)
(* on_llm_end.  LangChain passes chunk = GenerationChunk(text=token) /                    *)
(* ChatGenerationChunk(message=AIMessageChunk(content=token)); push_chunk unwraps it.     *)

(* on_chat_model_start: self.current_chunk = "" *)
Definition on_chat_model_start (st : state) : state := set_cur st [].

(* on_llm_new_token; the second component is self.first_token:
     if self.first_token: self.first_token = False; if token == "": return
     await self.push_chunk(chunk)
   Only an EMPTY FIRST token is dropped; any later empty token reaches push_chunk, where it is
   the end-of-stream marker. *)
Definition on_llm_new_token (sf : state * bool) (token : str) : state * bool :=
  let (st, first) := sf in
  if first then
    match token with
    | [] => (st, false)
    | _ => (push st (Some token), false)
    end
  else (push st (Some token), false).

Definition feed_tokens (sf : state * bool) (tokens : list str) : state * bool :=
  fold_left on_llm_new_token tokens sf.

(* a whole LLM call as LangChain drives it *)
Definition run_tokens (c : config) (chat : bool) (tokens : list str) : state :=
  let st0 := if chat then on_chat_model_start (init c) else init c in
  on_llm_end (fst (feed_tokens (st0, true) tokens)).

(* ------------------------------------------------------------------------------------ *)
(* Specification: what must be delivered for a text, whatever the chunking               *)

(* the configured prefix is removed when the text starts with it *)
Definition strip_prefix (p : option str) (t : str) : str :=
  if truthy p && prefixb (oget p) t then skipn (length (oget p)) t else t.

(* cut at the first (leftmost) occurrence of any stop sequence *)
Definition cut_stop (stops : list str) (t : str) : str :=
  match first_stop stops t with Some m => firstn m t | None => t end.

(* prefix removed, cut at the first stop sequence, suffix removed from the very end *)
Definition spec (c : config) (text : str) : str :=
  strip_suffix (c_suffix c) (cut_stop (c_stop c) (strip_prefix (c_prefix c) text)).

(* the text starts with the configured prefix (or none is configured) *)
Definition prefix_seen (c : config) (text : str) : bool :=
  negb (truthy (c_prefix c)) || prefixb (oget (c_prefix c)) text.

(* ------------------------------------------------------------------------------------ *)
(* The handler of the pinned snapshot (pre-fix), for the refutation witnesses            *)

(* for stop_chunk in self.stop: if stop_chunk in self.completion: -> first LISTED stop that occurs *)
Fixpoint first_listed_stop (stops : list str) (t : str) : option (str * nat) :=
  match stops with
  | [] => None
  | s :: rest => match find s t with
                 | Some i => Some (s, i)
                 | None => first_listed_stop rest t
                 end
  end.

Definition strip_suffix_old (suf : option str) (c : str) : str :=
  (* `if self.current_chunk and self.suffix and self.current_chunk.endswith(self.suffix)` *)
  if nonempty c && truthy suf && endswith c (oget suf)
  then firstn (length c - length (oget suf)) c else c.

(* push_chunk of the snapshot, parameterised by the (recursive) _process *)
Definition push_old_with (proc : state -> option str -> state) (st : state) (chunk : option str) : state :=
  if s_finished st then st
  else if truthy (s_prefix st) then
    let cur := s_cur st ++ oget chunk in
    if prefixb (oget (s_prefix st)) cur then
      let rest := skipn (length (oget (s_prefix st))) cur in
      let st1 := clear_prefix (set_cur st rest) in
      match rest with
      | [] => st1
      | _ => set_cur (proc st1 (Some rest)) []
      end
    else set_cur st cur
  else if truthy (s_suffix st) || nonempty (s_stop st) then
    let cur := s_cur st ++ oget chunk in
    if partial_end cur (hold_patterns st) && negb (is_end chunk) then set_cur st cur
    else
      let cur2 := if is_end chunk then strip_suffix_old (s_suffix st) cur else cur in
      set_cur (proc (set_cur st cur2) (Some cur2)) []
  else proc st chunk.

(* _process of the snapshot; re-enters push_chunk(None) on a stop sequence *)
Fixpoint process_old (fuel : nat) (st : state) (chunk : option str) : state :=
  match fuel with
  | O => set_err st
  | S fuel' =>
      match chunk with
      | None => emit st None false
      | Some c =>
          let prev := s_completion st in
          let st1 := set_completion st (prev ++ c) in
          match first_listed_stop (s_stop st) (prev ++ c) with
          | Some ([], _) => set_err st1                    (* "".split("") : ValueError *)
          | Some (_, i) =>
              let st2 := set_completion st1 (firstn i (prev ++ c)) in   (* split(stop_chunk)[0] *)
              let st3 :=
                if length prev <? length (s_completion st2) then
                  push_old_with (process_old fuel')
                                (set_cur st2 (skipn (length prev) (s_completion st2))) None
                else st2 in
              set_finished st3
          | None => emit st1 (Some c) false
          end
      end
  end.

Definition old_fuel (st : state) (chunk : option str) : nat :=
  S (S (length (s_completion st) + length (s_cur st) + length (oget chunk))).

Definition push_old (st : state) (chunk : option str) : state :=
  push_old_with (process_old (old_fuel st chunk)) st chunk.

Definition on_llm_end_old (st : state) : state :=
  let st1 := match s_cur st with
             | [] => st
             | c =>
                 let c' := if truthy (s_suffix st) && endswith c (oget (s_suffix st))
                           then firstn (length c - length (oget (s_suffix st))) c else c in
                 set_cur (process_old (old_fuel st None) (set_cur st c') (Some c')) []
             end in
  clear_patterns (process_old (old_fuel st1 None) st1 (Some [])).

Definition finish_old (e : end_mode) (st : state) : state :=
  match e with
  | EndLLM => on_llm_end_old st
  | EndEmpty => push_old st (Some [])
  | EndNone => push_old st None
  end.

Definition run_old (c : config) (chunks : list str) (e : end_mode) : state :=
  finish_old e (fold_left (fun s ch => push_old s (Some ch)) chunks (init c)).

End Stream.

Arguments process : simpl never.
Arguments push_np : simpl never.
Arguments push : simpl never.
Arguments on_llm_end : simpl never.
