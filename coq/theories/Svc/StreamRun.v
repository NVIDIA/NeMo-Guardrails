(* C18 - executable instance of the streaming-handler model over code points (A := N) and the
   check functions used by the correspondence: one case = configuration, chunk list, end mode
   and everything observed on the real StreamingHandler after driving it with exactly these
   calls (every queue item in order, completion, finished flag, current_chunk, whether the
   prefix is still pending). Nothing here is used by the theorems. *)
From Coq Require Import List Bool NArith Arith.
From NG Require Import Svc.Stream.
Import ListNotations.

Definition nstr := list N.

Fixpoint list_eqb {B} (e : B -> B -> bool) (a b : list B) : bool :=
  match a, b with
  | [], [] => true
  | x :: a', y :: b' => e x y && list_eqb e a' b'
  | _, _ => false
  end.

Definition nstr_eqb : nstr -> nstr -> bool := list_eqb N.eqb.

Definition item_eqb (a b : option nstr) : bool :=
  match a, b with
  | None, None => true
  | Some x, Some y => nstr_eqb x y
  | _, _ => false
  end.

(* observation of a handler: queue items, completion, finished, current_chunk, prefix pending *)
Definition obs := (list (option nstr) * nstr * bool * nstr * bool)%type.

Definition obs_of (st : state N) : obs :=
  (s_queue st, s_completion st, s_finished st, s_cur st, truthy (s_prefix st)).

Definition obs_eqb (a b : obs) : bool :=
  let '(q1, c1, f1, k1, p1) := a in
  let '(q2, c2, f2, k2, p2) := b in
  list_eqb item_eqb q1 q2 && nstr_eqb c1 c2 && Bool.eqb f1 f2 && nstr_eqb k1 k2 && Bool.eqb p1 p2.

(* end mode as a number in the generated cases: 0 on_llm_end, 1 push_chunk(""), 2 push_chunk(None) *)
Definition end_of_nat (n : nat) : end_mode :=
  match n with 0 => EndLLM | 1 => EndEmpty | _ => EndNone end.

Definition case := (option nstr * option nstr * list nstr * list nstr * nat * obs)%type.

(* 3: the LangChain callback path (on_llm_new_token per chunk, on_llm_end), text-completion style;
   4: the same for a chat model: on_chat_model_start first and an empty first token before the chunks *)
Definition run_c (p s : option nstr) (stops chunks : list nstr) (e : nat) : state N :=
  match e with
  | 3 => run_tokens N.eqb (mkConfig p s stops) false chunks
  | 4 => run_tokens N.eqb (mkConfig p s stops) true ([] :: chunks)
  | _ => run N.eqb (mkConfig p s stops) chunks (end_of_nat e)
  end.

Definition run_old_c (p s : option nstr) (stops chunks : list nstr) (e : nat) : state N :=
  run_old N.eqb (mkConfig p s stops) chunks (end_of_nat e).

(* repaired handler *)
Definition check_stream (c : case) : bool :=
  let '(p, s, stops, chunks, e, o) := c in
  obs_eqb (obs_of (run_c p s stops chunks e)) o.

(* piped: the downstream handler (no patterns) forwards every item to its own queue and ignores
   whatever arrives after the first end marker ("CHUNK after finish") *)
Fixpoint upto_end (q : list (option nstr)) : list (option nstr) :=
  match q with
  | [] => []
  | i :: q' => if is_end i then [i] else i :: upto_end q'
  end.

Definition check_stream_pipe (c : case) : bool :=
  let '(p, s, stops, chunks, e, o) := c in
  let '(q, c1, f, k, pp) := obs_of (run_c p s stops chunks e) in
  obs_eqb (upto_end q, c1, f, k, pp) o.

(* handler of the pinned snapshot *)
Definition check_stream_old (c : case) : bool :=
  let '(p, s, stops, chunks, e, o) := c in
  let st := run_old_c p s stops chunks e in
  negb (s_err st) && obs_eqb (obs_of st) o.

(* every chunking of `text`, in the order of the bit masks 0 .. 2^(n-1)-1
   (bit i-1 set = a cut before position i) *)
Fixpoint chunkings (text : nstr) : list (list nstr) :=
  match text with
  | [] => [[]]
  | a :: rest =>
      match rest with
      | [] => [[[a]]]
      | _ =>
          flat_map (fun ch => match ch with
                              | [] => []
                              | c :: more => [ (a :: c) :: more ; [a] :: c :: more ]
                              end) (chunkings rest)
      end
  end.

(* A whole text at once.  The harness drives the real handler on EVERY chunking of `text` (mask order), serialises each
   observation into a prefix-free symbol sequence and folds everything into one polynomial hash
   (base 257, modulus 2^61-1); the model does the same here and the two numbers are compared.
   A differing hash is then resolved by the harness with per-chunking `check_stream` cases. *)
Definition M61 : N := 2305843009213693951.
Definition red61 (x : N) : N :=
  let y := (N.land x M61 + N.shiftr x 61)%N in if (M61 <=? y)%N then (y - M61)%N else y.
Definition hstep (h sym : N) : N := red61 (257 * h + sym)%N.

Definition hstr (h : N) (s : nstr) : N := fold_left (fun h c => hstep h (c + 10)%N) s h.
Definition hbool (h : N) (b : bool) : N := hstep h (if b then 6 else 7)%N.
Definition hitem (h : N) (i : option nstr) : N :=
  match i with
  | None => hstep h 1%N
  | Some s => hstep (hstr (hstep h 2%N) s) 3%N
  end.
Definition hobs (h : N) (o : obs) : N :=
  let '(q, c, f, k, p) := o in
  let h1 := hstep (fold_left hitem q h) 4%N in
  let h2 := hstep (hstr h1 c) 5%N in
  let h3 := hbool h2 f in
  let h4 := hstep (hstr h3 k) 8%N in
  hbool h4 p.

Definition tcase := (option nstr * option nstr * list nstr * nstr * nat * N)%type.

Definition hash_text (runner : option nstr -> option nstr -> list nstr -> list nstr -> nat -> state N)
           (p s : option nstr) (stops : list nstr) (text : nstr) (e : nat) : N :=
  fold_left (fun h ch => hobs h (obs_of (runner p s stops ch e))) (chunkings text) 0%N.

Definition check_text (c : tcase) : bool :=
  let '(p, s, stops, text, e, h) := c in N.eqb (hash_text run_c p s stops text e) h.

Definition check_text_old (c : tcase) : bool :=
  let '(p, s, stops, text, e, h) := c in
  N.eqb (hash_text run_old_c p s stops text e) h
  && forallb (fun ch => negb (s_err (run_old_c p s stops ch e))) (chunkings text).

Definition spec_c (p s : option nstr) (stops : list nstr) (text : nstr) : nstr :=
  spec N.eqb (mkConfig p s stops) text.

Definition delivered_c (st : state N) : nstr := concat (delivered (s_queue st)).

(* the two F2 witnesses of DESIGN.md section 5 on both transcriptions; P=80 S=83 X=88 a=97 *)
Example old_suffix_leaks :
  delivered_c (run_old_c (Some [80%N]) (Some [83%N]) [] [[80; 83]%N] 0) = [83%N].
Proof. reflexivity. Qed.
Example new_suffix_held :
  delivered_c (run_c (Some [80%N]) (Some [83%N]) [] [[80; 83]%N] 0) = [].
Proof. reflexivity. Qed.
Example old_completion_duplicated :
  s_completion (run_old_c None None [[88%N]] [[97; 88]%N] 0) = [97; 97]%N.
Proof. reflexivity. Qed.
Example new_completion_once :
  s_completion (run_c None None [[88%N]] [[97; 88]%N] 0) = [97%N].
Proof. reflexivity. Qed.
Example chunkings_3 :
  chunkings [1; 2; 3]%N = [[[1; 2; 3]]; [[1]; [2; 3]]; [[1; 2]; [3]]; [[1]; [2]; [3]]]%N.
Proof. reflexivity. Qed.
