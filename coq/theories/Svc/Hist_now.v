(* C15 - the key function AS THE CURRENT SOURCE HAS IT (Gen/C15Consts.v): the vm_compute
   witnesses for defect F6. *)
From Coq Require Import List String Ascii Bool Arith.
From NG Require Import Gen.C15Consts Svc.HistKey Svc.HistKey_proofs Svc.HistCache Svc.HistCache_proofs Svc.HistRun.
Import ListNotations.
Open Scope string_scope.
Open Scope list_scope.

Lemma reply_c_is_reply : forall ev, is_reply_c (m_role (reply_c ev)) = true.
Proof. reflexivity. Qed.

Lemma f6_honest : honest ascii is_reply_c f6_convs.
Proof.
  intros [|[|c]]; simpl; repeat constructor; discriminate.
Qed.

(* the key of the current source is not injective: separator not escaped, roles ignored,
   other roles invisible *)
Lemma key_now_collisions :
  key_now [mk (RUser, "a:R")] = key_now [mk (RUser, "a"); mk (RAssistant, "R")] /\
  key_now [mk (RUser, "a")] = key_now [mk (RAssistant, "a")] /\
  key_now [mk (RUser, "a"); mk (ROther 0, "x")] = key_now [mk (RUser, "a")].
Proof.
  exact (conj (key_separator_collision ascii sep_now contributes_now RUser RAssistant (s2l "a") (s2l "R") eq_refl eq_refl)
        (conj (key_ignores_roles ascii sep_now contributes_now RUser RAssistant (s2l "a") eq_refl eq_refl)
              (key_ignores_noncontributing ascii sep_now contributes_now [mk (RUser, "a")] (ROther 0) (s2l "x") eq_refl))).
Qed.

Lemma key_now_not_injective : ~ key_injective_on sep_now contributes_now (fun _ => True).
Proof.
  apply key_never_injective. exists RUser. reflexivity.
Qed.

(* with the lookup as shipped (key only) the collision changes what a conversation is turned
   into: conversation 1, honest, sees conversation 0's events *)
Lemma collision_changes_events :
  exists convs sched c,
    honest ascii is_reply_c convs /\
    shared_c false convs sched c <> firstn (count c sched) (alone_c false (convs c)).
Proof.
  exists f6_convs, [0; 1], 1. split; [exact f6_honest|].
  vm_compute. discriminate.
Qed.

(* ... and with the verified lookup it does not: an instance of the isolation theorem *)
Example collision_harmless_when_verified :
  shared_c true f6_convs [0; 1] 1 = firstn (count 1 [0; 1]) (alone_c true (f6_convs 1)).
Proof.
  exact (isolation ascii ascii_dec bytes bytes_eqb (str_eqb_eq ascii ascii_dec) key_now etok conv_c G_c reply_c
                   is_reply_c reply_c_is_reply true f6_convs f6_honest (or_introl eq_refl) [0; 1] 1).
Qed.

(* on separator-free texts with a fixed role sequence the key of the current source is injective *)
Example injective_family :
  forall ms ms' : list (msg ascii),
    sep_free ascii ":"%char ms -> sep_free ascii ":"%char ms' ->
    all_contribute ascii contributes_now ms -> all_contribute ascii contributes_now ms' ->
    map m_role ms = map m_role ms' -> key_now ms = key_now ms' -> ms = ms'.
Proof.
  intros ms ms'. apply (key_injective_sep_free ascii sep_now contributes_now ":"%char). reflexivity.
Qed.
