(* C19 - liveness of the batching transition system under weak fairness.
   (1) every step strictly decreases a measure (so no schedule can make infinitely many steps),
   (2) in a reachable state where some request has not returned, some label is enabled,
   (3) a weakly fair infinite schedule (a label that is enabled is eventually taken or
       disabled: timers eventually expire, the model eventually answers, every runnable task
       eventually runs) therefore reaches a state where every request has returned its own
       embedding.  Real time is not modelled. *)
From Coq Require Import List Bool Arith Lia.
From NG Require Import Svc.EmbCache Svc.EmbCache_proofs Svc.Batch Svc.Batch_proofs.
Import ListNotations.

Fixpoint sumf {A : Type} (f : A -> nat) (l : list A) : nat :=
  match l with
  | [] => 0
  | x :: r => f x + sumf f r
  end.

Lemma sumf_app : forall A (f : A -> nat) l1 l2, sumf f (l1 ++ l2) = sumf f l1 + sumf f l2.
Proof. induction l1 as [|a l1 IH]; intros l2; simpl; [reflexivity|]. rewrite IH. lia. Qed.

Lemma sumf_upd : forall A (f : A -> nat) l i x y,
  nth_error l i = Some x -> sumf f (upd l i y) + f x = sumf f l + f y.
Proof.
  induction l as [|a l IH]; intros [|i] x y H; simpl in *; try discriminate.
  - inversion H. subst. lia.
  - pose proof (IH i x y H). lia.
Qed.

Lemma sumf_le_length : forall A (f : A -> nat) l, (forall x, f x <= 1) -> sumf f l <= length l.
Proof. induction l as [|a l IH]; intros Hf; simpl; [lia|]. pose proof (Hf a). pose proof (IH Hf). lia. Qed.

Lemma sumf_map : forall A B (g : A -> B) (f : B -> nat) l, sumf f (map g l) = sumf (fun x => f (g x)) l.
Proof. induction l as [|a l IH]; simpl; [reflexivity|]. rewrite IH. reflexivity. Qed.

Lemma sumf_ext : forall A (f g : A -> nat) l, (forall x, f x = g x) -> sumf f l = sumf g l.
Proof. induction l as [|a l IH]; intros H; simpl; [reflexivity|]. rewrite H, IH by assumption. reflexivity. Qed.

Section Live.
  Variables text key vec : Type.
  Variable text_eq_dec : forall a b : text, {a = b} + {a <> b}.
  Variable key_eq_dec : forall a b : key, {a = b} + {a <> b}.
  Variable kg : text -> key.
  Variable emb : text -> vec.
  Variable max_batch_size : nat.
  Variable cmode : cache_mode.
  Variable P : text -> Prop.

  Notation state := (state text key vec).
  Notation rpc := (rpc vec).
  Notation bpc := (bpc text vec).
  Notation step := (step text_eq_dec key_eq_dec kg emb max_batch_size cmode).
  Notation enabled := (enabled text_eq_dec key_eq_dec kg emb max_batch_size cmode).
  Notation run := (run text_eq_dec key_eq_dec kg emb max_batch_size cmode).
  Notation Inv := (Inv text key vec text_eq_dec key_eq_dec kg emb cmode P).
  Notation consistent := (consistent key_eq_dec kg emb P).

  Definition rw (r : text * rpc) : nat :=
    match snd r with
    | RInit | RWaitSub _ => 6
    | RWaitFin _ _ => 1
    | _ => 0
    end.

  Definition runf (r : text * rpc) : nat :=
    match snd r with
    | RInit | RWaitSub true => 1
    | _ => 0
    end.

  Definition bw (b : bpc) : nat :=
    match b with
    | BInit => 4
    | BHold _ false => 3
    | BHold _ true => 2
    | BModel _ _ _ _ => 1
    | _ => 0
    end.

  Definition Am (s : state) : nat := sumf rw (reqs s) + sumf bw (batches s).
  Definition Bm (s : state) : nat := sumf runf (reqs s).
  Definition measure (s : state) : nat := Am s * S (length (reqs s)) + Bm s.

  Lemma Bm_le : forall s, Bm s <= length (reqs s).
  Proof. intros s. apply sumf_le_length. intros [t [|[]| | | |]]; unfold runf; simpl; lia. Qed.

  Lemma rw_wake : forall (rs : list (text * rpc)), sumf rw (map wake rs) = sumf rw rs.
  Proof.
    intros rs. rewrite sumf_map. apply sumf_ext. intros [t p]. destruct p; reflexivity.
  Qed.

  (* the weights follow the control flow of a task.  A request that blocks keeps its weight 6 but
     stops being runnable; one that is queued falls to 1 or less, which pays for the batch task
     it may have spawned (4); a batch task loses weight at each of its steps. *)
  Lemma runnable_weight : forall t p, runnable vec p -> rw (t, p) = 6 /\ runf (t, p) = 1.
  Proof. intros t [|[]| | | |] H; try destruct H; simpl; auto. Qed.

  Lemma queued_weight : forall t p, queued vec p -> rw (t, p) <= 1.
  Proof. intros t [| | | | |] H; try destruct H; simpl; auto. Qed.

  Lemma ended_weight : forall t p, ended vec p -> rw (t, p) = 0.
  Proof. intros t [| | | | |] H; try destruct H; reflexivity. Qed.

  Lemma closed_weight : forall b, ~ presubmit text vec b -> bw b <= 1.
  Proof. intros [| | | |] H; simpl; auto; destruct H; exact I. Qed.

  Lemma req_moves : forall (s s' : state) i t p p' bs,
    nth_error (reqs s) i = Some (t, p) -> reqs s' = upd (reqs s) i (t, p') -> batches s' = batches s ++ bs ->
    rw (t, p') + sumf bw bs < rw (t, p) \/ rw (t, p') + sumf bw bs = rw (t, p) /\ runf (t, p') < runf (t, p) ->
    Am s' < Am s \/ Am s' <= Am s /\ Bm s' < Bm s.
  Proof.
    intros s s' i t p p' bs Hi Hr Hb Hw. unfold Am, Bm. rewrite Hr, Hb, sumf_app.
    pose proof (sumf_upd _ rw _ _ _ (t, p') Hi). pose proof (sumf_upd _ runf _ _ _ (t, p') Hi). lia.
  Qed.

  Lemma batch_moves : forall (s s' : state) k b b',
    nth_error (batches s) k = Some b -> batches s' = upd (batches s) k b' ->
    sumf rw (reqs s') = sumf rw (reqs s) -> bw b' < bw b -> Am s' < Am s.
  Proof.
    intros s s' k b b' Hk Hb Hr Hlt. unfold Am. rewrite Hr, Hb.
    pose proof (sumf_upd _ bw _ _ _ b' Hk). lia.
  Qed.

  Lemma step_measure_cases : forall l s s', step l s = Some s' ->
    length (reqs s') = length (reqs s) /\
    (Am s' < Am s \/ (Am s' <= Am s /\ Bm s' < Bm s)).
  Proof.
    intros l s s' Hs. split.
    { apply step_texts in Hs.
      apply (f_equal (@length text)) in Hs. rewrite !map_length in Hs. exact Hs. }
    apply step_iff in Hs.
    destruct Hs as [i t p Hi Hp|i t rid k Hi Hk|k Hk|k f fired Hk E|k f Hk|k ev items c u Hk e].
    - destruct (req_enter_tasks _ _ _ max_batch_size s i t) as (p' & bs & Hr & Hb & Hc).
      apply (req_moves _ _ _ _ _ _ _ Hi Hr Hb). destruct (runnable_weight t p Hp) as [-> ->].
      destruct Hc as [[-> ->]|[Hq Hc]].
      + right. split; [reflexivity|exact Nat.lt_0_1].
      + left. pose proof (queued_weight t p' Hq). destruct Hc as [->| ->]; simpl; lia.
    - destruct (fetch_tasks _ _ _ s i t rid) as (p' & Hr & Hb & Hc). rewrite <- (app_nil_r (batches s)) in Hb.
      apply (req_moves _ _ _ _ _ _ _ Hi Hr Hb). left. rewrite (ended_weight t p' Hc). exact Nat.lt_0_1.
    - left. eapply batch_moves; [exact Hk|reflexivity|reflexivity|]. destruct (cur_full s); simpl; lia.
    - left. destruct (collect_tasks _ _ _ text_eq_dec key_eq_dec kg cmode s k) as (b' & Hr & Hb & Hc).
      eapply batch_moves; [exact Hk|exact Hb|rewrite Hr; apply rw_wake|].
      pose proof (closed_weight b' Hc). destruct fired; simpl; lia.
    - left. eapply batch_moves; [exact Hk|reflexivity|reflexivity|]. simpl. lia.
    - left. destruct (finish_tasks _ _ _ (with_store s (snd e)) k ev (map fst items) (fst e)) as (b' & Hr & Hb & Hc).
      eapply batch_moves; [exact Hk|exact Hb|rewrite Hr; reflexivity|].
      destruct b'; try destruct Hc; simpl; lia.
  Qed.

  Hypothesis Hmax : 1 <= max_batch_size.
  Hypothesis Hinj : inj_on kg P.

  Theorem step_decreases : forall l s s', step l s = Some s' -> measure s' < measure s.
  Proof using Hmax.
    intros l s s' Hs. destruct (step_measure_cases l s s' Hs) as [Hlen Hd].
    pose proof (Bm_le s'). unfold measure. rewrite Hlen in *. nia.
  Qed.

  Lemma forallb_false : forall A (f : A -> bool) l, forallb f l = false -> exists x, In x l /\ f x = false.
  Proof.
    induction l as [|a l IH]; intros H; simpl in H; [discriminate|].
    destruct (f a) eqn:E.
    - destruct (IH H) as [x [Hin Hx]]. exists x. split; [right; assumption|assumption].
    - exists a. split; [left; reflexivity|assumption].
  Qed.

  (* while a batch is open its task is before the submission: it can start, or collect once
     the timer has fired, or the timer can fire *)
  Lemma presubmit_enabled : forall s k, Inv s -> cur_finished s = Some k ->
    exists l, enabled l s = true.
  Proof.
    intros s k HI Hc. destruct (iv_cur _ _ _ _ _ _ _ _ _ _ HI k Hc) as [[|f [|]| | |] [Hb Hp]]; try destruct Hp.
    - exists (LBatch k). eapply spec_enabled, step_start. exact Hb.
    - exists (LBatch k). eapply spec_enabled, step_collect; [exact Hb|reflexivity].
    - exists (LTimer k). eapply spec_enabled, step_timer. exact Hb.
  Qed.

  Theorem progress : forall s, Inv s -> all_done s = false -> exists l, enabled l s = true.
  Proof.
    intros s HI Hnd. unfold all_done in Hnd. apply forallb_false in Hnd.
    destruct Hnd as [[t p] [Hin Hf]]. apply In_nth_error in Hin. destruct Hin as [i Hi].
    assert (Henter : runnable vec p -> exists l, enabled l s = true).
    { intro Hp. exists (LReq i). eapply spec_enabled, step_enter; eassumption. }
    destruct p as [|[|]|rid k|r| |].
    - exact (Henter I).
    - exact (Henter I).
    - pose proof (iv_blocked _ _ _ _ _ _ _ _ _ _ HI i t Hi) as Hb.
      destruct (cur_finished s) as [k|] eqn:Hc; [|congruence].
      eapply presubmit_enabled; eassumption.
    - destruct (iv_wait _ _ _ _ _ _ _ _ _ _ HI i t rid k Hi) as [_ [[_ Hc]|[[ev [items [c [u [Hb _]]]]]|[Hfin _]]]].
      + eapply presubmit_enabled; eassumption.
      + exists (LModel k). eapply spec_enabled, step_model. exact Hb.
      + exists (LReq i). eapply spec_enabled, step_fetch; eassumption.
    - discriminate Hf.
    - destruct (iv_ok _ _ _ _ _ _ _ _ _ _ HI i t _ Hi) as [[] _].
    - destruct (iv_ok _ _ _ _ _ _ _ _ _ _ HI i t _ Hi) as [[] _].
  Qed.

  (* weak fairness: a label that is enabled is eventually taken or disabled *)
  Definition weakly_fair (sched : nat -> label) (s0 : state) : Prop :=
    forall n l, enabled l (run sched s0 n) = true ->
      exists m, n <= m /\ (enabled l (run sched s0 m) = false \/ sched m = l).

  Lemma run_S : forall sched s0 n,
    step (sched n) (run sched s0 n) = Some (run sched s0 (S n)) \/
    enabled (sched n) (run sched s0 n) = false /\ run sched s0 (S n) = run sched s0 n.
  Proof.
    intros. unfold Batch.enabled. simpl. unfold step_or_stay.
    destruct (step (sched n) (run sched s0 n)); auto.
  Qed.

  Lemma run_invariant : forall (Q : state -> Prop),
    (forall l s s', Q s -> step l s = Some s' -> Q s') ->
    forall sched s0 n, Q s0 -> Q (run sched s0 n).
  Proof.
    intros Q HQ sched s0 n H0. induction n as [|n IH]; [exact H0|].
    destruct (run_S sched s0 n) as [Hs|[_ ->]]; [|exact IH]. exact (HQ _ _ _ IH Hs).
  Qed.

  Lemma Inv_run : forall sched s0 n, Inv s0 -> Inv (run sched s0 n).
  Proof. exact (run_invariant Inv (Inv_step _ _ _ text_eq_dec key_eq_dec kg emb max_batch_size cmode P Hmax Hinj)). Qed.

  Lemma run_texts : forall sched s0 n, map fst (reqs (run sched s0 n)) = map fst (reqs s0).
  Proof.
    intros sched s0 n. refine (run_invariant (fun x => map fst (reqs x) = map fst (reqs s0)) _ sched s0 n eq_refl).
    intros l s s' H Hs. rewrite <- H. exact (step_texts _ _ _ _ _ _ _ _ _ l s s' Hs).
  Qed.

  Lemma measure_run_mono : forall sched s0 n m, n <= m -> measure (run sched s0 m) <= measure (run sched s0 n).
  Proof.
    intros sched s0 n m H. induction H as [|m H IH]; [lia|].
    destruct (run_S sched s0 m) as [Hs|[_ ->]]; [|exact IH]. apply step_decreases in Hs. lia.
  Qed.

  Lemma fair_effective : forall sched s0, weakly_fair sched s0 ->
    forall n l, enabled l (run sched s0 n) = true ->
    exists m, n <= m /\ enabled (sched m) (run sched s0 m) = true.
  Proof.
    intros sched s0 Hf n l Hen. destruct (Hf n l Hen) as [m [Hle Hm]].
    remember (m - n) as d eqn:Hd. revert n Hen Hle Hd.
    induction d as [|d IH]; intros n Hen Hle Hd.
    - assert (m = n) by lia. subst m. destruct Hm as [Hm|Hm]; [congruence|].
      exists n. split; [lia|]. rewrite Hm. exact Hen.
    - destruct (run_S sched s0 n) as [Hs|[_ Hst]].
      + exists n. split; [lia|]. unfold Batch.enabled. rewrite Hs. reflexivity.
      + destruct (IH (S n)) as [m' [Hle' Hm']]; [rewrite Hst; exact Hen|lia|lia|].
        exists m'. split; [lia|exact Hm'].
  Qed.

  (* induction on the measure: progress gives an enabled label, fairness an effective step *)
  Lemma live_aux : forall sched s0, Inv s0 -> weakly_fair sched s0 ->
    forall N n, measure (run sched s0 n) < N -> exists m, n <= m /\ all_done (run sched s0 m) = true.
  Proof.
    intros sched s0 HI Hf. induction N as [|N IH]; intros n HN; [lia|].
    destruct (all_done (run sched s0 n)) eqn:Hd; [exists n; split; [lia|exact Hd]|].
    destruct (progress _ (Inv_run sched s0 n HI) Hd) as [l Hen].
    destruct (fair_effective sched s0 Hf n l Hen) as [m [Hle Hm]].
    destruct (run_S sched s0 m) as [Hs|[Hdis _]]; [|congruence].
    apply step_decreases in Hs. pose proof (measure_run_mono sched s0 n m Hle).
    destruct (IH (S m)) as [m' [Hle' Hd']]; [lia|].
    exists m'. split; [lia|exact Hd'].
  Qed.

  (* C19_batch_liveness *)
  Theorem batch_liveness : forall texts st sched,
    Forall P texts -> consistent st -> weakly_fair sched (init texts st) ->
    exists m, forall i t, nth_error texts i = Some t ->
      nth_error (reqs (run sched (init texts st) m)) i = Some (t, RDone (Some (emb t))).
  Proof.
    intros texts st sched HP Hc Hf.
    assert (HI : Inv (init texts st)) by (apply Inv_init; assumption).
    destruct (live_aux sched (init texts st) HI Hf _ 0 (le_n _)) as [m [_ Hd]].
    exists m. intros i t Hi.
    pose proof (run_texts sched (init texts st) m) as Ht.
    rewrite (init_texts text key vec) in Ht.
    assert (Hi' : nth_error (map fst (reqs (run sched (init texts st) m))) i = Some t) by (rewrite Ht; exact Hi).
    rewrite nth_error_map in Hi'.
    destruct (nth_error (reqs (run sched (init texts st) m)) i) as [[t0 p]|] eqn:Hn; simpl in Hi'; [|discriminate].
    inversion Hi'. subst t0.
    unfold all_done in Hd. rewrite forallb_forall in Hd.
    pose proof (Hd _ (nth_error_In _ _ Hn)) as Hp. destruct p; simpl in Hp; try discriminate.
    destruct (iv_ok _ _ _ _ _ _ _ _ _ _ (Inv_run sched _ m HI) i t _ Hn) as [Hok _]. simpl in Hok. subst r.
    reflexivity.
  Qed.

End Live.
