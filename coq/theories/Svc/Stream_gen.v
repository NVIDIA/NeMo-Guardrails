(* C18 - (T) tie: facts about the streaming patterns that generation.py configures, proved from the
   values the translator re-reads from the current source (Gen/C18Consts.v).  If generation.py
   starts using patterns of another shape, `gen_configs_ok` stops checking. *)
From Coq Require Import List Bool Arith NArith Lia.
From NG Require Import Gen.C18Consts Svc.Stream Svc.Stream_proofs.
Import ListNotations.

(* the shape generation.py uses today: a non-empty prefix, the closing double quote (34) as
   suffix, and handler stop sequences that start with that quote and go on (quote + newline) *)
Definition gen_ok (cfg : config N) : bool :=
  truthy (c_prefix cfg)
  && match c_suffix cfg with Some [q] => N.eqb q 34 | _ => false end
  && forallb (fun s => match s with q :: _ :: _ => N.eqb q 34 | _ => false end) (c_stop cfg).

Lemma gen_configs_ok : forallb gen_ok gen_configs = true.
Proof. vm_compute. reflexivity. Qed.

Lemma gen_configs_nonempty : gen_configs <> [].
Proof. vm_compute. discriminate. Qed.

Lemma no_quote_stop (body : list N) (y : N) (r : list N) (j : nat) :
  ~ In 34%N body -> ~ occ (34%N :: y :: r) (body ++ [34%N]) j.
Proof.
  intros Hq [a [b [Hs Ha]]].
  apply app_eq_app in Hs. destruct Hs as [l [[Hl1 Hl2] | [Hl1 Hl2]]].
  - destruct l as [|x l]; [discriminate|].
    injection Hl2 as Hx _. subst x. apply Hq. rewrite Hl1.
    apply in_or_app. right. left. reflexivity.
  - apply (f_equal (@length N)) in Hl2. rewrite app_length in Hl2. simpl in Hl2. lia.
Qed.

Lemma gen_spec (cfg : config N) (body : list N) :
  gen_ok cfg = true -> ~ In 34%N body ->
  spec N.eqb cfg (oget (c_prefix cfg) ++ body ++ [34%N]) = body.
Proof.
  intros Hok Hq. unfold gen_ok in Hok.
  apply andb_true_iff in Hok. destruct Hok as [Hok Hstops].
  apply andb_true_iff in Hok. destruct Hok as [Hpre Hsuf].
  unfold spec. rewrite (strip_prefix_hit N N.eqb N.eqb_eq _ _ Hpre).
  assert (Hcut : cut_stop N.eqb (c_stop cfg) (body ++ [34%N]) = body ++ [34%N]).
  { unfold cut_stop. destruct (first_stop N.eqb (c_stop cfg) (body ++ [34%N])) as [m|] eqn:Hm; [exfalso|reflexivity].
    destruct (first_stop_Some _ N.eqb N.eqb_eq _ _ _ Hm) as [[s [Hin Hoc]] _].
    rewrite forallb_forall in Hstops. specialize (Hstops s Hin).
    destruct s as [|q [|y r]]; try discriminate.
    apply N.eqb_eq in Hstops. subst q.
    exact (no_quote_stop body y r m Hq Hoc). }
  rewrite Hcut.
  destruct (c_suffix cfg) as [[|q [|q2 sf]]|]; try discriminate.
  apply N.eqb_eq in Hsuf. subst q.
  exact (strip_suffix_hit N N.eqb N.eqb_eq (Some [34%N]) body eq_refl).
Qed.

Theorem generation_patterns :
  forall (cfg : config N) (body : list N) (chunks : list (list N)),
    In cfg gen_configs -> ~ In 34%N body ->
    Forall (fun x => x <> []) chunks ->
    concat chunks = oget (c_prefix cfg) ++ body ++ [34%N] ->
    concat (delivered (s_queue (run N.eqb cfg chunks EndLLM))) = body /\
    s_completion (run N.eqb cfg chunks EndLLM) = body.
Proof.
  intros cfg body chunks Hin Hq Hne Hcat.
  pose proof gen_configs_ok as Hall. rewrite forallb_forall in Hall. specialize (Hall cfg Hin).
  destruct (chunking_independent N N.eqb N.eqb_eq cfg chunks Hne) as [Hd Hc].
  rewrite Hcat, (gen_spec cfg body Hall Hq) in Hd, Hc. split; assumption.
Qed.

(* the statement is not vacuous: the first configured pattern, the text  prefix Hi quote *)
Example generation_patterns_inhabited :
  match gen_configs with
  | cfg :: _ =>
      spec N.eqb cfg (oget (c_prefix cfg) ++ [72; 105]%N ++ [34%N]) = [72; 105]%N
  | [] => False
  end.
Proof. vm_compute. reflexivity. Qed.
