(* C15 - the verified lookup, for ARBITRARY clients and cache contents (no honesty needed):
   entries stored for other message lists never affect a request.  A request is turned into
   the plain conversion of its messages unless one of its proper prefixes literally IS a
   message list something was stored for - whatever keys those entries have. *)
From Coq Require Import List Bool Arith.
From NG Require Import Svc.HistKey Svc.HistCache Svc.HistCache_proofs.
Import ListNotations.

Section More.
  Variable A : Type.
  Variable A_eq_dec : forall x y : A, {x = y} + {x <> y}.
  Variable K : Type.
  Variable K_eqb : K -> K -> bool.
  Variable keyf : list (msg A) -> K.
  Variable Ev : Type.
  Variable conv : list (msg A) -> list Ev.

  Notation lookup := (lookup A A_eq_dec K K_eqb keyf Ev).
  Notation events_for := (events_for A A_eq_dec K K_eqb keyf Ev conv).

  Theorem unrelated_entries_ignored : forall (c : cache A K Ev) ms,
      (forall p e, 0 < p < length ms -> In e c -> e_msgs _ _ _ e <> firstn p ms) ->
      events_for true c ms = conv ms.
  Proof.
    intros c ms H. apply events_for_miss. intros p Hp.
    destruct (lookup true c (firstn p ms)) as [ev|] eqn:Hl; [exfalso|reflexivity].
    apply lookup_Some in Hl. destruct Hl as [e [Hin [Hhit _]]].
    apply hit_iff in Hhit. exact (H p e Hp Hin (proj2 Hhit eq_refl)).
  Qed.

  (* a hit returns the events of the newest entry stored for exactly that message list *)
  Theorem verified_hit_is_own : forall (c : cache A K Ev) P ev,
      lookup true c P = Some ev -> exists e, In e c /\ e_msgs _ _ _ e = P /\ e_events _ _ _ e = ev.
  Proof.
    intros c P ev H. apply lookup_Some in H. destruct H as [e [Hin [Hhit Hev]]].
    apply hit_iff in Hhit. exists e. split; [exact Hin|]. split; [exact (proj2 Hhit eq_refl) | exact Hev].
  Qed.
End More.
