(* C17 - lemmas about Svc/TextPost.v: totality of the helpers (with the exact inputs on which the
   real code raises), termination of the shrink loop for every oracle, containment of action
   failures, and when the runtime's re-parse of a generated flow can raise. *)
From Coq Require Import NArith List Bool String Lia Arith.
From NG Require Import Svc.TextPost.
Import ListNotations.
Open Scope N_scope.

Lemma teq_refl : forall a, teq a a = true.
Proof. induction a as [|x a IH]; simpl; [reflexivity|]. rewrite N.eqb_refl, IH. reflexivity. Qed.

Lemma teq_eq : forall a b, teq a b = true <-> a = b.
Proof.
  intros a b. split; [|intros ->; apply teq_refl].
  revert b. induction a as [|x a IH]; intros [|y b] H; try discriminate; [reflexivity|].
  apply andb_true_iff in H. destruct H as [Hx H]. apply N.eqb_eq in Hx. rewrite Hx, (IH b H). reflexivity.
Qed.

Lemma truthy_nil : truthy [] = false.
Proof. reflexivity. Qed.

Lemma truthy_cons : forall c s, truthy (c :: s) = true.
Proof. reflexivity. Qed.

Lemma truthy_false_nil : forall s, truthy s = false -> s = [].
Proof. destruct s; [reflexivity|discriminate]. Qed.

Lemma split_on_cons : forall c s, exists h t, split_on c s = h :: t.
Proof. intros c s. unfold split_on. destruct (split_char c s) as [h t]. eauto. Qed.

(* a computation that does not raise.  It is closed under the constructs the helpers are written
   with, so a helper whose partial operations are guarded is total by `auto with ok`. *)
Definition ok {A} (r : res A) : Prop := exists a, r = Ok a.

Lemma ok_Ok : forall A (a : A), ok (Ok a).
Proof. intros A a. exists a. reflexivity. Qed.

Lemma ok_bind : forall A B (r : res A) (f : A -> res B), ok r -> (forall a, ok (f a)) -> ok (bind r f).
Proof. intros A B r f [a ->] Hf. apply Hf. Qed.

Lemma ok_if : forall A (b : bool) (x y : res A), ok x -> ok y -> ok (if b then x else y).
Proof. intros A [|] x y Hx Hy; assumption. Qed.

Lemma ok_option : forall A B (o : option A) (f : A -> res B) (y : res B),
  (forall a, ok (f a)) -> ok y -> ok (match o with Some a => f a | None => y end).
Proof. intros A B [a|] f y Hf Hy; [apply Hf|exact Hy]. Qed.

Create HintDb ok.
#[local] Hint Resolve ok_Ok ok_bind ok_if ok_option : ok.

(* the two guarded partial operations: [0] of a split, [-1] of a non-empty string *)
Lemma idx0_split_on : forall c s, ok (idx (split_on c s) 0).
Proof. intros c s. destruct (split_on_cons c s) as [h [t E]]. rewrite E. apply ok_Ok. Qed.

Lemma idx_last_cons : forall A (c : A) s, ok (idx_last (c :: s)).
Proof.
  intros A c s. unfold idx_last. destruct (rev (c :: s)) eqn:E; [|apply ok_Ok].
  apply (f_equal (@List.length A)) in E. rewrite rev_length in E. discriminate.
Qed.
#[local] Hint Resolve idx0_split_on idx_last_cons : ok.

Lemma get_first_nonempty_line_total : forall s, ok (get_first_nonempty_line s).
Proof. intro s. unfold get_first_nonempty_line. auto with ok. Qed.

Lemma first_nonempty_some_truthy : forall ls l, first_nonempty ls = Some l -> truthy l = true.
Proof.
  induction ls as [|x ls IH]; simpl; intros l H; [discriminate|].
  destruct (truthy x) eqn:E; [inversion H; subst; exact E | apply IH; exact H].
Qed.

(* the line returned is never empty, hence the callers' `result[...]` guards are redundant *)
Lemma get_first_nonempty_line_nonempty : forall s l, get_first_nonempty_line s = Ok (Some l) -> l <> [].
Proof.
  intros s l H. unfold get_first_nonempty_line in H. destruct (negb (truthy s)); [discriminate|].
  inversion H as [H1]. apply first_nonempty_some_truthy in H1. destruct l; [discriminate|congruence].
Qed.

Lemma strip_quotes_total : forall s, ok (strip_quotes s).
Proof.
  intros [|c s]; [apply ok_Ok|]. unfold strip_quotes. cbn [truthy teq negb idx nth_error bind]. auto with ok.
Qed.

Lemma get_multiline_response_total : forall s, ok (get_multiline_response s).
Proof. intro s. apply ok_Ok. Qed.

Lemma clean_utterance_content_total : forall s, ok (clean_utterance_content s).
Proof. intro s. unfold clean_utterance_content. auto with ok. Qed.

#[local] Hint Resolve get_first_nonempty_line_total strip_quotes_total get_multiline_response_total
  clean_utterance_content_total : ok.

Lemma get_top_k_total : forall s k, ok (get_top_k_nonempty_lines s k).
Proof. intros s k. unfold get_top_k_nonempty_lines. auto with ok. Qed.

Lemma user_intent_post_total : forall s, ok (user_intent_post s).
Proof. intro s. unfold user_intent_post. auto with ok. Qed.

(* `x.split(c)[0].strip()` when c occurs in x: the two cuts of next_step_post *)
Lemma cut_ok : forall c x, ok (if mem_char c x then (let! h := idx (split_on c x) 0 in Ok (strip h)) else Ok x).
Proof. auto with ok. Qed.

Lemma next_step_post_total : forall s, ok (next_step_post s).
Proof.
  intro s. unfold next_step_post. apply ok_bind; [apply get_first_nonempty_line_total|].
  intros [r|]; [|apply ok_Ok]. apply ok_if; [|apply ok_Ok]. cbv zeta.
  apply ok_bind; [apply cut_ok|]. intros b1. apply ok_bind; [apply cut_ok|]. intros b2. apply ok_Ok.
Qed.

Lemma replace_nonempty : forall p r c s, r <> [] -> replace p r (c :: s) <> [].
Proof.
  intros p r c s NR. unfold replace. cbn [replace_fuel List.length].
  destruct (starts_with p (c :: s)).
  - destruct r as [|x r]; [congruence|]. simpl. discriminate.
  - discriminate.
Qed.

(* the utterance produced from LLM output is never the empty string *)
Lemma bot_message_post_nonempty : forall s, exists r, bot_message_post s = Ok r /\ r <> [].
Proof.
  intro s. unfold bot_message_post, get_multiline_response. cbn [bind].
  match goal with |- context [strip_quotes ?X] => destruct (strip_quotes_total X) as [r2 ->] end. cbn [bind].
  destruct r2 as [|c r2]; (eexists; split; [reflexivity|]); [discriminate|].
  apply replace_nonempty. discriminate.
Qed.

(* generate_intent_steps_message: raises exactly on the empty completion (len(None)) *)
Lemma single_call_post_char : forall s,
  (s = [] -> single_call_post s = Err TypeError) /\
  (s <> [] -> exists r, single_call_post s = Ok r).
Proof.
  intro s. split; [intros ->; reflexivity|].
  destruct s as [|c s]; [congruence|]. intros _. change (ok (single_call_post (c :: s))).
  unfold single_call_post, get_top_k_nonempty_lines. cbn [truthy teq negb bind]. cbv zeta.
  (* only the bot message is computed by partial operations: where the bot intent is found in the
     completion, get_multiline_response and strip_quotes of what follows it *)
  apply ok_bind; [|intros bm; apply ok_Ok].
  apply ok_option; [|apply ok_Ok]. intros bi. apply ok_if; [|apply ok_Ok].
  apply ok_option; [|apply ok_Ok]. intros pos. auto with ok.
Qed.

(* generate_bot_message: `bot_intent[0]` raises exactly for the empty, not predefined intent *)
Lemma bot_message_source_char : forall predefined ctx_has bi,
  (bot_message_source predefined ctx_has bi = Err IndexError <-> (bi = [] /\ predefined [] = false)) /\
  (forall e, bot_message_source predefined ctx_has bi = Err e -> e = IndexError).
Proof.
  intros predefined ctx_has [|c bi].
  - change (bot_message_source predefined ctx_has []) with (if predefined [] then Ok Predefined else Err IndexError).
    destruct (predefined []).
    + split; [split; [discriminate|intros [_ H]; discriminate H]|discriminate].
    + split; [split; [auto|reflexivity]|intros e H; inversion H; reflexivity].
  - assert (H : ok (bot_message_source predefined ctx_has (c :: bi)))
      by (unfold bot_message_source; cbn [idx nth_error bind]; auto with ok).
    destruct H as [r ->]. split; [split; [discriminate|intros [H _]; discriminate H]|discriminate].
Qed.

(* ... and the empty bot intent IS produced by the next-step post-processing *)
Lemma next_step_post_empty_reachable : next_step_post (s2t "bot ""hello""") = Ok [].
Proof. vm_compute. reflexivity. Qed.

(* generate_value: the only evaluator applied to the LLM text is literal_eval, and its failure is
   the only way to fail *)
Lemma generate_value_v2_char : forall V (lev : text -> res V) last result,
  exists v2, (forall v, lev v2 = Ok v -> generate_value_v2 V lev last result = Ok v) /\
             (forall e, lev v2 = Err e -> generate_value_v2 V lev last result = Err ValueError).
Proof.
  intros V lev last result. unfold generate_value_v2.
  destruct (idx0_split_on NL (strip result)) as [v0 E0]. unfold split_nl. rewrite E0. simpl.
  eexists. split; intros ? H; rewrite H; reflexivity.
Qed.

Lemma generate_value_v1_char : forall V (lev : text -> res V) result,
  exists v1, generate_value_v1 V lev result = lev v1.
Proof.
  intros V lev result. unfold generate_value_v1.
  destruct (idx0_split_on NL (strip result)) as [v0 E0]. unfold split_nl. rewrite E0. simpl. eauto.
Qed.

(* AddFlowsAction: exact characterisation of when the fallback itself raises *)
Lemma split1_at_mem : forall c s, split1_at c s = None <-> mem_char c s = false.
Proof.
  intros c s. induction s as [|d s IH]; simpl; [tauto|].
  rewrite (N.eqb_sym c d). destruct (d =? c); simpl; [split; discriminate|].
  destruct (split1_at c s) as [[h t]|]; split; intro H; try discriminate; try tauto.
  - apply IH in H. discriminate.
Qed.

Lemma add_flows_action_char : forall parse2 content,
  match parse2 content with
  | Ok fl => add_flows_action parse2 content = Ok fl
  | Err _ =>
      let l0 := match split_nl content with h :: _ => h | [] => [] end in
      match split1_at SPACE l0 with
      | None => add_flows_action parse2 content = Err IndexError      (* no space in line 1 *)
      | Some (_, name) => add_flows_action parse2 content = parse2 (fallback_flow name)
      end
  end.
Proof.
  intros parse2 content. unfold add_flows_action.
  destruct (parse2 content) as [fl|e]; [reflexivity|].
  destruct (split_on_cons NL content) as [h [t E]]. unfold split_nl. rewrite E. simpl.
  unfold split1_space. destruct (split1_at SPACE h) as [[a b]|]; reflexivity.
Qed.

Lemma removelast_length : forall (A : Type) (l : list A), l <> [] -> List.length (removelast l) = pred (List.length l).
Proof.
  intros A l NE. rewrite removelast_firstn_len. rewrite firstn_length. lia.
Qed.

Lemma shrink_step_decreases : forall accepts lines lines',
  shrink_step accepts lines = inr lines' ->
  lines <> [] ->
  (List.length lines' < List.length lines)%nat /\ lines' <> [] /\ lines' = removelast lines.
Proof.
  intros accepts lines lines' H NE. unfold shrink_step in H.
  destruct (accepts lines); [discriminate|].
  destruct (Nat.eqb (List.length lines) 1) eqn:E1; [discriminate|].
  inversion H; subst. clear H. apply Nat.eqb_neq in E1.
  pose proof (removelast_length _ lines NE) as HL.
  destruct lines as [|x [|y l]]; [congruence| simpl in E1; congruence |].
  split; [rewrite HL; simpl; lia|]. split; [|reflexivity].
  change (removelast (x :: y :: l)) with (x :: removelast (y :: l)). discriminate.
Qed.

Lemma shrink_fuel_enough : forall accepts n lines,
  lines <> [] -> (List.length lines <= n)%nat -> exists o, shrink_fuel accepts n lines = Some o.
Proof.
  intros accepts n. induction n as [|n IH]; intros lines NE L.
  - destruct lines; [congruence|simpl in L; lia].
  - simpl. destruct (shrink_step accepts lines) as [o|lines'] eqn:E; [eauto|].
    destruct (shrink_step_decreases _ _ _ E NE) as [Hlt [NE' _]].
    apply IH; [exact NE'|lia].
Qed.

Lemma shrink_terminates : forall accepts lines,
  lines <> [] -> exists o, shrink_fuel accepts (List.length lines) lines = Some o.
Proof. intros. apply shrink_fuel_enough; [assumption|lia]. Qed.

Lemma split_nl_nonempty : forall s, split_nl s <> [].
Proof. intro s. unfold split_nl. destruct (split_on_cons NL s) as [h [t E]]. rewrite E. discriminate. Qed.

(* what the loop returns: an accepted non-empty prefix of the lines, or the general response *)
Fixpoint is_prefix (a b : list text) : Prop :=
  match a, b with
  | [], _ => True
  | x :: a', y :: b' => x = y /\ is_prefix a' b'
  | _ :: _, [] => False
  end.

Lemma is_prefix_refl : forall a, is_prefix a a.
Proof. induction a; simpl; auto. Qed.

Lemma is_prefix_removelast : forall a, is_prefix (removelast a) a.
Proof.
  induction a as [|x a IH]; [exact I|].
  destruct a as [|y a]; [exact I|].
  change (removelast (x :: y :: a)) with (x :: removelast (y :: a)). simpl. split; [reflexivity|exact IH].
Qed.

Lemma is_prefix_trans : forall a b c, is_prefix a b -> is_prefix b c -> is_prefix a c.
Proof.
  induction a as [|x a IH]; intros b c H1 H2; [exact I|].
  destruct b as [|y b]; [destruct H1|]. destruct c as [|z c]; [destruct H2|].
  destruct H1 as [E1 P1]. destruct H2 as [E2 P2]. simpl. split; [congruence|eauto].
Qed.

Lemma shrink_result : forall accepts n lines o,
  lines <> [] -> shrink_fuel accepts n lines = Some o ->
  match o with
  | GeneralResponse => True
  | StartFlow ls => accepts ls = true /\ ls <> [] /\ is_prefix ls lines
  end.
Proof.
  intros accepts n. induction n as [|n IH]; intros lines o NE H; [discriminate|].
  simpl in H. destruct (shrink_step accepts lines) as [o'|lines'] eqn:E.
  - inversion H; subst. unfold shrink_step in E.
    destruct (accepts lines) eqn:A.
    + inversion E; subst. split; [exact A|]. split; [exact NE|apply is_prefix_refl].
    + destruct (Nat.eqb (List.length lines) 1); [inversion E; exact I|discriminate].
  - destruct (shrink_step_decreases _ _ _ E NE) as [_ [NE' EQ]].
    specialize (IH lines' o NE' H). destruct o as [|ls]; [exact I|].
    destruct IH as [A [N P]]. split; [exact A|]. split; [exact N|].
    eapply is_prefix_trans; [exact P|]. subst. apply is_prefix_removelast.
Qed.

(* when the generation validates the very text the runtime parses, the parse + assert of
   _process_start_flow cannot raise (the parser is a function of the text) *)
Lemma runtime_parse_guarded : forall parse flow_id lines,
  gen_accepts parse true flow_id lines = true ->
  process_start_flow_parse parse flow_id (join_nl lines) = Ok tt /\ blank (join_nl lines) = false.
Proof.
  intros parse flow_id lines H. unfold gen_accepts in H. apply andb_true_iff in H. destruct H as [B P].
  split; [|destruct (blank (join_nl lines)); [discriminate|reflexivity]].
  unfold process_start_flow_parse. destruct (parse (wrap_flow flow_id (join_nl lines))) as [n|e]; [|discriminate].
  simpl. rewrite P. reflexivity.
Qed.

Lemma cap_lines_nonempty : forall n l, l <> [] -> cap_lines n l <> [].
Proof. intros n l NE. destruct n as [|n]; [exact NE|]. destruct l; [congruence|]. simpl. discriminate. Qed.

(* with a cap, the number of validations (= parser runs) of one completion is at most the cap,
   whatever the length of the completion: the loop's fuel is the number of capped lines *)
Lemma cap_lines_length : forall n l, n <> 0%nat -> (List.length (cap_lines n l) <= n)%nat.
Proof. intros n l NZ. destruct n as [|n]; [congruence|]. unfold cap_lines. rewrite firstn_length. lia. Qed.

Lemma multi_step_safe : forall parse flow_id maxl result o,
  multi_step_post parse true flow_id maxl result = Some o ->
  match o with
  | GeneralResponse => True
  | StartFlow ls => process_start_flow_parse parse flow_id (join_nl ls) = Ok tt /\ blank (join_nl ls) = false
  end.
Proof.
  intros parse flow_id maxl result o H. unfold multi_step_post in H.
  pose proof (shrink_result _ _ _ _ (cap_lines_nonempty maxl _ (split_nl_nonempty result)) H) as R.
  destruct o as [|ls]; [exact I|]. destruct R as [A _]. apply runtime_parse_guarded. exact A.
Qed.

Lemma multi_step_total : forall parse vw flow_id maxl result, exists o, multi_step_post parse vw flow_id maxl result = Some o.
Proof. intros. unfold multi_step_post. apply shrink_terminates. apply cap_lines_nonempty. apply split_nl_nonempty. Qed.

(* the validation of the raw body (`validate_wrapped = false`) says nothing about the
   wrapped text: there is a parser and an output that is accepted and then raises at start_flow *)
Definition header_parser (t : text) : res nat :=
  if starts_with (s2t "define flow ") t then Err ParseError else Ok 0%nat.

Lemma runtime_parse_unguarded_refuted :
  exists parse flow_id result ls,
    multi_step_post parse false flow_id 0 result = Some (StartFlow ls) /\
    exists e, process_start_flow_parse parse flow_id (join_nl ls) = Err e.
Proof.
  exists header_parser, (s2t "f"), (s2t """"), [s2t """"]. split; [vm_compute; reflexivity|].
  exists ParseError. vm_compute. reflexivity.
Qed.

Lemma contained : forall (A : Type) (events_of : A -> list event) (r : res A),
  (forall e, r = Err e ->
     process_start_action events_of r = internal_error_events /\
     reply_of (process_start_action events_of r) = INTERNAL_ERROR_MESSAGE) /\
  (forall a, r = Ok a -> process_start_action events_of r = events_of a).
Proof.
  intros A events_of r. split.
  - intros e E. subst. split; reflexivity.
  - intros a E. subst. reflexivity.
Qed.

(* the reply of a turn is a text whatever the events are: joining scripts never fails *)
Lemma reply_total : forall evs, exists t, reply_of evs = t.
Proof. intros. eauto. Qed.

Lemma hide_prev_turn_in_error : In EHidePrevTurn internal_error_events.
Proof. simpl. auto. Qed.

(* non-vacuity *)
Example helpers_example_hostile :
  user_intent_post (s2t "user ") = Ok (s2t "user") /\
  next_step_post (s2t "bot ,x") = Ok [] /\
  bot_message_post (s2t "   ") = Ok FALLBACK_MESSAGE /\
  bot_message_post (s2t "  ""{{ 7*191 }} $secret""") = Ok (s2t "{{ 7*191 }} $secret") /\
  general_post (s2t """") = Ok [] /\
  single_call_post (s2t "x") = Ok (s2t "x", FALLBACK_BOT_INTENT, FALLBACK_MESSAGE).
Proof. vm_compute. repeat split. Qed.

Example shrink_example :
  let acc := fun ls : list text => Nat.eqb (List.length ls) 2 in
  shrink_fuel acc 4 [s2t "bot a"; s2t "bot b"; s2t "!!"; s2t "??"] = Some (StartFlow [s2t "bot a"; s2t "bot b"]) /\
  shrink_fuel (fun _ => false) 3 [s2t "x"; s2t "y"; s2t "z"] = Some GeneralResponse.
Proof. vm_compute. split; reflexivity. Qed.

(* whatever the context variable holds, the `text` of the BotMessage event is a str or the action
   fails (contained): a non-str never leaves generate_bot_message *)
Lemma ctx_utterance_is_str : forall v r, ctx_utterance false v = Ok r -> exists t, r = inl t.
Proof.
  intros v r H. destruct v as [s|[|]]; simpl in H; [|discriminate|inversion H; eauto].
  destruct (truthy s); [|inversion H; eauto].
  destruct (clean_utterance_content_total s) as [c E]. rewrite E in H. inversion H. eauto.
Qed.

Lemma ctx_utterance_nonstr_contained : ctx_utterance false (CNonStr true) = Err AttributeError.
Proof. reflexivity. Qed.

(* ... whereas a clean_utterance_content that skips non-str values lets the object through *)
Lemma ctx_utterance_guarded_refuted : exists v, ctx_utterance true v = Ok (inr tt).
Proof. exists (CNonStr true). reflexivity. Qed.

Lemma supported_value_sound : forall v,
  supported_value true v = true -> forallb atom_storable (atoms v) = true.
Proof.
  fix IH 1. intros v. destruct v as [a|l|kvs]; simpl.
  - intro H. rewrite H. reflexivity.
  - induction l as [|x r IHr]; intro H; [reflexivity|].
    apply andb_true_iff in H. destruct H as [Hx Hr].
    rewrite forallb_app, (IH x Hx), (IHr Hr). reflexivity.
  - induction kvs as [|[k x] r IHr]; intro H; [reflexivity|].
    apply andb_true_iff in H. destruct H as [H Hr]. apply andb_true_iff in H. destruct H as [Hk Hx].
    rewrite !forallb_app, (IH k Hk), (IH x Hx), (IHr Hr). reflexivity.
Qed.

Lemma supported_value_keys_unchecked_refuted :
  exists v, supported_value false v = true /\ forallb atom_storable (atoms v) = false.
Proof. exists (PDict [(PAtom AEllipsis, PAtom AInt)]). split; reflexivity. Qed.

Example supported_examples :
  supported_value true (PDict [(PSeq [PAtom AInt; PAtom AEllipsis], PAtom AInt)]) = false /\
  supported_value true (PSeq [PDict [(PAtom AStr, PSeq [PAtom AFloat; PAtom ANoneV])]; PAtom ABool]) = true.
Proof. split; reflexivity. Qed.
