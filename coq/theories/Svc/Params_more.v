(* C15 - properly nested windows (LIFO, as in nested `with` blocks) still restore the configured
   object, but the inner window's parameters are what the outer call sees. *)
From Coq Require Import List Bool Arith ZArith.
From NG Require Import Svc.Params Svc.Params_proofs.
Import ListNotations.

Theorem nested_restores : forall l a b,
    normal l a -> normal (fst (enter a l [])) b ->
    let '(l1, sa) := enter a l [] in
    let '(l2, sb) := enter b l1 [] in
    exit_ sa (exit_ sb l2) = l.
Proof.
  intros l a b Ha Hb.
  destruct (enter a l []) as [l1 sa] eqn:Ea. simpl in Hb.
  destruct (enter b l1 []) as [l2 sb] eqn:Eb.
  pose proof (exit_enter b l1 Hb) as H1. rewrite Eb in H1. simpl in H1. rewrite H1.
  pose proof (exit_enter a l Ha) as H2. rewrite Ea in H2. exact H2.
Qed.

(* what the LLM sees inside is the inner window's value for shared parameters *)
Example nested_call_sees_inner :
  let l := Llm [(0, PVal 500)] None in
  let '(l1, _) := enter [(0, PVal 200)] l [] in
  let '(l2, _) := enter [(0, PVal 900)] l1 [] in
  l2 = Llm [(0, PVal 900)] None.
Proof. reflexivity. Qed.
