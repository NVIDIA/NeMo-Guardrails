(* C15 - per-request context variables: with the entry code that always writes the variable every
   request sees its own options; the conditional write is refuted by a witness. *)
From Coq Require Import List Bool Arith.
From NG Require Import Svc.Ctx.
Import ListNotations.

(* when the entry code always writes the variable, every request's LLM calls see exactly the
   request's own options - for every sequence of requests and task creations, whatever ran
   before in the same or in any other context *)
Theorem own_options_seen : forall (V : Type) (ops : list (cop V)) (c : ctxs V),
    Forall (fun x => snd x = fst x) (crun V true c ops).
Proof.
  intros V ops. induction ops as [|o rest IH]; intros c; simpl.
  - constructor.
  - destruct o as [p ch | k own]; simpl.
    + apply IH.
    + constructor; [reflexivity | apply IH].
Qed.

(* when it writes only for requests that carry options, a request without options served in a
   context that served one with options before sees the other request's options *)
Theorem conditional_set_refuted :
  exists (ops : list (cop nat)) own seen,
    In (own, seen) (crun nat false (cinit nat) ops) /\ own = None /\ seen = Some 7.
Proof.
  exists [CReq 0 (Some 7); CReq 0 None], None, (Some 7). split; [|split; reflexivity].
  simpl. right. left. reflexivity.
Qed.

(* ... but not across tasks: a child created BEFORE the other request ran does not see it *)
Example fork_isolates :
  crun nat false (cinit nat) [CFork 0 1; CReq 0 (Some 7); CReq 1 None] = [(Some 7, Some 7); (None, None)].
Proof. reflexivity. Qed.
