(* C13 (layout, Colang 1.0) - what blank lines, trailing whitespace and scaling of the indentation
   do to the numbered lines of Svc/V1Lines.v (`pre`, `pre_c`, `pre_cm`). *)
From Coq Require Import NArith List Bool.
From NG Require Import Svc.V1Lines.
From NG Require Svc.Indent_proofs.
Import ListNotations.
Open Scope N_scope.
Local Arguments N.add : simpl never.
Local Arguments N.mul : simpl never.

Lemma lstrip_all_ws : forall ws, forallb is_wsc ws = true -> lstrip ws = [].
Proof.
  induction ws as [|c ws IH]; simpl; intros H; [reflexivity|].
  apply andb_prop in H. destruct H as [Hc H]. rewrite Hc. now apply IH.
Qed.

Lemma rstrip_all_ws : forall ws, forallb is_wsc ws = true -> rstrip ws = [].
Proof.
  induction ws as [|c ws IH]; simpl; intros H; [reflexivity|].
  apply andb_prop in H. destruct H as [Hc H]. rewrite (IH H). now rewrite Hc.
Qed.

Lemma rstrip_app_ws : forall x ws, forallb is_wsc ws = true -> rstrip (x ++ ws) = rstrip x.
Proof.
  induction x as [|c x IH]; simpl; intros ws H.
  - now apply rstrip_all_ws.
  - now rewrite IH.
Qed.

Lemma strip_app_ws : forall l ws, forallb is_wsc ws = true -> strip (l ++ ws) = strip l.
Proof.
  unfold strip. induction l as [|c l IH]; simpl; intros ws H.
  - now rewrite lstrip_all_ws.
  - destruct (is_wsc c); [now apply IH|].
    change (c :: l ++ ws) with ((c :: l) ++ ws). now apply rstrip_app_ws.
Qed.

Lemma strip_all_ws : forall ws, forallb is_wsc ws = true -> strip ws = [].
Proof. intros ws H. unfold strip. now rewrite lstrip_all_ws. Qed.

Lemma lead_sp_app_ws : forall l ws, strip l <> [] -> lead_sp (l ++ ws) = lead_sp l.
Proof.
  induction l as [|c l IH]; simpl; intros ws H.
  - exfalso. now apply H.
  - destruct c; try reflexivity. f_equal. apply IH. exact H.
Qed.

Lemma lstrip_repeat_sp : forall k x, lstrip (repeat CSp k ++ x) = lstrip x.
Proof. induction k as [|k IH]; simpl; intros x; [reflexivity | apply IH]. Qed.

Lemma strip_scale_line : forall k l, strip (scale_line k l) = strip l.
Proof.
  unfold strip. intros k. induction l as [|c l IH]; simpl; [reflexivity|].
  destruct c; try reflexivity. rewrite lstrip_repeat_sp. simpl. exact IH.
Qed.

Lemma lead_sp_repeat : forall k x, lead_sp (repeat CSp k ++ x) = N.of_nat k + lead_sp x.
Proof.
  induction k as [|k IH]; intros x; simpl repeat; simpl app; [reflexivity|].
  simpl lead_sp. now rewrite IH, Nat2N.inj_succ, <- N.add_1_l, N.add_assoc.
Qed.

Lemma lead_sp_scale_line : forall k l, lead_sp (scale_line k l) = N.of_nat k * lead_sp l.
Proof.
  intros k. induction l as [|c l IH]; simpl; [now rewrite N.mul_0_r|].
  destruct c; simpl; try now rewrite N.mul_0_r.
  now rewrite lead_sp_repeat, IH, N.mul_add_distr_l, N.mul_1_r.
Qed.

(* What the pre-processing reads of a physical line is its stripped text and, when that is
   not empty, its number of leading blanks.  Two files whose lines agree on the first and
   differ by a map f on the second give the same statements up to f on the indentations:
   trailing whitespace is the case f = id, scaling the case f = (k * _). *)

Definition line_rel (f : N -> N) (l l' : list ch) : Prop :=
  strip l' = strip l /\ (strip l <> [] -> lead_sp l' = f (lead_sp l)).

Definition ind_map (f : N -> N) (n : nline) : nline :=
  {| n_text := n_text n; n_number := n_number n; n_ind := f (n_ind n) |}.

Lemma ind_map_id : forall ns, map (ind_map (fun x => x)) ns = ns.
Proof. induction ns as [|[t n i] ns IH]; simpl; [|rewrite IH]; reflexivity. Qed.

Lemma trailing_ws_rel :
  forall ls ls',
    Forall2 (fun l l' => exists ws, forallb is_wsc ws = true /\ l' = l ++ ws) ls ls' ->
    Forall2 (line_rel (fun x => x)) ls ls'.
Proof.
  intros ls ls' H. induction H as [|l l' r r' [ws [Hws ->]] _ IH]; constructor; [|exact IH].
  split; [now apply strip_app_ws | intros Hne; now apply lead_sp_app_ws].
Qed.

Lemma scale_line_rel :
  forall k ls, Forall2 (line_rel (N.mul (N.of_nat k))) ls (map (scale_line k) ls).
Proof.
  intros k ls. induction ls as [|l ls IH]; constructor; [|exact IH].
  split; [apply strip_scale_line | intros _; apply lead_sp_scale_line].
Qed.

Lemma pre_go_rel :
  forall f ls ls', Forall2 (line_rel f) ls ls' ->
  forall i, pre_go i ls' = map (ind_map f) (pre_go i ls).
Proof.
  intros f ls ls' H. induction H as [|l l' r r' [Hs Hl] _ IH]; intros i; simpl; [reflexivity|].
  rewrite Hs. destruct (strip l) as [|c s]; [apply IH|].
  destruct c; rewrite ?Hl, ?IH by discriminate; reflexivity.
Qed.

(* trailing whitespace (spaces or tabs) on any lines changes nothing at all *)
Theorem v1_trailing_ws :
  forall ls ls',
    Forall2 (fun l l' => exists ws, forallb is_wsc ws = true /\ l' = l ++ ws) ls ls' ->
    pre ls' = pre ls.
Proof.
  intros ls ls' H. unfold pre. rewrite (pre_go_rel _ ls ls' (trailing_ws_rel ls ls' H)).
  apply ind_map_id.
Qed.

(* Uniform scaling changes ONLY the recorded indentation numbers, each multiplied by k *)
Theorem v1_scale :
  forall k ls, pre (map (scale_line k) ls) = map (scale_ind k) (pre ls).
Proof. intros k ls. exact (pre_go_rel _ _ _ (scale_line_rel k ls) 0). Qed.

(* ... hence, for k > 0, every comparison between two lines' indentations is preserved.
   (The parser after this function also ADDS constants to indentations in a few places, so
   this is not yet invariance of the parse: that part is explored by the differential.) *)
Theorem v1_scale_order :
  forall k, (0 < k)%nat -> forall x y : nline,
    (n_ind (scale_ind k x) ?= n_ind (scale_ind k y)) = (n_ind x ?= n_ind y).
Proof. intros k Hk x y. apply Indent_proofs.Nmul_compare_mono_l, Indent_proofs.of_nat_pos, Hk. Qed.

Example v1_hyps_inhabited :
  let ls := [[CChr 1; CSp; CChr 2]; [CSp; CSp; CChr 4; CSp; CChr 5]; [CSp; CSp; CSp; CSp; CChr 6]] in
  map n_ind (pre (map (scale_line 3) ls)) = [0; 6; 12] /\ map n_ind (pre ls) = [0; 2; 4].
Proof. split; reflexivity. Qed.

(* closing a statement, or carrying it on as pending, commutes with f *)
Lemma finish_rel :
  forall f (b : bool) (P P' R R' : option (list nline)) t k n,
    P' = option_map (map (ind_map f)) P -> R' = option_map (map (ind_map f)) R ->
    (if b then P' else option_map (cons {| n_text := t; n_number := k; n_ind := f n |}) R')
    = option_map (map (ind_map f))
        (if b then P else option_map (cons {| n_text := t; n_number := k; n_ind := n |}) R).
Proof. intros f b P P' R R' t k n -> ->. destruct b; [reflexivity|]. now destruct R. Qed.

Lemma go_rel :
  forall f ls ls', Forall2 (line_rel f) ls ls' ->
  forall i,
    go i None ls' = option_map (map (ind_map f)) (go i None ls)
    /\ forall t n, go i (Some (t, f n)) ls' = option_map (map (ind_map f)) (go i (Some (t, n)) ls).
Proof.
  intros f ls ls' H. induction H as [|l l' r r' [Hs Hl] Hr IH]; intros i.
  - split; reflexivity.
  - assert (Hn : match r' with [] => false | _ => true end = match r with [] => false | _ => true end)
      by (destruct Hr; reflexivity).
    destruct (IH (i + 1)) as [EN ES]. split.
    + (* nothing pending: the line is skipped, or begins a statement *)
      simpl. rewrite Hn, Hs. destruct (strip l) as [|c s]; [exact EN|].
      rewrite Hl by discriminate.
      destruct c; try exact EN; (apply finish_rel; [apply ES | exact EN]).
    + (* a statement is pending: the line is joined to it *)
      intros text ind. simpl. rewrite Hn. unfold join_next. rewrite Hs.
      destruct (if ends_bsl text then removelast text else text) as [|c t1]; [reflexivity|].
      apply finish_rel; [apply ES | exact EN].
Qed.

(* trailing whitespace on ANY physical lines - first lines, continuation lines after a
   backslash or " or", blank lines - changes nothing *)
Theorem v1_trailing_ws_cont :
  forall ls ls',
    Forall2 (fun l l' => exists ws, forallb is_wsc ws = true /\ l' = l ++ ws) ls ls' ->
    pre_c ls' = pre_c ls.
Proof.
  intros ls ls' H. unfold pre_c. rewrite (proj1 (go_rel _ ls ls' (trailing_ws_rel ls ls' H) 0)).
  destruct (go 0 None ls); simpl; [now rewrite ind_map_id | reflexivity].
Qed.

(* scaling: only the recorded indentation of each statement is multiplied by k *)
Theorem v1_scale_cont :
  forall k ls, pre_c (map (scale_line k) ls) = option_map (map (scale_ind k)) (pre_c ls).
Proof. intros k ls. exact (proj1 (go_rel _ _ _ (scale_line_rel k ls) 0)). Qed.

(* on texts without continuation markers the two models agree *)
Definition no_cont (l : list ch) : bool := negb (ends_bsl (strip l)) && negb (ends_or (strip l)).

Lemma go_no_cont :
  forall ls, forallb no_cont ls = true -> forall i, go i None ls = Some (pre_go i ls).
Proof.
  induction ls as [|l r IH]; intros H i; [reflexivity|].
  simpl in H. apply andb_prop in H. destruct H as [Hl Hr].
  unfold no_cont in Hl. apply andb_prop in Hl. destruct Hl as [Hb Ho].
  apply negb_true_iff in Hb. apply negb_true_iff in Ho.
  simpl. destruct (strip l) as [|c s] eqn:Es; [now apply IH|].
  destruct c; try (now apply IH); rewrite Hb, Ho; simpl; rewrite (IH Hr); reflexivity.
Qed.

Theorem v1_cont_agrees :
  forall ls, forallb no_cont ls = true -> pre_c ls = Some (pre ls).
Proof. intros ls H. exact (go_no_cont ls H 0). Qed.

(* hypotheses inhabited: a statement continued over three physical lines, trailing blanks
   after EVERY line incl. after the second backslash *)
Example v1_cont_inhabited :
  let ls  := [[CChr 1; CSp; CChr 92]; [CSp; CSp; CChr 2; CSp; CChr 92]; [CSp; CChr 3]] in
  let ls' := [[CChr 1; CSp; CChr 92; CSp]; [CSp; CSp; CChr 2; CSp; CChr 92; CSp; CTab]; [CSp; CChr 3; CSp]] in
  pre_c ls' = pre_c ls /\
  pre_c ls = Some [{| n_text := [CChr 1; CSp; CChr 2; CSp; CChr 3]; n_number := 3; n_ind := 0 |}].
Proof. split; vm_compute; reflexivity. Qed.

Lemma pre_cm_go_shift :
  forall ls i j cm, map unnumbered_cm (pre_cm_go i cm ls) = map unnumbered_cm (pre_cm_go j cm ls).
Proof.
  induction ls as [|l r IH]; intros i j cm; simpl; [reflexivity|].
  destruct (strip l) as [|c s]; [apply IH|].
  destruct c; simpl; try apply IH; f_equal; apply IH.
Qed.

(* a blank line (possibly holding whitespace) ANYWHERE - also between a comment and the
   statement it belongs to, or between two comment lines - changes neither the statements
   nor the comment attached to each of them *)
Theorem v1_blank_cm :
  forall a ws b, forallb is_wsc ws = true ->
    map unnumbered_cm (pre_cm (a ++ ws :: b)) = map unnumbered_cm (pre_cm (a ++ b)).
Proof.
  intros a ws b H. unfold pre_cm. generalize 0 as i. generalize (@None (list (list ch))) as cm.
  induction a as [|l a IH]; intros cm i; simpl.
  - rewrite (strip_all_ws ws H). apply pre_cm_go_shift.
  - destruct (strip l) as [|c s]; [apply IH|].
    destruct c; simpl; try apply IH; f_equal; apply IH.
Qed.

(* the statements of pre_cm are those of pre *)
Lemma pre_cm_go_fst : forall ls i cm, map fst (pre_cm_go i cm ls) = pre_go i ls.
Proof.
  induction ls as [|l r IH]; intros i cm; simpl; [reflexivity|].
  destruct (strip l) as [|c s]; [apply IH|].
  destruct c; simpl; try apply IH; f_equal; apply IH.
Qed.

Theorem pre_cm_fst : forall ls, map fst (pre_cm ls) = pre ls.
Proof. intros ls. apply pre_cm_go_fst. Qed.

(* blank lines (possibly holding whitespace) are dropped *)
Theorem v1_blank :
  forall a ws b, forallb is_wsc ws = true ->
    map unnumbered (pre (a ++ ws :: b)) = map unnumbered (pre (a ++ b)).
Proof.
  intros a ws b H.
  assert (E : forall ls, map unnumbered (pre ls) = map fst (map unnumbered_cm (pre_cm ls)))
    by (intros ls; rewrite <- pre_cm_fst, !map_map; reflexivity).
  now rewrite !E, v1_blank_cm.
Qed.

Example v1_blank_cm_inhabited :
  let a := [[CChr 9]; [CSp; CSp; CHash; CSp; CChr 1]] in
  let b := [[CSp; CSp; CChr 3]] in
  map unnumbered_cm (pre_cm (a ++ [CSp; CTab] :: b)) = [([CChr 9], 0, None); ([CChr 3], 2, Some [[CChr 1]])].
Proof. reflexivity. Qed.
