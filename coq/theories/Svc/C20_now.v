(* C20 - the confinement theorems of Path_proofs.v / Threads_proofs.v instantiated at the alphabet
   N (code points) with the constants read from the CURRENT source (Gen/C20Consts.v).  The side
   conditions on the reject pattern are decided here by computation on the generated value:
   if the source no longer rejects separators, or neither rejects ".." nor applies the
   commonprefix test, these lemmas fail to check.  (The thread theorems have no side condition;
   Props/C20.v applies them to the definitions of Section Server directly.) *)
From Coq Require Import List NArith Bool.
From NG Require Import Gen.C20Consts Svc.Path Svc.Path_proofs Svc.Threads Svc.Threads_proofs Svc.PathRun.
Import ListNotations.
Open Scope N_scope.

(* the reject pattern of the current source fires on every id containing '/' *)
Lemma guard_sep_now : Path.pat_rejects_char N N.eq_dec reject_pattern sepN = true.
Proof. vm_compute. reflexivity. Qed.

(* an id that IS ".." is stopped by the reject pattern or by the commonprefix test *)
Lemma guard_dotdot_now :
  Path.re_search N N.eq_dec reject_pattern [dotN; dotN] = true \/ prefix_check_present = true.
Proof. first [ left; vm_compute; reflexivity | right; vm_compute; reflexivity ]. Qed.

(* "thread-", 16, and the reply that begins with "Could not load" *)
Definition could_not_load_words : nstr := [67; 111; 117; 108; 100; 32; 110; 111; 116; 32; 108; 111; 97; 100].

Fixpoint is_prefix (p s : nstr) : bool :=
  match p, s with
  | [], _ => true
  | x :: p', y :: s' => N.eqb x y && is_prefix p' s'
  | _ :: _, [] => false
  end.

Lemma source_constants_now :
  thread_prefix = [116; 104; 114; 101; 97; 100; 45]
  /\ min_thread_id_len = 16
  /\ is_prefix could_not_load_words could_not_load_prefix = true.
Proof. repeat split. Qed.

Lemma thread_prefix_nonempty : thread_prefix <> [].
Proof. discriminate. Qed.

(* the text of the fixed reply: prefix ++ str(config_ids) ++ suffix, str() of a list being
   Python's; it is a parameter here *)
Definition could_not_load_text (repr : list nstr -> nstr) (ids : list nstr) : nstr :=
  could_not_load_prefix ++ repr ids ++ could_not_load_suffix.

Lemma could_not_load_text_begins :
  forall repr ids, is_prefix could_not_load_words (could_not_load_text repr ids) = true.
Proof. intros. vm_compute. reflexivity. Qed.

Notation insideN := (Path.inside N N.eq_dec sepN dotN).
Notation abs_normalN := (Path.abs_normal N sepN dotN).
Notation starts_with_sepN := (Path.starts_with_sep N N.eq_dec sepN).
Notation ends_with_sepN := (Path.ends_with_sep N N.eq_dec sepN).

(* for any normalised absolute root (one or two separators + plain segments) *)
Lemma confined_normal_base_now :
  forall base id p,
    abs_normalN base -> get_rails_path_now base id = Accept p -> insideN base p.
Proof.
  exact (get_rails_path_confined N N.eq_dec sepN dotN reject_pattern prefix_check_present
           guard_sep_now guard_dotdot_now).
Qed.

(* abspath under an absolute working directory is such a root *)
Lemma confined_now :
  forall cwd root id p,
    starts_with_sepN cwd = true ->
    get_rails_path_now (abspathN cwd root) id = Accept p ->
    insideN (abspathN cwd root) p.
Proof.
  intros cwd root id p Hcwd. apply confined_normal_base_now, abspath_abs_normal, Hcwd.
Qed.

Lemma nstr_eqb_str_eqb : forall a b, nstr_eqb a b = Path.str_eqb N N.eq_dec a b.
Proof.
  induction a as [|x a IH]; destruct b as [|y b]; simpl; try reflexivity.
  rewrite IH. unfold Path.ceq. destruct (N.eq_dec x y) as [->|e].
  - rewrite N.eqb_refl. reflexivity.
  - apply N.eqb_neq in e. rewrite e. reflexivity.
Qed.

(* functional specification of the per-id logic, given that the reject test fires on ".." *)
Lemma path_spec_now :
  forall cwd root id,
    starts_with_sepN cwd = true ->
    reject_now [dotN; dotN] = true ->
    let base := abspathN cwd root in
    get_rails_path_now base id =
      if reject_now id then Reject
      else Accept (if nstr_eqb id [] || nstr_eqb id [dotN] then base
                   else base ++ Path.tail_sep N N.eq_dec sepN base ++ id).
Proof.
  intros cwd root id Hcwd Hdd base. rewrite !nstr_eqb_str_eqb.
  apply (get_rails_path_spec N N.eq_dec sepN dotN reject_pattern prefix_check_present guard_sep_now);
    [apply abspath_abs_normal; exact Hcwd | exact Hdd].
Qed.

(* the form of DESIGN.md: when the root is not "/" or "//" the accepted path is the root or
   root ++ "/" ++ seg with no separator in seg and seg none of "", ".", ".." *)
Lemma confined_now_nonroot :
  forall cwd root id p,
    starts_with_sepN cwd = true ->
    ends_with_sepN (abspathN cwd root) = false ->
    get_rails_path_now (abspathN cwd root) id = Accept p ->
    p = abspathN cwd root
    \/ exists seg, p = abspathN cwd root ++ [sepN] ++ seg
                   /\ ~ In sepN seg /\ seg <> [dotN; dotN] /\ seg <> [dotN] /\ seg <> [].
Proof.
  intros cwd root id p Hcwd Hend H.
  destruct (confined_now cwd root id p Hcwd H) as [E|[seg [E [P1 [P2 [P3 P4]]]]]].
  - left. exact E.
  - right. exists seg. unfold Path.tail_sep in E. rewrite Hend in E. auto.
Qed.

(* an accepted path never equals and never lies under a sibling of the root: the root followed
   by a separator (or the root itself) is a prefix of it *)
Lemma confined_now_prefix :
  forall cwd root id p,
    starts_with_sepN cwd = true ->
    get_rails_path_now (abspathN cwd root) id = Accept p ->
    p = abspathN cwd root
    \/ exists rest, p = (abspathN cwd root ++ Path.tail_sep N N.eq_dec sepN (abspathN cwd root)) ++ rest
                    /\ ~ In sepN rest.
Proof.
  intros cwd root id p Hcwd H.
  destruct (confined_now cwd root id p Hcwd H) as [E|[seg [E [_ [P2 _]]]]].
  - left. exact E.
  - right. exists seg. rewrite <- app_assoc. auto.
Qed.

(* the commonprefix test is unreachable after the reject test, provided the reject test also
   fires on ".." (as the shipped pattern does: see Example reject_fires_on_dotdot_shipped) *)
Lemma prefix_check_redundant_now :
  forall cwd root id,
    starts_with_sepN cwd = true ->
    reject_now [dotN; dotN] = true ->
    reject_now id = false ->
    commonprefixN [normpathN (joinN (abspathN cwd root) id); abspathN cwd root] = abspathN cwd root.
Proof.
  intros cwd root id Hcwd Hdd Hrej.
  apply (prefix_check_redundant N N.eq_dec sepN dotN reject_pattern guard_sep_now);
    [apply abspath_abs_normal; exact Hcwd | exact Hdd | exact Hrej].
Qed.

(* the quirk itself: the character-wise commonprefix test accepts a sibling directory whose
   name extends the root's name; such a path is not inside the root *)
Lemma commonprefix_quirk_now :
  exists base full,
    abs_normalN base /\ commonprefixN [full; base] = base /\ ~ insideN base full.
Proof.
  (* base = "/r/c", full = "/r/c-evil" *)
  assert (Hp : Forall (Path.plain N sepN dotN) [[114]; [99]])
    by (repeat constructor; try discriminate; intros [E|[]]; discriminate).
  exists [47; 114; 47; 99], [47; 114; 47; 99; 45; 101; 118; 105; 108].
  split; [|split].
  - exists 1%nat, [[114]; [99]]. auto.
  - reflexivity.
  - apply (sibling_not_inside N N.eq_dec sepN dotN 1 [[114]; [99]] [101; 118; 105; 108] 45);
      [auto | exact Hp | discriminate | discriminate].
Qed.

Section Server.
  Variable M : Type.
  Variables cwd root : nstr.
  Variables single default : option nstr.
  Variable load_ok : nstr -> bool.
  Variable llm : list nstr -> list M -> option M.

  Definition base_src : nstr := abspathN cwd root.
  Definition min_len_src : nat := N.to_nat min_thread_id_len.

  Definition load_all_src :=
    Threads.load_all N N.eq_dec sepN dotN reject_pattern prefix_check_present base_src load_ok.
  Definition get_rails_src :=
    Threads.get_rails N N.eq_dec sepN dotN cache_key_joiner reject_pattern prefix_check_present
                      base_src single load_ok.
  Definition chat_src :=
    Threads.chat N N.eq_dec sepN dotN cache_key_joiner M reject_pattern prefix_check_present
                 thread_prefix min_len_src base_src single default load_ok llm.
  Definition run_src :=
    Threads.run N N.eq_dec sepN dotN cache_key_joiner M reject_pattern prefix_check_present
                thread_prefix min_len_src base_src single default load_ok llm.

  Hypothesis cwd_abs : starts_with_sepN cwd = true.

  Lemma base_src_normal : abs_normalN base_src.
  Proof. apply abspath_abs_normal. exact cwd_abs. Qed.

  (* config_ids form, any request sequence, starting with an empty instance cache and any
     datastore: every path handed to the loader and every path of every instance that serves
     a request is inside the root *)
  Lemma run_confined_now :
    forall rqs store0 st' os,
      run_src {| s_cache := []; s_store := store0 |} rqs = (st', os) ->
      Forall (fun o => Forall (insideN base_src) (o_loads N M o)
                       /\ (forall inst, o_inst N M o = Some inst -> Forall (insideN base_src) inst)) os.
  Proof.
    intros rqs store0 st' os H.
    eapply (run_inside N N.eq_dec sepN dotN cache_key_joiner M reject_pattern prefix_check_present
              thread_prefix min_len_src base_src single default load_ok llm
              base_src_normal guard_sep_now guard_dotdot_now); [exact H|].
    simpl. apply cache_ok_nil.
  Qed.

  (* the loader loop of one _get_rails call: calls are for accepted ids, in order *)
  Lemma load_all_trace_now :
    forall ids tr r, load_all_src ids = (tr, r) ->
      Forall (insideN base_src) tr
      /\ exists k, Forall2 (fun id p => get_rails_path_now base_src id = Accept p) (firstn k ids) tr
                   /\ (forall inst, r = Some inst -> inst = tr /\ k = length ids).
  Proof.
    intros ids tr r H. split.
    - eapply (load_all_inside N N.eq_dec sepN dotN reject_pattern prefix_check_present base_src load_ok
                base_src_normal guard_sep_now guard_dotdot_now); exact H.
    - eapply load_all_trace; exact H.
  Qed.

  Definition http_chat_src :=
    Threads.http_chat N N.eq_dec sepN dotN cache_key_joiner M reject_pattern prefix_check_present
                      thread_prefix min_len_src (N.to_nat field_min_len) field_max_nat
                      base_src single default load_ok llm.

End Server.
