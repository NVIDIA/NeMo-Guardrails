(* C19 - safety of the batching transition system (Svc/Batch.v): `step` as a relation
   (step_spec), what each kind of step does to the two lists of tasks, and an inductive invariant
   of `step`, for every schedule, every max_batch_size >= 1, every cache mode, every key
   generator injective on the texts in play and every (consistent) initial store. *)
From Coq Require Import List Bool Arith Lia.
From NG Require Import Svc.EmbCache Svc.EmbCache_proofs Svc.Batch.
Import ListNotations.

Lemma length_upd : forall A (l : list A) i x, length (upd l i x) = length l.
Proof. induction l as [|a l IH]; intros [|i] x; simpl; auto. Qed.

Lemma nth_error_upd : forall A (l : list A) i x j,
  nth_error (upd l i x) j =
  if j =? i then match nth_error l j with Some _ => Some x | None => None end else nth_error l j.
Proof.
  induction l as [|a l IH]; intros i x j.
  - destruct i; destruct j; simpl; try reflexivity; destruct (_ =? _); reflexivity.
  - destruct i; destruct j; simpl; try reflexivity. apply IH.
Qed.

Lemma nth_error_upd_same : forall A (l : list A) i x y,
  nth_error l i = Some y -> nth_error (upd l i x) i = Some x.
Proof. intros. rewrite nth_error_upd, Nat.eqb_refl, H. reflexivity. Qed.

Lemma nth_error_upd_other : forall A (l : list A) i x j,
  j <> i -> nth_error (upd l i x) j = nth_error l j.
Proof. intros. rewrite nth_error_upd. destruct (j =? i) eqn:E; [apply Nat.eqb_eq in E; contradiction|reflexivity]. Qed.

Lemma nth_error_upd_inv : forall A (l : list A) i x j y,
  nth_error (upd l i x) j = Some y -> (j = i /\ y = x) \/ (j <> i /\ nth_error l j = Some y).
Proof.
  intros A l i x j y H. rewrite nth_error_upd in H. destruct (j =? i) eqn:E.
  - apply Nat.eqb_eq in E. left. destruct (nth_error l j); inversion H; auto.
  - apply Nat.eqb_neq in E. right. auto.
Qed.

Lemma nth_error_app_inv : forall A (l : list A) x j y,
  nth_error (l ++ [x]) j = Some y -> nth_error l j = Some y \/ (j = length l /\ y = x).
Proof.
  intros A l x j y H. destruct (Nat.lt_ge_cases j (length l)) as [Hl|Hl].
  - rewrite nth_error_app1 in H by assumption. auto.
  - rewrite nth_error_app2 in H by assumption.
    destruct (j - length l) as [|d] eqn:E; simpl in H.
    + inversion H. right. split; [lia|reflexivity].
    + destruct d; discriminate H.
Qed.

Lemma nth_error_app_keep : forall A (l : list A) x j y,
  nth_error l j = Some y -> nth_error (l ++ [x]) j = Some y.
Proof.
  intros. rewrite nth_error_app1; [assumption|]. apply nth_error_Some. congruence.
Qed.

Lemma memb_In : forall k l, memb k l = true <-> In k l.
Proof.
  intros k l. unfold memb. rewrite existsb_exists. split.
  - intros [x [Hin E]]. apply Nat.eqb_eq in E. subst. assumption.
  - intros H. exists k. split; [assumption|apply Nat.eqb_refl].
Qed.

Lemma dict_get_In : forall V (d : dict V) k v, dict_get d k = Some v -> In (k, v) d.
Proof.
  induction d as [|[k' v'] d IH]; intros k v H; simpl in *; [discriminate|].
  destruct (k =? k') eqn:E.
  - apply Nat.eqb_eq in E. inversion H. subst. left. reflexivity.
  - right. apply IH. assumption.
Qed.

Lemma dict_get_notin : forall V (d : dict V) k, ~ In k (map fst d) -> dict_get d k = None.
Proof.
  intros V d k H. destruct (dict_get d k) as [v|] eqn:E; [|reflexivity].
  destruct H. exact (in_map fst d (k, v) (dict_get_In V d k v E)).
Qed.

Lemma dict_get_set : forall V (d : dict V) k v k',
  dict_get (dict_set d k v) k' = if k' =? k then Some v else dict_get d k'.
Proof.
  induction d as [|[k0 v0] d IH]; intros k v k'; simpl.
  - destruct (k' =? k); reflexivity.
  - destruct (k =? k0) eqn:E; simpl.
    + apply Nat.eqb_eq in E. subst k0. destruct (k' =? k); reflexivity.
    + rewrite IH. destruct (k' =? k0) eqn:E0; [|reflexivity].
      apply Nat.eqb_eq in E0. subst k0. destruct (k' =? k) eqn:E1; [|reflexivity].
      apply Nat.eqb_eq in E1. subst k. rewrite Nat.eqb_refl in E. discriminate E.
Qed.

Lemma dict_get_del_other : forall V (d : dict V) k k', k' <> k ->
  dict_get (dict_del d k) k' = dict_get d k'.
Proof.
  induction d as [|[k0 v0] d IH]; intros k k' Hne; simpl; [reflexivity|].
  destruct (k =? k0) eqn:E; simpl.
  - apply Nat.eqb_eq in E. subst k0.
    destruct (k' =? k) eqn:E1; [apply Nat.eqb_eq in E1; contradiction|reflexivity].
  - destruct (k' =? k0); [reflexivity|apply IH; assumption].
Qed.

Lemma dict_set_fresh : forall V (d : dict V) k v, ~ In k (map fst d) -> dict_set d k v = d ++ [(k, v)].
Proof.
  induction d as [|[k0 v0] d IH]; intros k v H; simpl in *; [reflexivity|].
  destruct (k =? k0) eqn:E.
  - apply Nat.eqb_eq in E. exfalso. apply H. left. auto.
  - f_equal. apply IH. intro. apply H. right. assumption.
Qed.

Section Safety.
  Variables text key vec : Type.
  Variable text_eq_dec : forall a b : text, {a = b} + {a <> b}.
  Variable key_eq_dec : forall a b : key, {a = b} + {a <> b}.
  Variable kg : text -> key.
  Variable emb : text -> vec.
  Variable max_batch_size : nat.
  Variable cmode : cache_mode.
  Variable P : text -> Prop.                     (* the texts in play *)
  Hypothesis Hmax : 1 <= max_batch_size.
  Hypothesis Hinj : inj_on kg P.

  Notation state := (state text key vec).
  Notation rpc := (rpc vec).
  Notation bpc := (bpc text vec).
  Notation step := (step text_eq_dec key_eq_dec kg emb max_batch_size cmode).
  Notation consistent := (consistent key_eq_dec kg emb P).
  Notation begin_ok := (begin_ok text_eq_dec emb P).

  Definition presubmit (b : bpc) : Prop :=
    match b with BInit | BHold _ _ => True | _ => False end.

  Definition locals_ok (batch : list text) (c : tdict text vec) (u : list text) : Prop :=
    match cmode with
    | CacheOff => u = batch
    | _ => begin_ok batch c u
    end.

  Definition pc_ok (t : text) (p : rpc) : Prop :=
    match p with
    | RDone r => r = Some (emb t)
    | RError | RSpin => False
    | _ => True
    end.

  Record Inv (s : state) : Prop := mkInv {
    iv_qlt : forall id t, In (id, t) (req_queue s) -> id < req_idx s;
    iv_qnd : NoDup (map fst (req_queue s));
    iv_fin_q : cur_finished s = None -> req_queue s = [];
    iv_sub : cur_finished s <> None -> submitted s = false;
    iv_full : forall k, cur_finished s = Some k -> cur_full s = Some k;
    iv_pre : forall k b, nth_error (batches s) k = Some b -> presubmit b -> cur_finished s = Some k;
    iv_cur : forall k, cur_finished s = Some k -> exists b, nth_error (batches s) k = Some b /\ presubmit b;
    iv_done : forall e, In e (finished_set s) -> nth_error (batches s) e = Some BDone;
    iv_model : forall k ev items c u, nth_error (batches s) k = Some (BModel ev items c u) ->
               ev = Some k /\ NoDup (map fst items) /\ locals_ok (map snd items) c u /\
               forall id t, In (id, t) items ->
                 id < req_idx s /\ exists i, nth_error (reqs s) i = Some (t, RWaitFin id k);
    iv_qown : forall id t, In (id, t) (req_queue s) ->
              exists i k, cur_finished s = Some k /\ nth_error (reqs s) i = Some (t, RWaitFin id k);
    iv_wait : forall i t rid k, nth_error (reqs s) i = Some (t, RWaitFin rid k) ->
              rid < req_idx s /\
              ((In (rid, t) (req_queue s) /\ cur_finished s = Some k) \/
               (exists ev items c u, nth_error (batches s) k = Some (BModel ev items c u) /\ In (rid, t) items) \/
               (In k (finished_set s) /\ dict_get (req_results s) rid = Some (Some (emb t))));
    iv_uniq : forall i j t t' rid k k', nth_error (reqs s) i = Some (t, RWaitFin rid k) ->
              nth_error (reqs s) j = Some (t', RWaitFin rid k') -> i = j;
    iv_ok : forall i t p, nth_error (reqs s) i = Some (t, p) -> pc_ok t p /\ P t;
    iv_bok : forall k, nth_error (batches s) k <> Some BError;
    iv_store : consistent (cstore s);
    iv_blocked : forall i t, nth_error (reqs s) i = Some (t, RWaitSub false) -> cur_finished s <> None
  }.

  Definition runnable (p : rpc) : Prop :=
    match p with RInit | RWaitSub true => True | _ => False end.

  (* `step` as a relation, one constructor per kind of atomic step *)
  Inductive step_spec (s : state) : label -> state -> Prop :=
  | step_enter : forall i t p, nth_error (reqs s) i = Some (t, p) -> runnable p ->
      step_spec s (LReq i) (req_enter max_batch_size s i t)
  | step_fetch : forall i t rid k, nth_error (reqs s) i = Some (t, RWaitFin rid k) ->
      In k (finished_set s) -> step_spec s (LReq i) (fetch s i t rid)
  | step_start : forall k, nth_error (batches s) k = Some BInit ->
      step_spec s (LBatch k) (set_batch s k (match cur_full s with Some f => BHold f false | None => BError end))
  | step_collect : forall k f fired, nth_error (batches s) k = Some (BHold f fired) ->
      fired || memb f (full_set s) = true ->
      step_spec s (LBatch k) (collect text_eq_dec key_eq_dec kg cmode s k)
  | step_timer : forall k f, nth_error (batches s) k = Some (BHold f false) ->
      step_spec s (LTimer k) (set_batch s k (BHold f true))
  | step_model : forall k ev items c u, nth_error (batches s) k = Some (BModel ev items c u) ->
      let e := end_call text_eq_dec key_eq_dec kg cmode s (map snd items) c u (map emb u) in
      step_spec s (LModel k) (finish (with_store s (snd e)) k ev (map fst items) (fst e)).

  Lemma step_iff : forall l s s', step l s = Some s' <-> step_spec s l s'.
  Proof.
    split.
    - intro Hs. destruct l as [i|k|k|k]; simpl in Hs.
      + destruct (nth_error (reqs s) i) as [[t p]|] eqn:Hi; [|discriminate].
        destruct p as [|[]|rid k|r| |]; try discriminate.
        1-2: injection Hs as <-; exact (step_enter s i t _ Hi I).
        destruct (memb k (finished_set s)) eqn:E; [|discriminate]. injection Hs as <-.
        apply memb_In in E. exact (step_fetch s i t rid k Hi E).
      + destruct (nth_error (batches s) k) as [[|f fired|ev items c u| |]|] eqn:Hk; try discriminate.
        * injection Hs as <-. exact (step_start s k Hk).
        * destruct (fired || memb f (full_set s)) eqn:E; [|discriminate]. injection Hs as <-.
          exact (step_collect s k f fired Hk E).
      + destruct (nth_error (batches s) k) as [[|f []|ev items c u| |]|] eqn:Hk; try discriminate.
        injection Hs as <-. exact (step_timer s k f Hk).
      + destruct (nth_error (batches s) k) as [[|f fired|ev items c u| |]|] eqn:Hk; try discriminate.
        pose proof (step_model s k ev items c u Hk) as H. simpl in H.
        destruct (end_call _ _ _ _ _ _ _ _ _). injection Hs as <-. exact H.
    - intros [i t p Hi Hp|i t rid k Hi Hk|k Hk|k f fired Hk E|k f Hk|k ev items c u Hk e]; simpl.
      + rewrite Hi. destruct p as [|[]| | | |]; try destruct Hp; reflexivity.
      + apply memb_In in Hk. rewrite Hi, Hk. reflexivity.
      + rewrite Hk. reflexivity.
      + rewrite Hk, E. reflexivity.
      + rewrite Hk. reflexivity.
      + rewrite Hk. subst e. destruct (end_call _ _ _ _ _ _ _ _ _). reflexivity.
  Qed.

  Lemma spec_enabled : forall l s s', step_spec s l s' ->
    enabled text_eq_dec key_eq_dec kg emb max_batch_size cmode l s = true.
  Proof. intros l s s' H. apply step_iff in H. unfold enabled. rewrite H. reflexivity. Qed.

  Lemma nth_error_init : forall (texts : list text) i t (p : rpc),
    nth_error (map (fun t => (t, RInit)) texts) i = Some (t, p) -> p = RInit /\ nth_error texts i = Some t.
  Proof.
    intros texts i t p H. rewrite nth_error_map in H. destruct (nth_error texts i); inversion H; auto.
  Qed.

  Lemma Inv_init : forall texts st, Forall P texts -> consistent st -> Inv (init texts st).
  Proof.
    intros texts st HP Hc.
    (* here and below: the clauses named in the record are those the bullets prove, in this order;
       the others are closed on the spot *)
    refine {| iv_qnd := _; iv_pre := _; iv_model := _; iv_wait := _; iv_uniq := _; iv_ok := _; iv_bok := _;
              iv_blocked := _ |};
      simpl; try assumption; try (intros; contradiction); try (intros; discriminate); try (intros; congruence).
    - constructor.
    - intros k b H. destruct k; discriminate H.
    - intros k ev items c u H. destruct k; discriminate H.
    - intros i t rid k H. apply nth_error_init in H. destruct H. discriminate.
    - intros i j t t' rid k k' H. apply nth_error_init in H. destruct H. discriminate.
    - intros i t p H. apply nth_error_init in H. destruct H as [-> H]. split; [exact I|].
      rewrite Forall_forall in HP. apply HP. eapply nth_error_In. eassumption.
    - intros k H. destruct k; discriminate H.
    - intros i t H. apply nth_error_init in H. destruct H. discriminate.
  Qed.

  Lemma upd_other_closed : forall (bs : list bpc) k b b', nth_error bs k = Some b -> presubmit b ->
    forall k0 b0, nth_error bs k0 = Some b0 -> ~ presubmit b0 -> nth_error (upd bs k b') k0 = Some b0.
  Proof.
    intros bs k b b' Hk Hb k0 b0 Hk0 Hn. rewrite nth_error_upd_other; [exact Hk0|].
    intro. subst k0. rewrite Hk in Hk0. inversion Hk0. subst. contradiction.
  Qed.

  Lemma ok_upd : forall s i t p p', Inv s -> nth_error (reqs s) i = Some (t, p) -> pc_ok t p' ->
    forall j t0 p0, nth_error (upd (reqs s) i (t, p')) j = Some (t0, p0) -> pc_ok t0 p0 /\ P t0.
  Proof.
    intros s i t p p' HI Hi Hok j t0 p0 Hj. apply nth_error_upd_inv in Hj. destruct Hj as [[_ E]|[_ Hj]].
    - inversion E. subst. split; [exact Hok|]. exact (proj2 (iv_ok _ HI _ _ _ Hi)).
    - exact (iv_ok _ HI _ _ _ Hj).
  Qed.

  (* an event that is set belongs to a batch that is done, not to the open one *)
  Lemma cur_not_finished : forall s k, Inv s -> cur_finished s = Some k -> memb k (finished_set s) = false.
  Proof.
    intros s k HI Hc. destruct (memb k (finished_set s)) eqn:E; [|reflexivity].
    apply memb_In in E. apply (iv_done _ HI) in E.
    destruct (iv_cur _ HI k Hc) as [b [Hb Hp]]. rewrite E in Hb. inversion Hb. subst b. destruct Hp.
  Qed.

  Lemma idx_fresh : forall s, Inv s -> ~ In (req_idx s) (map fst (req_queue s)).
  Proof.
    intros s HI Hin. apply in_map_iff in Hin. destruct Hin as [[id t] [E Hin]]. simpl in E. subst id.
    apply (iv_qlt _ HI) in Hin. lia.
  Qed.

  Definition with_reqs (s : state) (rs : list (text * rpc)) (res : dict (option vec)) : state :=
    mkState (req_queue s) res (req_idx s) (cur_finished s) (cur_full s) (submitted s)
            (finished_set s) (full_set s) rs (batches s) (cstore s).

  (* the invariant sees the request tasks through three things only: who waits for which batch
     (no one new, and only a waiter whose finished event is set may leave), that every pc is fine,
     that nobody is blocked while no batch is open; and the results through the ids of those who wait *)
  Lemma Inv_reqs : forall s rs' res',
    Inv s ->
    (forall j t rid k, nth_error rs' j = Some (t, RWaitFin rid k) ->
       nth_error (reqs s) j = Some (t, RWaitFin rid k) /\ dict_get res' rid = dict_get (req_results s) rid) ->
    (forall j t rid k, nth_error (reqs s) j = Some (t, RWaitFin rid k) -> ~ In k (finished_set s) ->
                       nth_error rs' j = Some (t, RWaitFin rid k)) ->
    (forall j t p, nth_error rs' j = Some (t, p) -> pc_ok t p /\ P t) ->
    (forall j t, nth_error rs' j = Some (t, RWaitSub false) -> cur_finished s <> None) ->
    Inv (with_reqs s rs' res').
  Proof.
    intros s rs' res' HI Hnew Hstay Hok Hbl. pose proof (fun k => cur_not_finished s k HI) as Hcur. destruct HI.
    refine {| iv_model := _; iv_qown := _; iv_wait := _; iv_uniq := _ |}; simpl; auto.
    - intros k ev items c u Hk. destruct (iv_model0 k ev items c u Hk) as (A & B & C & D).
      split; [exact A|]. split; [exact B|]. split; [exact C|].
      intros id t Hin. destruct (D id t Hin) as [Hlt [i0 Hi0]]. split; [exact Hlt|].
      exists i0. apply Hstay; [exact Hi0|]. intro Hf. apply iv_done0 in Hf. congruence.
    - intros id t Hin. destruct (iv_qown0 id t Hin) as (i0 & k & Hc & Hi0).
      exists i0, k. split; [exact Hc|]. apply Hstay; [exact Hi0|].
      intro Hf. apply memb_In in Hf. rewrite (Hcur k Hc) in Hf. discriminate Hf.
    - intros j t rid k Hj. destruct (Hnew j t rid k Hj) as [Hj0 ->]. exact (iv_wait0 j t rid k Hj0).
    - intros j j' t t' rid k k' Hj Hj'.
      exact (iv_uniq0 _ _ _ _ _ _ _ (proj1 (Hnew _ _ _ _ Hj)) (proj1 (Hnew _ _ _ _ Hj'))).
  Qed.

  (* the queue is full: the request waits for _current_batch_submitted *)
  Lemma Inv_block : forall s i t p,
    Inv s -> nth_error (reqs s) i = Some (t, p) -> runnable p -> cur_finished s <> None ->
    Inv (set_req s i (t, RWaitSub false)).
  Proof.
    intros s i t p HI Hi Hp Hne. apply Inv_reqs; [exact HI| | | |].
    - intros j t0 rid k Hj. apply nth_error_upd_inv in Hj.
      destruct Hj as [[_ E]|[_ Hj]]; [discriminate E|exact (conj Hj eq_refl)].
    - intros j t0 rid k Hj _. rewrite nth_error_upd_other; [exact Hj|].
      intro. subst j. rewrite Hi in Hj. inversion Hj. subst. exact Hp.
    - exact (ok_upd s i t p (RWaitSub false) HI Hi I).
    - intros _ _ _. exact Hne.
  Qed.

  (* _current_batch_submitted.set() *)
  Lemma nth_error_wake : forall (rs : list (text * rpc)) j t p,
    nth_error (map wake rs) j = Some (t, p) ->
    exists p0, nth_error rs j = Some (t, p0) /\ p = match p0 with RWaitSub _ => RWaitSub true | _ => p0 end.
  Proof.
    intros rs j t p H. rewrite nth_error_map in H. destruct (nth_error rs j) as [[t0 p0]|]; [|discriminate H].
    exists p0. destruct p0; inversion H; auto.
  Qed.

  Lemma wake_none_blocked : forall (rs : list (text * rpc)) j t, nth_error (map wake rs) j <> Some (t, RWaitSub false).
  Proof. intros rs j t Hj. apply nth_error_wake in Hj. destruct Hj as ([] & _ & E); discriminate E. Qed.

  Lemma Inv_wake : forall s, Inv s -> Inv (with_reqs s (map wake (reqs s)) (req_results s)).
  Proof.
    intros s HI. apply Inv_reqs; [exact HI| | | |].
    - intros j t rid k Hj. apply nth_error_wake in Hj. destruct Hj as (p0 & H & E).
      destruct p0; inversion E. subst. exact (conj H eq_refl).
    - intros j t rid k Hj _. rewrite nth_error_map, Hj. reflexivity.
    - intros j t p Hj. apply nth_error_wake in Hj. destruct Hj as (p0 & Hj & ->).
      destruct (iv_ok _ HI _ _ _ Hj) as [Hok HP]. destruct p0; auto.
    - intros j t Hj. destruct (wake_none_blocked _ _ _ Hj).
  Qed.

  Lemma NoDup_snoc : forall (l : list nat) x, NoDup l -> ~ In x l -> NoDup (l ++ [x]).
  Proof.
    intros l x Hnd Hn. apply (NoDup_Add (Add_app x l [])). rewrite app_nil_r. split; assumption.
  Qed.

  (* `if self._current_batch_finished_event is None:` new events, a new _run_batch task *)
  Definition open_batch (s : state) : state :=
    mkState (req_queue s) (req_results s) (req_idx s) (Some (length (batches s))) (Some (length (batches s)))
            false (finished_set s) (full_set s) (reqs s) (batches s ++ [BInit]) (cstore s).

  Lemma Inv_open_batch : forall s, Inv s -> cur_finished s = None -> Inv (open_batch s).
  Proof.
    intros s HI Hc. destruct HI.
    refine {| iv_pre := _; iv_cur := _; iv_done := _; iv_model := _; iv_qown := _; iv_wait := _; iv_bok := _ |};
      simpl; auto; try discriminate.
    - intros k b Hk Hb. apply nth_error_app_inv in Hk. destruct Hk as [Hk|[-> _]]; [|reflexivity].
      rewrite (iv_pre0 k b Hk Hb) in Hc. discriminate Hc.
    - intros k E. inversion E. exists BInit. split; [|exact I].
      rewrite nth_error_app2, Nat.sub_diag by lia. reflexivity.
    - intros e He. apply nth_error_app_keep. exact (iv_done0 e He).
    - intros k ev items c u Hk. apply nth_error_app_inv in Hk. destruct Hk as [Hk|[_ E]]; [|discriminate E].
      exact (iv_model0 k ev items c u Hk).
    - intros id t Hin. rewrite (iv_fin_q0 Hc) in Hin. destruct Hin.
    - intros j t rid k Hj. destruct (iv_wait0 j t rid k Hj) as [Hlt [[_ E]|[(ev & items & c & u & Hb & Hin)|H]]].
      + congruence.
      + split; [exact Hlt|]. right. left. exists ev, items, c, u. split; [apply nth_error_app_keep; exact Hb|exact Hin].
      + auto.
    - intros k Hk. apply nth_error_app_inv in Hk. destruct Hk as [Hk|[_ E]]; [|discriminate E].
      exact (iv_bok0 k Hk).
  Qed.

  (* the request joins the open batch `fin` and waits for its finished event *)
  Lemma Inv_join : forall s i t p fin fs,
    Inv s -> nth_error (reqs s) i = Some (t, p) -> runnable p -> cur_finished s = Some fin ->
    Inv (mkState (req_queue s ++ [(req_idx s, t)]) (req_results s) (S (req_idx s)) (Some fin) (Some fin)
                 (submitted s) (finished_set s) fs (upd (reqs s) i (t, RWaitFin (req_idx s) fin)) (batches s) (cstore s)).
  Proof.
    intros s i t p fin fs HI Hi Hp Hc.
    pose proof (ok_upd s i t p (RWaitFin (req_idx s) fin) HI Hi I) as Hok.
    pose proof (idx_fresh s HI) as Hfresh. destruct HI.
    assert (Hkeep : forall j t0 rid k, nth_error (reqs s) j = Some (t0, RWaitFin rid k) ->
                    nth_error (upd (reqs s) i (t, RWaitFin (req_idx s) fin)) j = Some (t0, RWaitFin rid k)).
    { intros j t0 rid k Hj. rewrite nth_error_upd_other; [assumption|].
      intro. subst j. rewrite Hi in Hj. inversion Hj. subst. exact Hp. }
    rewrite <- Hc.
    refine {| iv_qlt := _; iv_qnd := _; iv_model := _; iv_qown := _; iv_wait := _; iv_uniq := _ |};
      simpl; auto; try (intros; congruence).
    - intros id t0 Hin. apply in_app_or in Hin. destruct Hin as [Hin|[E|[]]].
      + apply iv_qlt0 in Hin. lia.
      + inversion E. lia.
    - rewrite map_app. apply NoDup_snoc; assumption.
    - intros k ev items c u Hk. destruct (iv_model0 k ev items c u Hk) as (A & B & C & D).
      split; [exact A|]. split; [exact B|]. split; [exact C|].
      intros id t0 Hin. destruct (D id t0 Hin) as [Hlt [i0 Hi0]]. split; [lia|].
      exists i0. apply Hkeep. exact Hi0.
    - intros id t0 Hin. apply in_app_or in Hin. destruct Hin as [Hin|[E|[]]].
      + destruct (iv_qown0 id t0 Hin) as (i0 & k & Hk & Hi0). exists i0, k. split; [exact Hk|exact (Hkeep _ _ _ _ Hi0)].
      + inversion E. subst. exists i, fin. split; [exact Hc|]. exact (nth_error_upd_same _ _ _ _ _ Hi).
    - intros j t0 rid k Hj. apply nth_error_upd_inv in Hj. destruct Hj as [[_ E]|[_ Hj]].
      + inversion E. subst. split; [lia|]. left. split; [|exact Hc]. apply in_or_app. right. left. reflexivity.
      + destruct (iv_wait0 j t0 rid k Hj) as [Hlt [[Hin Hk]|[H|H]]]; (split; [lia|]); auto.
        left. split; [apply in_or_app; left; exact Hin|exact Hk].
    - intros j j' t0 t' rid k k' Hj Hj'.
      apply nth_error_upd_inv in Hj. apply nth_error_upd_inv in Hj'.
      destruct Hj as [[-> E]|[Hn Hj]]; destruct Hj' as [[-> E']|[Hn' Hj']]; try reflexivity.
      + inversion E. subst. apply iv_wait0 in Hj'. lia.
      + inversion E'. subst. apply iv_wait0 in Hj. lia.
      + eapply iv_uniq0; eassumption.
  Qed.

  Lemma Inv_enqueue : forall s i t p k,
    Inv s -> nth_error (reqs s) i = Some (t, p) -> runnable p ->
    cur_finished s = Some k -> max_batch_size <=? length (req_queue s) = false ->
    Inv (req_enter max_batch_size s i t).
  Proof.
    intros s i t p k HI Hi Hp Hc Hq. unfold req_enter. rewrite Hq.
    rewrite (dict_set_fresh _ _ _ _ (idx_fresh s HI)), Hc, (cur_not_finished s k HI Hc), (iv_full _ HI k Hc).
    destruct (max_batch_size <=? length (req_queue s ++ [(req_idx s, t)])); exact (Inv_join s i t p k _ HI Hi Hp Hc).
  Qed.

  Lemma req_enter_open : forall (s : state) i t,
    cur_finished s = None -> max_batch_size <=? length (req_queue s) = false ->
    req_enter max_batch_size s i t = req_enter max_batch_size (open_batch s) i t.
  Proof. intros s i t Hc Hq. unfold req_enter. simpl. rewrite Hc, Hq. reflexivity. Qed.

  Lemma Inv_req_enter : forall s i t p,
    Inv s -> nth_error (reqs s) i = Some (t, p) -> runnable p ->
    Inv (req_enter max_batch_size s i t).
  Proof.
    intros s i t p HI Hi Hp.
    destruct (max_batch_size <=? length (req_queue s)) eqn:Hq; [|destruct (cur_finished s) as [k|] eqn:Hc].
    - assert (Hne : cur_finished s <> None).
      { intro Hc. apply Nat.leb_le in Hq. rewrite (iv_fin_q _ HI Hc) in Hq. simpl in Hq. lia. }
      unfold req_enter. rewrite Hq, (iv_sub _ HI Hne). exact (Inv_block s i t p HI Hi Hp Hne).
    - exact (Inv_enqueue s i t p k HI Hi Hp Hc Hq).
    - rewrite (req_enter_open s i t Hc Hq).
      exact (Inv_enqueue (open_batch s) i t p _ (Inv_open_batch s HI Hc) Hi Hp eq_refl Hq).
  Qed.

  Lemma Inv_fetch : forall s i t rid k,
    Inv s -> nth_error (reqs s) i = Some (t, RWaitFin rid k) -> In k (finished_set s) ->
    Inv (fetch s i t rid).
  Proof.
    intros s i t rid k HI Hi Hk.
    assert (Hres : dict_get (req_results s) rid = Some (Some (emb t))).
    { destruct (iv_wait _ HI i t rid k Hi) as [_ [[_ Hc]|[(ev & items & c & u & Hb & _)|[_ Hr]]]].
      - apply (cur_not_finished s k HI) in Hc. apply memb_In in Hk. congruence.
      - apply (iv_done _ HI) in Hk. congruence.
      - exact Hr. }
    unfold fetch. rewrite Hres.
    (* the waiter leaves, its event being set; no other waiter has its id, so the result can go *)
    apply (Inv_reqs s (upd (reqs s) i (t, RDone (Some (emb t)))) (dict_del (req_results s) rid)); [exact HI| | | |].
    - intros j t0 rid0 k0 Hj. apply nth_error_upd_inv in Hj. destruct Hj as [[_ E]|[Hne Hj]]; [discriminate E|].
      split; [exact Hj|]. apply dict_get_del_other.
      intro. subst rid0. exact (Hne (iv_uniq _ HI _ _ _ _ _ _ _ Hj Hi)).
    - intros j t0 rid0 k0 Hj Hnf. rewrite nth_error_upd_other; [exact Hj|].
      intro. subst j. rewrite Hi in Hj. inversion Hj. subst. exact (Hnf Hk).
    - exact (ok_upd s i t _ (RDone (Some (emb t))) HI Hi eq_refl).
    - intros j t0 Hj. apply nth_error_upd_inv in Hj. destruct Hj as [[_ E]|[_ Hj]]; [discriminate E|].
      exact (iv_blocked _ HI j t0 Hj).
  Qed.

  (* first step of _run_batch, expiry of its timer *)
  Lemma Inv_set_batch_pre : forall s k b b',
    Inv s -> nth_error (batches s) k = Some b -> presubmit b -> presubmit b' ->
    Inv (set_batch s k b').
  Proof.
    intros s k b b' HI Hk Hb Hb'. destruct HI. unfold set_batch.
    pose proof (upd_other_closed _ k b b' Hk Hb) as Hother.
    refine {| iv_pre := _; iv_cur := _; iv_done := _; iv_model := _; iv_wait := _; iv_bok := _ |}; simpl; try assumption.
    - intros k0 b0 Hk0 Hp. apply nth_error_upd_inv in Hk0.
      destruct Hk0 as [[-> _]|[_ Hk0]]; eapply iv_pre0; eassumption.
    - intros k0 Hc. replace k0 with k by (rewrite (iv_pre0 k b Hk Hb) in Hc; congruence).
      exists b'. split; [exact (nth_error_upd_same _ _ _ _ _ Hk)|exact Hb'].
    - intros e He. apply Hother; [apply iv_done0; assumption|]. intros [].
    - intros k0 ev items c u Hk0. apply nth_error_upd_inv in Hk0. destruct Hk0 as [[_ E]|[_ Hk0]].
      + subst b'. destruct Hb'.
      + eapply iv_model0. eassumption.
    - intros j t0 rid k0 Hj.
      destruct (iv_wait0 j t0 rid k0 Hj) as [Hlt [Ha|[[ev [items [c [u [Hbm Hin]]]]]|Hc]]]; split; auto.
      right. left. exists ev, items, c, u. split; [|exact Hin]. apply Hother; [exact Hbm|]. intros [].
    - intros k0 Hk0. apply nth_error_upd_inv in Hk0. destruct Hk0 as [[_ E]|[_ Hk0]].
      + subst b'. destruct Hb'.
      + eapply iv_bok0. eassumption.
  Qed.

  Lemma begin_call_ok : forall s batch, consistent (cstore s) ->
    locals_ok batch (fst (begin_call text_eq_dec key_eq_dec kg cmode s batch))
                    (snd (begin_call text_eq_dec key_eq_dec kg cmode s batch)).
  Proof.
    intros s batch Hc. unfold locals_ok, begin_call, call_store. destruct cmode; simpl.
    - reflexivity.
    - apply wrap_begin_ok. apply consistent_nil.
    - apply wrap_begin_ok. exact Hc.
  Qed.

  Lemma end_call_ok : forall s batch c u, consistent (cstore s) -> Forall P batch -> locals_ok batch c u ->
    fst (end_call text_eq_dec key_eq_dec kg cmode s batch c u (map emb u)) = map (fun t => Some (emb t)) batch /\
    consistent (snd (end_call text_eq_dec key_eq_dec kg cmode s batch c u (map emb u))).
  Proof.
    intros s batch c u Hc HP Hl. unfold locals_ok in Hl. unfold end_call. destruct cmode; simpl.
    - subst u. split; [apply map_map|exact Hc].
    - split; [|exact Hc].
      apply (wrap_end_ok text key vec text_eq_dec key_eq_dec kg emb P Hinj [] batch c u HP Hl). apply consistent_nil.
    - apply (wrap_end_ok text key vec text_eq_dec key_eq_dec kg emb P Hinj (cstore s) batch c u HP Hl Hc).
  Qed.

  (* _run_batch takes the queue (state just before the model is awaited), after the waiters for
     _current_batch_submitted have been woken *)
  Lemma Inv_submit : forall s k f fired c u,
    Inv s -> nth_error (batches s) k = Some (BHold f fired) ->
    (forall j t, nth_error (reqs s) j <> Some (t, RWaitSub false)) ->
    locals_ok (map snd (req_queue s)) c u ->
    Inv (set_batch (mkState [] (req_results s) (req_idx s) None (cur_full s) true (finished_set s)
                            (full_set s) (reqs s) (batches s) (cstore s))
                   k (BModel (cur_finished s) (req_queue s) c u)).
  Proof.
    intros s k f fired c u HI Hk Hnb Hloc. pose proof (iv_pre _ HI k _ Hk I) as Hc. destruct HI.
    pose proof (upd_other_closed _ k _ (BModel (cur_finished s) (req_queue s) c u) Hk I) as Hother.
    unfold set_batch.
    refine {| iv_qnd := _; iv_pre := _; iv_done := _; iv_model := _; iv_wait := _; iv_bok := _; iv_blocked := _ |};
      simpl; try assumption; try (intros; contradiction); try (intros; congruence).
    - constructor.
    - intros k0 b0 Hk0 Hp. apply nth_error_upd_inv in Hk0. destruct Hk0 as [[_ E]|[Hne Hk0]].
      + subst b0. destruct Hp.
      + exfalso. apply Hne. pose proof (iv_pre0 k0 b0 Hk0 Hp). congruence.
    - intros e He. apply Hother; [apply iv_done0; assumption|]. intros [].
    - intros k0 ev items c0 u0 Hk0. apply nth_error_upd_inv in Hk0. destruct Hk0 as [[-> E]|[_ Hk0]].
      + inversion E. subst. split; [exact Hc|]. split; [exact iv_qnd0|]. split; [exact Hloc|].
        intros id t Hin. split; [exact (iv_qlt0 id t Hin)|].
        destruct (iv_qown0 id t Hin) as (i0 & k0 & Hc0 & Hi0). exists i0. congruence.
      + exact (iv_model0 k0 ev items c0 u0 Hk0).
    - intros j t0 rid k0 Hj.
      destruct (iv_wait0 j t0 rid k0 Hj) as [Hlt [[Hin Hc0]|[(ev & items & c0 & u0 & Hbm & Hin)|Hcc]]]; split; auto.
      + right. left. exists (cur_finished s), (req_queue s), c, u. split; [|exact Hin].
        replace k0 with k by congruence. exact (nth_error_upd_same _ _ _ _ _ Hk).
      + right. left. exists ev, items, c0, u0. split; [|exact Hin]. apply Hother; [exact Hbm|]. intros [].
    - intros k0 Hk0. apply nth_error_upd_inv in Hk0. destruct Hk0 as [[_ E]|[_ Hk0]]; [discriminate E|].
      exact (iv_bok0 k0 Hk0).
    - intros j t0 Hj. destruct (Hnb j t0 Hj).
  Qed.

  Lemma assign_items : forall (items : list (nat * text)) res, NoDup (map fst items) ->
    exists res', assign (map fst items) (map (fun it => Some (emb (snd it))) items) res = Some res' /\
      (forall id t, In (id, t) items -> dict_get res' id = Some (Some (emb t))) /\
      (forall id, ~ In id (map fst items) -> dict_get res' id = dict_get res id).
  Proof.
    induction items as [|[id0 t0] items IH]; intros res Hnd; simpl.
    - exists res. split; [reflexivity|]. split; [intros ? ? []|reflexivity].
    - inversion Hnd as [|x l Hn Hnd']; subst.
      destruct (IH (dict_set res id0 (Some (emb t0))) Hnd') as [res' [Ha [Hb Hc]]].
      exists res'. split; [exact Ha|]. split.
      + intros id t [E|Hin].
        * inversion E; subst. rewrite Hc by assumption. rewrite dict_get_set, Nat.eqb_refl. reflexivity.
        * apply Hb. assumption.
      + intros id Hni. rewrite Hc by (intro; apply Hni; right; assumption). rewrite dict_get_set.
        destruct (id =? id0) eqn:E; [|reflexivity].
        apply Nat.eqb_eq in E. subst. exfalso. apply Hni. left. reflexivity.
  Qed.

  Lemma Inv_finish : forall s k ev items c u,
    Inv s -> nth_error (batches s) k = Some (BModel ev items c u) ->
    Inv (finish (with_store s (snd (end_call text_eq_dec key_eq_dec kg cmode s (map snd items) c u (map emb u))))
                k ev (map fst items)
                (fst (end_call text_eq_dec key_eq_dec kg cmode s (map snd items) c u (map emb u)))).
  Proof.
    intros s k ev items c u HI Hk. destruct HI.
    destruct (iv_model0 k ev items c u Hk) as [Hev [Hnd [Hloc D]]].
    assert (HP : Forall P (map snd items)).
    { apply Forall_forall. intros t Hin. apply in_map_iff in Hin. destruct Hin as [[id t0] [E Hin]]. simpl in E. subst t0.
      destruct (D id t Hin) as [_ [i0 Hi0]]. eapply iv_ok0. eassumption. }
    destruct (end_call_ok s (map snd items) c u iv_store0 HP Hloc) as [Hembs Hst].
    rewrite Hembs. rewrite map_map.
    destruct (assign_items items (req_results s) Hnd) as [res' [Ha [Hb Hc]]].
    unfold finish, with_store. simpl. rewrite Ha. subst ev.
    refine {| iv_pre := _; iv_cur := _; iv_done := _; iv_model := _; iv_wait := _; iv_bok := _ |};
      simpl; try assumption.
    - intros k0 b0 Hk0 Hp. apply nth_error_upd_inv in Hk0. destruct Hk0 as [[_ E]|[_ Hk0]].
      + subst b0. destruct Hp.
      + eapply iv_pre0; eassumption.
    - intros k0 Hc0. destruct (iv_cur0 k0 Hc0) as [b0 [Hb0 Hp0]]. exists b0. split; [|exact Hp0].
      rewrite nth_error_upd_other; [exact Hb0|]. intro. subst k0. rewrite Hk in Hb0. inversion Hb0. subst b0. destruct Hp0.
    - intros e [<-|He].
      + eapply nth_error_upd_same. eassumption.
      + rewrite nth_error_upd_other; [exact (iv_done0 e He)|]. intro. subst e. apply iv_done0 in He. congruence.
    - intros k0 ev items0 c0 u0 Hk0. apply nth_error_upd_inv in Hk0. destruct Hk0 as [[_ E]|[_ Hk0]]; [discriminate E|].
      eapply iv_model0. eassumption.
    - intros j t0 rid k0 Hj.
      destruct (iv_wait0 j t0 rid k0 Hj) as [Hlt [Ha0|[[ev [items0 [c0 [u0 [Hbm Hin]]]]]|[Hf Hr]]]]; split; auto.
      + destruct (Nat.eq_dec k0 k) as [->|Hne].
        * rewrite Hk in Hbm. inversion Hbm. subst. right. right. split; [left; reflexivity|]. eapply Hb. eassumption.
        * right. left. exists ev, items0, c0, u0. split; [|exact Hin]. rewrite nth_error_upd_other; assumption.
      + right. right. split; [right; exact Hf|]. rewrite Hc; [exact Hr|].
        intro Hin. apply in_map_iff in Hin. destruct Hin as [[id t1] [E Hin]]. simpl in E. subst id.
        destruct (D rid t1 Hin) as [_ [i1 Hi1]].
        assert (j = i1) by (eapply iv_uniq0; eassumption). subst i1.
        rewrite Hj in Hi1. inversion Hi1. subst. apply iv_done0 in Hf. congruence.
    - intros k0 Hk0. apply nth_error_upd_inv in Hk0. destruct Hk0 as [[_ E]|[_ Hk0]]; [discriminate E|].
      eapply iv_bok0. eassumption.
  Qed.

  Lemma upd_upd : forall A (l : list A) i x y, upd (upd l i x) i y = upd l i y.
  Proof. induction l as [|a l IH]; intros [|i] x y; simpl; try reflexivity. f_equal. apply IH. Qed.

  Lemma finish_set_batch : forall (s : state) k b st ev ids embs,
    finish (with_store (set_batch s k b) st) k ev ids embs = finish (with_store s st) k ev ids embs.
  Proof.
    intros. unfold finish, with_store, set_batch. simpl.
    destruct (assign ids embs (req_results s)); [destruct ev|]; simpl; rewrite upd_upd; reflexivity.
  Qed.

  Lemma end_call_set_batch : forall (s : state) k b batch c u fresh,
    end_call text_eq_dec key_eq_dec kg cmode (set_batch s k b) batch c u fresh
    = end_call text_eq_dec key_eq_dec kg cmode s batch c u fresh.
  Proof. intros. unfold end_call. destruct cmode; reflexivity. Qed.

  Lemma Inv_collect : forall s k f fired,
    Inv s -> nth_error (batches s) k = Some (BHold f fired) ->
    Inv (collect text_eq_dec key_eq_dec kg cmode s k).
  Proof.
    intros s k f fired HI Hk. unfold collect.
    pose proof (begin_call_ok s (map snd (req_queue s)) (iv_store _ HI)) as Hloc.
    destruct (begin_call text_eq_dec key_eq_dec kg cmode s (map snd (req_queue s))) as [c u].
    pose proof (Inv_submit _ k f fired c u (Inv_wake s HI) Hk (wake_none_blocked (reqs s)) Hloc) as H2. simpl in H2.
    destruct (needs_model cmode u) eqn:En; [exact H2|].
    (* the cache answers everything: the submitted state is passed through at once *)
    assert (Hu : u = []).
    { unfold needs_model in En. destruct cmode; [discriminate| |]; destruct u; congruence. }
    subst u.
    pose proof (Inv_finish _ k _ _ _ _ H2 (nth_error_upd_same _ _ _ _ _ Hk)) as H3.
    rewrite end_call_set_batch, finish_set_batch in H3. simpl map in H3.
    destruct (end_call _ _ _ _ _ _ _ _ _) as [embs st]. exact H3.
  Qed.

  Theorem Inv_step : forall l s s', Inv s -> step l s = Some s' -> Inv s'.
  Proof.
    intros l s s' HI Hs. apply step_iff in Hs.
    destruct Hs as [i t p Hi Hp|i t rid k Hi Hk|k Hk|k f fired Hk E|k f Hk|k ev items c u Hk e].
    - exact (Inv_req_enter s i t p HI Hi Hp).
    - exact (Inv_fetch s i t rid k HI Hi Hk).
    - rewrite (iv_full _ HI k (iv_pre _ HI k _ Hk I)).
      apply Inv_set_batch_pre with (b := BInit); [exact HI|exact Hk|exact I|exact I].
    - exact (Inv_collect s k f fired HI Hk).
    - apply Inv_set_batch_pre with (b := BHold f false); [exact HI|exact Hk|exact I|exact I].
    - exact (Inv_finish s k ev items c u HI Hk).
  Qed.

  Lemma exec_invariant : forall (Q : state -> Prop),
    (forall l s s', Q s -> step l s = Some s' -> Q s') ->
    forall sched s s', Q s -> exec text_eq_dec key_eq_dec kg emb max_batch_size cmode sched s = Some s' -> Q s'.
  Proof.
    intros Q HQ. induction sched as [|l sched IH]; intros s s' Hs He; simpl in He.
    - inversion He. subst. exact Hs.
    - destruct (step l s) as [s1|] eqn:E; [|discriminate]. exact (IH s1 s' (HQ l s s1 Hs E) He).
  Qed.

  Theorem Inv_exec : forall sched s s',
    Inv s -> exec text_eq_dec key_eq_dec kg emb max_batch_size cmode sched s = Some s' -> Inv s'.
  Proof. exact (exec_invariant Inv Inv_step). Qed.

  (* what a step does to the two lists of tasks: one entry of `reqs` or one of `batches` is
     replaced (a request may spawn a batch task, a batch may wake requests) *)
  Definition ended (p : rpc) : Prop := match p with RDone _ | RError | RSpin => True | _ => False end.
  Definition queued (p : rpc) : Prop := match p with RWaitFin _ _ => True | _ => ended p end.
  Definition over (b : bpc) : Prop := match b with BDone | BError => True | _ => False end.

  Lemma fetch_tasks : forall (s : state) i t rid, exists p',
    reqs (fetch s i t rid) = upd (reqs s) i (t, p') /\ batches (fetch s i t rid) = batches s /\ ended p'.
  Proof.
    intros. unfold fetch. destruct (dict_get (req_results s) rid) as [r|].
    - exists (RDone r). repeat split.
    - exists RError. repeat split.
  Qed.

  Lemma req_enter_tasks : forall (s : state) i t, exists p' bs,
    reqs (req_enter max_batch_size s i t) = upd (reqs s) i (t, p') /\
    batches (req_enter max_batch_size s i t) = batches s ++ bs /\
    (p' = RWaitSub false /\ bs = [] \/ queued p' /\ (bs = [] \/ bs = [BInit])).
  Proof.
    intros. unfold req_enter. destruct (max_batch_size <=? length (req_queue s)).
    - exists (if submitted s then RSpin else RWaitSub false), []. rewrite app_nil_r.
      destruct (submitted s); simpl; auto 8.
    - assert (Hbs : exists bs : list bpc,
                match cur_finished s with None => batches s ++ [BInit] | Some _ => batches s end = batches s ++ bs /\
                (bs = [] \/ bs = [BInit])).
      { destruct (cur_finished s); [exists []; rewrite app_nil_r|exists [BInit]]; auto. }
      destruct Hbs as (bs & Hbs & Hc). cbv zeta. rewrite Hbs.
      destruct (if max_batch_size <=? _ then _ else _) as [fs|].
      + destruct (memb _ (finished_set s)).
        * edestruct fetch_tasks as (p' & -> & -> & Hp').
          exists p', bs. destruct p'; simpl in *; auto 8.
        * eexists _, bs. split; [reflexivity|]. simpl. auto 8.
      + exists RError, bs. simpl. auto 8.
  Qed.

  Lemma finish_tasks : forall (s : state) k ev ids embs, exists b',
    reqs (finish s k ev ids embs) = reqs s /\ batches (finish s k ev ids embs) = upd (batches s) k b' /\ over b'.
  Proof.
    intros. unfold finish. destruct (assign ids embs (req_results s)); [destruct ev|].
    - exists BDone. repeat split.
    - exists BError. repeat split.
    - exists BError. repeat split.
  Qed.

  Lemma collect_tasks : forall (s : state) k, exists b',
    reqs (collect text_eq_dec key_eq_dec kg cmode s k) = map wake (reqs s) /\
    batches (collect text_eq_dec key_eq_dec kg cmode s k) = upd (batches s) k b' /\ ~ presubmit b'.
  Proof.
    intros. unfold collect. destruct (begin_call _ _ _ _ _ _) as [c u]. destruct (needs_model cmode u).
    - eexists. repeat split. intros [].
    - destruct (end_call _ _ _ _ _ _ _ _ _) as [embs st].
      edestruct finish_tasks as (b' & -> & -> & Hb').
      exists b'. repeat split. destruct b'; try destruct Hb'; intros [].
  Qed.

  Lemma map_fst_upd : forall (rs : list (text * rpc)) i t p p',
    nth_error rs i = Some (t, p) -> map fst (upd rs i (t, p')) = map fst rs.
  Proof.
    induction rs as [|[t0 p0] rs IH]; intros [|i] t p p' H; simpl in *; try discriminate.
    - inversion H. reflexivity.
    - f_equal. eapply IH. eassumption.
  Qed.

  Lemma step_texts : forall l s s', step l s = Some s' -> map fst (reqs s') = map fst (reqs s).
  Proof.
    intros l s s' Hs. apply step_iff in Hs.
    destruct Hs as [i t p Hi Hp|i t rid k Hi Hk|k Hk|k f fired Hk E|k f Hk|k ev items c u Hk e].
    - destruct (req_enter_tasks s i t) as (p' & bs & -> & _). exact (map_fst_upd _ _ _ _ _ Hi).
    - destruct (fetch_tasks s i t rid) as (p' & -> & _). exact (map_fst_upd _ _ _ _ _ Hi).
    - reflexivity.
    - destruct (collect_tasks s k) as (b' & -> & _). rewrite map_map. apply map_ext. intros [t []]; reflexivity.
    - reflexivity.
    - destruct (finish_tasks (with_store s (snd e)) k ev (map fst items) (fst e)) as (b' & -> & _). reflexivity.
  Qed.

  Lemma exec_texts : forall sched s s',
    exec text_eq_dec key_eq_dec kg emb max_batch_size cmode sched s = Some s' -> map fst (reqs s') = map fst (reqs s).
  Proof.
    intros sched s s' He.
    refine (exec_invariant (fun x => map fst (reqs x) = map fst (reqs s)) _ sched s s' eq_refl He).
    intros l s1 s2 H1 H2. rewrite <- H1. exact (step_texts l s1 s2 H2).
  Qed.

  Definition no_error (s : state) : Prop :=
    (forall i t, nth_error (reqs s) i <> Some (t, RError) /\ nth_error (reqs s) i <> Some (t, RSpin)) /\
    (forall k, nth_error (batches s) k <> Some BError).

  Lemma Inv_no_error : forall s, Inv s -> no_error s.
  Proof.
    intros s HI. split.
    - intros i t. split; intro H; apply (iv_ok _ HI) in H; destruct H as [[] _].
    - apply (iv_bok _ HI).
  Qed.

  Lemma init_texts : forall (texts : list text) (st : store key vec), map fst (reqs (init texts st)) = texts.
  Proof. intros. simpl. rewrite map_map. simpl. apply map_id. Qed.

  (* C19_batch_safety *)
  Theorem batch_safety : forall texts st sched s,
    Forall P texts -> consistent st ->
    exec text_eq_dec key_eq_dec kg emb max_batch_size cmode sched (init texts st) = Some s ->
    (forall i t r, nth_error (reqs s) i = Some (t, RDone r) -> nth_error texts i = Some t /\ r = Some (emb t)) /\
    no_error s.
  Proof.
    intros texts st sched s HP Hc He.
    assert (HI : Inv s) by (eapply Inv_exec; [apply Inv_init; eassumption|exact He]).
    split; [|apply Inv_no_error; exact HI].
    intros i t r Hi. split.
    - rewrite <- (init_texts texts st). rewrite <- (exec_texts _ _ _ He).
      rewrite nth_error_map. rewrite Hi. reflexivity.
    - apply (iv_ok _ HI) in Hi. destruct Hi as [Hok _]. exact Hok.
  Qed.

End Safety.

(* without a cache nothing is assumed about any key generator *)
Theorem batch_safety_nocache : forall (text vec : Type) (text_eq_dec : forall a b : text, {a = b} + {a <> b})
    (emb : text -> vec) (max_batch_size : nat), 1 <= max_batch_size ->
  forall texts sched s,
    exec text_eq_dec text_eq_dec (fun t => t) emb max_batch_size CacheOff sched (init texts []) = Some s ->
    (forall i t r, nth_error (reqs s) i = Some (t, RDone r) -> nth_error texts i = Some t /\ r = Some (emb t)) /\
    no_error text text vec s.
Proof.
  intros text vec ted emb maxb Hmax texts sched s He.
  apply (batch_safety text text vec ted ted (fun t => t) emb maxb CacheOff (fun _ => True) Hmax) with (st := []) (sched := sched).
  - intros a b _ _ E. exact E.
  - apply Forall_forall. intros; exact I.
  - apply consistent_nil.
  - exact He.
Qed.
