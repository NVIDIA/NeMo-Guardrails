(* C20 - proofs about the path model (Svc/Path.v): what normpath returns on absolute paths,
   what normpath (join base id) is for a separator-free id, confinement of get_rails_path,
   redundancy of the commonprefix test after the reject test, and the commonprefix quirk. *)
From Coq Require Import List Bool Arith.
From NG Require Import Svc.Path.
Import ListNotations.

Arguments Path.ceq : simpl never.

Section PathProofs.
  Variable A : Type.
  Variable eqA : forall x y : A, {x = y} + {x <> y}.
  Variables sep dot : A.

  Notation ceq := (Path.ceq A eqA).
  Notation str_eqb := (Path.str_eqb A eqA).
  Notation dotdot := (Path.dotdot A dot).
  Notation starts_with_sep := (Path.starts_with_sep A eqA sep).
  Notation ends_with_sep := (Path.ends_with_sep A eqA sep).
  Notation join := (Path.join A eqA sep).
  Notation split := (Path.split A eqA sep).
  Notation join_segs := (Path.join_segs A sep).
  Notation initial_slashes := (Path.initial_slashes A eqA sep).
  Notation np_step := (Path.np_step A eqA dot).
  Notation norm_comps := (Path.norm_comps A eqA dot).
  Notation normpath := (Path.normpath A eqA sep dot).
  Notation abspath := (Path.abspath A eqA sep dot).
  Notation lcp := (Path.lcp A eqA).
  Notation commonprefix := (Path.commonprefix A eqA).
  Notation mem := (Path.mem A eqA).
  Notation match_here := (Path.match_here A eqA).
  Notation re_search := (Path.re_search A eqA).
  Notation pat_rejects_char := (Path.pat_rejects_char A eqA).
  Notation tail_sep := (Path.tail_sep A eqA sep).
  Notation plain := (Path.plain A sep dot).
  Notation inside := (Path.inside A eqA sep dot).
  Notation abs_normal := (Path.abs_normal A sep dot).

  Lemma ceq_true : forall x y, ceq x y = true <-> x = y.
  Proof. intros x y. unfold Path.ceq. destruct (eqA x y); split; congruence. Qed.

  Lemma ceq_false : forall x y, ceq x y = false <-> x <> y.
  Proof. intros x y. unfold Path.ceq. destruct (eqA x y); split; congruence. Qed.

  Lemma ceq_refl : forall x, ceq x x = true.
  Proof. intros x. apply ceq_true. reflexivity. Qed.

  Lemma str_eqb_true : forall s t, str_eqb s t = true <-> s = t.
  Proof.
    induction s as [|x s IH]; destruct t as [|y t]; simpl; split; intros H; try congruence.
    - apply andb_true_iff in H. destruct H as [H1 H2].
      apply ceq_true in H1. apply IH in H2. congruence.
    - inversion H; subst. rewrite ceq_refl. simpl. apply IH. reflexivity.
  Qed.

  Lemma str_eqb_refl : forall s, str_eqb s s = true.
  Proof. intros s. apply str_eqb_true. reflexivity. Qed.

  Lemma str_eqb_false : forall s t, str_eqb s t = false <-> s <> t.
  Proof.
    intros s t. split.
    - intros H E. apply str_eqb_true in E. congruence.
    - intros H. destruct (str_eqb s t) eqn:E; [apply str_eqb_true in E; contradiction | reflexivity].
  Qed.

  Lemma mem_true : forall x c, mem x c = true <-> In x c.
  Proof.
    intros x c. induction c as [|y c IH]; simpl.
    - split; [discriminate | tauto].
    - rewrite orb_true_iff, IH, ceq_true. split; intros [H|H]; auto.
  Qed.

  Lemma ends_with_sep_cons : forall x t, t <> [] -> ends_with_sep (x :: t) = ends_with_sep t.
  Proof. intros x [|y t] H; [contradiction | reflexivity]. Qed.

  Lemma ends_with_sep_app_nonempty :
    forall s t, t <> [] -> ends_with_sep (s ++ t) = ends_with_sep t.
  Proof.
    induction s as [|x s IH]; intros t Ht.
    - reflexivity.
    - change ((x :: s) ++ t) with (x :: (s ++ t)).
      rewrite ends_with_sep_cons by (destruct s; [assumption | discriminate]). apply IH. assumption.
  Qed.

  Lemma ends_with_sep_snoc : forall s c, ends_with_sep (s ++ [c]) = ceq c sep.
  Proof. intros s c. apply (ends_with_sep_app_nonempty s [c]). discriminate. Qed.

  Lemma ends_with_sep_nosep : forall s, ~ In sep s -> ends_with_sep s = false.
  Proof.
    induction s as [|x s IH]; intros H.
    - reflexivity.
    - destruct s as [|y s].
      + simpl. apply ceq_false. intros E. apply H. left. assumption.
      + rewrite ends_with_sep_cons by discriminate. apply IH. intros Hin. apply H. right. assumption.
  Qed.

  Lemma ends_with_sep_plain_tail :
    forall s x, x <> [] -> ~ In sep x -> ends_with_sep (s ++ x) = false.
  Proof.
    intros s x Hx Hs. rewrite ends_with_sep_app_nonempty by assumption.
    apply ends_with_sep_nosep. assumption.
  Qed.

  Lemma split_nonempty : forall s, split s <> [].
  Proof.
    induction s as [|c s IH]; simpl.
    - discriminate.
    - destruct (eqA c sep); [discriminate|]. destruct (split s); discriminate.
  Qed.

  Lemma split_nosep : forall s, ~ In sep s -> split s = [s].
  Proof.
    induction s as [|c s IH]; intros H; simpl.
    - reflexivity.
    - destruct (eqA c sep) as [E|E].
      + exfalso. apply H. left. assumption.
      + rewrite IH; [reflexivity|]. intros Hin. apply H. right. assumption.
  Qed.

  Lemma split_app_sep : forall s t, split (s ++ sep :: t) = split s ++ split t.
  Proof.
    induction s as [|c s IH]; intros t.
    - simpl. destruct (eqA sep sep); [reflexivity | congruence].
    - simpl. destruct (eqA c sep).
      + rewrite IH. reflexivity.
      + rewrite IH. destruct (split s) eqn:E.
        * exfalso. apply (split_nonempty s). assumption.
        * reflexivity.
  Qed.

  Lemma split_elems_nosep : forall s, Forall (fun x => ~ In sep x) (split s).
  Proof.
    induction s as [|c s IH]; simpl.
    - constructor; [tauto | constructor].
    - destruct (eqA c sep).
      + constructor; [tauto | assumption].
      + destruct (split s) as [|seg rest].
        * constructor; [|constructor]. intros [H|[]]. congruence.
        * inversion IH; subst. constructor; [|assumption].
          intros [H|H]; [congruence | contradiction].
  Qed.

  Lemma split_repeat_sep : forall n t, split (repeat sep n ++ t) = repeat [] n ++ split t.
  Proof.
    induction n as [|n IH]; intros t.
    - reflexivity.
    - simpl. destruct (eqA sep sep); [|congruence]. rewrite IH. reflexivity.
  Qed.

  Lemma join_segs_cons2 : forall s x r, join_segs (s :: x :: r) = s ++ sep :: join_segs (x :: r).
  Proof. reflexivity. Qed.

  Lemma join_segs_snoc : forall l x, l <> [] -> join_segs (l ++ [x]) = join_segs l ++ sep :: x.
  Proof.
    induction l as [|s l IH]; intros x H; [contradiction|].
    destruct l as [|y l]; [reflexivity|].
    change (join_segs (s :: y :: (l ++ [x])) = join_segs (s :: y :: l) ++ sep :: x).
    rewrite !join_segs_cons2, <- app_assoc, <- app_comm_cons.
    do 2 f_equal. apply (IH x). discriminate.
  Qed.

  Lemma split_join_segs :
    forall l, l <> [] -> Forall (fun x => ~ In sep x) l -> split (join_segs l) = l.
  Proof.
    induction l as [|s l IH]; intros Hne Hall.
    - contradiction.
    - inversion Hall as [|? ? Hs Hl]; subst. destruct l as [|y l].
      + simpl. apply split_nosep. assumption.
      + rewrite join_segs_cons2, split_app_sep, (split_nosep s) by assumption.
        rewrite IH by (discriminate || assumption). reflexivity.
  Qed.

  Lemma plain_nosep : forall l, Forall plain l -> Forall (fun x => ~ In sep x) l.
  Proof. intros l H. eapply Forall_impl; [|exact H]. intros a [_ [Ha _]]. exact Ha. Qed.

  Lemma join_segs_ends :
    forall l, l <> [] -> Forall plain l -> forall pre, ends_with_sep (pre ++ join_segs l) = false.
  Proof.
    intros l Hne Hall pre.
    destruct (exists_last Hne) as [l' [x E]]. subst l.
    apply Forall_app in Hall. destruct Hall as [_ Hx]. inversion Hx as [|? ? [Hx1 [Hx2 _]] _]; subst.
    destruct l' as [|y l'].
    - simpl. apply ends_with_sep_plain_tail; assumption.
    - rewrite join_segs_snoc by discriminate.
      rewrite app_assoc. change (sep :: x) with ([sep] ++ x). rewrite app_assoc.
      apply ends_with_sep_plain_tail; assumption.
  Qed.

  Lemma nosep_not_starts : forall id, ~ In sep id -> starts_with_sep id = false.
  Proof.
    intros [|c id] H; [reflexivity|]. simpl. apply ceq_false. intros E. apply H. left. assumption.
  Qed.

  (* a joined list starts like its first segment, unless that is empty and others follow *)
  Lemma join_segs_starts_nosep :
    forall s l, ~ In sep s -> (s = [] -> l = []) -> starts_with_sep (join_segs (s :: l)) = false.
  Proof.
    intros [|c s] l Hs He.
    - rewrite (He eq_refl). reflexivity.
    - rewrite <- (nosep_not_starts (c :: s) Hs). destruct l; reflexivity.
  Qed.

  Lemma join_segs_starts :
    forall l, Forall plain l -> starts_with_sep (join_segs l) = false.
  Proof.
    intros [|s l] H.
    - reflexivity.
    - inversion H as [|? ? [Hs1 [Hs2 _]] _]; subst.
      apply join_segs_starts_nosep; [exact Hs2 | intros E; contradiction].
  Qed.

  Lemma initial_slashes_repeat :
    forall n t, (n = 1 \/ n = 2) -> starts_with_sep t = false ->
                initial_slashes (repeat sep n ++ t) = n.
  Proof.
    intros n t [Hn|Hn] Ht; subst n; simpl; rewrite ceq_refl.
    - destruct t as [|c t]; [reflexivity|]. simpl in Ht. rewrite Ht. reflexivity.
    - destruct t as [|c t]; [reflexivity|]. simpl in Ht. rewrite Ht. reflexivity.
  Qed.

  Lemma initial_slashes_abs :
    forall p, starts_with_sep p = true -> initial_slashes p = 1 \/ initial_slashes p = 2.
  Proof.
    intros [|c1 r1] H; simpl in *; [discriminate|]. rewrite H.
    destruct r1 as [|c2 r2]; [auto|]. destruct (ceq c2 sep); [|auto].
    destruct r2 as [|c3 r3]; [auto|]. destruct (ceq c3 sep); auto.
  Qed.

  Lemma plain_not_special :
    forall s, plain s -> str_eqb s [] = false /\ str_eqb s [dot] = false /\ str_eqb s dotdot = false.
  Proof.
    intros s [H1 [_ [H3 H4]]]. repeat split; apply str_eqb_false; assumption.
  Qed.

  Lemma np_step_plain : forall ab stk s, plain s -> np_step ab stk s = s :: stk.
  Proof.
    intros ab stk s Hs. destruct (plain_not_special s Hs) as [E1 [E2 E3]].
    unfold Path.np_step. rewrite E1, E2, E3. reflexivity.
  Qed.

  Lemma np_step_empty : forall ab stk, np_step ab stk [] = stk.
  Proof. reflexivity. Qed.

  Lemma np_step_abs :
    forall stk comp, Forall plain stk ->
      np_step true stk comp
      = if str_eqb comp [] || str_eqb comp [dot] then stk
        else if str_eqb comp dotdot then tl stk else comp :: stk.
  Proof.
    intros stk comp Hstk. unfold Path.np_step.
    destruct (str_eqb comp [] || str_eqb comp [dot]); [reflexivity|].
    destruct (str_eqb comp dotdot); [|reflexivity]. simpl.
    destruct Hstk as [|top stk Htop _]; [reflexivity|].
    destruct (plain_not_special top Htop) as [_ [_ ->]]. reflexivity.
  Qed.

  Lemma np_step_abs_plain :
    forall stk comp, Forall plain stk -> ~ In sep comp -> Forall plain (np_step true stk comp).
  Proof.
    intros stk comp Hstk Hc. rewrite np_step_abs by assumption.
    destruct (str_eqb comp [] || str_eqb comp [dot]) eqn:E1; [assumption|].
    destruct (str_eqb comp dotdot) eqn:E3.
    - destruct Hstk; [constructor | assumption].
    - constructor; [|assumption]. apply orb_false_iff in E1. destruct E1 as [E1 E2].
      apply str_eqb_false in E1, E2, E3. repeat split; assumption.
  Qed.

  Lemma fold_np_plain :
    forall ab segs stk, Forall plain segs -> fold_left (np_step ab) segs stk = rev segs ++ stk.
  Proof.
    induction segs as [|s segs IH]; intros stk H.
    - reflexivity.
    - inversion H; subst. simpl. rewrite np_step_plain by assumption.
      rewrite IH by assumption. rewrite <- app_assoc. reflexivity.
  Qed.

  Lemma fold_np_empties :
    forall ab n stk, fold_left (np_step ab) (repeat [] n) stk = stk.
  Proof. induction n as [|n IH]; intros stk; [reflexivity | simpl; apply IH]. Qed.

  Lemma fold_np_abs_plain :
    forall comps stk, Forall plain stk -> Forall (fun x => ~ In sep x) comps ->
                      Forall plain (fold_left (np_step true) comps stk).
  Proof.
    induction comps as [|c comps IH]; intros stk Hstk Hc.
    - assumption.
    - inversion Hc; subst. simpl. apply IH; [|assumption]. apply np_step_abs_plain; assumption.
  Qed.

  Lemma normpath_abs :
    forall p, starts_with_sep p = true ->
      let n := initial_slashes p in
      (n = 1 \/ n = 2) /\ normpath p = repeat sep n ++ join_segs (norm_comps true (split p)).
  Proof.
    intros p Hp n. pose proof (initial_slashes_abs p Hp) as Hn. fold n in Hn. split; [exact Hn|].
    destruct p as [|c p]; [discriminate|]. unfold Path.normpath. fold n.
    destruct Hn as [-> | ->]; reflexivity.
  Qed.

  Lemma normpath_abs_normal :
    forall p, starts_with_sep p = true -> abs_normal (normpath p).
  Proof.
    intros p Hp. destruct (normpath_abs p Hp) as [Hn ->].
    eexists _, _. split; [exact Hn|]. split; [|reflexivity].
    apply Forall_rev, fold_np_abs_plain; [constructor | apply split_elems_nosep].
  Qed.

  Lemma join_abs_starts :
    forall cwd p, starts_with_sep cwd = true -> starts_with_sep (join cwd p) = true.
  Proof.
    intros cwd p H. unfold Path.join.
    destruct (starts_with_sep p) eqn:E; [assumption|].
    destruct cwd as [|c cwd]; [discriminate|].
    destruct (is_nil (c :: cwd) || ends_with_sep (c :: cwd)); exact H.
  Qed.

  Lemma abspath_abs_normal :
    forall cwd root, starts_with_sep cwd = true -> abs_normal (abspath cwd root).
  Proof.
    intros cwd root H. unfold Path.abspath. apply normpath_abs_normal.
    destruct (starts_with_sep root) eqn:E; [assumption | apply join_abs_starts; assumption].
  Qed.

  Lemma abs_normal_ends :
    forall n segs, (n = 1 \/ n = 2) -> Forall plain segs ->
      ends_with_sep (repeat sep n ++ join_segs segs) = is_nil segs.
  Proof.
    intros n segs Hn Hs. destruct segs as [|s segs].
    - simpl. rewrite app_nil_r. destruct Hn; subst; simpl; apply ceq_refl.
    - simpl is_nil. apply join_segs_ends; [discriminate | assumption].
  Qed.

  Lemma join_base_id :
    forall n segs id, (n = 1 \/ n = 2) -> Forall plain segs -> ~ In sep id ->
      join (repeat sep n ++ join_segs segs) id = repeat sep n ++ join_segs (segs ++ [id])
      /\ join (repeat sep n ++ join_segs segs) id
         = (repeat sep n ++ join_segs segs) ++ tail_sep (repeat sep n ++ join_segs segs) ++ id.
  Proof.
    intros n segs id Hn Hs Hid. unfold Path.join, Path.tail_sep.
    rewrite (nosep_not_starts id Hid).
    rewrite abs_normal_ends by assumption.
    assert (Hnil : is_nil (repeat sep n ++ join_segs segs) = false).
    { destruct Hn; subst; reflexivity. }
    rewrite Hnil. simpl orb.
    destruct segs as [|s segs].
    - simpl. rewrite app_nil_r. split; reflexivity.
    - simpl is_nil. cbv iota. rewrite join_segs_snoc by discriminate.
      rewrite <- !app_assoc. split; reflexivity.
  Qed.

  Lemma normpath_of_normal_form :
    forall n comps extra, (n = 1 \/ n = 2) -> Forall plain comps -> ~ In sep extra ->
      normpath (repeat sep n ++ join_segs (comps ++ [extra]))
      = repeat sep n ++ join_segs (rev (np_step true (rev comps) extra)).
  Proof.
    intros n comps extra Hn Hc He.
    assert (Hnosep : Forall (fun x => ~ In sep x) (comps ++ [extra])).
    { apply Forall_app. split; [apply plain_nosep; assumption | repeat constructor; assumption]. }
    assert (Hstart : starts_with_sep (join_segs (comps ++ [extra])) = false).
    { destruct comps as [|s comps]; simpl app; inversion Hnosep; subst.
      - apply nosep_not_starts. assumption.
      - apply join_segs_starts_nosep; [assumption|]. inversion Hc as [|? ? [Hs _] _]. contradiction. }
    destruct (normpath_abs (repeat sep n ++ join_segs (comps ++ [extra]))) as [_ ->].
    { destruct Hn; subst n; simpl; apply ceq_refl. }
    rewrite initial_slashes_repeat by assumption. unfold Path.norm_comps.
    rewrite split_repeat_sep, split_join_segs by (assumption || destruct comps; discriminate).
    rewrite fold_left_app, fold_np_empties, fold_left_app, (fold_np_plain true comps) by assumption.
    rewrite app_nil_r. reflexivity.
  Qed.

  Lemma rev_tl_rev : forall (X : Type) (l : list X), rev (tl (rev l)) = removelast l.
  Proof.
    intros X l. destruct l as [|x l] using rev_ind; [reflexivity|].
    rewrite rev_unit, removelast_last. apply rev_involutive.
  Qed.

  Lemma parent_shorter :
    forall n segs, segs <> [] -> Forall plain segs ->
      length (repeat sep n ++ join_segs (removelast segs)) < length (repeat sep n ++ join_segs segs).
  Proof.
    intros n segs Hne Hs. destruct (exists_last Hne) as [l [x E]]. subst segs.
    rewrite removelast_last. apply Forall_app in Hs. destruct Hs as [_ Hx].
    inversion Hx as [|? ? [Hx1 _] _]; subst.
    rewrite !app_length. apply Nat.add_lt_mono_l. destruct l as [|y l].
    - destruct x; [congruence | apply Nat.lt_0_succ].
    - rewrite join_segs_snoc, app_length by discriminate. apply Nat.lt_add_pos_r, Nat.lt_0_succ.
  Qed.

  (* the three possible values of normpath (join base id) for a separator-free id: the root, its
     parent (the root itself when it is "/" or "//", a strictly shorter path otherwise), a child *)
  Lemma normpath_join_abs :
    forall base id, abs_normal base -> ~ In sep id ->
      exists parent, (parent = base \/ length parent < length base)
        /\ normpath (join base id) =
             if str_eqb id [] || str_eqb id [dot] then base
             else if str_eqb id dotdot then parent
             else base ++ tail_sep base ++ id.
  Proof.
    intros base id [n [segs [Hn [Hs ->]]]] Hid.
    exists (repeat sep n ++ join_segs (removelast segs)). split.
    { destruct segs as [|s segs'] eqn:E; [left; reflexivity | right].
      rewrite <- E in *. apply parent_shorter; [rewrite E; discriminate | assumption]. }
    destruct (join_base_id n segs id Hn Hs Hid) as [J1 J2].
    rewrite <- J2, J1, normpath_of_normal_form, np_step_abs by (assumption || apply Forall_rev, Hs).
    destruct (str_eqb id [] || str_eqb id [dot]); [rewrite rev_involutive; reflexivity|].
    destruct (str_eqb id dotdot); [rewrite rev_tl_rev; reflexivity|].
    simpl. rewrite rev_involutive. reflexivity.
  Qed.

  Lemma lcp_app_self : forall b x, lcp (b ++ x) b = b.
  Proof.
    induction b as [|c b IH]; intros x.
    - destruct x; reflexivity.
    - simpl. rewrite ceq_refl, IH. reflexivity.
  Qed.

  Lemma lcp_self : forall b, lcp b b = b.
  Proof. intros b. pose proof (lcp_app_self b []) as H. rewrite app_nil_r in H. exact H. Qed.

  (* lcp is the longest common prefix: a prefix of both ... *)
  Lemma lcp_prefix_l : forall a b, exists r, a = lcp a b ++ r.
  Proof.
    induction a as [|x a IH]; intros b; [exists []; reflexivity|].
    destruct b as [|y b]; simpl; [eexists; reflexivity|].
    destruct (ceq x y); [|eexists; reflexivity].
    destruct (IH b) as [r Hr]. exists r. simpl. congruence.
  Qed.

  Lemma lcp_length_l : forall a b, length (lcp a b) <= length a.
  Proof.
    intros a b. destruct (lcp_prefix_l a b) as [r Hr]. apply (f_equal (@length A)) in Hr.
    rewrite app_length in Hr. rewrite Hr. apply Nat.le_add_r.
  Qed.

  Lemma lcp_comm : forall a b, lcp a b = lcp b a.
  Proof.
    induction a as [|x a IH]; intros [|y b]; simpl; try reflexivity.
    destruct (ceq x y) eqn:E.
    - apply ceq_true in E. subst. rewrite ceq_refl, IH. reflexivity.
    - assert (E' : ceq y x = false) by (apply ceq_false; apply ceq_false in E; congruence).
      rewrite E'. reflexivity.
  Qed.

  (* ... and every common prefix is a prefix of it *)
  Lemma lcp_app_head : forall c ra rb, lcp (c ++ ra) (c ++ rb) = c ++ lcp ra rb.
  Proof.
    induction c as [|x c IH]; intros ra rb; simpl; [reflexivity|].
    rewrite ceq_refl, IH. reflexivity.
  Qed.

  Lemma lcp_greatest : forall c ra rb, exists r, lcp (c ++ ra) (c ++ rb) = c ++ r.
  Proof. intros c ra rb. exists (lcp ra rb). apply lcp_app_head. Qed.

  Lemma re_search_here :
    forall alts a s, In a alts -> match_here a s = true -> re_search alts s = true.
  Proof.
    intros alts a s Hin Hm. destruct s; simpl; apply orb_true_iff; left;
      apply existsb_exists; exists a; auto.
  Qed.

  Lemma re_search_later :
    forall alts l s, re_search alts s = true -> re_search alts (l ++ s) = true.
  Proof.
    induction l as [|x l IH]; intros s H; [assumption|].
    simpl. apply orb_true_iff. right. apply IH. assumption.
  Qed.

  Lemma pat_rejects_char_sound :
    forall pat x s, pat_rejects_char pat x = true -> In x s -> re_search pat s = true.
  Proof.
    intros pat x s Hp Hin. unfold Path.pat_rejects_char in Hp.
    apply existsb_exists in Hp. destruct Hp as [a [Ha Hm]].
    destruct a as [|c [|c' a']]; try discriminate.
    apply in_split in Hin. destruct Hin as [l1 [l2 E]]. subst s.
    apply re_search_later. eapply re_search_here; [exact Ha|].
    simpl. rewrite Hm. reflexivity.
  Qed.

  Section GetRails.
    Variable pat : list (list (list A)).
    Variable use_prefix_check : bool.

    Notation get_rails_path := (Path.get_rails_path A eqA sep dot pat use_prefix_check).

    (* what the theorem needs from the source: the reject test fires on every id that
       contains a separator, and an id that IS ".." is stopped by the reject test or by the
       commonprefix test *)
    Hypothesis guard_sep : pat_rejects_char pat sep = true.
    Hypothesis guard_dotdot : re_search pat dotdot = true \/ use_prefix_check = true.

    Lemma pass_nosep : forall id, re_search pat id = false -> ~ In sep id.
    Proof.
      intros id H Hin. rewrite (pat_rejects_char_sound pat sep id guard_sep Hin) in H. discriminate.
    Qed.

    (* CONFINEMENT, single id: whatever the id, an accepted path is the root itself or a
       direct child of the root whose name is a plain directory entry name *)
    Theorem get_rails_path_confined :
      forall base id p, abs_normal base -> get_rails_path base id = Accept p -> inside base p.
    Proof.
      intros base id p Hb H. unfold Path.get_rails_path in H.
      destruct (re_search pat id) eqn:Erej; [discriminate|].
      destruct (normpath_join_abs base id Hb (pass_nosep id Erej)) as [parent [Hp Hnp]].
      rewrite Hnp in H. clear Hnp.
      destruct (str_eqb id [] || str_eqb id [dot]) eqn:E1.
      - (* "" or "." : the root itself *)
        destruct (use_prefix_check && _) in H; [discriminate|]. left. congruence.
      - destruct (str_eqb id dotdot) eqn:E2.
        + (* "..": not stopped by the reject test, so the commonprefix test is there *)
          apply str_eqb_true in E2. subst id.
          destruct guard_dotdot as [G|G]; [congruence|]. rewrite G in H. simpl andb in H.
          destruct Hp as [->|Hlt].
          * (* root is "/" or "//": ".." stays at the root *)
            destruct (negb _) in H; [discriminate|]. left. congruence.
          * (* a shorter path does not have the root as a prefix *)
            exfalso. unfold Path.commonprefix in H. simpl fold_left in H.
            destruct (str_eqb (lcp parent base) base) eqn:Ec; [|discriminate].
            apply str_eqb_true in Ec. pose proof (lcp_length_l parent base) as Hl.
            rewrite Ec in Hl. exact (Nat.lt_irrefl _ (Nat.lt_le_trans _ _ _ Hlt Hl)).
        + (* a plain name *)
          destruct (use_prefix_check && _) in H; [discriminate|]. injection H as <-.
          right. exists id. split; [reflexivity|].
          apply orb_false_iff in E1. destruct E1 as [E1a E1b].
          apply str_eqb_false in E1a, E1b, E2. repeat split; try assumption.
          exact (pass_nosep id Erej).
    Qed.

    Lemma normpath_join_pass :
      forall base id, abs_normal base -> re_search pat dotdot = true -> re_search pat id = false ->
        normpath (join base id)
        = if str_eqb id [] || str_eqb id [dot] then base else base ++ tail_sep base ++ id.
    Proof.
      intros base id Hb Hdd Hrej.
      destruct (normpath_join_abs base id Hb (pass_nosep id Hrej)) as [parent [_ ->]].
      destruct (str_eqb id [] || str_eqb id [dot]); [reflexivity|].
      destruct (str_eqb id dotdot) eqn:E2; [|reflexivity].
      apply str_eqb_true in E2. congruence.
    Qed.

    (* REJECT TEST MAKES THE commonprefix TEST UNREACHABLE: when the reject test also stops
       "..", an id that passes it always passes the commonprefix test *)
    Theorem prefix_check_redundant :
      forall base id, abs_normal base -> re_search pat dotdot = true -> re_search pat id = false ->
        commonprefix [normpath (join base id); base] = base.
    Proof.
      intros base id Hb Hdd Hrej. rewrite (normpath_join_pass base id Hb Hdd Hrej).
      unfold Path.commonprefix. simpl fold_left.
      destruct (str_eqb id [] || str_eqb id [dot]); [apply lcp_self | apply lcp_app_self].
    Qed.

    (* FUNCTIONAL SPECIFICATION of the per-id path logic when the reject test fires on
       separators and on "..": reject exactly when the pattern matches; otherwise "" and "."
       name the root and every other id names the child root/id *)
    Theorem get_rails_path_spec :
      forall base id, abs_normal base -> re_search pat dotdot = true ->
        get_rails_path base id =
          if re_search pat id then Reject
          else Accept (if str_eqb id [] || str_eqb id [dot] then base else base ++ tail_sep base ++ id).
    Proof.
      intros base id Hb Hdd. unfold Path.get_rails_path.
      destruct (re_search pat id) eqn:Erej; [reflexivity|].
      rewrite (prefix_check_redundant base id Hb Hdd Erej), str_eqb_refl, andb_false_r.
      rewrite (normpath_join_pass base id Hb Hdd Erej). reflexivity.
    Qed.

    (* an accepted path, seen through the root: the root is a proper prefix followed by a
       separator (segment-wise containment, which is what commonprefix does NOT test) *)
    Corollary get_rails_path_segment_prefix :
      forall base id p, abs_normal base -> get_rails_path base id = Accept p ->
        p = base \/ exists rest, p = base ++ tail_sep base ++ rest /\ rest <> [] /\ ~ In sep rest.
    Proof.
      intros base id p Hb H. destruct (get_rails_path_confined base id p Hb H) as [E|[seg [E [P1 [P2 _]]]]].
      - left. assumption.
      - right. exists seg. auto.
    Qed.
  End GetRails.

  (* with at least one segment in the root (i.e. the root is not "/" or "//") the child is
     base ++ "/" ++ seg, the form used in DESIGN.md *)
  Lemma tail_sep_nonroot :
    forall n segs, (n = 1 \/ n = 2) -> Forall plain segs -> segs <> [] ->
      tail_sep (repeat sep n ++ join_segs segs) = [sep].
  Proof.
    intros n segs Hn Hs Hne. unfold Path.tail_sep. rewrite abs_normal_ends by assumption.
    destruct segs; [contradiction | reflexivity].
  Qed.

  (* commonprefix alone does not confine: for every root with at least one segment and every
     non-empty suffix x, the sibling  root ++ x  passes the commonprefix test although, when x
     does not begin with a separator, it is not inside the root. *)
  Theorem commonprefix_sibling_passes :
    forall base x, commonprefix [base ++ x; base] = base.
  Proof. intros base x. unfold Path.commonprefix. simpl. apply lcp_app_self. Qed.

  Theorem sibling_not_inside :
    forall n segs x c, (n = 1 \/ n = 2) -> Forall plain segs -> segs <> [] -> c <> sep ->
      let base := repeat sep n ++ join_segs segs in
      ~ inside base (base ++ c :: x).
  Proof.
    intros n segs x c Hn Hs Hne Hc base [E|[seg [E _]]].
    - rewrite <- (app_nil_r base) in E at 2. apply app_inv_head in E. discriminate.
    - unfold base in E at 3. rewrite tail_sep_nonroot in E by assumption.
      apply app_inv_head in E. simpl in E. congruence.
  Qed.

End PathProofs.
