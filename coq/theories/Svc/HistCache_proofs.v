(* C15 - proofs about Svc/HistCache.v: isolation of honest conversations on a shared
   instance when cache hits are exact (verified lookup, or a key function injective on the
   message lists in play). *)
From Coq Require Import List Bool Arith Lia.
From NG Require Import Svc.HistKey Svc.HistKey_proofs Svc.HistCache.
Import ListNotations.

Section Proofs.
  Variable A : Type.
  Variable A_eq_dec : forall x y : A, {x = y} + {x <> y}.
  Variable K : Type.
  Variable K_eqb : K -> K -> bool.
  Hypothesis K_eqb_eq : forall x y, K_eqb x y = true <-> x = y.
  Variable keyf : list (msg A) -> K.
  Variable Ev : Type.
  Variable conv : list (msg A) -> list Ev.
  Variable G : list Ev -> list Ev.
  Variable reply : list Ev -> msg A.
  Variable is_reply : role -> bool.
  Hypothesis reply_is_reply : forall ev, is_reply (m_role (reply ev)) = true.

  Notation message := (msg A).
  Notation cache := (cache A K Ev).
  Notation hit := (hit A A_eq_dec K K_eqb keyf Ev).
  Notation lookup := (lookup A A_eq_dec K K_eqb keyf Ev).
  Notation search := (search A A_eq_dec K K_eqb keyf Ev).
  Notation events_for := (events_for A A_eq_dec K K_eqb keyf Ev conv).
  Notation store := (store A K keyf Ev).
  Notation canon := (canon A Ev conv G reply).
  Notation canon_ev := (canon_ev A Ev conv G reply).
  Notation canon_obs := (canon_obs A Ev conv G reply).
  Notation honest_turn := (honest_turn A is_reply).
  Notation honest := (honest A is_reply).
  Notation client_msg := (client_msg A is_reply).
  Notation step := (step A A_eq_dec K K_eqb keyf Ev conv G reply).
  Notation run := (run A A_eq_dec K K_eqb keyf Ev conv G reply).
  Notation alone_from := (alone_from A A_eq_dec K K_eqb keyf Ev conv G reply).
  Notation alone := (alone A A_eq_dec K K_eqb keyf Ev conv G reply).
  Notation shared_trace := (shared_trace A A_eq_dec K K_eqb keyf Ev conv G reply).
  Notation hist_after := (hist_after A Ev conv G reply).
  Notation request := (request A Ev conv G reply).
  Notation in_play := (in_play A Ev conv G reply).
  Notation keyf_injective_on := (keyf_injective_on A K keyf).
  Notation trace_of := (trace_of A Ev).
  Notation turn := (turn A).
  Notation st_cache := (st_cache A K Ev).
  Notation st_conv := (st_conv A K Ev).
  Notation cs_done := (cs_done A).
  Notation cs_hist := (cs_hist A).

  Lemma firstn_app_ge : forall (X : Type) (h t : list X) p,
      length h <= p -> firstn p (h ++ t) = h ++ firstn (p - length h) t.
  Proof. intros X h t p Hle. rewrite firstn_app. rewrite firstn_all2 by exact Hle. reflexivity. Qed.

  Lemma Forall_firstn : forall (X : Type) (P : X -> Prop) (l : list X) k, Forall P l -> Forall P (firstn k l).
  Proof.
    intros X P l k H. revert k. induction H as [|x l Hx Hl IH]; intros [|k]; simpl; auto.
  Qed.

  Lemma skipn_nth_error : forall (X : Type) (l : list X) n,
      skipn n l = match nth_error l n with Some x => x :: skipn (S n) l | None => [] end.
  Proof. intros X l. induction l as [|a l IH]; intros [|n]; try reflexivity. exact (IH n). Qed.

  Lemma rev_firstn_S : forall (X : Type) (l : list X) n x,
      nth_error l n = Some x -> rev (firstn (S n) l) = x :: rev (firstn n l).
  Proof.
    intros X l. induction l as [|a l IH]; intros [|n] x H; simpl in *; try discriminate.
    - inversion H. reflexivity.
    - rewrite (IH n x H). reflexivity.
  Qed.

  Lemma hit_iff : forall verify P e,
      hit verify P e = true <->
      K_eqb (e_key _ _ _ e) (keyf P) = true /\ (verify = true -> e_msgs _ _ _ e = P).
  Proof.
    intros verify P e. unfold HistCache.hit. rewrite andb_true_iff.
    destruct verify; simpl; rewrite ?msgs_eqb_eq; split; intros [Hk Hm]; split; auto; discriminate.
  Qed.

  Lemma lookup_cons : forall verify e c P,
      lookup verify (e :: c) P = if hit verify P e then Some (e_events _ _ _ e) else lookup verify c P.
  Proof. intros verify e c P. unfold HistCache.lookup. simpl. destruct (hit verify P e); reflexivity. Qed.

  Lemma lookup_Some : forall verify c P ev,
      lookup verify c P = Some ev ->
      exists e, In e c /\ hit verify P e = true /\ e_events _ _ _ e = ev.
  Proof.
    intros verify c P ev H. unfold HistCache.lookup in H.
    destruct (find (hit verify P) c) as [e|] eqn:Hf; [|discriminate].
    apply find_some in Hf. destruct Hf as [Hin Hhit]. injection H as <-.
    exists e. split; [exact Hin|]. split; [exact Hhit | reflexivity].
  Qed.

  Lemma hit_own : forall verify ms ev, hit verify ms (Entry A K Ev (keyf ms) ms ev) = true.
  Proof. intros verify ms ev. apply hit_iff. split; [apply K_eqb_eq|]; reflexivity. Qed.

  Lemma search_S : forall verify c ms p',
      search verify c ms (S p') =
      match lookup verify c (firstn (S p') ms) with
      | Some ev => Some (S p', ev)
      | None => search verify c ms p'
      end.
  Proof. reflexivity. Qed.

  Lemma search_skip : forall verify c ms lo n,
      (forall p, lo < p <= n -> lookup verify c (firstn p ms) = None) ->
      lo <= n -> search verify c ms n = search verify c ms lo.
  Proof.
    intros verify c ms lo n. induction n as [|n IH]; intros Hmiss Hle.
    - assert (lo = 0) by lia. subst. reflexivity.
    - destruct (Nat.eq_dec lo (S n)) as [->|Hne]; [reflexivity|].
      rewrite search_S. rewrite (Hmiss (S n)) by lia. apply IH; [|lia].
      intros p Hp. apply Hmiss. lia.
  Qed.

  Lemma events_for_miss : forall verify c ms,
      (forall p, 0 < p < length ms -> lookup verify c (firstn p ms) = None) ->
      events_for verify c ms = conv ms.
  Proof.
    intros verify c ms Hmiss. unfold HistCache.events_for.
    rewrite (search_skip verify c ms 0); [reflexivity | | lia].
    intros p Hp. apply Hmiss. lia.
  Qed.

  Lemma events_for_hit : forall verify c ms p ev,
      0 < p < length ms ->
      (forall q, p < q < length ms -> lookup verify c (firstn q ms) = None) ->
      lookup verify c (firstn p ms) = Some ev ->
      events_for verify c ms = ev ++ conv (skipn p ms).
  Proof.
    intros verify c ms p ev Hp Hmiss Hhit. unfold HistCache.events_for.
    rewrite (search_skip verify c ms p); [| intros q Hq; apply Hmiss; lia | lia].
    destruct p as [|p]; [lia|]. rewrite search_S, Hhit. reflexivity.
  Qed.

  Definition closed (h : list message) : Prop :=
    forall h0 r, h = h0 ++ [r] -> is_reply (m_role r) = true.

  Lemma canon_cons : forall t older,
      canon (t :: older) =
      ((fst (canon older) ++ t) ++ [reply (G (snd (canon older) ++ conv t))],
       (snd (canon older) ++ conv t) ++ G (snd (canon older) ++ conv t)).
  Proof. intros t older. simpl. destruct (canon older) as [h full]. reflexivity. Qed.

  Lemma canon_closed : forall rts, closed (fst (canon rts)).
  Proof.
    intros [|t older] h0 r H.
    - destruct h0; discriminate.
    - rewrite canon_cons in H. apply app_inj_tail in H. destruct H as [_ <-]. apply reply_is_reply.
  Qed.

  Lemma canon_nonempty : forall rts, rts <> [] -> fst (canon rts) <> [].
  Proof.
    intros [|t older] Hne; [congruence|]. rewrite canon_cons. simpl.
    intro H. apply app_eq_nil in H. destruct H as [_ H]. discriminate.
  Qed.

  Lemma closed_app_client : forall h l, closed (h ++ l) -> Forall client_msg l -> l = [].
  Proof.
    intros h l Hc Hl. destruct l as [|x l0 _] using rev_ind; [reflexivity|].
    apply Forall_app in Hl. destruct Hl as [_ Hx]. apply Forall_inv in Hx. unfold HistCache.client_msg in Hx.
    rewrite (Hc (h ++ l0) x) in Hx by apply app_assoc. discriminate.
  Qed.

  Lemma closed_firstn : forall h t p,
      t <> [] -> Forall client_msg t -> length h < p -> ~ closed (firstn p (h ++ t)).
  Proof.
    intros h t p Hne Ht Hp Hc. rewrite firstn_app_ge in Hc by lia.
    apply closed_app_client in Hc; [|apply Forall_firstn; exact Ht].
    destruct t; [congruence|]. replace (p - length h) with (S (p - length h - 1)) in Hc by lia. discriminate.
  Qed.

  Lemma boundary_unique : forall h h' t t',
      closed h -> closed h' -> Forall client_msg t -> Forall client_msg t' ->
      h ++ t = h' ++ t' -> h = h' /\ t = t'.
  Proof.
    intros h h' t t' Hc Hc' Ht Ht' Heq.
    destruct (app_eq_app _ _ _ _ Heq) as [l [[-> ->] | [-> ->]]].
    - apply Forall_app in Ht'. rewrite (closed_app_client h' l Hc) by tauto.
      rewrite app_nil_r. auto.
    - apply Forall_app in Ht. rewrite (closed_app_client h l Hc') by tauto.
      rewrite app_nil_r. auto.
  Qed.

  Lemma canon_inj : forall rts rts',
      Forall honest_turn rts -> Forall honest_turn rts' ->
      fst (canon rts) = fst (canon rts') -> rts = rts'.
  Proof.
    induction rts as [|t older IH]; intros [|t' older'] Hh Hh' Heq; [reflexivity | | |].
    - symmetry in Heq. apply canon_nonempty in Heq; [contradiction | discriminate].
    - apply canon_nonempty in Heq; [contradiction | discriminate].
    - rewrite !canon_cons in Heq. apply app_inj_tail in Heq. destruct Heq as [Heq _].
      inversion Hh as [|? ? [_ Ht] Hho]; subst. inversion Hh' as [|? ? [_ Ht'] Hho']; subst.
      destruct (boundary_unique _ _ _ _ (canon_closed older) (canon_closed older') Ht Ht' Heq) as [E1 ->].
      f_equal. apply IH; assumption.
  Qed.

  (* what the cache may hold for a message list: the events of the honest turns that produced it *)
  Definition canonical (P : list message) (ev : list Ev) : Prop :=
    exists rts, Forall honest_turn rts /\ canon rts = (P, ev).

  (* the request of an honest turn after an honest history is turned into the canonical
     events, whatever else the cache contains, as long as what it returns for the proper
     prefixes of the request is canonical and the history itself is found *)
  Lemma events_for_canon : forall verify c older t,
      Forall honest_turn older -> honest_turn t ->
      (forall p ev, 0 < p < length (fst (canon older) ++ t) ->
                    lookup verify c (firstn p (fst (canon older) ++ t)) = Some ev ->
                    canonical (firstn p (fst (canon older) ++ t)) ev) ->
      (older <> [] -> lookup verify c (fst (canon older)) <> None) ->
      events_for verify c (fst (canon older) ++ t) = snd (canon older) ++ conv t.
  Proof.
    intros verify c older t Hold [Htne Htcl] Hcan Hpresent.
    set (h := fst (canon older)) in *. set (ms := h ++ t) in *.
    assert (Hlen : length ms = length h + length t) by apply app_length.
    assert (Htlen : 0 < length t) by (destruct t; simpl; [congruence|lia]).
    (* a prefix that cuts into the turn ends with a client message: it misses *)
    assert (Hmiss : forall p, length h < p < length ms -> lookup verify c (firstn p ms) = None).
    { intros p Hp. destruct (lookup verify c (firstn p ms)) as [ev|] eqn:Hl; [exfalso|reflexivity].
      destruct (Hcan p ev ltac:(lia) Hl) as [rts [_ Hc]].
      apply (closed_firstn h t p Htne Htcl); [lia|].
      pose proof (canon_closed rts) as Hcl. rewrite Hc in Hcl. exact Hcl. }
    destruct older as [|t0 older0].
    - apply events_for_miss. intros p Hp. apply Hmiss. simpl in *. lia.
    - assert (Hh : 0 < length h).
      { destruct h eqn:E; [|simpl; lia]. exfalso. revert E. apply canon_nonempty. discriminate. }
      assert (Hfirst : firstn (length h) ms = h).
      { unfold ms. rewrite firstn_app_ge, Nat.sub_diag by lia. apply app_nil_r. }
      destruct (lookup verify c h) as [ev|] eqn:Hl; [|exfalso; apply Hpresent; [discriminate | reflexivity]].
      rewrite <- Hfirst in Hl.
      rewrite (events_for_hit verify c ms (length h) ev) by (try exact Hl; try exact Hmiss; lia).
      destruct (Hcan (length h) ev ltac:(lia) Hl) as [rts [Hh' Hc]]. rewrite Hfirst in Hc.
      assert (rts = t0 :: older0) by (apply canon_inj; [exact Hh' | exact Hold | rewrite Hc; reflexivity]).
      subst rts. rewrite Hc. simpl. f_equal. f_equal.
      unfold ms. rewrite skipn_app, skipn_all, Nat.sub_diag. reflexivity.
  Qed.

  Lemma step_None : forall verify convs st c,
      nth_error (convs c) (cs_done (st_conv st c)) = None -> step verify convs st c = (st, None).
  Proof. intros verify convs st c H. unfold HistCache.step. rewrite H. reflexivity. Qed.

  Lemma trace_run_cons : forall verify convs c0 rest st c,
      trace_of c (snd (run verify convs (c0 :: rest) st)) =
      (if Nat.eqb c0 c then match snd (step verify convs st c0) with Some x => [x] | None => [] end else [])
      ++ trace_of c (snd (run verify convs rest (fst (step verify convs st c0)))).
  Proof.
    intros verify convs c0 rest st c. simpl.
    destruct (step verify convs st c0) as [st1 o]. simpl.
    destruct (run verify convs rest st1) as [st2 log].
    unfold HistCache.trace_of. destruct o; simpl; destruct (Nat.eqb c0 c); reflexivity.
  Qed.

  (* the observations of a sequence of honest turns, after the turns `older` (newest first) *)
  Fixpoint canon_from (older : list turn) (ts : list turn) : list (obs A Ev) :=
    match ts with
    | [] => []
    | t :: rest => canon_obs (t :: older) :: canon_from (t :: older) rest
    end.

  Definition canon_trace (ts : list turn) : list (obs A Ev) := canon_from [] ts.

  Definition count (c : nat) (sched : list nat) : nat := length (filter (Nat.eqb c) sched).

  Lemma count_cons : forall c c0 rest,
      count c (c0 :: rest) = if Nat.eqb c c0 then S (count c rest) else count c rest.
  Proof. intros c c0 rest. unfold count. simpl. destruct (Nat.eqb c c0); reflexivity. Qed.

  Section Run.
    Variable verify : bool.
    Variable convs : nat -> list turn.
    Hypothesis Hhonest : honest convs.
    Hypothesis Hexact : verify = true \/ keyf_injective_on (in_play convs).

    Lemma hit_exact : forall P ms ev,
        in_play convs P -> in_play convs ms ->
        hit verify P (Entry A K Ev (keyf ms) ms ev) = true -> ms = P.
    Proof.
      intros P ms ev HP Hms Hhit. apply hit_iff in Hhit. destruct Hhit as [Hk Hm].
      destruct Hexact as [Hv | Hinj]; [exact (Hm Hv)|].
      apply Hinj; [exact Hms | exact HP | apply K_eqb_eq; exact Hk].
    Qed.

    Lemma honest_firstn : forall c n, Forall honest_turn (rev (firstn n (convs c))).
    Proof. intros c n. apply Forall_rev. apply Forall_firstn. apply Hhonest. Qed.

    (* on the lists in play the cache is a map from canonical histories to their events *)
    Definition CInv (ch : cache) : Prop :=
      forall P ev, in_play convs P -> lookup verify ch P = Some ev -> canonical P ev.

    (* the history of conversation c after n turns is cached (nothing to find before the first) *)
    Definition served (ch : cache) (c n : nat) : Prop :=
      0 < n -> lookup verify ch (hist_after convs c n) <> None.

    Lemma served_store : forall ch c n P ev,
        served ch c n \/ P = hist_after convs c n -> served (store ch P ev) c n.
    Proof.
      intros ch c n P ev H Hpos. unfold HistCache.store. rewrite lookup_cons. destruct H as [H | ->].
      - destruct (hit verify _ _); [discriminate | exact (H Hpos)].
      - rewrite hit_own. discriminate.
    Qed.

    Lemma request_canon : forall ch c n t,
        CInv ch -> served ch c n -> nth_error (convs c) n = Some t ->
        events_for verify ch (hist_after convs c n ++ t) = canon_ev (t :: rev (firstn n (convs c))).
    Proof.
      intros ch c n t Hcan Hserved Hnth.
      assert (Hreq : request convs c n = hist_after convs c n ++ t).
      { unfold HistCache.request. f_equal. apply nth_error_nth. exact Hnth. }
      apply events_for_canon.
      - apply honest_firstn.
      - eapply Forall_forall; [apply Hhonest | eapply nth_error_In; exact Hnth].
      - intros p ev Hp. apply Hcan. right. exists c, n, p. rewrite Hreq.
        split; [apply nth_error_Some; congruence | auto].
      - intros Hne. apply Hserved. destruct n; [contradiction Hne; reflexivity | lia].
    Qed.

    Lemma store_canon : forall ch c n t,
        CInv ch -> nth_error (convs c) n = Some t ->
        let ev := canon_ev (t :: rev (firstn n (convs c))) in
        let h := (hist_after convs c n ++ t) ++ [reply (G ev)] in
        h = hist_after convs c (S n) /\ CInv (store ch h (ev ++ G ev)).
    Proof.
      intros ch c n t Hcan Hnth ev h.
      assert (Hc : canon (rev (firstn (S n) (convs c))) = (h, ev ++ G ev)).
      { rewrite (rev_firstn_S _ _ _ _ Hnth). apply canon_cons. }
      assert (Hh : h = hist_after convs c (S n)) by (unfold HistCache.hist_after; rewrite Hc; reflexivity).
      split; [exact Hh|].
      intros Q ev' HQ. unfold HistCache.store. rewrite lookup_cons.
      destruct (hit verify Q _) eqn:Hhit; [|apply Hcan; exact HQ].
      intros [= <-]. apply hit_exact in Hhit; [subst Q | exact HQ |].
      - eexists. split; [apply honest_firstn | exact Hc].
      - left. exists c, (S n). split; [|exact Hh].
        assert (n < length (convs c)) by (apply nth_error_Some; congruence). lia.
    Qed.

    Definition Inv (st : state A K Ev) : Prop :=
      CInv (st_cache st) /\
      (forall c, cs_hist (st_conv st c) = hist_after convs c (cs_done (st_conv st c)) /\
                 served (st_cache st) c (cs_done (st_conv st c))).

    Lemma Inv_init : Inv (init A K Ev).
    Proof.
      split.
      - intros P ev _ H. discriminate H.
      - intros c. split; [reflexivity | intro H; inversion H].
    Qed.

    Lemma step_canon : forall st c t,
        Inv st ->
        nth_error (convs c) (cs_done (st_conv st c)) = Some t ->
        let n := cs_done (st_conv st c) in
        let ev := canon_ev (t :: rev (firstn n (convs c))) in
        let h := (hist_after convs c n ++ t) ++ [reply (G ev)] in
        let st' := State A K Ev (store (st_cache st) h (ev ++ G ev)) (upd A (st_conv st) c (CState A h (S n))) in
        step verify convs st c = (st', Some (canon_obs (t :: rev (firstn n (convs c))))) /\ Inv st'.
    Proof.
      intros st c t [Hcan Hconv] Hnth n ev h st'. destruct (Hconv c) as [Hhist Hserved]. split.
      - unfold HistCache.step. rewrite Hnth. cbv zeta.
        rewrite Hhist, (request_canon _ c _ t Hcan Hserved Hnth). reflexivity.
      - destruct (store_canon _ c n t Hcan Hnth) as [Hh Hcan']. split; [exact Hcan'|].
        intros c'. simpl. unfold HistCache.upd. destruct (Nat.eqb c' c) eqn:E.
        + apply Nat.eqb_eq in E. subst c'. split; [exact Hh|]. apply served_store. right. exact Hh.
        + destruct (Hconv c') as [Hhist' Hserved']. split; [exact Hhist'|].
          apply served_store. left. exact Hserved'.
    Qed.

    Lemma run_canon : forall sched st c,
        Inv st ->
        trace_of c (snd (run verify convs sched st))
        = firstn (count c sched)
                 (canon_from (rev (firstn (cs_done (st_conv st c)) (convs c))) (skipn (cs_done (st_conv st c)) (convs c))).
    Proof.
      induction sched as [|c0 rest IH]; intros st c HInv; [reflexivity|].
      rewrite trace_run_cons, count_cons, (Nat.eqb_sym c0 c).
      destruct (nth_error (convs c0) (cs_done (st_conv st c0))) as [t|] eqn:Hnth.
      - destruct (step_canon st c0 t HInv Hnth) as [Hstep HInv'].
        rewrite Hstep. cbn [fst snd]. rewrite (IH _ c HInv').
        cbn [HistCache.st_conv]. unfold HistCache.upd. destruct (Nat.eqb c c0) eqn:Hc; [|reflexivity].
        apply Nat.eqb_eq in Hc. subst c0. cbn [HistCache.cs_done].
        rewrite (skipn_nth_error _ (convs c) (cs_done (st_conv st c))), Hnth, (rev_firstn_S _ _ _ _ Hnth).
        reflexivity.
      - rewrite step_None by exact Hnth. cbn [fst snd]. rewrite (IH st c HInv).
        destruct (Nat.eqb c c0) eqn:Hc; [|reflexivity].
        apply Nat.eqb_eq in Hc. subst c0.
        rewrite skipn_nth_error, Hnth. simpl. rewrite !firstn_nil. reflexivity.
    Qed.

    Lemma shared_trace_canon : forall sched c,
        shared_trace verify convs sched c = firstn (count c sched) (canon_trace (convs c)).
    Proof. intros sched c. unfold HistCache.shared_trace. rewrite run_canon by apply Inv_init. reflexivity. Qed.

    (* alone: the same recursion as canon_from, on a cache that holds only this conversation *)
    Lemma alone_from_canon : forall c rest n ch,
        CInv ch -> served ch c n -> skipn n (convs c) = rest ->
        alone_from verify ch (hist_after convs c n) rest = canon_from (rev (firstn n (convs c))) rest.
    Proof.
      intros c rest. induction rest as [|t rest IH]; intros n ch Hcan Hserved Hrest; [reflexivity|].
      rewrite skipn_nth_error in Hrest.
      destruct (nth_error (convs c) n) as [t'|] eqn:Hnth; [|discriminate]. injection Hrest as -> Hrest.
      destruct (store_canon ch c n t Hcan Hnth) as [Hh Hcan'].
      simpl. rewrite (request_canon ch c n t Hcan Hserved Hnth). f_equal.
      specialize (IH (S n)). rewrite (rev_firstn_S _ _ _ _ Hnth), <- Hh in IH.
      apply IH; [exact Hcan' | apply served_store; right; exact Hh | exact Hrest].
    Qed.

    Lemma alone_canon : forall c, alone verify (convs c) = canon_trace (convs c).
    Proof.
      intros c. apply (alone_from_canon c (convs c) 0 []); [| intro H; inversion H | reflexivity].
      intros P ev _ H. discriminate H.
    Qed.
  End Run.

  (* Main theorem: on a shared instance every honest conversation sees, turn by turn, exactly
     the events and replies it would see alone on a fresh instance - for every schedule. *)
  Theorem isolation : forall verify convs,
      honest convs ->
      (verify = true \/ keyf_injective_on (in_play convs)) ->
      forall sched c,
        shared_trace verify convs sched c = firstn (count c sched) (alone verify (convs c)).
  Proof.
    intros verify convs Hh Hex sched c.
    rewrite (shared_trace_canon verify convs Hh Hex), (alone_canon verify convs Hh Hex). reflexivity.
  Qed.
End Proofs.
