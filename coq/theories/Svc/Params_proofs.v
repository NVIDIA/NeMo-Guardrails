(* C15 - proofs about Svc/Params.v: save/set/restore is exact without overlap; with
   overlapping tasks it is not (witness schedules). *)
From Coq Require Import List Bool Arith ZArith Lia.
From NG Require Import Svc.Params.
Import ListNotations.

Lemma pget_pset_same : forall m p v, pget (pset m p v) p = Some v.
Proof.
  induction m as [|[q w] m IH]; intros p v; simpl.
  - rewrite Nat.eqb_refl. reflexivity.
  - destruct (Nat.eqb q p) eqn:E; simpl; rewrite E; auto.
Qed.

Lemma pget_pset_other : forall m p q v, p <> q -> pget (pset m p v) q = pget m q.
Proof.
  induction m as [|[r w] m IH]; intros p q v Hne; simpl.
  - apply Nat.eqb_neq in Hne. rewrite Hne. reflexivity.
  - destruct (Nat.eqb r p) eqn:E; simpl.
    + apply Nat.eqb_eq in E. subst r. apply Nat.eqb_neq in Hne. rewrite Hne. reflexivity.
    + destruct (Nat.eqb r q); auto.
Qed.

Lemma pset_restore : forall m p v old, pget m p = Some old -> pset (pset m p v) p old = m.
Proof.
  induction m as [|[q w] m IH]; intros p v old H; simpl in *; [discriminate|].
  destruct (Nat.eqb q p) eqn:E; simpl; rewrite E.
  - inversion H. reflexivity.
  - f_equal. apply IH. exact H.
Qed.

Lemma pset_comm : forall m p q v w,
    p <> q -> pget m p <> None -> pget m q <> None ->
    pset (pset m p v) q w = pset (pset m q w) p v.
Proof.
  induction m as [|[r x] m IH]; intros p q v w Hne Hp Hq; simpl in *; [congruence|].
  destruct (Nat.eqb r p) eqn:Ep; destruct (Nat.eqb r q) eqn:Eq; simpl; rewrite ?Ep, ?Eq; try reflexivity.
  - apply Nat.eqb_eq in Ep. apply Nat.eqb_eq in Eq. congruence.
  - f_equal. apply IH; assumption.
Qed.

Lemma pset_app_absent : forall s0 s1 p v, ~ In p (keys s0) -> pset (s0 ++ s1) p v = s0 ++ pset s1 p v.
Proof.
  induction s0 as [|[q w] s0 IH]; intros s1 p v H; simpl in *; [reflexivity|].
  destruct (Nat.eqb q p) eqn:E.
  - apply Nat.eqb_eq in E. tauto.
  - f_equal. apply IH. tauto.
Qed.

Lemma keys_pset : forall s p v k, In k (keys (pset s p v)) -> k = p \/ In k (keys s).
Proof.
  induction s as [|[q w] s IH]; intros p v k; simpl.
  - intros [H|[]]. auto.
  - destruct (Nat.eqb q p); simpl; intros [H|H]; auto. destruct (IH _ _ _ H); auto.
Qed.

(* __exit__ writes a parameter only where it is present: in the attributes, else in model_kwargs *)
Definition pupdate (m : pmap) (p : name) (v : pval) : pmap :=
  match pget m p with Some _ => pset m p v | None => m end.

Lemma restore1_eq : forall l p v,
    restore1 l p v =
    match pget (attrs l) p with
    | Some _ => Llm (pupdate (attrs l) p v) (kwargs l)
    | None => Llm (attrs l) (option_map (fun kw => pupdate kw p v) (kwargs l))
    end.
Proof.
  intros [a [kw|]] p v; unfold restore1, pupdate, set_attr, set_kw; simpl;
    destruct (pget a p); try reflexivity. destruct (pget kw p); reflexivity.
Qed.

Lemma pget_pupdate : forall m p q v, p <> q -> pget (pupdate m p v) q = pget m q.
Proof. intros m p q v H. unfold pupdate. destruct (pget m p); [apply pget_pset_other; exact H | reflexivity]. Qed.

Lemma pupdate_comm : forall m p q v w, p <> q -> pupdate (pupdate m p v) q w = pupdate (pupdate m q w) p v.
Proof.
  intros m p q v w H. unfold pupdate at 1 3. rewrite !pget_pupdate by congruence.
  unfold pupdate. destruct (pget m p) eqn:Ep, (pget m q) eqn:Eq; try reflexivity.
  apply pset_comm; congruence.
Qed.

Lemma restore1_comm : forall l p q v w,
    p <> q -> restore1 (restore1 l p v) q w = restore1 (restore1 l q w) p v.
Proof.
  intros l p q v w H. rewrite (restore1_eq l p v), (restore1_eq l q w).
  destruct (pget (attrs l) p) eqn:Ep, (pget (attrs l) q) eqn:Eq; rewrite !restore1_eq; simpl;
    rewrite ?pget_pupdate by congruence; rewrite ?Ep, ?Eq; try reflexivity.
  - rewrite pupdate_comm by exact H. reflexivity.
  - destruct (kwargs l); simpl; [rewrite pupdate_comm by exact H|]; reflexivity.
Qed.

Lemma exit_restore_comm : forall d l p v,
    ~ In p (keys d) -> exit_ d (restore1 l p v) = restore1 (exit_ d l) p v.
Proof.
  induction d as [|[q w] d IH]; intros l p v Hnin; simpl in *; [reflexivity|].
  rewrite restore1_comm by (intro E; apply Hnin; left; congruence).
  apply IH. intro Hin. apply Hnin. right. exact Hin.
Qed.

Lemma enter1_restore : forall l p v l1 old,
    placed l p -> enter1 l p v = (l1, Some old) -> restore1 l1 p old = l.
Proof.
  intros [at_ kw] p v l1 old Hpl H. unfold enter1 in H. simpl in H.
  destruct (pget at_ p) as [a|] eqn:Ap.
  - inversion H; subst. unfold restore1, set_attr. simpl. rewrite pget_pset_same.
    rewrite pset_restore by exact Ap. reflexivity.
  - destruct kw as [kw|]; [|discriminate].
    inversion H; subst. unfold restore1, set_kw. simpl. rewrite Ap. rewrite pget_pset_same.
    destruct Hpl as [Hpl | [[kw' [Hk Hpl]] | [_ Hpl]]]; simpl in *; try congruence.
    inversion Hk; subst kw'. destruct (pget kw p) as [k|] eqn:Kp; [|congruence].
    rewrite pset_restore by exact Kp. reflexivity.
Qed.

Lemma enter1_none : forall l p v l1, enter1 l p v = (l1, None) -> l1 = l.
Proof.
  intros [at_ kw] p v l1 H. unfold enter1 in H. simpl in H.
  destruct (pget at_ p); [discriminate|]. destruct kw; [discriminate|]. inversion H. reflexivity.
Qed.

Lemma enter1_placed : forall l p v q, p <> q -> placed l q -> placed (fst (enter1 l p v)) q.
Proof.
  intros [at_ kw] p v q Hne Hpl. unfold enter1. simpl.
  destruct (pget at_ p) as [a|] eqn:Ap; simpl.
  - destruct Hpl as [H | [[kw' [Hk H]] | [H1 H2]]]; simpl in *.
    + left. simpl. rewrite pget_pset_other by exact Hne. exact H.
    + right. left. exists kw'. auto.
    + right. right. simpl. rewrite pget_pset_other by exact Hne. auto.
  - destruct kw as [kw|]; simpl; [|exact Hpl].
    destruct Hpl as [H | [[kw' [Hk H]] | [H1 H2]]]; simpl in *.
    + left. exact H.
    + right. left. inversion Hk; subst kw'. eexists. split. reflexivity.
      rewrite pget_pset_other by exact Hne. exact H.
    + discriminate.
Qed.

Lemma enter_acc : forall alt l s0 s1,
    (forall k, In k (keys alt) -> ~ In k (keys s0)) ->
    enter alt l (s0 ++ s1) = (fst (enter alt l s1), s0 ++ snd (enter alt l s1)).
Proof.
  induction alt as [|[p v] rest IH]; intros l s0 s1 Hdis; [reflexivity|].
  simpl. destruct (enter1 l p v) as [l1 [old|]].
  - rewrite pset_app_absent by (apply Hdis; left; reflexivity).
    apply IH. intros k Hk. apply Hdis. right. exact Hk.
  - apply IH. intros k Hk. apply Hdis. right. exact Hk.
Qed.

Lemma enter_saved_keys : forall alt l s k,
    In k (keys (snd (enter alt l s))) -> In k (keys s) \/ In k (keys alt).
Proof.
  induction alt as [|[p v] rest IH]; intros l s k; simpl; [auto|].
  destruct (enter1 l p v) as [l1 [old|]]; intros H; apply IH in H; [|tauto].
  destruct H as [H|H]; [|auto]. apply keys_pset in H. destruct H; auto.
Qed.

Theorem exit_enter : forall alt l,
    normal l alt -> exit_ (snd (enter alt l [])) (fst (enter alt l [])) = l.
Proof.
  induction alt as [|[p v] rest IH]; intros l [Hnd Hpl]; [reflexivity|].
  simpl in Hnd, Hpl. inversion Hnd as [|? ? Hp Hnd']; subst. inversion Hpl as [|? ? Hplp Hplr]; subst.
  simpl. destruct (enter1 l p v) as [l1 [old|]] eqn:E1.
  - assert (Hn1 : normal l1 rest).
    { split; [exact Hnd'|]. rewrite Forall_forall in *. intros q Hq.
      replace l1 with (fst (enter1 l p v)) by (rewrite E1; reflexivity).
      apply enter1_placed; [intro E; subst q; contradiction | apply Hplr; exact Hq]. }
    change [(p, old)] with ([(p, old)] ++ []).
    rewrite enter_acc by (intros k Hk [<-|[]]; contradiction). simpl.
    rewrite exit_restore_comm.
    + rewrite IH by exact Hn1. eapply enter1_restore; eassumption.
    + intro Hin. apply enter_saved_keys in Hin. destruct Hin as [[]|Hin]. contradiction.
  - apply enter1_none in E1. subst l1. apply IH. split; assumption.
Qed.

Lemma srun_app : forall a b s,
    srun (a ++ b) s =
    let '(s1, l1) := srun a s in let '(s2, l2) := srun b s1 in (s2, l1 ++ l2).
Proof.
  induction a as [|t a IH]; intros b s; simpl.
  - destruct (srun b s). reflexivity.
  - destruct (sstep s t) as [s1 ob]. rewrite IH.
    destruct (srun a s1) as [s2 l1]. destruct (srun b s2) as [s3 l2].
    destruct ob; reflexivity.
Qed.

Lemma srun_step : forall t rest s s1 ob,
    sstep s t = (s1, ob) ->
    srun (t :: rest) s
    = (fst (srun rest s1), match ob with Some x => x :: snd (srun rest s1) | None => snd (srun rest s1) end).
Proof. intros t rest s s1 ob H. simpl. rewrite H. destruct (srun rest s1). reflexivity. Qed.

Lemma sstep_nil : forall s t, s_prog s t = [] -> sstep s t = (s, None).
Proof. intros s t H. unfold sstep. rewrite H. reflexivity. Qed.

Lemma sstep_cons : forall s t o rest st' ob,
    s_prog s t = o :: rest -> pstep (s_st s) t o = Some (st', ob) ->
    sstep s t = (Sys st' (supd (s_prog s) t rest), ob).
Proof. intros s t o rest st' ob H1 H2. unfold sstep. rewrite H1, H2. reflexivity. Qed.

Lemma supd_same : forall f t v, supd f t v t = v.
Proof. intros. unfold supd. rewrite Nat.eqb_refl. reflexivity. Qed.

Lemma pupd_same : forall f t v, pupd f t v t = v.
Proof. intros. unfold pupd. rewrite Nat.eqb_refl. reflexivity. Qed.

Section Serial.
  Variable l : llm.

  Definition good (ob : pobs) : Prop := po_seen ob = with_params (po_own ob) l.

  Definition SInv (s : sys) : Prop :=
    p_llm (s_st s) = l /\
    quiescent s /\
    (forall t, exists calls, s_prog s t = task_ops calls /\ Forall (normal l) calls).

  Definition configured_at_rest (s : sys) : Prop := quiescent s -> p_llm (s_st s) = l.

  Lemma SInv_rest : forall s, SInv s -> configured_at_rest s.
  Proof. intros s [Hl _] _. exact Hl. Qed.

  (* the three steps of a block that starts at rest: in between a window is open (or the task
     had finished and nothing happens), afterwards the system is at rest again *)
  Lemma block_run : forall s t,
      SInv s ->
      exists s1 s2 s3 ob,
        sstep s t = (s1, None) /\ sstep s1 t = (s2, ob) /\ sstep s2 t = (s3, None) /\
        configured_at_rest s1 /\ configured_at_rest s2 /\ SInv s3 /\
        (forall x, ob = Some x -> good x).
  Proof.
    intros s t HInv. pose proof HInv as [Hl [Hopen Hprog]].
    destruct (Hprog t) as [[|alt calls] [Hp Hn]].
    - exists s, s, s, None. rewrite (sstep_nil s t Hp). pose proof (SInv_rest s HInv).
      repeat split; auto; discriminate.
    - inversion Hn as [|? ? Hna Hnc]; subst.
      change (task_ops (alt :: calls)) with (OEnter alt :: OCall :: OExit :: task_ops calls) in Hp.
      destruct (enter alt (p_llm (s_st s)) []) as [l1 sv] eqn:Een.
      assert (Hbusy : forall prog, ~ quiescent (Sys (PState l1 (pupd (p_open (s_st s)) t [Window alt sv])) prog)).
      { intros prog Hq. specialize (Hq t). simpl in Hq. rewrite pupd_same in Hq. discriminate. }
      eexists. eexists. eexists. eexists.
      split; [|split; [|split]].
      + eapply sstep_cons; [exact Hp|]. unfold pstep. rewrite Een, Hopen. reflexivity.
      + eapply sstep_cons; [apply supd_same|]. unfold pstep. simpl. rewrite pupd_same. reflexivity.
      + eapply sstep_cons; [apply supd_same|]. unfold pstep. simpl. rewrite pupd_same. reflexivity.
      + split; [intros Hq; destruct (Hbusy _ Hq)|]. split; [intros Hq; destruct (Hbusy _ Hq)|].
        rewrite Hl in Een. split; [split; [|split]|]; simpl.
        * pose proof (exit_enter alt l Hna) as H. rewrite Een in H. exact H.
        * intros t'. simpl. unfold pupd. destruct (Nat.eqb t' t); [reflexivity | apply Hopen].
        * intros t'. unfold supd. destruct (Nat.eqb t' t); [|apply Hprog].
          exists calls. split; [reflexivity | exact Hnc].
        * intros x [= <-]. unfold good, with_params. simpl. rewrite Een. reflexivity.
  Qed.

  (* along a schedule without overlap: at rest at the end, every call saw its own parameters,
     and the object is the configured one at every moment at which nothing is in flight *)
  Theorem serial_run : forall sched,
      serial sched -> forall s, SInv s ->
      SInv (fst (srun sched s)) /\ Forall good (snd (srun sched s)) /\
      (forall pre post, sched = pre ++ post -> configured_at_rest (fst (srun pre s))).
  Proof.
    intros sched Hser. induction Hser as [|t rest Hser IH]; intros s HInv.
    - split; [exact HInv|]. split; [constructor|].
      intros pre post Heq. symmetry in Heq. apply app_eq_nil in Heq. destruct Heq as [-> _].
      apply SInv_rest. exact HInv.
    - destruct (block_run s t HInv) as [s1 [s2 [s3 [ob [E1 [E2 [E3 [C1 [C2 [HInv3 Hg]]]]]]]]]].
      destruct (IH s3 HInv3) as [HInvF [HgF Hpre]].
      rewrite (srun_step _ _ _ _ _ E1), (srun_step _ _ _ _ _ E2), (srun_step _ _ _ _ _ E3).
      split; [exact HInvF|]. split.
      + simpl. destruct ob as [x|]; [constructor; [apply Hg; reflexivity|]|]; exact HgF.
      + intros pre post Heq. destruct pre as [|a [|b [|c pre]]]; simpl in Heq.
        * apply SInv_rest. exact HInv.
        * injection Heq as <- _. rewrite (srun_step _ _ _ _ _ E1). exact C1.
        * injection Heq as <- <- _. rewrite (srun_step _ _ _ _ _ E1), (srun_step _ _ _ _ _ E2). exact C2.
        * injection Heq as <- <- <- Heq.
          rewrite (srun_step _ _ _ _ _ E1), (srun_step _ _ _ _ _ E2), (srun_step _ _ _ _ _ E3).
          exact (Hpre pre post Heq).
  Qed.

  Lemma SInv_init : forall tasks, (forall t, Forall (normal l) (tasks t)) -> SInv (sinit l tasks).
  Proof.
    intros tasks H. split; [reflexivity|]. split; [intro; reflexivity|].
    intros t. exists (tasks t). split; [reflexivity | apply H].
  Qed.

  (* without overlap: afterwards the object is the configured one, nothing is in flight, and
     every call saw the configured object with exactly its own parameters *)
  Theorem serial_ok : forall tasks sched,
      (forall t, Forall (normal l) (tasks t)) -> serial sched ->
      p_llm (s_st (fst (srun sched (sinit l tasks)))) = l /\
      quiescent (fst (srun sched (sinit l tasks))) /\
      Forall good (snd (srun sched (sinit l tasks))).
  Proof.
    intros tasks sched Hn Hser.
    destruct (serial_run sched Hser _ (SInv_init tasks Hn)) as [[H1 [H2 _]] [H3 _]].
    split; [exact H1|]. split; [exact H2 | exact H3].
  Qed.

  (* whenever nothing is in flight during a no-overlap schedule, the parameters are the configured ones *)
  Theorem quiescent_always_configured : forall tasks sched pre post,
      (forall t, Forall (normal l) (tasks t)) -> serial sched -> sched = pre ++ post ->
      quiescent (fst (srun pre (sinit l tasks))) ->
      p_llm (s_st (fst (srun pre (sinit l tasks)))) = l.
  Proof.
    intros tasks sched pre post Hn Hser Heq.
    destruct (serial_run sched Hser _ (SInv_init tasks Hn)) as [_ [_ Hpre]]. exact (Hpre pre post Heq).
  Qed.
End Serial.

Definition cfg : llm := Llm [(0, PVal 500)] None.                     (* temperature 0.5 *)
Definition two_tasks (t : nat) : list pmap :=
  match t with
  | 0 => [[(0, PVal 200)]]
  | 1 => [[(0, PVal 900)]]
  | _ => []
  end.
(* enter0 enter1 call0 call1 exit0 exit1 *)
Definition overlap_sched : list nat := [0; 1; 0; 1; 0; 1].

Lemma two_tasks_normal : forall t, Forall (normal cfg) (two_tasks t).
Proof.
  intros [|[|t]]; simpl; constructor; try constructor.
  - constructor. intros []. constructor.
  - constructor; [|constructor]. left. simpl. discriminate.
  - constructor. intros []. constructor.
  - constructor; [|constructor]. left. simpl. discriminate.
Qed.

Theorem overlap_refuted :
  exists l tasks sched,
    (forall t, Forall (normal l) (tasks t)) /\
    let s' := fst (srun sched (sinit l tasks)) in
    let log := snd (srun sched (sinit l tasks)) in
    (forall t, t < 2 -> s_prog s' t = [] /\ p_open (s_st s') t = []) /\   (* both tasks finished *)
    p_llm (s_st s') <> l /\
    exists ob, In ob log /\ po_task ob = 0 /\ po_own ob = [(0, PVal 200)] /\
               po_seen ob = with_params [(0, PVal 900)] l /\ po_seen ob <> with_params (po_own ob) l.
Proof.
  exists cfg, two_tasks, overlap_sched. split; [exact two_tasks_normal|].
  split; [|split].
  - intros [|[|t]] Ht; try lia; vm_compute; auto.
  - vm_compute. discriminate.
  - eexists. split. vm_compute. left. reflexivity. vm_compute. repeat split; discriminate.
Qed.

(* a parameter that is neither an attribute nor a model_kwargs entry is left behind as None,
   even without any concurrency (pinned by tests/test_llm_params.py) *)
Theorem absent_kwarg_refuted :
  exists l alt, NoDup (keys alt) /\ exit_ (snd (enter alt l [])) (fst (enter alt l [])) <> l.
Proof.
  exists (Llm [] (Some [])), [(1, PVal 7)]. split.
  - constructor. intros []. constructor.
  - vm_compute. discriminate.
Qed.

(* hypotheses of serial_ok are inhabited by a non-trivial run *)
Example serial_example :
  serial [0; 0; 0; 1; 1; 1] /\
  snd (srun [0; 0; 0; 1; 1; 1] (sinit cfg two_tasks))
  = [PObs 0 [(0, PVal 200)] (Llm [(0, PVal 200)] None); PObs 1 [(0, PVal 900)] (Llm [(0, PVal 900)] None)].
Proof. split. repeat constructor. reflexivity. Qed.
