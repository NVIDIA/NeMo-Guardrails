(* C15 - facts about the history-cache key: it is a lossy join.  For EVERY separator string
   (including the empty one) and every choice of contributing roles the key identifies
   different message lists. *)
From Coq Require Import List Bool Arith.
From NG Require Import Svc.HistKey.
Import ListNotations.

Lemma sumbool_true_iff : forall (P : Prop) (d : {P} + {~ P}), (if d then true else false) = true <-> P.
Proof. intros P [H|H]; split; intro; solve [auto | discriminate | contradiction]. Qed.

Lemma str_eqb_eq : forall (A : Type) (A_eq_dec : forall x y : A, {x = y} + {x <> y}) (x y : list A),
    str_eqb A_eq_dec x y = true <-> x = y.
Proof. intros. apply sumbool_true_iff. Qed.

Lemma msgs_eqb_eq : forall (A : Type) (A_eq_dec : forall x y : A, {x = y} + {x <> y}) (x y : list (msg A)),
    msgs_eqb A_eq_dec x y = true <-> x = y.
Proof. intros. apply sumbool_true_iff. Qed.

Section KeyFacts.
  Variable A : Type.
  Variable sep : list A.
  Variable contributes : role -> bool.

  Notation key := (key sep contributes).

  Lemma key_items : forall ms, key ms = join sep (items contributes ms).
  Proof. reflexivity. Qed.

  Lemma items_cons : forall (m : msg A) ms,
      items contributes (m :: ms)
      = if contributes (m_role m) then m_body m :: items contributes ms else items contributes ms.
  Proof. intros m ms. unfold items. simpl. destruct (contributes (m_role m)); reflexivity. Qed.

  Lemma items_app : forall ms ms' : list (msg A), items contributes (ms ++ ms') = items contributes ms ++ items contributes ms'.
  Proof. intros ms ms'. unfold items. rewrite filter_app. apply map_app. Qed.

  Lemma key_all_contribute : forall ms,
      Forall (fun m => contributes (m_role m) = true) ms -> key ms = join sep (map m_body ms).
  Proof.
    intros ms H. rewrite key_items. f_equal.
    induction H as [|m ms Hm _ IH]; [reflexivity|]. rewrite items_cons, Hm, IH. reflexivity.
  Qed.

  (* the separator is not escaped: one message "a<sep>r" and the two messages "a", "r" *)
  Lemma key_separator_collision : forall ra rb a r,
      contributes ra = true -> contributes rb = true ->
      key [Msg ra (a ++ sep ++ r)] = key [Msg ra a; Msg rb r].
  Proof.
    intros ra rb a r Ha Hb. rewrite !key_all_contribute by (repeat constructor; assumption). reflexivity.
  Qed.

  Lemma key_ignores_roles : forall ra rb a,
      contributes ra = true -> contributes rb = true ->
      key [Msg ra a] = key [Msg rb a].
  Proof.
    intros ra rb a Ha Hb. rewrite !key_all_contribute by (repeat constructor; assumption). reflexivity.
  Qed.

  (* messages with any other role (exception, system, tool, ...) leave no trace in the key *)
  Lemma key_ignores_noncontributing : forall ms r b,
      contributes r = false -> key (ms ++ [Msg r b]) = key ms.
  Proof.
    intros ms r b Hr. rewrite !key_items, items_app, items_cons. simpl. rewrite Hr. apply f_equal, app_nil_r.
  Qed.

  Theorem key_never_injective :
      (exists r, contributes r = true) -> ~ key_injective_on sep contributes (fun _ => True).
  Proof.
    intros [ra Hra] Hinj.
    assert (H : [Msg ra ([] ++ sep ++ [])] = [Msg ra []; Msg ra []]).
    { apply Hinj; auto. apply key_separator_collision; assumption. }
    discriminate H.
  Qed.

  Theorem key_not_injective :
      (exists r, contributes r = true) ->
      forall (a r : list A), ~ key_injective_on sep contributes (fun _ => True).
  Proof. intros H _ _. exact (key_never_injective H). Qed.

  (* the first message can be read off the key when bodies do not contain the separator
     symbol: on such lists with a fixed role sequence the key IS injective *)
  Variable s : A.
  Hypothesis sep_single : sep = [s].

  Definition sep_free (ms : list (msg A)) : Prop := Forall (fun m => ~ In s (m_body m)) ms.
  Definition all_contribute (ms : list (msg A)) : Prop := Forall (fun m => contributes (m_role m) = true) ms.

  Lemma split_at_sep : forall (x y x' y' : list A),
      ~ In s x -> ~ In s x' -> x ++ s :: y = x' ++ s :: y' -> x = x' /\ y = y'.
  Proof.
    induction x as [|a x IH]; intros y [|a' x'] y' Hx Hx' Heq; simpl in *.
    - injection Heq as ->. auto.
    - injection Heq as <- _. contradiction Hx'. auto.
    - injection Heq as -> _. contradiction Hx. auto.
    - injection Heq as -> Heq. destruct (IH y x' y') as [-> ->]; auto.
  Qed.

  Lemma join_cons2 : forall (x y : list A) rest, join sep (x :: y :: rest) = x ++ sep ++ join sep (y :: rest).
  Proof. reflexivity. Qed.

  Lemma join_sep_free_inj : forall (xs ys : list (list A)),
      Forall (fun x => ~ In s x) xs -> Forall (fun x => ~ In s x) ys ->
      length xs = length ys -> join sep xs = join sep ys -> xs = ys.
  Proof.
    induction xs as [|x xs IH]; intros [|y ys] Hx Hy Hlen Heq; try discriminate Hlen; [reflexivity|].
    apply Forall_cons_iff in Hx. destruct Hx as [Hx1 Hx2]. apply Forall_cons_iff in Hy. destruct Hy as [Hy1 Hy2].
    destruct xs as [|x2 xs]; destruct ys as [|y2 ys]; try discriminate Hlen.
    - simpl in Heq. rewrite Heq. reflexivity.
    - rewrite !join_cons2, sep_single in Heq.
      destruct (split_at_sep _ _ _ _ Hx1 Hy1 Heq) as [-> E].
      f_equal. apply IH; [exact Hx2 | exact Hy2 | simpl in Hlen |- *; congruence | rewrite sep_single; exact E].
  Qed.

  Theorem key_injective_sep_free : forall ms ms',
      sep_free ms -> sep_free ms' -> all_contribute ms -> all_contribute ms' ->
      map m_role ms = map m_role ms' -> key ms = key ms' -> ms = ms'.
  Proof.
    intros ms ms' Hf Hf' Hc Hc' Hroles Hkey.
    rewrite !key_all_contribute in Hkey by assumption.
    apply join_sep_free_inj in Hkey.
    - (* same roles and same bodies *)
      clear -Hroles Hkey. revert ms' Hroles Hkey.
      induction ms as [|[r b] ms IH]; intros [|[r' b'] ms'] Hr Hb; try discriminate; [reflexivity|].
      injection Hr as -> Hr. injection Hb as -> Hb. f_equal. apply IH; assumption.
    - apply Forall_map. exact Hf.
    - apply Forall_map. exact Hf'.
    - rewrite !map_length, <- (map_length m_role ms), Hroles. apply map_length.
  Qed.
End KeyFacts.
