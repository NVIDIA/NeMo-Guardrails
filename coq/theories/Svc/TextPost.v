(* C17 - Gallina models of the text post-processing that the LLM pipeline applies to LLM output.

   Sources modelled (line by line; Python partial operations are explicit):
     nemoguardrails/actions/llm/utils.py      get_first_nonempty_line, get_top_k_nonempty_lines,
                                              strip_quotes, get_multiline_response
     nemoguardrails/llm/output_parsers.py     _replace_prefix, verbose_v1_parser
     nemoguardrails/actions/llm/generation.py generate_user_intent / generate_next_step /
                                              generate_bot_message / generate_intent_steps_message
                                              post-processing, the multi-step shrink loop,
                                              clean_utterance_content, the general-mode quoting
     nemoguardrails/colang/v1_0/runtime/runtime.py   _process_start_flow, the `failed` rule
     nemoguardrails/colang/v2_x/runtime/runtime.py   _add_flows_action fallback
     nemoguardrails/actions/v2_x/generation.py       generate_value (literal_eval only)

   Texts are lists of Unicode code points (N).  A Python exception is an explicit [Err e];
   Python's None is [None] inside [Ok].  Definitions only (+ sanity Examples). *)
From Coq Require Import NArith List Bool String Ascii.
Import ListNotations.
Open Scope N_scope.

Definition text := list N.

Fixpoint s2t (s : string) : text :=
  match s with
  | EmptyString => []
  | String c s' => N_of_ascii c :: s2t s'
  end.

Inductive exn := IndexError | TypeError | AttributeError | ValueError | AssertionError
               | ParseError | EvalError | LlmResponseError.

Inductive res (A : Type) := Ok (a : A) | Err (e : exn).
Arguments Ok {A} a.
Arguments Err {A} e.

Definition bind {A B} (r : res A) (f : A -> res B) : res B :=
  match r with Ok a => f a | Err e => Err e end.
Notation "'let!' x ':=' r 'in' k" := (bind r (fun x => k)) (at level 200, x name, right associativity).

Definition is_ok {A} (r : res A) : bool := match r with Ok _ => true | Err _ => false end.

Definition NL : N := 10.
Definition QUOTE : N := 34.      (* the double quote *)
Definition COMMA : N := 44.
Definition DOLLAR : N := 36.
Definition SEMI : N := 59.
Definition SPACE : N := 32.
Definition BACKSLASH : N := 92.

(* str.isspace() of one code point (CPython 3.12 unicode database) *)
Definition is_space (c : N) : bool :=
  ((9 <=? c) && (c <=? 13)) || ((28 <=? c) && (c <=? 32)) || (c =? 133) || (c =? 160)
  || (c =? 5760) || ((8192 <=? c) && (c <=? 8202)) || (c =? 8232) || (c =? 8233)
  || (c =? 8239) || (c =? 8287) || (c =? 12288).

(* line boundaries of str.splitlines() *)
Definition is_linebreak (c : N) : bool :=
  ((10 <=? c) && (c <=? 13)) || ((28 <=? c) && (c <=? 30)) || (c =? 133) || (c =? 8232) || (c =? 8233).

Fixpoint teq (a b : text) : bool :=
  match a, b with
  | [], [] => true
  | x :: a', y :: b' => (x =? y) && teq a' b'
  | _, _ => false
  end.

Fixpoint lstrip (s : text) : text :=
  match s with
  | c :: s' => if is_space c then lstrip s' else s
  | [] => []
  end.
Definition rstrip (s : text) : text := rev (lstrip (rev s)).
Definition strip (s : text) : text := rstrip (lstrip s).

Fixpoint starts_with (p s : text) : bool :=
  match p with
  | [] => true
  | c :: p' => match s with
               | d :: s' => (c =? d) && starts_with p' s'
               | [] => false
               end
  end.
Definition ends_with (p s : text) : bool := starts_with (rev p) (rev s).

Fixpoint contains (p s : text) : bool :=
  starts_with p s || match s with [] => false | _ :: s' => contains p s' end.

Definition mem_char (c : N) (s : text) : bool := existsb (N.eqb c) s.

(* s.split(c) for a one-character separator: always at least one piece *)
Fixpoint split_char (c : N) (s : text) : text * list text :=
  match s with
  | [] => ([], [])
  | d :: s' => let '(h, t) := split_char c s' in
               if d =? c then ([], h :: t) else (d :: h, t)
  end.
Definition split_on (c : N) (s : text) : list text := let '(h, t) := split_char c s in h :: t.
Definition split_nl := split_on NL.

Fixpoint join (sep : text) (l : list text) : text :=
  match l with
  | [] => []
  | [x] => x
  | x :: l' => x ++ sep ++ join sep l'
  end.
Definition join_nl := join [NL].

(* s.split(sep)[0] for a non-empty multi-character separator: the part before the first occurrence *)
Fixpoint before_first (sep s : text) : text :=
  match s with
  | [] => []
  | c :: s' => if starts_with sep s then [] else c :: before_first sep s'
  end.

(* s.find(p): index of the first occurrence ([None] = -1) *)
Fixpoint find_from (p s : text) (i : nat) : option nat :=
  if starts_with p s then Some i else
  match s with [] => None | _ :: s' => find_from p s' (S i) end.
Definition find (p s : text) : option nat := find_from p s 0.

(* s.replace(p, r), p non-empty: non-overlapping, left to right (fuel = length, never exhausted) *)
Fixpoint replace_fuel (fuel : nat) (p r s : text) : text :=
  match fuel with
  | O => s
  | S f => match s with
           | [] => []
           | c :: s' => if starts_with p s then r ++ replace_fuel f p r (skipn (List.length p) s)
                        else c :: replace_fuel f p r s'
           end
  end.
Definition replace (p r s : text) : text := replace_fuel (S (List.length s)) p r s.

(* Python indexing s[i], i >= 0, and s[-1] *)
Definition idx {A} (l : list A) (i : nat) : res A :=
  match nth_error l i with Some x => Ok x | None => Err IndexError end.
Definition idx_last {A} (l : list A) : res A :=
  match rev l with x :: _ => Ok x | [] => Err IndexError end.
(* slices never raise *)
Definition slice_from {A} (n : nat) (l : list A) : list A := skipn n l.
Definition slice_1_m1 {A} (l : list A) : list A := removelast (skipn 1 l).   (* s[1:-1] *)
Definition truthy (s : text) : bool := negb (teq s []).

(* literals (checked by (T)) *)
Definition P_USER : text := s2t "user ".
Definition P_BOT : text := s2t "bot ".
Definition P_USER_INTENT_V : text := s2t "User intent: ".
Definition P_BOT_INTENT_V : text := s2t "Bot intent: ".
Definition NL_USER : text := s2t (String (ascii_of_N 10) "user").
Definition FALLBACK_INTENT : text := s2t "unknown message".
Definition FALLBACK_BOT_INTENT : text := s2t "general response".
Definition FALLBACK_MESSAGE : text := s2t "I'm not sure what to say.".
Definition INTERNAL_ERROR_MESSAGE : text := s2t "I'm sorry, an internal error has occurred.".
Definition INTERNAL_ERROR_INTENT : text := s2t "inform internal error occurred".
Definition ESC_NL : text := [BACKSLASH; 110].   (* the two characters backslash, n *)

(* utils.py *)

(* get_first_nonempty_line *)
Fixpoint first_nonempty (ls : list text) : option text :=
  match ls with
  | [] => None
  | l :: ls' => if truthy l then Some l else first_nonempty ls'
  end.
Definition get_first_nonempty_line (s : text) : res (option text) :=
  if negb (truthy s) then Ok None
  else Ok (first_nonempty (map strip (split_nl s))).

(* get_top_k_nonempty_lines (k = 2): None on the empty string *)
Definition HASH : N := 35.
Definition not_comment (l : text) : bool :=
  match l with [] => false | c :: _ => negb (c =? HASH) end.
Definition get_top_k_nonempty_lines (s : text) (k : nat) : res (option (list text)) :=
  if negb (truthy s) then Ok None
  else Ok (Some (firstn k (filter not_comment (map strip (split_nl s))))).

(* strip_quotes: `if s and s[0] == '"': if s[-1] == '"': s[1:-1] else s[1:]` *)
Definition strip_quotes (s : text) : res text :=
  if truthy s then
    let! c0 := idx s 0 in
    if c0 =? QUOTE then
      let! cl := idx_last s in
      if cl =? QUOTE then Ok (slice_1_m1 s) else Ok (slice_from 1 s)
    else Ok s
  else Ok s.

(* get_multiline_response *)
Fixpoint ml_loop (lines : list text) (result : text) : text :=
  match lines with
  | [] => result
  | l :: ls =>
      if truthy l then
        let result' := if teq result [] then l else result ++ [NL] ++ l in
        if ends_with [QUOTE] l then result' else ml_loop ls result'
      else ml_loop ls result
  end.
Definition get_multiline_response (s : text) : res text :=
  let s1 := if contains NL_USER s then before_first NL_USER s else s in
  Ok (ml_loop (map strip (split_nl s1)) []).

(* generation.py: clean_utterance_content *)
Definition clean_utterance_content (u : text) : res text :=
  if truthy u then Ok (replace ESC_NL [NL] u) else Ok u.

(* output_parsers.py *)
Definition replace_prefix (s prefix repl : text) : text :=
  if starts_with prefix s then repl ++ strip (skipn (List.length prefix) s) else s.

Definition verbose_prefixes : list (text * text * text) :=   (* prefix, prefix.lower(), repl *)
  [ (s2t "User message: ", s2t "user message: ", s2t "user ");
    (s2t "Bot message: ", s2t "bot message: ", s2t "  ");
    (s2t "User intent: ", s2t "user intent: ", s2t "  ");
    (s2t "Bot intent: ", s2t "bot intent: ", s2t "bot ") ].
Definition verbose_line (l : text) : text :=
  fold_left (fun acc '(p, pl, r) => replace_prefix (replace_prefix acc p r) pl r) verbose_prefixes (strip l).
Definition verbose_v1_parser (s : text) : res text :=
  Ok (join_nl (map verbose_line (split_nl s))).

(* generation.py, per call *)

(* generate_user_intent: the text -> the UserIntent *)
Definition user_intent_post (result : text) : res text :=
  let! fl := get_first_nonempty_line result in
  let ui := match fl with None => FALLBACK_INTENT | Some l => l end in
  Ok (if starts_with P_USER ui then skipn 5 ui else ui).

(* generate_next_step, single-step branch: the text -> the BotIntent *)
Definition next_step_post (result : text) : res text :=
  let! fl := get_first_nonempty_line result in
  match fl with
  | Some r =>
      if starts_with P_BOT r then
        let bi := skipn 4 r in
        let! bi1 := if mem_char QUOTE bi then (let! h := idx (split_on QUOTE bi) 0 in Ok (strip h)) else Ok bi in
        let! bi2 := if mem_char COMMA bi1 then (let! h := idx (split_on COMMA bi1) 0 in Ok (strip h)) else Ok bi1 in
        Ok bi2
      else Ok FALLBACK_BOT_INTENT
  | None => Ok FALLBACK_BOT_INTENT
  end.

(* generate_bot_message.  [predefined] = bot_intent in config.bot_messages; [ctx_has v] = the
   context has variable v.  The three sources of the utterance: *)
Inductive utter_source := Predefined | FromContext (var : text) | FromLLMCall.
Definition bot_message_source (predefined : text -> bool) (ctx_has : text -> bool) (bot_intent : text)
  : res utter_source :=
  if predefined bot_intent then Ok Predefined
  else
    let! c0 := idx bot_intent 0 in            (* `bot_intent[0] == "$"`: IndexError on "" *)
    if (c0 =? DOLLAR) && ctx_has (skipn 1 bot_intent) then Ok (FromContext (skipn 1 bot_intent))
    else Ok FromLLMCall.

(* ... the LLM branch: get_multiline_response, strip_quotes, clean / fallback *)
Definition bot_message_post (result : text) : res text :=
  let! r1 := get_multiline_response result in
  let! r2 := strip_quotes r1 in
  if truthy r2 then clean_utterance_content r2 else Ok FALLBACK_MESSAGE.

(* general mode (no dialog rails) and the no-user-messages branch of the single call *)
Definition general_post (result : text) : res text :=
  let t := strip result in
  Ok (if starts_with [QUOTE] t then slice_1_m1 t else t).

(* generate_intent_steps_message (single call): (user intent, bot intent, bot message) *)
Definition single_call_post (result : text) : res (text * text * text) :=
  let! top := get_top_k_nonempty_lines result 2 in
  match top with
  | None => Err TypeError                         (* len(None) *)
  | Some lines =>
      let user_intent := nth_error lines 0 in
      let bot_intent := nth_error lines 1 in
      let! bot_message :=
        match bot_intent with
        | Some bi =>
            if truthy bi then
              match find bi result with
              | Some pos =>
                  let! m1 := get_multiline_response (skipn (pos + List.length bi) result) in
                  let! m2 := strip_quotes m1 in
                  Ok (if truthy m2 && teq (strip m2) [] then None else Some m2)
              | None => Ok None
              end
            else Ok None
        | None => Ok None
        end in
      let ui := match user_intent with
                | Some u => if truthy u then
                              (if starts_with P_USER u then skipn 5 u
                               else if starts_with P_USER_INTENT_V u then skipn 13 u else u)
                            else FALLBACK_INTENT
                | None => FALLBACK_INTENT
                end in
      let bi := match bot_intent with
                | Some b => if truthy b && starts_with P_BOT b then skipn 4 b
                            else if truthy b && starts_with P_BOT_INTENT_V b then skipn 12 b
                            else FALLBACK_BOT_INTENT
                | None => FALLBACK_BOT_INTENT
                end in
      let bm := match bot_message with
                | Some m => if truthy m then m else FALLBACK_MESSAGE
                | None => FALLBACK_MESSAGE
                end in
      Ok (ui, bi, bm)
  end.

(* textwrap.indent(body, prefix): prefix added to every line that is not whitespace-only;
   lines are those of str.splitlines(keepends=True) *)
Fixpoint splitlines_keep_aux (s : text) (cur : text) : list text :=
  match s with
  | [] => match cur with [] => [] | _ => [rev cur] end
  | c :: s' =>
      if is_linebreak c then
        match c, s' with
        | 13, 10 :: s'' => rev (10 :: 13 :: cur) :: splitlines_keep_aux s'' []
        | _, _ => rev (c :: cur) :: splitlines_keep_aux s' []
        end
      else splitlines_keep_aux s' (c :: cur)
  end.
Definition splitlines_keep (s : text) : list text := splitlines_keep_aux s [].
Definition indent (prefix body : text) : text :=
  List.concat (map (fun l => if truthy (strip l) then prefix ++ l else l) (splitlines_keep body)).

Definition wrap_flow (flow_id body : text) : text :=
  s2t "define flow " ++ flow_id ++ s2t ":" ++ [NL] ++ indent (s2t "  ") body.

Inductive next_step_outcome :=
| GeneralResponse                       (* BotIntent "general response" *)
| StartFlow (body_lines : list text).   (* start_flow event with flow_body = join lines *)

Section Shrink.
  (* the validation of one candidate (the Colang parser is an oracle): true = accepted *)
  Variable accepts : list text -> bool.

  (* one iteration of the `while True` loop: inl outcome = loop left, inr lines = continue with the shorter list *)
  Definition shrink_step (lines : list text) : next_step_outcome + list text :=
    if accepts lines then inl (StartFlow lines)
    else if Nat.eqb (List.length lines) 1 then inl GeneralResponse
    else inr (removelast lines).

  (* fuelled loop; None = fuel exhausted (shown impossible with fuel = length lines) *)
  Fixpoint shrink_fuel (fuel : nat) (lines : list text) : option next_step_outcome :=
    match fuel with
    | O => None
    | S f => match shrink_step lines with
             | inl o => Some o
             | inr lines' => shrink_fuel f lines'
             end
    end.
End Shrink.

(* what generate_next_step validates for a candidate list of lines, given the parser oracle
   [parse : text -> res nat] (number of flows in the parsed file, or an exception).
   [validate_wrapped] is read from the source by the translator: does the validation parse the
   same wrapped text the runtime parses (and insist on exactly one flow)? *)
Section MultiStep.
  Variable parse : text -> res nat.
  Variable validate_wrapped : bool.
  Variable flow_id : text.

  Definition blank (s : text) : bool := teq (strip s) [].

  Definition gen_accepts (probe_id : text) (lines : list text) : bool :=
    let body := join_nl lines in
    if validate_wrapped then
      negb (blank body) &&
      match parse (wrap_flow probe_id body) with Ok n => Nat.eqb n 1 | Err _ => false end
    else is_ok (parse body).

  (* runtime.py _process_start_flow, up to the parse + assert (what follows is the interpreter) *)
  Definition process_start_flow_parse (body : text) : res unit :=
    let! n := parse (wrap_flow flow_id body) in
    if Nat.eqb n 1 then Ok tt else Err AssertionError.

  (* `result.split("\n")[:MAX]`: only the first max_lines lines are considered (0 = no cap) *)
  Definition cap_lines (max_lines : nat) (lines : list text) : list text :=
    match max_lines with O => lines | S _ => firstn max_lines lines end.

  Definition multi_step_post (probe_id : text) (max_lines : nat) (result : text) : option next_step_outcome :=
    let lines := cap_lines max_lines (split_nl result) in
    shrink_fuel (gen_accepts probe_id) (List.length lines) lines.
End MultiStep.

(* action_dispatcher.execute_action + runtime._process_start_action: an exception inside an
   action (other than LLMCallException) becomes status "failed", and "failed" becomes the three
   internal-error events.  [A] = the action's result type. *)
Inductive event :=
| EBotIntent (intent : text)
| EStartUtterance (script : text)
| EHidePrevTurn
| EOther (name : text).

Definition internal_error_events : list event :=
  [EBotIntent INTERNAL_ERROR_INTENT; EStartUtterance INTERNAL_ERROR_MESSAGE; EHidePrevTurn].

Inductive status := Success | Failed.
Definition execute_action {A} (r : res A) : option A * status :=
  match r with Ok a => (Some a, Success) | Err _ => (None, Failed) end.
Definition process_start_action {A} (events_of : A -> list event) (r : res A) : list event :=
  match execute_action r with
  | (Some a, Success) => events_of a
  | _ => internal_error_events
  end.

(* the reply of a turn from its events (llmrails.generate_async, Colang 1.0 branch) *)
Definition scripts (evs : list event) : list text :=
  flat_map (fun e => match e with EStartUtterance s => [s] | _ => [] end) evs.
Definition reply_of (evs : list event) : text := join_nl (scripts evs).

Fixpoint split1_at (c : N) (s : text) : option (text * text) :=
  match s with
  | [] => None
  | d :: s' => if d =? c then Some ([], s')
               else match split1_at c s' with Some (h, t) => Some (d :: h, t) | None => None end
  end.

Section AddFlows.
  Variable parse2 : text -> res (list text).     (* names of the parsed flows, or an exception *)

  Definition split1_space (s : text) : list text :=     (* s.split(" ", maxsplit=1) *)
    match split1_at SPACE s with Some (h, t) => [h; t] | None => [s] end.

  Definition fallback_flow (flow_name : text) : text :=
    s2t "flow " ++ flow_name ++ [NL] ++ s2t "  bot say ""Internal error on flow `" ++ flow_name ++ s2t "`.""".

  Definition add_flows_action (content : text) : res (list text) :=
    match parse2 content with
    | Ok fl => Ok fl
    | Err _ =>
        let! l0 := idx (split_nl content) 0 in
        let! flow_name := idx (split1_space l0) 1 in      (* IndexError: no space in the first line *)
        parse2 (fallback_flow flow_name)                  (* not protected: may raise again *)
    end.
End AddFlows.

Section Value.
  Variable V : Type.
  Variable literal_eval : text -> res V.    (* ast.literal_eval: literals only, raises otherwise *)

  Definition rstrip_semi (v : text) : text := if ends_with [SEMI] v then removelast v else v.

  (* `value = result.strip().split("\n")[0]`, drop a final ";", remove the last prompt line,
     strip, literal_eval; any exception becomes Exception("Invalid LLM response") *)
  Definition generate_value_v2 (last_prompt_line result : text) : res V :=
    let! v0 := idx (split_nl (strip result)) 0 in
    let v1 := rstrip_semi v0 in
    let v2 := strip (if truthy last_prompt_line then replace last_prompt_line [] v1 else v1) in
    match literal_eval v2 with Ok v => Ok v | Err _ => Err ValueError end.

  Definition generate_value_v1 (result : text) : res V :=
    let! v0 := idx (split_nl (strip result)) 0 in
    literal_eval (rstrip_semi v0).
End Value.

(* what a context variable can hold, as far as generate_bot_message is concerned *)
Inductive ctxval :=
| CStr (s : text)
| CNonStr (is_truthy : bool).      (* a dict / list / number / None ...: anything that is not a str *)

(* `bot_utterance = context[name]; if bot_utterance: clean_utterance_content(..) else: fallback`.
   [clean_guarded] = clean_utterance_content only touches str values (it does NOT in the source:
   `.replace` on a non-str raises AttributeError, inside the action).  The result is the `text`
   field of the BotMessage event: a str ([inl]) or the non-str object itself ([inr tt]). *)
Definition ctx_utterance (clean_guarded : bool) (v : ctxval) : res (text + unit) :=
  match v with
  | CStr s => if truthy s then (let! c := clean_utterance_content s in Ok (inl c)) else Ok (inl FALLBACK_MESSAGE)
  | CNonStr true => if clean_guarded then Ok (inr tt) else Err AttributeError
  | CNonStr false => Ok (inl FALLBACK_MESSAGE)
  end.

Inductive atom := AStr | AInt | AFloat | ABool | ANoneV | ABytes | AComplex | AEllipsis.
Inductive pyv :=
| PAtom (a : atom)
| PSeq (items : list pyv)                (* list / tuple / set / frozenset *)
| PDict (kvs : list (pyv * pyv)).

(* what the state of a conversation can hold (serialization.encode_to_dict + json) *)
Definition atom_storable (a : atom) : bool :=
  match a with ABytes | AComplex | AEllipsis => false | _ => true end.

(* every atom of a value, dict KEYS included *)
Fixpoint atoms (v : pyv) : list atom :=
  match v with
  | PAtom a => [a]
  | PSeq l => (fix go (l : list pyv) : list atom := match l with [] => [] | x :: r => atoms x ++ go r end) l
  | PDict kvs => (fix go (l : list (pyv * pyv)) : list atom :=
                    match l with [] => [] | (k, x) :: r => atoms k ++ atoms x ++ go r end) kvs
  end.

(* actions/v2_x/generation.py _is_supported_value; [check_keys] is read from the source *)
Fixpoint supported_value (check_keys : bool) (v : pyv) : bool :=
  match v with
  | PAtom a => atom_storable a
  | PSeq l => (fix go (l : list pyv) : bool :=
                 match l with [] => true | x :: r => supported_value check_keys x && go r end) l
  | PDict kvs => (fix go (l : list (pyv * pyv)) : bool :=
                    match l with
                    | [] => true
                    | (k, x) :: r => (if check_keys then supported_value check_keys k else true)
                                     && supported_value check_keys x && go r
                    end) kvs
  end.

Example ex_fnl : get_first_nonempty_line (s2t "
   user hello  ") = Ok (Some (s2t "user hello")).
Proof. vm_compute. reflexivity. Qed.
Example ex_strip_quotes : strip_quotes (s2t """abc""") = Ok (s2t "abc").
Proof. vm_compute. reflexivity. Qed.
Example ex_next_step_empty : next_step_post (s2t "bot ""hello""") = Ok [].
Proof. vm_compute. reflexivity. Qed.
