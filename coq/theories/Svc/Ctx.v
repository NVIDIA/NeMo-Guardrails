(* C15 - the per-request state generate_async keeps in context variables
   (nemoguardrails/context.py: generation_options_var, raw_llm_request, llm_stats_var).

   An asyncio context is a map variable -> value.  A task created from a context starts with a
   COPY of it (Fork); what a task sets is invisible to its parent and siblings.  Requests
   served by the same coroutine run in the SAME context, one after the other.  A request
       generation_options_var.set(options)     -- options may be None
       ... the generation actions read generation_options_var.get() at every LLM call
   is modelled by one step: the entry code writes the variable, the calls of that request read
   it.  `always_set` says whether the entry code writes unconditionally (the shipped code) or
   only when the request carries options.  Values are abstract (V); None = no options. *)
From Coq Require Import List Bool Arith.
Import ListNotations.

Section Ctx.
  Variable V : Type.

  Definition ctxs := nat -> option V.          (* context id -> value of the variable there *)

  Definition cset (c : ctxs) (k : nat) (v : option V) : ctxs :=
    fun x => if Nat.eqb x k then v else c x.

  Inductive cop : Type :=
  | CFork (parent child : nat)                 (* create_task / run_until_complete: child context := copy *)
  | CReq (k : nat) (own : option V).           (* a request with these options served in context k *)

  (* what the entry code leaves in the variable *)
  Definition entry (always_set : bool) (own old : option V) : option V :=
    if always_set then own else match own with Some _ => own | None => old end.

  (* one step: new contexts, and for a request what its LLM calls see *)
  Definition cstep (always_set : bool) (c : ctxs) (o : cop) : ctxs * option (option V * option V) :=
    match o with
    | CFork p ch => (cset c ch (c p), None)
    | CReq k own =>
        let v := entry always_set own (c k) in
        (cset c k v, Some (own, v))
    end.

  (* log of (own options, options seen at the LLM calls) *)
  Fixpoint crun (always_set : bool) (c : ctxs) (ops : list cop) : list (option V * option V) :=
    match ops with
    | [] => []
    | o :: rest =>
        let '(c', ob) := cstep always_set c o in
        match ob with Some x => x :: crun always_set c' rest | None => crun always_set c' rest end
    end.

  Definition cinit : ctxs := fun _ => None.
End Ctx.

Arguments CFork {V} _ _.
Arguments CReq {V} _ _.

(* trace check used by the correspondence: values are small numbers *)
Definition oeqb (a b : option nat) : bool :=
  match a, b with
  | None, None => true
  | Some x, Some y => Nat.eqb x y
  | _, _ => false
  end.

(* one observed request: context it ran in, its own options, the options its LLM calls saw;
   forks are explicit *)
Inductive clog : Type :=
| LFork (parent child : nat)
| LReq (k : nat) (own seen : option nat).

Fixpoint check_csteps (always_set : bool) (c : ctxs nat) (log : list clog) : bool :=
  match log with
  | [] => true
  | LFork p ch :: rest => check_csteps always_set (cset nat c ch (c p)) rest
  | LReq k own seen :: rest =>
      let v := entry nat always_set own (c k) in
      oeqb v seen && check_csteps always_set (cset nat c k v) rest
  end.

Example stale_options :
  crun nat false (cinit nat) [CReq 0 (Some 7); CReq 0 None] = [(Some 7, Some 7); (None, Some 7)].
Proof. reflexivity. Qed.
