(* C20 - POSIX path functions used by nemoguardrails/server/api.py::_get_rails, as executable
   Gallina definitions over strings `list A` for an ABSTRACT alphabet A with decidable
   equality and three distinguished characters sep ('/'), dot ('.'), bslash ('\').

   Modelled after CPython 3.12 posixpath.py:
     join(a, b), normpath(path), abspath(path) (= normpath(join(cwd, path))),
     commonprefix(list)  -- CHARACTER-wise, not segment-wise --
   and after api.py::_get_rails:
     the reject test  re.search(<pattern>, config_id)  (pattern read from the source by
     translator/gen_c20.py: an alternation of sequences of character classes),
     the commonprefix test, and  get_rails_path : base -> id -> Accept path | Reject.

   Definitions only; proofs are in Path_proofs.v. *)
From Coq Require Import List Bool Arith.
Import ListNotations.

Section Path.
  Variable A : Type.
  Variable eqA : forall x y : A, {x = y} + {x <> y}.
  Variables sep dot bslash : A.

  Local Notation str := (list A).

  Definition ceq (x y : A) : bool := if eqA x y then true else false.

  Fixpoint str_eqb (s t : str) : bool :=
    match s, t with
    | [], [] => true
    | x :: s', y :: t' => ceq x y && str_eqb s' t'
    | _, _ => false
    end.

  Definition is_nil {X} (l : list X) : bool := match l with [] => true | _ => false end.

  Definition dotdot : str := [dot; dot].

  (* ---- str.startswith(sep) / str.endswith(sep) ---- *)
  Definition starts_with_sep (s : str) : bool :=
    match s with c :: _ => ceq c sep | [] => false end.

  Fixpoint ends_with_sep (s : str) : bool :=
    match s with
    | [] => false
    | [c] => ceq c sep
    | _ :: t => ends_with_sep t
    end.

  (* ---- posixpath.join(a, b) (two arguments, as called by _get_rails and abspath)
         if b.startswith(sep): path = b
         elif not path or path.endswith(sep): path += b
         else: path += sep + b ---- *)
  Definition join (a b : str) : str :=
    if starts_with_sep b then b
    else if is_nil a || ends_with_sep a then a ++ b
    else a ++ sep :: b.

  (* ---- str.split(sep): always a non-empty list; "" -> [""] ---- *)
  Fixpoint split (s : str) : list str :=
    match s with
    | [] => [[]]
    | c :: s' =>
        if eqA c sep then [] :: split s'
        else match split s' with
             | seg :: rest => (c :: seg) :: rest
             | [] => [[c]]          (* unreachable: split never returns [] *)
             end
    end.

  (* ---- sep.join(comps) ---- *)
  Fixpoint join_segs (l : list str) : str :=
    match l with
    | [] => []
    | [s] => s
    | s :: r => s ++ sep :: join_segs r
    end.

  (* ---- normpath ----
       initial_slashes = path.startswith(sep)
       if initial_slashes and path.startswith(sep*2) and not path.startswith(sep*3): initial_slashes = 2 *)
  Definition initial_slashes (p : str) : nat :=
    match p with
    | c1 :: r1 =>
        if ceq c1 sep then
          match r1 with
          | c2 :: r2 =>
              if ceq c2 sep then
                match r2 with
                | c3 :: _ => if ceq c3 sep then 1 else 2
                | [] => 2
                end
              else 1
          | [] => 1
          end
        else 0
    | [] => 0
    end.

  (* one iteration of the loop over comps; `stk` is new_comps REVERSED (head = new_comps[-1])
       if comp in ('', '.'): continue
       if (comp != '..' or (not initial_slashes and not new_comps) or
             (new_comps and new_comps[-1] == '..')): new_comps.append(comp)
       elif new_comps: new_comps.pop() *)
  Definition np_step (absolute : bool) (stk : list str) (comp : str) : list str :=
    if str_eqb comp [] || str_eqb comp [dot] then stk
    else if negb (str_eqb comp dotdot)
            || (negb absolute && is_nil stk)
            || match stk with top :: _ => str_eqb top dotdot | [] => false end
         then comp :: stk
         else match stk with _ :: stk' => stk' | [] => [] end.

  Definition norm_comps (absolute : bool) (comps : list str) : list str :=
    rev (fold_left (np_step absolute) comps []).

  Definition normpath (p : str) : str :=
    match p with
    | [] => [dot]
    | _ =>
        let n := initial_slashes p in
        let comps := norm_comps (negb (Nat.eqb n 0)) (split p) in
        let path := repeat sep n ++ join_segs comps in
        match path with [] => [dot] | _ => path end
    end.

  (* ---- abspath(path) with the process working directory cwd:
         if not isabs(path): path = join(cwd, path);  return normpath(path) ---- *)
  Definition abspath (cwd p : str) : str :=
    normpath (if starts_with_sep p then p else join cwd p).

  (* ---- commonprefix: longest common prefix CHARACTER by character.
     CPython takes min(m) and max(m) and compares those two; for any list that is the longest
     common prefix of all members, which is what is defined here (the correspondence check
     compares with the real function on lists of 0-4 strings). ---- *)
  Fixpoint lcp (a b : str) : str :=
    match a, b with
    | x :: a', y :: b' => if ceq x y then x :: lcp a' b' else []
    | _, _ => []
    end.

  Definition commonprefix (m : list str) : str :=
    match m with
    | [] => []
    | s :: r => fold_left lcp r s
    end.

  (* ---- re.search for the fragment  alt1|alt2|...  where each alternative is a sequence of
     character classes (a literal is a one-element class).  An empty alternative matches
     everywhere. ---- *)
  Definition cclass := list A.
  Definition alt := list cclass.

  Fixpoint mem (x : A) (c : cclass) : bool :=
    match c with [] => false | y :: c' => ceq x y || mem x c' end.

  Fixpoint match_here (a : alt) (s : str) : bool :=
    match a with
    | [] => true
    | c :: a' => match s with
                 | [] => false
                 | x :: s' => mem x c && match_here a' s'
                 end
    end.

  Fixpoint re_search (alts : list alt) (s : str) : bool :=
    existsb (fun a => match_here a s) alts
    || match s with [] => false | _ :: s' => re_search alts s' end.

  (* decidable sufficient condition for "the pattern fires on every string containing x":
     some alternative is a single class containing x *)
  Definition pat_rejects_char (pat : list alt) (x : A) : bool :=
    existsb (fun a => match a with [c] => mem x c | _ => false end) pat.

  (* ---- _get_rails, per config id ---- *)
  Variable pat : list alt.                (* the reject pattern as read from the source *)
  Variable use_prefix_check : bool.       (* whether the commonprefix test is present *)

  Inductive path_res := Accept (p : str) | Reject.

  (*   full_path = os.path.normpath(os.path.join(base_path, config_id))
       if re.search(pat, config_id): raise ValueError
       if os.path.commonprefix([full_path, base_path]) != base_path: raise ValueError
       RailsConfig.from_path(full_path)                                        *)
  Definition get_rails_path (base id : str) : path_res :=
    let full := normpath (join base id) in
    if re_search pat id then Reject
    else if use_prefix_check && negb (str_eqb (commonprefix [full; base]) base) then Reject
    else Accept full.

  (* ---- what "inside the root" means, on strings ---- *)
  Definition tail_sep (b : str) : str := if ends_with_sep b then [] else [sep].

  (* a directory entry name: non-empty, no separator, not "." and not ".." *)
  Definition plain (s : str) : Prop :=
    s <> [] /\ ~ In sep s /\ s <> [dot] /\ s <> dotdot.

  Definition inside (base p : str) : Prop :=
    p = base \/ exists seg, p = base ++ tail_sep base ++ seg /\ plain seg.

  (* a normalised absolute path: one or two leading separators followed by plain segments
     joined by single separators (what normpath returns on an absolute path) *)
  Definition abs_normal (b : str) : Prop :=
    exists n segs, (n = 1 \/ n = 2) /\ Forall plain segs /\ b = repeat sep n ++ join_segs segs.

  (* the source-level reading of the shipped reject test: a separator, a backslash, or two
     consecutive dots anywhere in the id *)
  Fixpoint has_dotdot (s : str) : bool :=
    match s with
    | x :: ((y :: _) as s') => (ceq x dot && ceq y dot) || has_dotdot s'
    | _ => false
    end.

  Definition reject_src (id : str) : bool :=
    mem sep id || mem bslash id || has_dotdot id.

End Path.

Arguments Accept {A} p.
Arguments Reject {A}.
Arguments is_nil {X} l.
