(* C13 (error path) - the error-wrapping contract of the configuration loaders.

   Model of
     nemoguardrails/rails/llm/config.py :: _parse_colang_files_recursively  (the try/except
         around parse_colang_file), RailsConfig.from_content (its call of parse_colang_file)
     nemoguardrails/colang/v2_x/lang/utils.py :: format_colang_parsing_error_message

   The parser itself (Lark LALR tables + transformer, the hand-written Colang 1.0 parser) is
   an ORACLE: it either returns or raises an exception object, of which the wrapper reads
   exactly: its classes (isinstance against the classes named in the except clauses), the
   attributes `line` and `column`, and str().  Python's semantics for what the formatter
   does with these is explicit: a missing attribute raises AttributeError, `None - 1` (or
   any non-int) raises TypeError, a list index outside [-n, n) raises IndexError and a
   negative index in range wraps around.

   The except clauses and the shape of the formatter are DATA (`handler`, `fmt_cfg`), read
   from the current source by translator/gen_c13.py into Gen/C13Consts.v; `handlers_orig`
   / `fmt_orig` below are the pinned, unrepaired code. *)
From Coq Require Import ZArith List String Bool Ascii.
Import ListNotations.
Open Scope string_scope.
Open Scope Z_scope.

(* value of an attribute as the formatter can observe it *)
Inductive attr :=
| AAbsent            (* the exception object has no such attribute *)
| ANone              (* attribute is None *)
| AInt (z : Z)       (* an int (bool counts as the int it is) *)
| AOther.            (* any other object (str, float, ...): arithmetic/indexing with it raises TypeError *)

Record exn := {
  e_isa : list string;   (* names of the classes the object is an instance of (its MRO) *)
  e_line : attr;
  e_column : attr;
  e_str : string         (* str(exception) *)
}.

Definition isinstance (e : exn) (cls : string) : bool := existsb (String.eqb cls) (e_isa e).

Inductive pyerr := AttributeError | TypeError | IndexError.

Inductive res (A : Type) := Val (a : A) | Err (k : pyerr).
Arguments Val {A} a.
Arguments Err {A} k.


Record fmt_cfg := {
  f_line_getattr : bool;  (* getattr(exception, "line", None) instead of exception.line *)
  f_line_guard : bool;    (* `if not isinstance(line, int) or not 1 <= line <= len(lines): return f"{exception}"` *)
  f_col_guard : bool      (* `if not isinstance(column, int) or column < 1: column = 1` *)
}.

Definition fmt_orig : fmt_cfg := {| f_line_getattr := false; f_line_guard := false; f_col_guard := false |}.
Definition fmt_defensive : fmt_cfg := {| f_line_getattr := true; f_line_guard := true; f_col_guard := true |}.

(* Python list indexing *)
Definition py_index (ls : list string) (i : Z) : option string :=
  let n := Z.of_nat (List.length ls) in
  if (0 <=? i) && (i <? n) then nth_error ls (Z.to_nat i)
  else if (- n <=? i) && (i <? 0) then nth_error ls (Z.to_nat (n + i))
  else None.

Fixpoint spaces (n : nat) : string :=
  match n with O => "" | S m => String " "%char (spaces m) end.

(* " " * k : the empty string for k <= 0 *)
Definition py_spaces (k : Z) : string := spaces (Z.to_nat k).

Definition nl : string := String (ascii_of_nat 10) "".

Definition get_line (c : fmt_cfg) (e : exn) : res attr :=
  match e_line e with
  | AAbsent => if f_line_getattr c then Val ANone else Err AttributeError
  | a => Val a
  end.

Definition line_usable (a : attr) (n : Z) : bool :=
  match a with AInt z => (1 <=? z) && (z <=? n) | _ => false end.

Definition get_column (c : fmt_cfg) (e : exn) : attr :=
  let raw := match e_column e with AAbsent => AInt 1 | a => a end in   (* getattr(exception, "column", 1) *)
  if f_col_guard c then
    match raw with AInt z => if z <? 1 then AInt 1 else AInt z | _ => AInt 1 end
  else raw.

(* `lines` is colang_content.splitlines() (the splitting itself is Python's) *)
Definition fmt (c : fmt_cfg) (e : exn) (lines : list string) : res string :=
  match get_line c e with
  | Err k => Err k
  | Val a =>
    if f_line_guard c && negb (line_usable a (Z.of_nat (List.length lines))) then Val (e_str e)
    else
      match a with
      | AInt z =>
        match py_index lines (z - 1) with
        | None => Err IndexError
        | Some l =>
          match get_column c e with
          | AInt col => Val (e_str e ++ ":" ++ nl ++ l ++ nl ++ py_spaces (col - 1) ++ "^")
          | _ => Err TypeError
          end
        end
      | _ => Err TypeError      (* None - 1, "3" - 1, lines[1.5] *)
      end
  end.


Inductive tpart :=
| TLit (s : string)
| TPath                  (* {current_path}, or the constant file name of from_content *)
| TVersion               (* {colang_version} *)
| TOtherVar (name : string).

Record handler := {
  h_class : string;          (* except <h_class> as e *)
  h_raises : string;         (* the class raised in the handler body *)
  h_tpl : list tpart;        (* its message (f-string parts) *)
  h_fmt : bool               (* ... + format_colang_parsing_error_message(e, content) *)
}.

Definition cpe : string := "ColangParsingError".

Definition handlers_orig : list handler := [
  {| h_class := "ValueError"; h_raises := cpe;
     h_tpl := [TLit "Unsupported colang version "; TVersion; TLit " for file: "; TPath]; h_fmt := false |};
  {| h_class := "Exception"; h_raises := cpe;
     h_tpl := [TLit "Error while parsing Colang file: "; TPath; TLit nl]; h_fmt := true |}
].
(* pinned RailsConfig.from_content: parse_colang_file("main.co", ...) is not inside any try *)
Definition handlers_content_orig : list handler := [].

Definition render_part (path version : string) (p : tpart) : string :=
  match p with
  | TLit s => s
  | TPath => path
  | TVersion => version
  | TOtherVar _ => ""     (* contents unknown; never relied upon *)
  end.

Fixpoint render (path version : string) (t : list tpart) : string :=
  match t with
  | [] => ""
  | p :: r => render_part path version p ++ render path version r
  end.

Inductive outcome := POk | PRaise (e : exn).

Inductive escape :=
| EscOriginal              (* no except clause matches: the parser's exception propagates *)
| EscPy (k : pyerr)        (* an exception raised while building the message *)
| EscClass (cls : string). (* a handler raises something that is not the parsing error *)

Inductive load_res :=
| LOk
| LParsingError (msg : string)
| LEscape (x : escape).

Definition wrap (hs : list handler) (fc : fmt_cfg) (path version : string)
           (o : outcome) (lines : list string) : load_res :=
  match o with
  | POk => LOk
  | PRaise e =>
    match find (fun h => isinstance e (h_class h)) hs with
    | None => LEscape EscOriginal
    | Some h =>
      let base := render path version (h_tpl h) in
      let raise_ msg := if String.eqb (h_raises h) cpe then LParsingError msg else LEscape (EscClass (h_raises h)) in
      if h_fmt h then
        match fmt fc e lines with
        | Val m => raise_ (base ++ m)
        | Err k => LEscape (EscPy k)
        end
      else raise_ base
    end
  end.

(* "names the file" *)
Definition contains (p s : string) : Prop := exists a b, s = a ++ p ++ b.

(* the property: success, or the library's parsing error naming the file *)
Definition good (path : string) (r : load_res) : Prop :=
  match r with
  | LOk => True
  | LParsingError m => contains path m
  | LEscape _ => False
  end.

(* decidable sufficient condition on the data read from the source *)
Definition tpl_names_path (t : list tpart) : bool :=
  existsb (fun p => match p with TPath => true | _ => false end) t.

Definition handler_ok (fc : fmt_cfg) (h : handler) : bool :=
  String.eqb (h_raises h) cpe && tpl_names_path (h_tpl h)
  && (negb (h_fmt h) || (f_line_getattr fc && f_line_guard fc && f_col_guard fc)).

Definition cfg_ok (hs : list handler) (fc : fmt_cfg) : bool :=
  forallb (handler_ok fc) hs && existsb (fun h => String.eqb (h_class h) "Exception") hs.

Definition dedent_error : exn :=
  {| e_isa := ["DedentError"; "LarkError"; "Exception"; "BaseException"]; e_line := AAbsent; e_column := AAbsent;
     e_str := "Unexpected dedent to column 2. Expected dedent to 0" |}.
Definition unexpected_eof : exn :=
  {| e_isa := ["UnexpectedToken"; "ParseError"; "UnexpectedInput"; "LarkError"; "Exception"; "BaseException"];
     e_line := ANone; e_column := ANone; e_str := "Unexpected token Token('_DEDENT', '')" |}.
Definition beyond_last_line : exn :=
  {| e_isa := ["UnexpectedToken"; "Exception"]; e_line := AInt 4; e_column := AInt 1; e_str := "x" |}.

Example orig_dedent : wrap handlers_orig fmt_orig "/cfg/bad.co" "2.x" (PRaise dedent_error) ["flow main"; "    match A"; "  match B"]
                      = LEscape (EscPy AttributeError).
Proof. reflexivity. Qed.
Example orig_eof : wrap handlers_orig fmt_orig "/cfg/bad.co" "2.x" (PRaise unexpected_eof) ["flow main"; "  match (A"]
                   = LEscape (EscPy TypeError).
Proof. reflexivity. Qed.
Example orig_beyond : wrap handlers_orig fmt_orig "/cfg/bad.co" "2.x" (PRaise beyond_last_line) ["a"; "b"]
                      = LEscape (EscPy IndexError).
Proof. reflexivity. Qed.
Example defensive_dedent :
  wrap handlers_orig fmt_defensive "bad.co" "2.x" (PRaise dedent_error) ["flow main"]
  = LParsingError ("Error while parsing Colang file: bad.co" ++ nl ++ "Unexpected dedent to column 2. Expected dedent to 0").
Proof. reflexivity. Qed.
