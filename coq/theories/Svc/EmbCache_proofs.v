(* C19 - proofs about the cache_embeddings model (Svc/EmbCache.v).
   P is the set of "texts in play" (every text ever passed through this store); the one
   hypothesis about the key generator is injectivity on P. *)
From Coq Require Import List Bool Arith.
From NG Require Import Svc.EmbCache.
Import ListNotations.

Section Proofs.
  Variables text key vec : Type.
  Variable text_eq_dec : forall a b : text, {a = b} + {a <> b}.
  Variable key_eq_dec : forall a b : key, {a = b} + {a <> b}.
  Variable kg : text -> key.
  Variable emb : text -> vec.
  Variable P : text -> Prop.

  Definition inj_on : Prop := forall a b, P a -> P b -> kg a = kg b -> a = b.

  (* what any sequence of earlier calls leaves behind: every binding under the key of a text
     in play is that text's embedding *)
  Definition consistent (s : store key vec) : Prop :=
    forall t v, P t -> store_get key_eq_dec s (kg t) = Some v -> v = emb t.

  Notation sget := (store_get key_eq_dec).
  Notation tget := (td_get text_eq_dec).
  Notation cgl := (cache_get_list key_eq_dec kg).
  Notation csl := (cache_set_list kg).

  Lemma sget_set : forall (s : store key vec) k v k',
    sget (store_set s k v) k' = if key_eq_dec k' k then Some v else sget s k'.
  Proof. reflexivity. Qed.

  Lemma consistent_nil : consistent [].
  Proof. intros t v _ H. discriminate H. Qed.

  Lemma td_get_app : forall (a b : tdict text vec) t,
    tget (a ++ b) t = match tget a t with Some v => Some v | None => tget b t end.
  Proof.
    induction a as [|[t' v] a IH]; intros b t; simpl.
    - reflexivity.
    - destruct (text_eq_dec t t'); [reflexivity | apply IH].
  Qed.

  (* EmbeddingsCache.get(texts) adds the hits one by one: the last text of the list is looked
     up last and its binding is found first *)
  Lemma cgl_snoc : forall (s : store key vec) l a,
    cgl s (l ++ [a]) = match sget s (kg a) with Some v => (a, v) :: cgl s l | None => cgl s l end.
  Proof. intros. unfold cache_get_list. rewrite fold_left_app. reflexivity. Qed.

  Lemma cgl_notin : forall (s : store key vec) l t, ~ In t l -> tget (cgl s l) t = None.
  Proof.
    intros s l t. induction l as [|a l IH] using rev_ind; intro Hn; [reflexivity|].
    assert (Hl : ~ In t l) by (intro; apply Hn; apply in_or_app; left; assumption).
    rewrite cgl_snoc. destruct (sget s (kg a)); [|exact (IH Hl)].
    simpl. destruct (text_eq_dec t a) as [->|_]; [|exact (IH Hl)].
    exfalso. apply Hn. apply in_or_app. right. left. reflexivity.
  Qed.

  Lemma cgl_in : forall (s : store key vec) l t, In t l -> tget (cgl s l) t = sget s (kg t).
  Proof.
    intros s l t. induction l as [|a l IH] using rev_ind; intro Hin; [destruct Hin|].
    rewrite cgl_snoc. destruct (text_eq_dec t a) as [->|Hne].
    - destruct (sget s (kg a)) eqn:Ha; simpl.
      + destruct (text_eq_dec a a); [reflexivity|congruence].
      + destruct (in_dec text_eq_dec a l) as [Hl|Hl]; [exact (IH Hl)|apply cgl_notin; assumption].
    - assert (Hl : In t l).
      { apply in_app_or in Hin. destruct Hin as [H|[E|[]]]; [exact H|congruence]. }
      destruct (sget s (kg a)); simpl; [destruct (text_eq_dec t a); [contradiction|]|]; exact (IH Hl).
  Qed.

  Lemma csl_cons : forall (s : store key vec) a u v vs, csl s (a :: u) (v :: vs) = csl (store_set s (kg a) v) u vs.
  Proof. reflexivity. Qed.

  (* what cache.set(u, model(u)) leaves under the key of a text in play *)
  Lemma csl_get : inj_on -> forall u s t, Forall P u -> P t ->
    sget (csl s u (map emb u)) (kg t) = if in_dec text_eq_dec t u then Some (emb t) else sget s (kg t).
  Proof.
    intros Hinj. induction u as [|a u IH]; intros s t HP Pt; [reflexivity|].
    inversion HP; subst. simpl map. rewrite csl_cons, IH, sget_set by assumption.
    destruct (in_dec text_eq_dec t u) as [Hl|Hl].
    - destruct (in_dec text_eq_dec t (a :: u)) as [_|Hn]; [reflexivity|]. destruct Hn. right. exact Hl.
    - destruct (key_eq_dec (kg t) (kg a)) as [e|Hk]; destruct (in_dec text_eq_dec t (a :: u)) as [[->|Hin]|Hn];
        try reflexivity; try contradiction.
      destruct Hn. left. symmetry. apply Hinj; assumption.
  Qed.

  Lemma csl_consistent : inj_on -> forall u s, Forall P u -> consistent s ->
    consistent (csl s u (map emb u)).
  Proof.
    intros Hinj u s HP Hc t v Pt Hg. rewrite csl_get in Hg by assumption.
    destruct (in_dec text_eq_dec t u); [congruence|apply Hc; assumption].
  Qed.

  (* what the first half hands to the second *)
  Definition begin_ok (texts : list text) (c : tdict text vec) (u : list text) : Prop :=
    (forall t, In t u -> In t texts) /\
    (forall t, In t texts -> ~ In t u -> exists v, tget c t = Some v) /\
    (forall t v, P t -> tget c t = Some v -> v = emb t).

  Lemma wrap_begin_unc : forall (s : store key vec) texts t,
    In t (snd (wrap_begin text_eq_dec key_eq_dec kg s texts)) <->
    In t texts /\ sget s (kg t) = None.
  Proof.
    intros s texts t. unfold wrap_begin. simpl. rewrite filter_In. unfold td_mem.
    split; intros [Hin H]; split; try assumption.
    - rewrite cgl_in in H by assumption. destruct (sget s (kg t)); [discriminate H|reflexivity].
    - rewrite cgl_in by assumption. rewrite H. reflexivity.
  Qed.

  Lemma wrap_begin_ok : forall s texts, consistent s ->
    begin_ok texts (fst (wrap_begin text_eq_dec key_eq_dec kg s texts))
                   (snd (wrap_begin text_eq_dec key_eq_dec kg s texts)).
  Proof.
    intros s texts Hc. split; [|split].
    - intros t H. apply wrap_begin_unc in H. tauto.
    - intros t Hin Hn. unfold wrap_begin. simpl fst. rewrite cgl_in by assumption.
      destruct (sget s (kg t)) eqn:Hg; [eauto|].
      exfalso. apply Hn. apply wrap_begin_unc. tauto.
    - intros t v Pt Hg. unfold wrap_begin in Hg. simpl fst in Hg.
      destruct (in_dec text_eq_dec t texts) as [Hl|Hl].
      + rewrite cgl_in in Hg by assumption. apply Hc; assumption.
      + rewrite cgl_notin in Hg by assumption. discriminate Hg.
  Qed.

  (* setting nothing leaves the store as it is, so the `if uncached_texts:` needs no case *)
  Lemma wrap_end_eq : forall (s : store key vec) texts c u fresh,
    wrap_end text_eq_dec key_eq_dec kg s texts c u fresh =
    (map (tget (td_update c (cgl (csl s u fresh) u))) texts, csl s u fresh).
  Proof. intros. destruct u; reflexivity. Qed.

  (* the second half, run on ANY consistent store (the store may have been written by other
     tasks while the model call was awaited) *)
  Lemma wrap_end_ok : inj_on -> forall s2 texts c u, Forall P texts -> begin_ok texts c u ->
    consistent s2 ->
    fst (wrap_end text_eq_dec key_eq_dec kg s2 texts c u (map emb u)) = map (fun t => Some (emb t)) texts /\
    consistent (snd (wrap_end text_eq_dec key_eq_dec kg s2 texts c u (map emb u))).
  Proof.
    intros Hinj s2 texts c u HP [Hsub [Hhit Hval]] Hc2.
    assert (HPu : Forall P u).
    { rewrite Forall_forall in *. intros t Ht. apply HP. apply Hsub. exact Ht. }
    rewrite wrap_end_eq. split; [|apply csl_consistent; assumption].
    apply map_ext_in. intros t Ht. unfold td_update. rewrite td_get_app.
    assert (Pt : P t) by (rewrite Forall_forall in HP; exact (HP t Ht)).
    destruct (in_dec text_eq_dec t u) as [Hl|Hl].
    - rewrite cgl_in, csl_get by assumption. destruct (in_dec text_eq_dec t u); [reflexivity|contradiction].
    - rewrite cgl_notin by assumption.
      destruct (Hhit t Ht Hl) as [v Hv]. rewrite Hv. f_equal. exact (Hval t v Pt Hv).
  Qed.

  (* a call with the cache enabled, in one equation: u are the misses, s' the store afterwards *)
  Lemma wrapper_on : forall model (s : store key vec) texts,
    let u := snd (wrap_begin text_eq_dec key_eq_dec kg s texts) in
    let s' := csl s u (model u) in
    wrapper text_eq_dec key_eq_dec kg true model s texts
    = (map (tget (td_update (cgl s texts) (cgl s' u))) texts, s', match u with [] => [] | _ :: _ => [u] end).
  Proof. intros. unfold wrapper, wrap_begin. rewrite wrap_end_eq. reflexivity. Qed.

  Lemma wrapper_ok : inj_on -> forall enabled s texts, Forall P texts -> consistent s ->
    w_results (wrapper text_eq_dec key_eq_dec kg enabled (map emb) s texts) = map (fun t => Some (emb t)) texts /\
    consistent (w_store (wrapper text_eq_dec key_eq_dec kg enabled (map emb) s texts)).
  Proof.
    intros Hinj enabled s texts HP Hc. destruct enabled.
    - pose proof (wrap_end_ok Hinj s texts _ _ HP (wrap_begin_ok s texts Hc) Hc) as H.
      rewrite wrap_end_eq in H. rewrite wrapper_on. exact H.
    - split; [apply map_map | assumption].
  Qed.

  Lemma store_after_consistent : inj_on -> forall history s, Forall (Forall P) history ->
    consistent s -> consistent (store_after text_eq_dec key_eq_dec kg (map emb) s history).
  Proof.
    intros Hinj. induction history as [|h history IH]; intros s HP Hc.
    - exact Hc.
    - inversion HP; subst. simpl. apply IH; [assumption|].
      apply (wrapper_ok Hinj true s h); assumption.
  Qed.

  (* C19_cache_correct *)
  Theorem cache_correct : inj_on -> forall enabled history texts,
    Forall (Forall P) history -> Forall P texts ->
    w_results (wrapper text_eq_dec key_eq_dec kg enabled (map emb)
                 (store_after text_eq_dec key_eq_dec kg (map emb) [] history) texts)
    = map (fun t => Some (emb t)) texts.
  Proof.
    intros Hinj enabled history texts HPh HP.
    apply wrapper_ok; try assumption.
    apply store_after_consistent; try assumption. apply consistent_nil.
  Qed.

  (* C19_cache_asks_only_inputs *)
  Theorem cache_calls_sub : forall enabled model (s : store key vec) texts c t,
    In c (w_calls (wrapper text_eq_dec key_eq_dec kg enabled model s texts)) -> In t c -> In t texts.
  Proof.
    intros enabled model s texts c t Hc Ht. destruct enabled.
    - rewrite wrapper_on in Hc. unfold w_calls in Hc. cbn [snd] in Hc.
      destruct (snd (wrap_begin text_eq_dec key_eq_dec kg s texts)) as [|a u] eqn:E; [destruct Hc|].
      destruct Hc as [<-|[]]. apply (wrap_begin_unc s texts t). rewrite E. exact Ht.
    - destruct Hc as [<-|[]]. exact Ht.
  Qed.

  (* C19_cache_collision_refuted, general form: two texts with one key and different
     embeddings are enough, on an empty store *)
  Theorem cache_collision : forall t1 t2, kg t1 = kg t2 -> emb t1 <> emb t2 ->
    w_results (wrapper text_eq_dec key_eq_dec kg true (map emb) [] [t1; t2])
    <> map (fun t => Some (emb t)) [t1; t2].
  Proof.
    intros t1 t2 Hk Hne H. rewrite wrapper_on in H.
    (* on the empty store both texts miss; afterwards the shared key holds t2's vector, which t1 is served *)
    change (snd (wrap_begin text_eq_dec key_eq_dec kg [] [t1; t2])) with [t1; t2] in H.
    injection H as H1 _. unfold td_update in H1. rewrite td_get_app, cgl_in in H1 by (left; reflexivity).
    change (csl [] [t1; t2] [emb t1; emb t2]) with (store_set (store_set [] (kg t1) (emb t1)) (kg t2) (emb t2)) in H1.
    rewrite sget_set, Hk in H1. destruct (key_eq_dec (kg t2) (kg t2)); [|congruence].
    injection H1 as H1. congruence.
  Qed.

  Lemma csl_origin : forall u (s : store key vec) k v,
    sget (csl s u (map emb u)) k = Some v ->
    sget s k = Some v \/ exists t, In t u /\ k = kg t /\ v = emb t.
  Proof.
    induction u as [|a u IH]; intros s k v H.
    - left. exact H.
    - simpl map in H. rewrite csl_cons in H. apply IH in H. destruct H as [H|[t [Hin [Hk Hv]]]].
      + rewrite sget_set in H. destruct (key_eq_dec k (kg a)) as [e|_].
        * right. exists a. inversion H. split; [left; reflexivity|split; [exact e|reflexivity]].
        * left. exact H.
      + right. exists t. split; [right; exact Hin|split; assumption].
  Qed.

  Lemma wrapper_store_origin : forall (s : store key vec) texts k v,
    sget (w_store (wrapper text_eq_dec key_eq_dec kg true (map emb) s texts)) k = Some v ->
    sget s k = Some v \/ exists t, In t texts /\ k = kg t /\ v = emb t.
  Proof.
    intros s texts k v H. rewrite wrapper_on in H.
    apply csl_origin in H. destruct H as [H|[t [Hin [Hk Hv]]]]; [left; exact H|].
    right. exists t. split; [apply (wrap_begin_unc s texts t); exact Hin|split; assumption].
  Qed.

  (* a call whose texts are all found in the store returns what the store holds, whatever the
     key generator and whoever wrote it *)
  Lemma wrapper_hits : forall model (s : store key vec) texts,
    (forall t, In t texts -> sget s (kg t) <> None) ->
    w_results (wrapper text_eq_dec key_eq_dec kg true model s texts) = map (fun t => sget s (kg t)) texts.
  Proof.
    intros model s texts Hhit. rewrite wrapper_on.
    destruct (snd (wrap_begin text_eq_dec key_eq_dec kg s texts)) as [|t u] eqn:E.
    - apply map_ext_in. intros t Ht. apply cgl_in. exact Ht.
    - destruct (proj1 (wrap_begin_unc s texts t)) as [Ht Hn]; [rewrite E; left; reflexivity|]. destruct (Hhit t Ht Hn).
  Qed.

  (* the two halves of one call run on DIFFERENT consistent stores: whatever other tasks
     wrote into the (shared) store while the model call was awaited *)
  Theorem wrapper_interleaved : inj_on -> forall s1 s2 texts, Forall P texts ->
    consistent s1 -> consistent s2 ->
    let b := wrap_begin text_eq_dec key_eq_dec kg s1 texts in
    let e := wrap_end text_eq_dec key_eq_dec kg s2 texts (fst b) (snd b) (map emb (snd b)) in
    fst e = map (fun t => Some (emb t)) texts /\ consistent (snd e).
  Proof.
    intros Hinj s1 s2 texts HP H1 H2. simpl.
    apply wrap_end_ok; try assumption. apply wrap_begin_ok. assumption.
  Qed.

End Proofs.

Section MultiProofs.
  Variables text key vec : Type.
  Variable text_eq_dec : forall a b : text, {a = b} + {a <> b}.
  Variable key_eq_dec : forall a b : key, {a = b} + {a <> b}.
  Variable P : text -> Prop.
  Variable indexes : list (index text key vec).

  (* the assumption: indexes whose configurations name the same store agree on key generator
     and embedding model (distinct models => distinct stores) *)
  Definition compatible : Prop :=
    forall a b, In a indexes -> In b indexes -> ix_sid a = ix_sid b ->
      forall t, ix_kg a t = ix_kg b t /\ ix_emb a t = ix_emb b t.

  Definition all_inj : Prop := forall a, In a indexes -> inj_on text key (ix_kg a) P.

  (* isolation from the KEYS alone, with no assumption on which configurations share a store:
     it is enough that, inside one store, equal keys imply equal vectors *)
  Definition key_sound : Prop :=
    forall a b, In a indexes -> In b indexes -> ix_sid a = ix_sid b ->
      forall t t', P t -> P t' -> ix_kg a t = ix_kg b t' -> ix_emb a t = ix_emb b t'.

  Lemma compatible_sound : all_inj -> compatible -> key_sound.
  Proof.
    intros Hinj Hcomp a b Ha Hb Hs t t' Pt Pt' Hk.
    destruct (Hcomp a b Ha Hb Hs t) as [Hkt ->]. f_equal.
    apply (Hinj b Hb); congruence.
  Qed.

  Definition stores_ok (S : stores key vec) : Prop :=
    forall a, In a indexes -> consistent text key vec key_eq_dec (ix_kg a) (ix_emb a) P (S (ix_sid a)).

  Lemma mcall_ok : all_inj -> key_sound -> forall S a texts,
    stores_ok S -> In a indexes -> Forall P texts ->
    fst (mcall text_eq_dec key_eq_dec S a texts) = map (fun t => Some (ix_emb a t)) texts /\
    stores_ok (snd (mcall text_eq_dec key_eq_dec S a texts)).
  Proof.
    intros Hinj Hks S a texts HS Ha HP. unfold mcall. simpl.
    destruct (wrapper_ok text key vec text_eq_dec key_eq_dec (ix_kg a) (ix_emb a) P (Hinj a Ha) true
                (S (ix_sid a)) texts HP (HS a Ha)) as [Hr _].
    split; [exact Hr|].
    intros b Hb. unfold sset. destruct (ix_sid b =? ix_sid a) eqn:E; [|apply HS; exact Hb].
    apply Nat.eqb_eq in E. intros t v Pt Hg.
    apply wrapper_store_origin in Hg. destruct Hg as [Hg|[t' [Hin [Hk Hv]]]].
    - rewrite <- E in Hg. apply (HS b Hb t v Pt Hg).
    - subst v. symmetry. apply (Hks b a Hb Ha E t t' Pt); [|exact Hk].
      rewrite Forall_forall in HP. apply HP. exact Hin.
  Qed.

  Lemma mrun_ok : all_inj -> key_sound -> forall calls S,
    stores_ok S -> Forall (fun c => In (fst c) indexes /\ Forall P (snd c)) calls ->
    stores_ok (mrun text_eq_dec key_eq_dec S calls).
  Proof.
    intros Hinj Hks. induction calls as [|[a texts] calls IH]; intros S HS Hall; simpl.
    - exact HS.
    - inversion Hall as [|x l [Ha HP] Hrest]; subst. simpl in Ha, HP.
      apply IH; [|exact Hrest]. apply mcall_ok; assumption.
  Qed.

  Theorem multi_correct_sound : all_inj -> key_sound -> forall history a texts,
    Forall (fun c => In (fst c) indexes /\ Forall P (snd c)) history -> In a indexes -> Forall P texts ->
    fst (mcall text_eq_dec key_eq_dec (mrun text_eq_dec key_eq_dec no_stores history) a texts)
    = map (fun t => Some (ix_emb a t)) texts.
  Proof.
    intros Hinj Hks history a texts Hh Ha HP.
    apply mcall_ok; try assumption. apply mrun_ok; try assumption.
    intros b _. apply consistent_nil.
  Qed.

  (* C19_cache_isolation_by_store *)
  Theorem multi_correct : all_inj -> compatible -> forall history a texts,
    Forall (fun c => In (fst c) indexes /\ Forall P (snd c)) history -> In a indexes -> Forall P texts ->
    fst (mcall text_eq_dec key_eq_dec (mrun text_eq_dec key_eq_dec no_stores history) a texts)
    = map (fun t => Some (ix_emb a t)) texts.
  Proof.
    intros Hinj Hcomp. apply multi_correct_sound; [exact Hinj|]. apply compatible_sound; assumption.
  Qed.

  (* without the assumption: two indexes with one store, one key for the text and different
     models - the second gets the first model's vector *)
  Theorem multi_shared_store_refuted : forall (a b : index text key vec) (t : text),
    ix_sid a = ix_sid b -> ix_kg a t = ix_kg b t -> ix_emb a t <> ix_emb b t ->
    fst (mcall text_eq_dec key_eq_dec (mrun text_eq_dec key_eq_dec no_stores [(a, [t])]) b [t])
    = [Some (ix_emb a t)] /\
    fst (mcall text_eq_dec key_eq_dec (mrun text_eq_dec key_eq_dec no_stores [(a, [t])]) b [t])
    <> map (fun t => Some (ix_emb b t)) [t].
  Proof.
    intros a b t Hs Hk Hne.
    assert (H : fst (mcall text_eq_dec key_eq_dec (mrun text_eq_dec key_eq_dec no_stores [(a, [t])]) b [t])
                = [Some (ix_emb a t)]).
    { unfold mcall at 1. unfold fst. simpl mrun. unfold sset. rewrite Hs, Nat.eqb_refl.
      (* the store b reads is the one a's call left: [(ix_kg a t, ix_emb a t)] *)
      change (w_store _) with [(ix_kg a t, ix_emb a t)]. rewrite Hk.
      assert (Hg : store_get key_eq_dec [(ix_kg b t, ix_emb a t)] (ix_kg b t) = Some (ix_emb a t)).
      { simpl. destruct (key_eq_dec (ix_kg b t) (ix_kg b t)); congruence. }
      rewrite wrapper_hits.
      - cbn [map]. rewrite Hg. reflexivity.
      - intros t' [<-|[]]. rewrite Hg. discriminate. }
    split; [exact H|]. rewrite H. simpl. intro E. inversion E. congruence.
  Qed.
End MultiProofs.

(* Keys made of (model identity, text): the key generator is applied to the text together with the identity of the index's embedding
   model (`incl = true`: the current source) or to the text alone (`incl = false`: before the
   fix).  kx_gen is the generator on that composite. *)
Section Keyed.
  Variables mid text key vec : Type.
  Variable text_eq_dec : forall a b : text, {a = b} + {a <> b}.
  Variable key_eq_dec : forall a b : key, {a = b} + {a <> b}.
  Variable P : text -> Prop.

  Record kindex := mkKIndex {
    kx_mid : mid;                              (* (embedding_engine, embedding_model) *)
    kx_gen : option mid * text -> key;         (* key generator on what the cache hands it *)
    kx_emb : text -> vec;
    kx_sid : nat
  }.

  Definition kx_index (incl : bool) (k : kindex) : index text key vec :=
    mkIndex (fun t => kx_gen k (if incl then Some (kx_mid k) else None, t)) (kx_emb k) (kx_sid k).

  Variable ks : list kindex.

  (* the key generators in play are injective on (model identity, text), jointly inside a store *)
  Definition pair_inj : Prop :=
    forall a b, In a ks -> In b ks -> kx_sid a = kx_sid b ->
      forall t t', P t -> P t' -> kx_gen a (Some (kx_mid a), t) = kx_gen b (Some (kx_mid b), t') ->
      kx_mid a = kx_mid b /\ t = t'.

  (* the model identity determines the model *)
  Definition mid_model : Prop :=
    forall a b, In a ks -> In b ks -> kx_mid a = kx_mid b -> forall t, kx_emb a t = kx_emb b t.

  Theorem keyed_correct : pair_inj -> mid_model -> forall history a texts,
    Forall (fun c => In (fst c) ks /\ Forall P (snd c)) history -> In a ks -> Forall P texts ->
    fst (mcall text_eq_dec key_eq_dec
           (mrun text_eq_dec key_eq_dec no_stores (map (fun c => (kx_index true (fst c), snd c)) history))
           (kx_index true a) texts)
    = map (fun t => Some (kx_emb a t)) texts.
  Proof.
    intros Hpi Hmm history a texts Hh Ha HP.
    apply (multi_correct_sound text key vec text_eq_dec key_eq_dec P (map (kx_index true) ks)).
    - intros x Hx. apply in_map_iff in Hx. destruct Hx as [k [<- Hk]].
      intros t t' Pt Pt' E. simpl in E. destruct (Hpi k k Hk Hk eq_refl t t' Pt Pt' E). assumption.
    - intros x y Hx Hy Hs t t' Pt Pt' E.
      apply in_map_iff in Hx. destruct Hx as [k [<- Hk]].
      apply in_map_iff in Hy. destruct Hy as [k' [<- Hk']]. simpl in *.
      destruct (Hpi k k' Hk Hk' Hs t t' Pt Pt' E) as [Hm ->]. apply Hmm; assumption.
    - rewrite Forall_forall in *. intros [x tx] Hin. apply in_map_iff in Hin.
      destruct Hin as [[k tk] [E Hin]]. inversion E; subst. simpl.
      destruct (Hh _ Hin) as [H1 H2]. simpl in *. split; [apply in_map; exact H1|exact H2].
    - apply in_map. exact Ha.
    - exact HP.
  Qed.

  (* the keying BEFORE the fix (text alone): two indexes that share a store and a key generator and
     use different models - the second index is served the first model's vector *)
  Theorem keyed_text_only_refuted : forall (a b : kindex) (t : text),
    kx_sid a = kx_sid b -> kx_gen a (None, t) = kx_gen b (None, t) -> kx_emb a t <> kx_emb b t ->
    fst (mcall text_eq_dec key_eq_dec (mrun text_eq_dec key_eq_dec no_stores [(kx_index false a, [t])])
           (kx_index false b) [t])
    <> map (fun t => Some (kx_emb b t)) [t].
  Proof.
    intros a b t Hs Hk Hne.
    apply (multi_shared_store_refuted text key vec text_eq_dec key_eq_dec (kx_index false a) (kx_index false b) t);
      assumption.
  Qed.
End Keyed.

Arguments inj_on {text key} kg P.
Arguments consistent {text key vec} key_eq_dec kg emb P s.
Arguments begin_ok {text vec} text_eq_dec emb P texts c u.
