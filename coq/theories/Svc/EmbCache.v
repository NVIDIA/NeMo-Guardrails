(* C19 - model of nemoguardrails/embeddings/cache.py: `cache_embeddings` (the decorator put on
   BasicEmbeddingsIndex._get_embeddings) over EmbeddingsCache / KeyGenerator / CacheStore.

   Everything the code is parameterised by is a Section variable: the type of texts, keys and
   vectors, the key generator `kg` (shipped: str(hash(text)), md5(text)), the embedding model
   `emb`.  A cache store (InMemoryCacheStore, FilesystemCacheStore) is a finite map key -> value
   with `get`/`set`; a Python dict keyed by text is an association list read first-match.

     async def wrapper_decorator(self, texts):
         if not self.cache_config.enabled: return await func(self, texts)
         embeddings_cache = EmbeddingsCache.from_config(self.cache_config)
         cached_texts = embeddings_cache.get(texts)                              # wrap_begin
         uncached_texts = [text for text in texts if text not in cached_texts]   # wrap_begin
         if uncached_texts:
             uncached_results = await func(self, uncached_texts)                 # <- the only await
             embeddings_cache.set(uncached_texts, uncached_results)              # wrap_end
         cached_texts.update(embeddings_cache.get(uncached_texts))               # wrap_end
         results = [cached_texts.get(text) for text in texts]                    # wrap_end
         return results

   The two halves are separate definitions because another task may run (and write the same
   filesystem store) while the model call is awaited.  Definitions, and two sanity Examples at
   the end. *)
From Coq Require Import List Bool Arith.
Import ListNotations.

Section EmbCache.
  Variables text key vec : Type.
  Variable text_eq_dec : forall a b : text, {a = b} + {a <> b}.
  Variable key_eq_dec : forall a b : key, {a = b} + {a <> b}.
  Variable kg : text -> key.          (* KeyGenerator.generate_key *)

  (* ---- CacheStore: get / set ------------------------------------------------------- *)
  Definition store := list (key * vec).

  Fixpoint store_get (s : store) (k : key) : option vec :=
    match s with
    | [] => None
    | (k', v) :: r => if key_eq_dec k k' then Some v else store_get r k
    end.

  Definition store_set (s : store) (k : key) (v : vec) : store := (k, v) :: s.

  (* ---- a Python dict text -> value -------------------------------------------------- *)
  Definition tdict := list (text * vec).

  Fixpoint td_get (d : tdict) (t : text) : option vec :=
    match d with
    | [] => None
    | (t', v) :: r => if text_eq_dec t t' then Some v else td_get r t
    end.

  Definition td_set (d : tdict) (t : text) (v : vec) : tdict := (t, v) :: d.

  (* `text in d` *)
  Definition td_mem (d : tdict) (t : text) : bool :=
    match td_get d t with Some _ => true | None => false end.

  (* `d.update(d2)`: the bindings of d2 win *)
  Definition td_update (d d2 : tdict) : tdict := d2 ++ d.

  (* ---- EmbeddingsCache.get(texts: list): {text: store.get(kg(text))} for the hits --- *)
  Definition cache_get_list (s : store) (texts : list text) : tdict :=
    fold_left (fun d t => match store_get s (kg t) with
                          | Some v => td_set d t v
                          | None => d
                          end) texts [].

  (* ---- EmbeddingsCache.set(texts: list, values): for text, value in zip(...) -------- *)
  Definition cache_set_list (s : store) (texts : list text) (vals : list vec) : store :=
    fold_left (fun s tv => store_set s (kg (fst tv)) (snd tv)) (combine texts vals) s.

  (* ---- the decorator, first half: up to the model call ------------------------------ *)
  Definition wrap_begin (s : store) (texts : list text) : tdict * list text :=
    let cached := cache_get_list s texts in
    (cached, filter (fun t => negb (td_mem cached t)) texts).

  (* ---- second half: `fresh` is what func returned for `uncached` (ignored when there
          was nothing to ask); `s` is the store as it is now ------------------------- *)
  Definition wrap_end (s : store) (texts : list text) (cached : tdict) (uncached : list text)
             (fresh : list vec) : list (option vec) * store :=
    let s' := match uncached with
              | [] => s
              | _ :: _ => cache_set_list s uncached fresh
              end in
    let cached' := td_update cached (cache_get_list s' uncached) in
    (map (td_get cached') texts, s').       (* dict.get: a missing text gives None *)

  (* ---- one complete call with a synchronous model `model`;
          returns (results, store afterwards, the argument lists `func` was called with) *)
  Definition wrapper (enabled : bool) (model : list text -> list vec) (s : store)
             (texts : list text) : list (option vec) * store * list (list text) :=
    if enabled then
      let '(cached, uncached) := wrap_begin s texts in
      let '(res, s') := wrap_end s texts cached uncached (model uncached) in
      (res, s', match uncached with [] => [] | _ :: _ => [uncached] end)
    else (map Some (model texts), s, [texts]).

  Definition w_results (r : list (option vec) * store * list (list text)) := fst (fst r).
  Definition w_store (r : list (option vec) * store * list (list text)) := snd (fst r).
  Definition w_calls (r : list (option vec) * store * list (list text)) := snd r.

  (* a history of earlier calls on the same (persistent) store, starting from `s` *)
  Definition store_after (model : list text -> list vec) (s : store) (history : list (list text)) : store :=
    fold_left (fun s texts => w_store (wrapper true model s texts)) history s.

End EmbCache.

Arguments store_get {key vec} key_eq_dec s k.
Arguments store_set {key vec} s k v.
Arguments td_get {text vec} text_eq_dec d t.
Arguments td_mem {text vec} text_eq_dec d t.
Arguments td_update {text vec} d d2.
Arguments cache_get_list {text key vec} key_eq_dec kg s texts.
Arguments cache_set_list {text key vec} kg s texts vals.
Arguments wrap_begin {text key vec} text_eq_dec key_eq_dec kg s texts.
Arguments wrap_end {text key vec} text_eq_dec key_eq_dec kg s texts cached uncached fresh.
Arguments wrapper {text key vec} text_eq_dec key_eq_dec kg enabled model s texts.
Arguments store_after {text key vec} text_eq_dec key_eq_dec kg model s history.
Arguments w_results {text key vec} r.
Arguments w_store {text key vec} r.
Arguments w_calls {text key vec} r.

(* ---- several indexes alive in one process ----------------------------------------------
   Each BasicEmbeddingsIndex has its own key generator, its own embedding model and a cache
   configuration; EmbeddingsCache.from_config(self.cache_config) resolves the configuration to
   a store: `ix_sid` names that store (two filesystem configurations with the same cache_dir are
   the same store; different cache_dirs are different stores).  A call of index ix reads and
   writes only the store its own configuration names. *)
Section Multi.
  Variables text key vec : Type.
  Variable text_eq_dec : forall a b : text, {a = b} + {a <> b}.
  Variable key_eq_dec : forall a b : key, {a = b} + {a <> b}.

  Record index := mkIndex {
    ix_kg : text -> key;       (* cache_config.key_generator *)
    ix_emb : text -> vec;      (* the index's embedding model *)
    ix_sid : nat               (* the store cache_config.store / store_config resolve to *)
  }.

  Definition stores := nat -> store key vec.

  Definition sset (S : stores) (sid : nat) (s : store key vec) : stores :=
    fun j => if j =? sid then s else S j.

  Definition mcall (S : stores) (ix : index) (texts : list text) : list (option vec) * stores :=
    let r := wrapper text_eq_dec key_eq_dec (ix_kg ix) true (map (ix_emb ix)) (S (ix_sid ix)) texts in
    (w_results r, sset S (ix_sid ix) (w_store r)).

  Fixpoint mrun (S : stores) (calls : list (index * list text)) : stores :=
    match calls with
    | [] => S
    | (ix, texts) :: rest => mrun (snd (mcall S ix texts)) rest
    end.

  Definition no_stores : stores := fun _ => [].
End Multi.

Arguments mkIndex {text key vec} ix_kg ix_emb ix_sid.
Arguments ix_kg {text key vec} i.
Arguments ix_emb {text key vec} i.
Arguments ix_sid {text key vec} i.
Arguments sset {key vec} S sid s.
Arguments mcall {text key vec} text_eq_dec key_eq_dec S ix texts.
Arguments mrun {text key vec} text_eq_dec key_eq_dec S calls.
Arguments no_stores {key vec}.

(* sanity: texts = nat, key = nat, vec = nat, emb t = 10 + t *)
Example wrapper_dups_and_hits :
  let model := map (fun t => 10 + t) in
  let r1 := wrapper Nat.eq_dec Nat.eq_dec (fun t => t) true model [] [3; 1; 3] in
  let r2 := wrapper Nat.eq_dec Nat.eq_dec (fun t => t) true model (w_store r1) [1; 2; 3; 2] in
  w_results r1 = [Some 13; Some 11; Some 13] /\ w_calls r1 = [[3; 1; 3]] /\
  w_results r2 = [Some 11; Some 12; Some 13; Some 12] /\ w_calls r2 = [[2; 2]].
Proof. vm_compute. repeat split. Qed.

(* a key generator that collides (every text has key 0): the second text's vector is
   returned for the first *)
Example wrapper_collision :
  w_results (wrapper Nat.eq_dec Nat.eq_dec (fun _ => 0) true (map (fun t => 10 + t)) [] [1; 2])
  = [Some 12; Some 12].
Proof. vm_compute. reflexivity. Qed.
