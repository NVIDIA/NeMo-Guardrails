(* C20 - executable instance of Svc/Path.v and Svc/Threads.v used by the correspondence check:
   alphabet N (Unicode code points), messages N (codes assigned by the harness), the constants
   of Gen/C20Consts.v, and concrete oracles:
     load_ok_c  - RailsConfig.from_path raises ValueError iff the path contains '!'
     llm_c      - a polynomial hash of (paths of the instance, messages); raises when the hash
                  is divisible by 13, otherwise answers with the message code 2000000 + hash
   (harness/c20.py patches the same two functions into the real server).
   Props/C20.v states its theorems with the instances defined here (sepN, abspathN,
   get_rails_path_now, reject_now, nstr_eqb, field_max_nat); the concrete oracles and the
   check_* functions are used by the correspondence only - the theorems hold for arbitrary oracles. *)
From Coq Require Import List NArith Bool Arith.
From NG Require Import Gen.C20Consts Svc.Path Svc.Threads.
Import ListNotations.
Open Scope N_scope.

Definition sepN : N := 47.
Definition dotN : N := 46.
Definition bslashN : N := 92.
Notation nstr := (list N).

Definition joinN := Path.join N N.eq_dec sepN.
Definition normpathN := Path.normpath N N.eq_dec sepN dotN.
Definition abspathN := Path.abspath N N.eq_dec sepN dotN.
Definition commonprefixN := Path.commonprefix N N.eq_dec.
Definition reject_now := Path.re_search N N.eq_dec reject_pattern.
Definition get_rails_path_now :=
  Path.get_rails_path N N.eq_dec sepN dotN reject_pattern prefix_check_present.

Fixpoint nstr_eqb (a b : nstr) : bool :=
  match a, b with
  | [], [] => true
  | x :: a', y :: b' => N.eqb x y && nstr_eqb a' b'
  | _, _ => false
  end.

Fixpoint list_eqb {X} (e : X -> X -> bool) (a b : list X) : bool :=
  match a, b with
  | [], [] => true
  | x :: a', y :: b' => e x y && list_eqb e a' b'
  | _, _ => false
  end.

Definition opt_eqb {X} (e : X -> X -> bool) (a b : option X) : bool :=
  match a, b with
  | None, None => true
  | Some x, Some y => e x y
  | _, _ => false
  end.

Inductive path_case :=
| CJoin (a b expected : nstr)
| CNorm (p expected : nstr)
| CAbs (cwd p expected : nstr)
| CCommon (m : list nstr) (expected : nstr)
| CSearch (s : nstr) (expected : bool).      (* re.search(<source pattern>, s) is not None *)

Definition check_path (c : path_case) : bool :=
  match c with
  | CJoin a b e => nstr_eqb (joinN a b) e
  | CNorm p e => nstr_eqb (normpathN p) e
  | CAbs cwd p e => nstr_eqb (abspathN cwd p) e
  | CCommon m e => nstr_eqb (commonprefixN m) e
  | CSearch s e => Bool.eqb (reject_now s) e
  end.

Definition modP : N := 1000003.
Definition h_path (p : nstr) : N := fold_left (fun acc c => (acc * 31 + c) mod modP) p 7.
Definition h_inst (i : list nstr) : N := fold_left (fun acc p => (acc * 131 + h_path p) mod modP) i 1.
Definition h_msgs (i : list nstr) (ms : list N) : N :=
  fold_left (fun acc m => (acc * 17 + m + 1) mod modP) ms (h_inst i).
Definition llm_c (i : list nstr) (ms : list N) : option N :=
  let h := h_msgs i ms in if (h mod 13) =? 0 then None else Some (2000000 + h).
Definition load_ok_c (p : nstr) : bool := negb (existsb (N.eqb 33) p).

Definition get_rails_now (base : nstr) (single : option nstr) :=
  Threads.get_rails N N.eq_dec sepN dotN cache_key_joiner reject_pattern prefix_check_present
                    base single load_ok_c.

(* (cwd, app.rails_config_path, single-config id, config_ids,
    expected loader trace, expected instance (None = ValueError)) *)
Definition rails_case := (nstr * nstr * option nstr * list nstr * list nstr * option (list nstr))%type.

Definition check_rails (c : rails_case) : bool :=
  let '(cwd, root, single, ids, e_trace, e_inst) := c in
  let base := abspathN cwd root in
  let '(_, tr, r) := get_rails_now base single [] ids in
  list_eqb nstr_eqb tr e_trace && opt_eqb (list_eqb nstr_eqb) r e_inst.

Definition field_max_nat : option nat :=
  match field_max_len with Some m => Some (N.to_nat m) | None => None end.

Definition chat_now (base : nstr) (single default : option nstr) :=
  Threads.chat N N.eq_dec sepN dotN cache_key_joiner N reject_pattern prefix_check_present
               thread_prefix (N.to_nat min_thread_id_len) base single default load_ok_c llm_c.

Definition http_chat_now (base : nstr) (single default : option nstr) :=
  Threads.http_chat N N.eq_dec sepN dotN cache_key_joiner N reject_pattern prefix_check_present
               thread_prefix (N.to_nat min_thread_id_len) (N.to_nat field_min_len) field_max_nat
               base single default load_ok_c llm_c.

Definition reply_eqb (a b : reply N N) : bool :=
  match a, b with
  | RNoConfig, RNoConfig => true
  | RCouldNotLoad x, RCouldNotLoad y => list_eqb nstr_eqb x y
  | RMinLen, RMinLen => true
  | RInternal, RInternal => true
  | RBot x, RBot y => N.eqb x y
  | R422, R422 => true
  | _, _ => false
  end.

(* the instance is observable on the implementation only when generate_async was called *)
Definition outcome_eqb (m e : outcome N N) : bool :=
  list_eqb nstr_eqb (o_loads N N m) (o_loads N N e)
  && opt_eqb (list_eqb N.eqb) (o_used N N m) (o_used N N e)
  && reply_eqb (o_reply N N m) (o_reply N N e)
  && match o_used N N e with
     | Some _ => opt_eqb (list_eqb nstr_eqb) (o_inst N N m) (o_inst N N e)
     | None => true
     end.

(* a step: direct call of chat_completion with an already constructed body (true) or an HTTP
   request through the RequestBody validation (false); the request; the observed outcome *)
Definition step := (bool * http_request N N * outcome N N)%type.

Definition to_request (h : http_request N N) : request N N :=
  {| r_ids := match h_config_ids N N h with Some l => l | None => [] end;
     r_thread := h_thread N N h; r_context := h_context N N h; r_messages := h_messages N N h |}.

Fixpoint run_steps (base : nstr) (single default : option nstr) (st : state N N) (steps : list step)
  : state N N * bool :=
  match steps with
  | [] => (st, true)
  | (direct, h, e) :: rest =>
      let '(st1, o) := if direct then chat_now base single default st (to_request h)
                       else http_chat_now base single default st h in
      let '(st2, ok) := run_steps base single default st1 rest in
      (st2, outcome_eqb o e && ok)
  end.

Definition store_eqb (a b : list (nstr * list N)) : bool :=
  list_eqb (fun x y => nstr_eqb (fst x) (fst y) && list_eqb N.eqb (snd x) (snd y)) a b.

(* (cwd, root, single, default, initial datastore, steps, expected final datastore) *)
Definition seq_case :=
  (nstr * nstr * option nstr * option nstr * list (nstr * list N) * list step * list (nstr * list N))%type.

Definition check_seq (c : seq_case) : bool :=
  let '(cwd, root, single, default, store0, steps, e_store) := c in
  let base := abspathN cwd root in
  let '(st, ok) := run_steps base single default {| s_cache := []; s_store := store0 |} steps in
  ok && store_eqb (s_store N N st) e_store.

(* which step disagrees (for the replay file) *)
Fixpoint run_outcomes (base : nstr) (single default : option nstr) (st : state N N) (steps : list step)
  : list (outcome N N) * state N N :=
  match steps with
  | [] => ([], st)
  | (direct, h, _) :: rest =>
      let '(st1, o) := if direct then chat_now base single default st (to_request h)
                       else http_chat_now base single default st h in
      let '(os, st2) := run_outcomes base single default st1 rest in
      (o :: os, st2)
  end.

Definition model_seq (c : seq_case) :=
  let '(cwd, root, single, default, store0, steps, _) := c in
  run_outcomes (abspathN cwd root) single default {| s_cache := []; s_store := store0 |} steps.

(* typed constructors for the case files written by the harness *)
Definition mk_req (cid : option nstr) (cids : option (list nstr)) (tid : option nstr)
           (ctx : option N) (msgs : list N) : http_request N N :=
  {| h_config_id := cid; h_config_ids := cids; h_thread := tid; h_context := ctx; h_messages := msgs |}.
Definition mk_out (loads : list nstr) (inst : option (list nstr)) (used : option (list N))
           (r : reply N N) : outcome N N :=
  {| o_loads := loads; o_inst := inst; o_used := used; o_reply := r |}.
Definition mk_step (direct : bool) (h : http_request N N) (o : outcome N N) : step := (direct, h, o).
Definition mk_seq (cwd root : nstr) (single default : option nstr) (store0 : list (nstr * list N))
           (steps : list step) (e_store : list (nstr * list N)) : seq_case :=
  (cwd, root, single, default, store0, steps, e_store).
Definition mk_rails (cwd root : nstr) (single : option nstr) (ids : list nstr)
           (e_trace : list nstr) (e_inst : option (list nstr)) : rails_case :=
  (cwd, root, single, ids, e_trace, e_inst).
Definition kv (k : nstr) (v : list N) : nstr * list N := (k, v).
Definition r_noconfig : reply N N := RNoConfig.
Definition r_cnl (ids : list nstr) : reply N N := RCouldNotLoad ids.
Definition r_minlen : reply N N := RMinLen.
Definition r_internal : reply N N := RInternal.
Definition r_bot (m : N) : reply N N := RBot m.
Definition r_422 : reply N N := R422.

Example normpath_ex :
  normpathN [47; 47; 97; 47; 47; 98; 47; 46; 46; 47; 99; 47; 46] = [47; 47; 97; 47; 99].
Proof. reflexivity. Qed.

Example sibling_passes_prefix_check :
  (* base "/r/c", full "/r/c-evil": the commonprefix test alone accepts the sibling *)
  commonprefixN [[47; 114; 47; 99; 45; 101; 118; 105; 108]; [47; 114; 47; 99]] = [47; 114; 47; 99].
Proof. reflexivity. Qed.
