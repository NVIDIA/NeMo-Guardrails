(* C13 (layout, Colang 2.x) - invariance of `Indent.layout` under the edits of the property.
   Blank lines, trailing blanks and end-of-line comments already vanish in the LEXER (`lex_go`
   yields the same tokens; `lex_prefix` moves the fact under any prefix of the file); only
   scaling reaches the indenter, which makes the same comparisons on indentations multiplied
   by k > 0. *)
From Coq Require Import NArith List Bool Relations.
From NG Require Import Svc.Indent.
Import ListNotations.
Open Scope N_scope.

Lemma Nmul_compare_mono_l : forall K a b, 0 < K -> (K * a ?= K * b) = (a ?= b).
Proof.
  intros [|p] a b HK; [discriminate|]. destruct a, b; try reflexivity. apply Pos.mul_compare_mono_l.
Qed.

Lemma of_nat_pos : forall k, (0 < k)%nat -> 0 < N.of_nat k.
Proof. intros [|k] Hk; [inversion Hk | reflexivity]. Qed.

Lemma ltb_mul_l : forall K a b, 0 < K -> (K * a <? K * b) = (a <? b).
Proof. intros K a b HK. now rewrite !N.ltb_compare, Nmul_compare_mono_l. Qed.

Lemma eqb_mul_l : forall K a b, 0 < K -> (K * a =? K * b) = (a =? b).
Proof. intros K a b HK. now rewrite !N.eqb_compare, Nmul_compare_mono_l. Qed.

Lemma forallb_weaken :
  forall (A : Type) (p q : A -> bool) l,
    (forall x, p x = true -> q x = true) -> forallb p l = true -> forallb q l = true.
Proof.
  intros A p q l Hpq. induction l as [|x l IH]; simpl; intros H; [reflexivity|].
  apply andb_prop in H. destruct H as [Hx H]. now rewrite (Hpq x Hx), IH.
Qed.

(* the blanks the lexer drops between the tokens of a line *)
Definition ignored (ig : bool) (s : seg) : bool := if ig then is_ws s else is_sp s.

Lemma sp_ignored : forall ig l, forallb is_sp l = true -> forallb (ignored ig) l = true.
Proof. intros ig l. apply forallb_weaken. intros [] H; destruct ig; (discriminate || reflexivity). Qed.

Lemma ignored_ws : forall ig l, forallb (ignored ig) l = true -> forallb is_ws l = true.
Proof. intros ig l. apply forallb_weaken. intros [] H; destruct ig; (discriminate || reflexivity). Qed.

Lemma lex_skip_ignored :
  forall ig ws X, forallb (ignored ig) ws = true -> lex_go ig None (ws ++ X) = lex_go ig None X.
Proof.
  intros ig ws X. induction ws as [|s ws IH]; simpl; intros H; [reflexivity|].
  apply andb_prop in H. destruct H as [Hs H].
  destruct s, ig; simpl in Hs; try discriminate; now apply IH.
Qed.

(* inside a _NEWLINE token, whitespace followed by another line break is forgotten *)
Lemma lex_ws_then_nl :
  forall ig ws X p, forallb is_ws ws = true ->
    lex_go ig (Some p) (ws ++ SNl :: X) = lex_go ig (Some (0, 0)) X.
Proof.
  intros ig ws X. induction ws as [|s ws IH]; simpl; intros p H; [reflexivity|].
  apply andb_prop in H. destruct H as [Hs H].
  destruct p as [sp tb].
  destruct s; simpl in Hs; try discriminate; now apply IH.
Qed.

(* congruence: a common prefix does not matter *)
Lemma lex_prefix :
  forall ig a X Y,
    (forall st, lex_go ig st X = lex_go ig st Y) ->
    forall st, lex_go ig st (a ++ X) = lex_go ig st (a ++ Y).
Proof.
  intros ig a X Y H. induction a as [|s a IH]; intros st; simpl; [apply H|].
  destruct s; simpl; try (now rewrite IH).
  - destruct st as [[sp tb]|]; apply IH.
  - destruct st as [[sp tb]|]; [apply IH|]. destruct ig; [apply IH | reflexivity].
Qed.

Lemma lex_blank :
  forall ig a ws b st, forallb is_ws ws = true ->
    lex_go ig st (a ++ SNl :: ws ++ SNl :: b) = lex_go ig st (a ++ SNl :: b).
Proof.
  intros ig a ws b st H. apply lex_prefix. intros st'. simpl.
  now apply lex_ws_then_nl.
Qed.

Lemma lex_trailing :
  forall ig a ws b st, forallb (ignored ig) ws = true ->
    lex_go ig st (a ++ ws ++ SNl :: b) = lex_go ig st (a ++ SNl :: b).
Proof.
  intros ig a ws b st H. apply lex_prefix. intros [p|].
  - rewrite (lex_ws_then_nl ig ws b p (ignored_ws ig ws H)). reflexivity.
  - now apply lex_skip_ignored.
Qed.

Lemma lex_comment :
  forall ig a t sps sps' b st,
    is_content t = true -> forallb is_sp sps = true -> forallb is_sp sps' = true ->
    lex_go ig st (a ++ t :: sps ++ sps' ++ SComment :: SNl :: b) = lex_go ig st (a ++ t :: sps ++ SNl :: b).
Proof.
  intros ig a t sps sps' b st Ht H H'. apply lex_prefix. intros st'.
  assert (E : lex_go ig None (sps ++ sps' ++ SComment :: SNl :: b) = lex_go ig None (sps ++ SNl :: b)).
  { rewrite !lex_skip_ignored by now apply sp_ignored. simpl. now destruct (lex_go ig _ b). }
  destruct t; simpl in Ht; try discriminate; simpl; now rewrite E.
Qed.

Lemma app_cons_assoc : forall (A : Type) (a : list A) x b c, (a ++ x :: b) ++ c = a ++ x :: (b ++ c).
Proof. intros. now rewrite <- app_assoc. Qed.

Theorem layout_blank :
  forall ig T s s', blank_edit s s' -> layout ig T s' = layout ig T s.
Proof.
  intros ig T s s' [a ws b Hws]. unfold layout, lex_file.
  rewrite !app_cons_assoc. now rewrite lex_blank.
Qed.

Lemma layout_trailing :
  forall ig T a ws, forallb (ignored ig) ws = true ->
    (forall b, layout ig T (a ++ ws ++ SNl :: b) = layout ig T (a ++ SNl :: b))
    /\ layout ig T (a ++ ws) = layout ig T a.
Proof.
  intros ig T a ws H. unfold layout, lex_file.
  split; [intros b|]; rewrite <- app_assoc, ?app_cons_assoc; now rewrite lex_trailing.
Qed.

Theorem layout_trailing_ws :
  forall ig T s s', trail_edit s s' -> layout ig T s' = layout ig T s.
Proof.
  intros ig T s s' [a sps b Hs | a sps Hs]; apply layout_trailing, sp_ignored, Hs.
Qed.

(* with a grammar that also ignores tabs between tokens, trailing tabs are harmless too *)
Theorem layout_trailing_tabs_cond :
  forall ig T s s', ig = true -> trail_ws_edit s s' -> layout ig T s' = layout ig T s.
Proof.
  intros ig T s s' -> [a ws b Hs | a ws Hs]; apply layout_trailing, Hs.
Qed.

(* pinned grammar (`%ignore " "` only): a trailing TAB turns a lexable file into a lexing error *)
Lemma layout_trailing_tab_refuted :
  exists T s s', trail_ws_edit s s' /\ layout false T s <> LexError /\ layout false T s' = LexError.
Proof.
  exists 8, [STok 1; SNl], [STok 1; STab; SNl]. repeat split.
  - exact (TrailWsEdit [STok 1] [STab] [] eq_refl).
  - vm_compute. discriminate.
Qed.

Theorem layout_comment :
  forall ig T s s', comment_edit s s' -> layout ig T s' = layout ig T s.
Proof.
  intros ig T s s' [a t sps sps' b Ht Hs Hs' | a t sps sps' Ht Hs Hs']; unfold layout, lex_file;
    rewrite !app_cons_assoc, <- app_assoc, app_cons_assoc; simpl app; now rewrite lex_comment.
Qed.

(* a comment on a line WITHOUT content is not harmless at this layer: it ends the _NEWLINE
   token, so the comment's own indentation reaches the indenter *)
Lemma comment_only_line_matters :
  exists s s', s' = [STok 1; SNl; SSp; SSp; STok 2; SNl; SComment; SNl; SSp; SSp; STok 3] /\
               s = [STok 1; SNl; SSp; SSp; STok 2; SNl; SNl; SSp; SSp; STok 3] /\
               layout false 8 s' <> layout false 8 s.
Proof. eexists. eexists. split; [reflexivity|]. split; [reflexivity|]. vm_compute. discriminate. Qed.

Definition scale_tok (K : N) (t : tok) : tok :=
  match t with TNL sp tb => TNL (K * sp) (K * tb) | x => x end.

Definition scale_st (K : N) (st : lstate) : lstate :=
  match st with Some (sp, tb) => Some (K * sp, K * tb) | None => None end.

Lemma flush_scale :
  forall K st x, flush (scale_st K st) (map (scale_tok K) x) = map (scale_tok K) (flush st x).
Proof. intros K [[sp tb]|] x; reflexivity. Qed.

Lemma flush_scale_cons :
  forall K st c (o : option (list tok)), scale_tok K c = c ->
    option_map (fun x => flush (scale_st K st) (c :: x)) (option_map (map (scale_tok K)) o)
    = option_map (map (scale_tok K)) (option_map (fun x => flush st (c :: x)) o).
Proof.
  intros K st c [x|] Hc; [simpl | reflexivity]. rewrite <- flush_scale. simpl. now rewrite Hc.
Qed.

Lemma lex_repeat_sp_none :
  forall ig k X, lex_go ig None (repeat SSp k ++ X) = lex_go ig None X.
Proof. intros ig k X. induction k as [|k IH]; simpl; [reflexivity | exact IH]. Qed.

Lemma lex_repeat_sp_some :
  forall ig k X sp tb, lex_go ig (Some (sp, tb)) (repeat SSp k ++ X) = lex_go ig (Some (sp + N.of_nat k, tb)) X.
Proof.
  intros ig k X. induction k as [|k IH]; intros sp tb; simpl repeat; simpl app.
  - simpl. now rewrite N.add_0_r.
  - simpl lex_go. now rewrite IH, <- N.add_assoc, N.add_1_l, <- Nat2N.inj_succ.
Qed.

Lemma lex_repeat_tab_some :
  forall ig k X sp tb, lex_go ig (Some (sp, tb)) (repeat STab k ++ X) = lex_go ig (Some (sp, tb + N.of_nat k)) X.
Proof.
  intros ig k X. induction k as [|k IH]; intros sp tb; simpl repeat; simpl app.
  - simpl. now rewrite N.add_0_r.
  - simpl lex_go. now rewrite IH, <- N.add_assoc, N.add_1_l, <- Nat2N.inj_succ.
Qed.

Lemma lex_repeat_tab_none_ig :
  forall k X, lex_go true None (repeat STab k ++ X) = lex_go true None X.
Proof. intros k X. induction k as [|k IH]; simpl; [reflexivity | exact IH]. Qed.

(* the lexer on the scaled text, started in the scaled state, yields the scaled tokens; inside
   a _NEWLINE token (st <> None) the text is at the beginning of a line *)
Lemma lex_scale :
  forall ig k, (0 < k)%nat ->
  forall ss bol st, (st <> None -> bol = true) ->
    lex_go ig (scale_st (N.of_nat k) st) (scale_go k bol ss)
    = option_map (map (scale_tok (N.of_nat k))) (lex_go ig st ss).
Proof.
  intros ig k Hk. set (K := N.of_nat k).
  assert (HN : forall b, @None (N * N) <> None -> b = true) by (intros b E; now elim E).
  induction ss as [|s r IH]; intros bol st Hst.
  - simpl. f_equal. apply (flush_scale K st []).
  - pose proof (fun b => IH b None (HN b)) as IHN. simpl in IHN.
    destruct s; simpl scale_go.
    + (* SNl *) simpl. rewrite <- (IH true (Some (0, 0))) by reflexivity. simpl. now rewrite !N.mul_0_r.
    + (* SSp *) destruct st as [[sp tb]|].
      * assert (bol = true) as -> by (apply Hst; discriminate).
        simpl scale_st. rewrite lex_repeat_sp_some.
        replace (K * sp + N.of_nat k) with (K * (sp + 1)) by now rewrite N.mul_add_distr_l, N.mul_1_r.
        now apply (IH true (Some (sp + 1, tb))).
      * destruct bol; [rewrite lex_repeat_sp_none|]; simpl; apply IHN.
    + (* STab *) destruct st as [[sp tb]|].
      * assert (bol = true) as -> by (apply Hst; discriminate).
        simpl scale_st. rewrite lex_repeat_tab_some.
        replace (K * tb + N.of_nat k) with (K * (tb + 1)) by now rewrite N.mul_add_distr_l, N.mul_1_r.
        now apply (IH true (Some (sp, tb + 1))).
      * destruct bol, ig; simpl.
        -- rewrite lex_repeat_tab_none_ig. apply IHN.
        -- destruct k; [inversion Hk | reflexivity].
        -- apply IHN.
        -- reflexivity.
    + (* SComment *) simpl. rewrite IHN.
      destruct (lex_go ig None r); simpl; [now rewrite flush_scale | reflexivity].
    + simpl. rewrite IHN. now apply flush_scale_cons.
    + simpl. rewrite IHN. now apply flush_scale_cons.
    + simpl. rewrite IHN. now apply flush_scale_cons.
Qed.

Lemma scale_go_snoc_nl : forall k ss bol, scale_go k bol (ss ++ [SNl]) = scale_go k bol ss ++ [SNl].
Proof.
  intros k ss. induction ss as [|s r IH]; intros bol; simpl; [reflexivity|].
  destruct s; simpl; rewrite ?IH; try reflexivity; now rewrite <- app_assoc.
Qed.

(* the indenter makes the same decisions on scaled indentations *)
Lemma pop_to_scale :
  forall K, 0 < K -> forall ind st,
    pop_to (K * ind) (map (N.mul K) st) = (map (N.mul K) (fst (pop_to ind st)), snd (pop_to ind st)).
Proof.
  intros K HK ind st. induction st as [|x st IH]; simpl; [reflexivity|].
  rewrite ltb_mul_l by assumption. destruct (ind <? x); [|reflexivity].
  rewrite IH. destruct (pop_to ind st) as [s n]. reflexivity.
Qed.

Lemma top_scale : forall K st, top (map (N.mul K) st) = K * top st.
Proof. intros K [|x st]; simpl; [now rewrite N.mul_0_r | reflexivity]. Qed.

Lemma process_scale :
  forall T K, 0 < K -> forall ts paren st,
    process T (map (scale_tok K) ts) paren (map (N.mul K) st) = process T ts paren st.
Proof.
  intros T K HK ts. induction ts as [|t r IH]; intros paren st.
  - simpl. now rewrite map_length.
  - destruct t as [sp tb| | |i]; simpl.
    + destruct (0 <? paren); [apply IH|].
      replace (K * sp + K * tb * T) with (K * (sp + tb * T)) by now rewrite N.mul_add_distr_l, N.mul_assoc.
      rewrite top_scale, ltb_mul_l by assumption. destruct (top st <? sp + tb * T).
      * change (K * (sp + tb * T) :: map (N.mul K) st) with (map (N.mul K) ((sp + tb * T) :: st)).
        now rewrite IH.
      * rewrite pop_to_scale by assumption.
        destruct (pop_to (sp + tb * T) st) as [st' n]. simpl fst. simpl snd.
        rewrite top_scale, eqb_mul_l by assumption.
        destruct (sp + tb * T =? top st'); [now rewrite IH | reflexivity].
    + now rewrite IH.
    + destruct (paren =? 0); [reflexivity | now rewrite IH].
    + now rewrite IH.
Qed.

Theorem layout_scale :
  forall ig T k s, (0 < k)%nat -> layout ig T (scale k s) = layout ig T s.
Proof.
  intros ig T k s Hk. unfold layout, lex_file, scale.
  rewrite <- scale_go_snoc_nl.
  pose proof (lex_scale ig k Hk (s ++ [SNl]) true None) as E. simpl in E. rewrite E by (intros C; now elim C).
  destruct (lex_go ig None (s ++ [SNl])) as [ts|]; simpl; [|reflexivity].
  f_equal.
  change (@nil N) with (map (N.mul (N.of_nat k)) []).
  apply process_scale, of_nat_pos, Hk.
Qed.

(* scaling by 0 (removing all indentation) is of course not harmless *)
Lemma layout_scale_zero_refuted :
  exists s, layout false 8 (scale 0 s) <> layout false 8 s.
Proof. exists [STok 1; SNl; SSp; SSp; STok 2]. vm_compute. discriminate. Qed.

(* any number of the harmless edits, in any order *)
Inductive layout_edit : list seg -> list seg -> Prop :=
| LEBlank : forall s s', blank_edit s s' -> layout_edit s s'
| LETrail : forall s s', trail_edit s s' -> layout_edit s s'
| LEComment : forall s s', comment_edit s s' -> layout_edit s s'
| LEScale : forall k s, (0 < k)%nat -> layout_edit s (scale k s).

Theorem layout_edits :
  forall ig T s s', clos_refl_trans _ layout_edit s s' -> layout ig T s' = layout ig T s.
Proof.
  intros ig T s s' H. induction H as [s s' H | s | s s1 s2 H1 IH1 H2 IH2].
  - destruct H as [s s' H | s s' H | s s' H | k s H].
    + now apply layout_blank.
    + now apply layout_trailing_ws.
    + now apply layout_comment.
    + now apply layout_scale.
  - reflexivity.
  - congruence.
Qed.

(* the hypotheses are inhabited by a non-trivial file: Indent.ex1 has nested blocks, a
   bracket spanning lines, a comment-only line and a blank line *)
Example layout_edits_inhabited :
  let s1 := [STok 1; SSp; STok 2; SNl] in
  let rest := [SSp; SSp; STok 3; SSp; SOpen; STok 4; SNl; SSp; SSp; SSp; SSp; SClose; SNl] in
  blank_edit (s1 ++ rest) ([STok 1; SSp; STok 2] ++ SNl :: [SSp; STab] ++ SNl :: rest)
  /\ comment_edit ([STok 1; SSp] ++ STok 2 :: [] ++ SNl :: rest) ([STok 1; SSp] ++ STok 2 :: [] ++ [SSp; SSp] ++ SComment :: SNl :: rest)
  /\ layout false 8 (scale 3 ex1) = layout false 8 ex1
  /\ (exists o, layout false 8 ex1 = Lexed (o, None)).
Proof.
  intros s1 rest. split; [|split; [|split]].
  - exact (BlankEdit [STok 1; SSp; STok 2] [SSp; STab] _ eq_refl).
  - exact (CommentEdit [STok 1; SSp] (STok 2) [] [SSp; SSp] _ eq_refl eq_refl eq_refl).
  - vm_compute. reflexivity.
  - eexists. vm_compute. reflexivity.
Qed.
