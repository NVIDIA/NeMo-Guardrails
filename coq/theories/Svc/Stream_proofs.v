(* C18 - proofs about the streaming-handler model of Svc/Stream.v.

   Main result (chunking_independent): for every alphabet, configuration and list of non-empty
   chunks, the repaired handler delivers exactly `spec cfg (concat chunks)` and its completion is
   that same string - whatever the chunking.  Proof: an invariant over `feed`:
     pending   - the prefix has not been seen: everything consumed sits in current_chunk;
     streaming - completion ++ current_chunk = text after the prefix, the queue holds exactly
                 the completion, and the completion is transparent: the search for stop sequences
                 and the suffix test look through it (every chunk flushed so far held no stop
                 sequence, and no non-empty tail of it began the suffix or a stop sequence);
     stopped   - a stop sequence was seen: completion = delivered = the final answer for every
                 continuation of the text.
   So the completion is transparent to the specification as well
   (spec'_pre: spec' (completion ++ x) = completion ++ spec' x); every way of ending the stream
   then gives an answer that depends on the text alone (good_finish, run_outcome). *)
From Coq Require Import List Bool Arith NArith Lia.
From NG Require Import Svc.Stream.
Import ListNotations.

Section Proofs.
Variable A : Type.
Variable eqb : A -> A -> bool.
Hypothesis eqb_spec : forall a b, eqb a b = true <-> a = b.
Notation str := (list A).

Lemma prefixb_iff (p s : str) : prefixb eqb p s = true <-> exists r, s = p ++ r.
Proof.
  revert s; induction p as [|a p IH]; intros s; simpl.
  - split; [intros _; exists s; reflexivity | reflexivity].
  - destruct s as [|b s].
    + split; [discriminate | intros [r Hr]; discriminate].
    + rewrite andb_true_iff, eqb_spec, IH. split.
      * intros [Hab [r Hr]]. subst. exists r. reflexivity.
      * intros [r Hr]. injection Hr as Hab Hs. subst. split; [reflexivity | exists r; reflexivity].
Qed.

Lemma endswith_iff (s p : str) : endswith eqb s p = true <-> exists r, s = r ++ p.
Proof.
  unfold endswith. rewrite prefixb_iff. split.
  - intros [r Hr]. exists (rev r).
    rewrite <- (rev_involutive s), Hr, rev_app_distr, rev_involutive. reflexivity.
  - intros [r Hr]. exists (rev r). subst. apply rev_app_distr.
Qed.

Lemma prefixb_spec (p s : str) : reflect (exists r, s = p ++ r) (prefixb eqb p s).
Proof. apply iff_reflect. symmetry. apply prefixb_iff. Qed.

Lemma endswith_spec (s p : str) : reflect (exists r, s = r ++ p) (endswith eqb s p).
Proof. apply iff_reflect. symmetry. apply endswith_iff. Qed.

Notation occ := (@occ A).

Lemma occ_0 (p s : str) : occ p s 0 <-> exists b, s = p ++ b.
Proof.
  split.
  - intros [a [b [Hs Ha]]]. destruct a; [|discriminate]. exists b. exact Hs.
  - intros [b Hb]. exists [], b. split; [exact Hb | reflexivity].
Qed.

Lemma occ_cons (p : str) (x : A) (s : str) (j : nat) : occ p (x :: s) (S j) <-> occ p s j.
Proof.
  split.
  - intros [a [b [Hs Ha]]]. destruct a as [|y a]; [discriminate|].
    injection Hs as _ Hs. injection Ha as Ha. exists a, b. split; assumption.
  - intros [a [b [Hs Ha]]]. exists (x :: a), b. subst. split; reflexivity.
Qed.

Lemma occ_bound (p s : str) (i : nat) : occ p s i -> i + length p <= length s.
Proof. intros [a [b [Hs Ha]]]. subst. rewrite !app_length. lia. Qed.

Lemma occ_app_r (p s r : str) (i : nat) : occ p s i -> occ p (s ++ r) i.
Proof.
  intros [a [b [Hs Ha]]]. exists a, (b ++ r). subst. split; [|reflexivity].
  rewrite <- !app_assoc. reflexivity.
Qed.

Lemma find_eq (p s : str) :
  find eqb p s = if prefixb eqb p s then Some 0
                 else match s with [] => None | _ :: s' => option_map S (find eqb p s') end.
Proof. destruct s; reflexivity. Qed.

Lemma find_spec (p s : str) :
  match find eqb p s with
  | Some i => occ p s i /\ forall j, occ p s j -> i <= j
  | None => forall j, ~ occ p s j
  end.
Proof.
  assert (H0 : forall s, (exists r, s = p ++ r) -> occ p s 0 /\ forall j, occ p s j -> 0 <= j)
    by (intros s' Hp; split; [apply occ_0; exact Hp | intros; apply Nat.le_0_l]).
  induction s as [|x s IH]; rewrite find_eq.
  - destruct (prefixb_spec p []) as [Hp|Hp]; [exact (H0 _ Hp)|].
    intros [|j] Hj; [apply Hp, occ_0, Hj | exact (Nat.nle_succ_0 _ (occ_bound _ _ _ Hj))].
  - destruct (prefixb_spec p (x :: s)) as [Hp|Hp]; [exact (H0 _ Hp)|].
    revert IH. destruct (find eqb p s) as [k|]; simpl.
    + intros [Hk Hmin]. split; [apply occ_cons; exact Hk|].
      intros [|j] Hj; [destruct Hp; apply occ_0; exact Hj | exact (le_n_S _ _ (Hmin j (proj1 (occ_cons _ _ _ _) Hj)))].
    + intros IH [|j] Hj; [apply Hp, occ_0, Hj | exact (IH j (proj1 (occ_cons _ _ _ _) Hj))].
Qed.

Lemma find_skip (p e x : str) :
  (forall j, occ p (e ++ x) j -> length e <= j) ->
  find eqb p (e ++ x) = option_map (Nat.add (length e)) (find eqb p x).
Proof.
  induction e as [|a e IH]; intros H; cbn [app length].
  - destruct (find eqb p x); reflexivity.
  - rewrite find_eq. destruct (prefixb_spec p (a :: e ++ x)) as [Hp|_].
    + apply occ_0, H in Hp. inversion Hp.
    + rewrite IH by (intros j Hj; apply le_S_n, H, occ_cons, Hj).
      destruct (find eqb p x); reflexivity.
Qed.

Definition is_first (stops : list str) (t : str) (m : nat) : Prop :=
  (exists s, In s stops /\ occ s t m) /\ forall s j, In s stops -> occ s t j -> m <= j.

Lemma first_stop_spec (stops : list str) (t : str) :
  match first_stop eqb stops t with
  | Some m => is_first stops t m
  | None => forall s j, In s stops -> ~ occ s t j
  end.
Proof.
  induction stops as [|s0 stops IH]; simpl; [intros s j []|].
  pose proof (find_spec s0 t) as Hf. revert Hf IH.
  destruct (find eqb s0 t) as [i|], (first_stop eqb stops t) as [k|].
  - intros [Hi Hmi] [[s1 [Hin1 Hk]] Hmk]. split.
    + destruct (Nat.min_dec i k) as [-> | ->].
      * exists s0. split; [left; reflexivity | exact Hi].
      * exists s1. split; [right; exact Hin1 | exact Hk].
    + intros s j [<- | Hin] Hj.
      * exact (Nat.le_trans _ _ _ (Nat.le_min_l i k) (Hmi j Hj)).
      * exact (Nat.le_trans _ _ _ (Nat.le_min_r i k) (Hmk s j Hin Hj)).
  - intros [Hi Hmi] Hn. split.
    + exists s0. split; [left; reflexivity | exact Hi].
    + intros s j [<- | Hin] Hj; [exact (Hmi j Hj) | destruct (Hn s j Hin Hj)].
  - intros Hn [[s1 [Hin1 Hk]] Hmk]. split.
    + exists s1. split; [right; exact Hin1 | exact Hk].
    + intros s j [<- | Hin] Hj; [destruct (Hn j Hj) | exact (Hmk s j Hin Hj)].
  - intros Hn Hn' s j [<- | Hin]; [apply Hn | apply Hn'; exact Hin].
Qed.

Lemma first_stop_Some (stops : list str) (t : str) (m : nat) :
  first_stop eqb stops t = Some m -> is_first stops t m.
Proof. intros H. pose proof (first_stop_spec stops t) as Hs. rewrite H in Hs. exact Hs. Qed.

Lemma first_stop_None (stops : list str) (t : str) :
  first_stop eqb stops t = None -> forall s j, In s stops -> ~ occ s t j.
Proof. intros H. pose proof (first_stop_spec stops t) as Hs. rewrite H in Hs. exact Hs. Qed.

Lemma first_stop_bound (stops : list str) (t : str) (m : nat) :
  first_stop eqb stops t = Some m -> m <= length t.
Proof.
  intros Hm. destruct (first_stop_Some _ _ _ Hm) as [[s [_ Hoc]] _].
  pose proof (occ_bound _ _ _ Hoc). lia.
Qed.

(* cut_stop keeps the beginning of the text up to the leftmost position at which some stop
   sequence occurs: nothing else is removed, and no stop sequence starts before the cut *)
Theorem cut_stop_char (stops : list str) (t : str) :
  let r := cut_stop eqb stops t in
  (exists rest, t = r ++ rest) /\
  (forall s j, In s stops -> occ s t j -> length r <= j) /\
  (r = t \/ exists s, In s stops /\ occ s t (length r)).
Proof.
  unfold cut_stop. destruct (first_stop eqb stops t) as [m|] eqn:Hm.
  - destruct (first_stop_Some _ _ _ Hm) as [Hex Hmin].
    rewrite (firstn_length_le _ (first_stop_bound _ _ _ Hm)).
    split; [exists (skipn m t); symmetry; apply firstn_skipn | split; [exact Hmin | right; exact Hex]].
  - split; [exists []; symmetry; apply app_nil_r | split; [|left; reflexivity]].
    intros s j Hin Hoc. destruct (first_stop_None _ _ Hm s j Hin Hoc).
Qed.

(* hold-back: no non-empty tail of t is the beginning of a pattern *)
Definition nopartial (pats : list str) (t : str) : Prop :=
  forall p u v w, In p pats -> t = u ++ v -> v <> [] -> p <> v ++ w.

Lemma nopartial_sub (pats pats' : list str) (t : str) :
  (forall p, In p pats' -> In p pats) -> nopartial pats t -> nopartial pats' t.
Proof. intros Hsub Hn p u v w Hin. apply Hn. apply Hsub. exact Hin. Qed.

Lemma firstn_app_exact (a b : str) : firstn (length a) (a ++ b) = a.
Proof. rewrite <- (Nat.add_0_r (length a)), firstn_app_2. apply app_nil_r. Qed.

Lemma skipn_app_exact (a b : str) : skipn (length a) (a ++ b) = b.
Proof. rewrite skipn_app, Nat.sub_diag, skipn_all. reflexivity. Qed.

(* the hold-back test of push_chunk is complete: when it answers False no tail is partial *)
Lemma partial_end_of_complete (cur p v w u : str) :
  cur = u ++ v -> v <> [] -> p = v ++ w -> partial_end_of eqb cur p = true.
Proof.
  intros Hcur Hv Hp. unfold partial_end_of. apply existsb_exists.
  destruct v as [|x v]; [contradiction|].
  exists (length v). split.
  - apply in_seq. subst p. rewrite app_length. simpl. lia.
  - apply endswith_iff. exists u. subst.
    rewrite (firstn_app_exact (x :: v)). reflexivity.
Qed.

Lemma partial_end_false (cur : str) (pats : list str) :
  partial_end eqb cur pats = false -> nopartial pats cur.
Proof.
  intros Hf p u v w Hin Hcur Hv Hp. apply not_true_iff_false in Hf. apply Hf.
  apply existsb_exists. exists p. split; [exact Hin|].
  exact (partial_end_of_complete _ _ _ _ _ Hcur Hv Hp).
Qed.

(* an occurrence in t ++ r that starts inside t lies inside t: otherwise a tail of t would
   begin the pattern *)
Lemma occ_app_inside (pats : list str) (p t r : str) (j : nat) :
  nopartial pats t -> In p pats -> occ p (t ++ r) j -> j < length t -> occ p t j.
Proof.
  intros Hnp Hin [a [b [Hs Ha]]] Hj.
  apply app_eq_app in Hs. destruct Hs as [l [[Hl1 Hl2] | [Hl1 Hl2]]].
  - (* t = a ++ l, p ++ b = l ++ r *)
    symmetry in Hl2. apply app_eq_app in Hl2. destruct Hl2 as [l2 [[Hm1 Hm2] | [Hm1 Hm2]]].
    + exists a, l2. rewrite Hl1, Hm1. split; [reflexivity | exact Ha].
    + exfalso. apply (Hnp p a l l2 Hin Hl1); [|exact Hm1].
      intros ->. rewrite app_nil_r in Hl1. subst. lia.
  - (* a = t ++ l *)
    subst a. rewrite app_length in Ha. lia.
Qed.

(* text without a stop sequence, and whose tails begin none, is skipped by the search *)
Lemma first_stop_skip (stops : list str) (e x : str) :
  first_stop eqb stops e = None -> nopartial stops e ->
  first_stop eqb stops (e ++ x) = option_map (Nat.add (length e)) (first_stop eqb stops x).
Proof.
  intros Hn Hnp.
  assert (H : forall s j, In s stops -> occ s (e ++ x) j -> length e <= j).
  { intros s j Hin Hj. destruct (le_lt_dec (length e) j) as [Hle|Hlt]; [exact Hle|].
    destruct (first_stop_None _ _ Hn s j Hin (occ_app_inside _ _ _ _ _ Hnp Hin Hj Hlt)). }
  clear Hn Hnp. induction stops as [|s stops IH]; simpl; [reflexivity|].
  rewrite find_skip by (intros j; apply H; left; reflexivity).
  rewrite IH by (intros s' j Hin; apply H; right; exact Hin).
  destruct (find eqb s x), (first_stop eqb stops x); simpl; try reflexivity.
  rewrite Nat.add_min_distr_l. reflexivity.
Qed.

Lemma first_stop_extend (stops : list str) (t r : str) (m : nat) :
  first_stop eqb stops t = Some m -> nopartial stops t ->
  first_stop eqb stops (t ++ r) = Some m.
Proof.
  intros Hm Hnp. destruct (first_stop_Some _ _ _ Hm) as [[s0 [Hin0 Hoc0]] Hmin].
  pose proof (occ_bound _ _ _ Hoc0) as Hb.
  pose proof (first_stop_spec stops (t ++ r)) as Hs.
  destruct (first_stop eqb stops (t ++ r)) as [k|].
  - destruct Hs as [[s [Hin Hk]] Hmin']. f_equal.
    pose proof (Hmin' s0 m Hin0 (occ_app_r _ _ r _ Hoc0)) as Hkm.
    destruct (le_lt_dec m k) as [Hle|Hlt]; [lia|].
    assert (Hk' : occ s t k) by (apply (occ_app_inside stops _ _ r); [assumption.. | lia]).
    specialize (Hmin s k Hin Hk'). lia.
  - destruct (Hs s0 m Hin0 (occ_app_r _ _ r _ Hoc0)).
Qed.

Lemma cut_stop_final (stops : list str) (t r : str) (m : nat) :
  first_stop eqb stops t = Some m -> nopartial stops t ->
  cut_stop eqb stops (t ++ r) = cut_stop eqb stops t.
Proof.
  intros Hm Hnp. unfold cut_stop. rewrite (first_stop_extend _ _ r _ Hm Hnp), Hm, firstn_app.
  rewrite (proj2 (Nat.sub_0_le _ _) (first_stop_bound _ _ _ Hm)). apply app_nil_r.
Qed.

(* strip_prefix / strip_suffix remove exactly the configured string, only at the very
   beginning / end, and only when it is there *)
Theorem strip_prefix_char (p : option str) (t : str) :
  (truthy p = true /\ t = oget p ++ strip_prefix eqb p t) \/
  (strip_prefix eqb p t = t /\ (truthy p = true -> forall r, t <> oget p ++ r)).
Proof.
  unfold strip_prefix. destruct (truthy p); [|right; split; [reflexivity | discriminate]].
  destruct (prefixb_spec (oget p) t) as [[r ->] | Hn]; simpl.
  - left. rewrite skipn_app_exact. split; reflexivity.
  - right. split; [reflexivity|]. intros _ r Hr. apply Hn. exists r. exact Hr.
Qed.

Lemma strip_prefix_hit (p : option str) (r : str) :
  truthy p = true -> strip_prefix eqb p (oget p ++ r) = r.
Proof.
  intros Ht. destruct (strip_prefix_char p (oget p ++ r)) as [[_ Heq] | [_ Hn]].
  - symmetry. exact (app_inv_head _ _ _ Heq).
  - destruct (Hn Ht r eq_refl).
Qed.

Lemma strip_prefix_miss (p : option str) (t : str) :
  (truthy p = true -> forall r, t <> oget p ++ r) -> strip_prefix eqb p t = t.
Proof.
  intros Hn. destruct (strip_prefix_char p t) as [[Ht Heq] | [Heq _]]; [destruct (Hn Ht _ Heq) | exact Heq].
Qed.

Lemma strip_suffix_falsy (suf : option str) (c : str) : truthy suf = false -> strip_suffix eqb suf c = c.
Proof. intros Hf. unfold strip_suffix. rewrite Hf. reflexivity. Qed.

Theorem strip_suffix_char (suf : option str) (t : str) :
  (truthy suf = true /\ t = strip_suffix eqb suf t ++ oget suf) \/
  (strip_suffix eqb suf t = t /\ (truthy suf = true -> forall r, t <> r ++ oget suf)).
Proof.
  unfold strip_suffix. destruct (truthy suf); [|right; split; [reflexivity | discriminate]].
  destruct (endswith_spec t (oget suf)) as [[r ->] | Hn]; simpl.
  - left. rewrite app_length, Nat.add_sub, firstn_app_exact. split; reflexivity.
  - right. split; [reflexivity|]. intros _ r Hr. apply Hn. exists r. exact Hr.
Qed.

Lemma strip_suffix_hit (suf : option str) (r : str) :
  truthy suf = true -> strip_suffix eqb suf (r ++ oget suf) = r.
Proof.
  intros Ht. destruct (strip_suffix_char suf (r ++ oget suf)) as [[_ Heq] | [_ Hn]].
  - symmetry. exact (app_inv_tail _ _ _ Heq).
  - destruct (Hn Ht r eq_refl).
Qed.

Lemma strip_suffix_miss (suf : option str) (c : str) :
  (truthy suf = true -> forall r, c <> r ++ oget suf) -> strip_suffix eqb suf c = c.
Proof.
  intros Hn. destruct (strip_suffix_char suf c) as [[Ht Heq] | [Heq _]]; [destruct (Hn Ht _ Heq) | exact Heq].
Qed.

Lemma strip_suffix_nil (suf : option str) : strip_suffix eqb suf [] = [].
Proof. unfold strip_suffix. destruct (truthy suf && endswith eqb [] (oget suf)); [apply firstn_nil | reflexivity]. Qed.

Lemma strip_suffix_app (suf : option str) (e c : str) :
  (truthy suf = true -> nopartial [oget suf] e) ->
  strip_suffix eqb suf (e ++ c) = e ++ strip_suffix eqb suf c.
Proof.
  intros Hnp. destruct (strip_suffix_char suf c) as [[Ht Hc] | [Hc Hn]].
  - set (r := strip_suffix eqb suf c) in *. rewrite Hc, app_assoc. exact (strip_suffix_hit suf (e ++ r) Ht).
  - rewrite Hc. apply strip_suffix_miss. intros Ht r Hr.
    apply app_eq_app in Hr. destruct Hr as [l [[Hl1 Hl2] | [Hl1 Hl2]]].
    + (* e = r ++ l, suffix = l ++ c *)
      apply (Hnp Ht (oget suf) r l c); [left; reflexivity | exact Hl1 | | exact Hl2].
      intros ->. apply (Hn Ht []). symmetry. exact Hl2.
    + (* r = e ++ l, c = l ++ suffix *)
      exact (Hn Ht l Hl2).
Qed.

Definition noend (q : list (option str)) : bool := forallb (fun i => negb (is_end i)) q.

Lemma delivered_snoc (q : list (option str)) (i : option str) :
  concat (delivered (q ++ [i])) = concat (delivered q) ++ (if noend q then oget i else []).
Proof.
  induction q as [|[[|x s]|] q IH]; simpl.
  - destruct i as [[|y z]|]; simpl; rewrite ?app_nil_r; reflexivity.
  - reflexivity.
  - rewrite IH, app_assoc. reflexivity.
  - reflexivity.
Qed.

Lemma delivered_end (q : list (option str)) (i : option str) :
  is_end i = true -> concat (delivered (q ++ [i])) = concat (delivered q).
Proof.
  intros Hi. rewrite delivered_snoc.
  destruct i as [[|y z]|]; try discriminate; destruct (noend q); apply app_nil_r.
Qed.

Lemma is_end_Some (x : str) : x <> [] -> is_end (Some x) = false.
Proof. destruct x; [contradiction | reflexivity]. Qed.

Lemma is_end_oget (chunk : option str) : is_end chunk = true -> oget chunk = [].
Proof. destruct chunk as [[|x s]|]; try discriminate; reflexivity. Qed.

Lemma noend_snoc (q : list (option str)) (z : str) : noend q = true -> z <> [] -> noend (q ++ [Some z]) = true.
Proof.
  intros Hq Hz. unfold noend. rewrite forallb_app. fold (noend q). cbn [forallb].
  rewrite Hq, (is_end_Some _ Hz). reflexivity.
Qed.

Definition answer (st : state A) (r : str) : Prop :=
  concat (delivered (s_queue st)) = r /\ s_completion st = r.

Section Config.
(* the patterns are fixed for the stream *)
Variable c : config A.

(* the specification on the text after the prefix *)
Definition spec' (t : str) : str :=
  strip_suffix eqb (c_suffix c) (cut_stop eqb (c_stop c) t).

Lemma spec_spec' (t : str) : spec eqb c t = spec' (strip_prefix eqb (c_prefix c) t).
Proof. reflexivity. Qed.

Lemma spec'_nil : spec' [] = [].
Proof.
  unfold spec', cut_stop. destruct (first_stop eqb (c_stop c) []); rewrite ?firstn_nil; apply strip_suffix_nil.
Qed.

Definition pats : list str :=
  (if truthy (c_suffix c) then [oget (c_suffix c)] else []) ++ c_stop c.

Lemma pats_stop (t : str) : nopartial pats t -> nopartial (c_stop c) t.
Proof. apply nopartial_sub. intros p Hp. unfold pats. apply in_or_app. right. exact Hp. Qed.

Lemma pats_suffix (t : str) :
  nopartial pats t -> truthy (c_suffix c) = true -> nopartial [oget (c_suffix c)] t.
Proof.
  intros Hn Ht. revert Hn. apply nopartial_sub. intros p Hp. unfold pats. rewrite Ht.
  apply in_or_app. left. exact Hp.
Qed.

(* the search for stop sequences and the suffix test look through e *)
Record transparent (e : str) : Prop := mkTransparent {
  tr_stop : forall x, first_stop eqb (c_stop c) (e ++ x) =
                      option_map (Nat.add (length e)) (first_stop eqb (c_stop c) x);
  tr_suffix : forall x, strip_suffix eqb (c_suffix c) (e ++ x) = e ++ strip_suffix eqb (c_suffix c) x
}.

Lemma transparent_nil : transparent [].
Proof. constructor; intros x; simpl; [destruct (first_stop eqb (c_stop c) x)|]; reflexivity. Qed.

Lemma transparent_app (e h : str) : transparent e -> transparent h -> transparent (e ++ h).
Proof.
  intros [He1 He2] [Hh1 Hh2]. constructor; intros x; rewrite <- app_assoc.
  - rewrite He1, Hh1, app_length. destruct (first_stop eqb (c_stop c) x); simpl; [rewrite Nat.add_assoc|]; reflexivity.
  - rewrite He2, Hh2. apply app_assoc.
Qed.

(* a flushed chunk without a stop sequence: the hold-back test has seen to its tails *)
Lemma transparent_chunk (x : str) :
  first_stop eqb (c_stop c) x = None -> nopartial pats x -> transparent x.
Proof.
  intros Hn Hnp. constructor; intros y.
  - exact (first_stop_skip _ x y Hn (pats_stop x Hnp)).
  - apply strip_suffix_app. exact (pats_suffix x Hnp).
Qed.

(* what `process` relies on: configuration unchanged, the queue holds exactly the completion,
   which is transparent *)
Record pre (st : state A) : Prop := mkPre {
  pre_suffix : s_suffix st = c_suffix c;
  pre_stop : s_stop st = c_stop c;
  pre_noend : noend (s_queue st) = true;
  pre_deliv : concat (delivered (s_queue st)) = s_completion st;
  pre_transp : transparent (s_completion st)
}.

Lemma pre_answer (st : state A) : pre st -> answer st (s_completion st).
Proof. intros Hpre. exact (conj (pre_deliv _ Hpre) eq_refl). Qed.

Lemma pre_set_cur (st : state A) (k : str) : pre st -> pre (set_cur st k).
Proof. intros [H1 H2 H3 H4 H5]. constructor; assumption. Qed.

Lemma spec'_pre (st : state A) (x : str) :
  pre st -> spec' (s_completion st ++ x) = s_completion st ++ spec' x.
Proof.
  intros Hpre. destruct (pre_transp _ Hpre) as [Hstop Hsuf]. unfold spec', cut_stop. rewrite Hstop.
  destruct (first_stop eqb (c_stop c) x) as [m|]; simpl; rewrite ?firstn_app_2; apply Hsuf.
Qed.

Lemma spec'_flushed (st : state A) : pre st -> spec' (s_completion st) = s_completion st.
Proof.
  intros Hpre. rewrite <- (app_nil_r (s_completion st)) at 1.
  rewrite (spec'_pre st [] Hpre), spec'_nil. apply app_nil_r.
Qed.

Lemma slice_app (e x : str) (m : nat) : slice (length e) (length e + m) (e ++ x) = firstn m x.
Proof. unfold slice. rewrite firstn_app_2. apply skipn_app_exact. Qed.

Lemma process_cur (st : state A) (chunk : option str) (last : bool) :
  s_cur (process eqb st chunk last) = s_cur st.
Proof.
  unfold process. destruct chunk as [x|]; [|reflexivity].
  destruct (first_stop eqb (s_stop st) (s_completion st ++ x)); [|reflexivity].
  destruct (slice (length (s_completion st)) n (s_completion st ++ x)); reflexivity.
Qed.

Lemma set_cur_id (st : state A) : set_cur st (s_cur st) = st.
Proof. destruct st; reflexivity. Qed.

Lemma emit_answer (st : state A) (y : str) (b : bool) :
  pre st -> answer (emit (set_completion st (s_completion st ++ y)) (Some y) b) (s_completion st ++ y).
Proof.
  intros Hpre. split; [|reflexivity]. simpl.
  rewrite delivered_snoc, (pre_noend _ Hpre), (pre_deliv _ Hpre). reflexivity.
Qed.

(* _process on a stop sequence *)
Lemma process_stop (st : state A) (x : str) (last : bool) (m : nat) :
  pre st -> first_stop eqb (c_stop c) x = Some m ->
  let st' := process eqb st (Some x) last in
  s_finished st' = true /\ answer st' (spec' (s_completion st ++ x)).
Proof.
  intros Hpre Hm. rewrite (spec'_pre st x Hpre). unfold spec', cut_stop, process.
  rewrite (pre_stop _ Hpre), (pre_suffix _ Hpre), (tr_stop _ (pre_transp _ Hpre)), Hm. simpl.
  rewrite slice_app. destruct (firstn m x) as [|y ys].
  - rewrite strip_suffix_nil, app_nil_r. split; [reflexivity|]. exact (pre_answer st Hpre).
  - split; [simpl; rewrite orb_true_r; reflexivity | exact (emit_answer st _ true Hpre)].
Qed.

(* _process without a stop sequence *)
Lemma process_nostop (st : state A) (x : str) (last : bool) :
  pre st -> first_stop eqb (c_stop c) x = None ->
  process eqb st (Some x) last =
  let x2 := if last then strip_suffix eqb (c_suffix c) x else x in
  emit (set_completion st (s_completion st ++ x2)) (Some x2) false.
Proof.
  intros Hpre Hn. unfold process.
  rewrite (pre_stop _ Hpre), (pre_suffix _ Hpre), (tr_stop _ (pre_transp _ Hpre)), Hn. reflexivity.
Qed.

Lemma process_last (st : state A) (x : str) :
  pre st -> answer (process eqb st (Some x) true) (spec' (s_completion st ++ x)).
Proof.
  intros Hpre. destruct (first_stop eqb (c_stop c) x) as [m|] eqn:Hm.
  - exact (proj2 (process_stop st x true m Hpre Hm)).
  - rewrite (process_nostop st x true Hpre Hm), (spec'_pre st x Hpre).
    unfold spec', cut_stop. rewrite Hm. exact (emit_answer st _ false Hpre).
Qed.

Lemma process_end (st : state A) (chunk : option str) (last : bool) (r : str) :
  is_end chunk = true -> answer st r -> answer (process eqb st chunk last) r.
Proof.
  intros He [Hd Hc]. unfold process. destruct chunk as [[|y ys]|]; try discriminate.
  - rewrite app_nil_r. destruct (first_stop eqb (s_stop st) (s_completion st)) as [m|].
    + unfold slice. rewrite skipn_all2 by (rewrite firstn_length; apply Nat.le_min_r). exact (conj Hd Hc).
    + assert (Hx : (if last then strip_suffix eqb (s_suffix st) [] else []) = [])
        by (destruct last; [apply strip_suffix_nil | reflexivity]).
      rewrite Hx. split; simpl; [rewrite delivered_end by reflexivity | rewrite app_nil_r]; assumption.
  - split; simpl; [rewrite delivered_end by reflexivity|]; assumption.
Qed.

Definition has_pats : bool := truthy (c_suffix c) || nonempty (c_stop c).

(* the prefix has been consumed (or none is configured); t = the text after it *)
Record streaming (t : str) (st : state A) : Prop := mkStreaming {
  str_pre : pre st;
  str_prefix : truthy (s_prefix st) = false;
  str_open : s_finished st = false;
  str_text : s_completion st ++ s_cur st = t;
  str_cur : has_pats = false -> s_cur st = []
}.

(* a stop sequence was seen: the answer is final whatever follows *)
Record stopped (t : str) (st : state A) : Prop := mkStopped {
  stp_finished : s_finished st = true;
  stp_cur : s_cur st = [];
  stp_final : forall rest, answer st (spec' (t ++ rest))
}.

(* the configured prefix has not been seen yet *)
Definition pending (t : str) (st : state A) : Prop :=
  truthy (c_prefix c) = true /\ prefixb eqb (oget (c_prefix c)) t = false /\
  st = mkState (c_prefix c) (c_suffix c) (c_stop c) t [] false [] false.

Definition good (t : str) (st : state A) : Prop :=
  pending t st \/
  (prefix_seen eqb c t = true /\
   (streaming (strip_prefix eqb (c_prefix c) t) st \/ stopped (strip_prefix eqb (c_prefix c) t) st)).

Lemma pats_nil : has_pats = false -> pats = [].
Proof.
  unfold has_pats, pats. intros H. apply orb_false_iff in H. destruct H as [H1 H2].
  rewrite H1. destruct (c_stop c); [reflexivity | discriminate].
Qed.

(* a chunk flushed in the middle of the stream *)
Lemma flush_mid (st : state A) (x : str) :
  pre st -> truthy (s_prefix st) = false -> s_finished st = false ->
  x <> [] -> nopartial pats x ->
  let st' := set_cur (process eqb st (Some x) false) [] in
  streaming (s_completion st ++ x) st' \/ stopped (s_completion st ++ x) st'.
Proof.
  intros Hpre Hpf Hfin Hx Hnp.
  destruct (first_stop eqb (c_stop c) x) as [m|] eqn:Hm.
  - right. destruct (process_stop st x false m Hpre Hm) as [Hf Ha].
    constructor; [exact Hf | reflexivity |].
    intros rest. rewrite <- app_assoc, (spec'_pre st _ Hpre). unfold spec'.
    rewrite (cut_stop_final _ _ rest _ Hm (pats_stop _ Hnp)). fold (spec' x).
    rewrite <- (spec'_pre st x Hpre). exact Ha.
  - left. simpl. rewrite (process_nostop st x false Hpre Hm).
    constructor; simpl; [| exact Hpf | rewrite Hfin; exact (is_end_Some _ Hx) | apply app_nil_r | reflexivity].
    pose proof (proj1 (emit_answer st x false Hpre)) as Hd.
    destruct Hpre as [H1 H2 H3 H4 H5]. constructor; simpl; try assumption.
    + apply noend_snoc; assumption.
    + exact (transparent_app _ _ H5 (transparent_chunk x Hm Hnp)).
Qed.

(* push_chunk of a non-empty chunk once the prefix is out of the way *)
Lemma push_np_step (t : str) (st : state A) (x : str) :
  streaming t st -> x <> [] ->
  streaming (t ++ x) (push_np eqb st (Some x)) \/ stopped (t ++ x) (push_np eqb st (Some x)).
Proof.
  intros [Hpre Hpf Hfin Ht Hcur] Hx. unfold push_np, hold_patterns.
  rewrite (pre_suffix _ Hpre), (pre_stop _ Hpre), (is_end_Some _ Hx).
  fold pats has_pats. simpl oget. rewrite andb_true_r.
  destruct has_pats eqn:Hhp.
  - destruct (partial_end eqb (s_cur st ++ x) pats) eqn:Hpe.
    + left. constructor; simpl;
        [apply pre_set_cur; exact Hpre | exact Hpf | exact Hfin | rewrite <- Ht, app_assoc; reflexivity | intros H; congruence].
    + rewrite <- Ht, <- app_assoc.
      apply (flush_mid (set_cur st (s_cur st ++ x))); simpl;
        [apply pre_set_cur; exact Hpre | exact Hpf | exact Hfin | | exact (partial_end_false _ _ Hpe)].
      intros H. exact (Hx (proj2 (app_eq_nil _ _ H))).
  - rewrite (Hcur eq_refl), app_nil_r in Ht. subst t.
    rewrite <- (set_cur_id (process eqb st (Some x) false)), process_cur, (Hcur eq_refl).
    apply flush_mid; try assumption. rewrite (pats_nil Hhp). intros p u v w [].
Qed.

Lemma stopped_more (t x : str) (st : state A) : stopped t st -> stopped (t ++ x) st.
Proof.
  intros [H1 H2 H3]. constructor; try assumption.
  intros rest. rewrite <- app_assoc. apply H3.
Qed.

Lemma strip_prefix_seen_app (t x : str) :
  prefix_seen eqb c t = true ->
  prefix_seen eqb c (t ++ x) = true /\
  strip_prefix eqb (c_prefix c) (t ++ x) = strip_prefix eqb (c_prefix c) t ++ x.
Proof.
  unfold prefix_seen. destruct (truthy (c_prefix c)) eqn:Htp; simpl.
  - intros Hp. apply prefixb_iff in Hp. destruct Hp as [r ->].
    rewrite <- app_assoc, !strip_prefix_hit by exact Htp.
    split; [apply prefixb_iff; eexists; reflexivity | reflexivity].
  - intros _. rewrite !strip_prefix_miss by (rewrite Htp; discriminate). split; reflexivity.
Qed.

Lemma pre_init (pf : option str) (k : str) :
  pre (mkState pf (c_suffix c) (c_stop c) k [] false [] false).
Proof. constructor; simpl; try reflexivity. apply transparent_nil. Qed.

Lemma streaming_init (pf : option str) :
  truthy pf = false ->
  streaming [] (mkState pf (c_suffix c) (c_stop c) [] [] false [] false).
Proof. intros Hs. constructor; simpl; try assumption; try reflexivity. apply pre_init. Qed.

(* one push_chunk of a non-empty chunk *)
Lemma good_step (t : str) (st : state A) (x : str) :
  good t st -> x <> [] -> good (t ++ x) (push eqb st (Some x)).
Proof.
  intros [Hpend | [Hseen Hg]] Hx.
  - destruct Hpend as [Htp [Hnp ->]]. unfold push. simpl. rewrite Htp.
    destruct (prefixb eqb (oget (c_prefix c)) (t ++ x)) eqn:Hp.
    + right. split; [unfold prefix_seen; rewrite Hp; apply orb_true_r|].
      unfold strip_prefix. rewrite Htp, Hp. simpl.
      pose proof (streaming_init None eq_refl) as Hinit.
      destruct (skipn (length (oget (c_prefix c))) (t ++ x)) as [|y ys];
        [left; exact Hinit | apply (push_np_step [] _ (y :: ys) Hinit); discriminate].
    + left. repeat split; assumption.
  - right. destruct (strip_prefix_seen_app t x Hseen) as [Hseen2 ->]. split; [exact Hseen2|].
    unfold push. destruct Hg as [Hstr | Hstop].
    + rewrite (str_open _ _ Hstr), (str_prefix _ _ Hstr). apply push_np_step; assumption.
    + right. rewrite (stp_finished _ _ Hstop). apply stopped_more. exact Hstop.
Qed.

Lemma good_init : good [] (init c).
Proof.
  unfold good, init. destruct (truthy (c_prefix c)) eqn:Htp.
  - left. repeat split; try assumption.
    destruct (c_prefix c) as [[|x s]|]; try discriminate. reflexivity.
  - right. unfold prefix_seen, strip_prefix. rewrite Htp. simpl. split; [reflexivity|].
    left. apply streaming_init. exact Htp.
Qed.

Lemma good_feed (chunks : list str) (t : str) (st : state A) :
  good t st -> Forall (fun x => x <> []) chunks -> good (t ++ concat chunks) (feed eqb st chunks).
Proof.
  revert t st; induction chunks as [|x chunks IH]; intros t st Hg Hne; simpl.
  - rewrite app_nil_r. exact Hg.
  - inversion Hne as [|? ? Hx Hrest]; subst.
    rewrite app_assoc. apply IH; [|exact Hrest]. apply good_step; assumption.
Qed.

Lemma good_run (chunks : list str) :
  Forall (fun x => x <> []) chunks -> good (concat chunks) (feed eqb (init c) chunks).
Proof. exact (good_feed chunks [] (init c) (good_init)). Qed.

Lemma on_llm_end_answer (st : state A) (r : str) :
  answer (match s_cur st with [] => st | k => process eqb st (Some k) true end) r ->
  answer (on_llm_end eqb st) r.
Proof.
  intros H. unfold on_llm_end. apply (process_end _ (Some []) false r eq_refl).
  destruct (s_cur st); exact H.
Qed.

(* on_llm_end does not look at the prefix: this covers a prefix still pending as well *)
Lemma pre_on_llm_end (st : state A) :
  pre st -> answer (on_llm_end eqb st) (spec' (s_completion st ++ s_cur st)).
Proof.
  intros Hpre. apply on_llm_end_answer. destruct (s_cur st) as [|y ys].
  - rewrite app_nil_r, (spec'_flushed st Hpre). exact (pre_answer st Hpre).
  - exact (process_last st _ Hpre).
Qed.

Lemma stopped_answer (t : str) (st : state A) : stopped t st -> answer st (spec' t).
Proof. intros [_ _ H3]. rewrite <- (app_nil_r t). exact (H3 []). Qed.

(* push_chunk("") / push_chunk(None) while the prefix is pending *)
Lemma pending_push_end (t : str) (st : state A) (chunk : option str) :
  pending t st -> is_end chunk = true -> push eqb st chunk = st.
Proof.
  intros [Htp [Hnp ->]] Hend.
  unfold push. simpl. rewrite Htp, (is_end_oget _ Hend), app_nil_r, Hnp. reflexivity.
Qed.

(* ... and once the prefix is out of the way *)
Lemma streaming_push_end (t : str) (st : state A) (chunk : option str) :
  streaming t st -> is_end chunk = true -> answer (push eqb st chunk) (spec' t).
Proof.
  intros [Hpre Hpf Hfin Ht Hcur] Hend.
  unfold push. rewrite Hfin, Hpf. unfold push_np.
  rewrite (pre_suffix _ Hpre), (pre_stop _ Hpre). fold has_pats.
  rewrite Hend, (is_end_oget _ Hend), app_nil_r, andb_false_r. destruct has_pats eqn:Hhp.
  - rewrite <- Ht. exact (process_last (set_cur st (s_cur st)) _ (pre_set_cur _ _ Hpre)).
  - rewrite (Hcur eq_refl), app_nil_r in Ht. subst t. rewrite (spec'_flushed st Hpre).
    apply process_end; [exact Hend | exact (pre_answer st Hpre)].
Qed.

Lemma pending_on_llm_end (t : str) (st : state A) :
  pending t st -> answer (on_llm_end eqb st) (spec eqb c t).
Proof.
  intros [Htp [Hnp ->]]. rewrite spec_spec'. unfold strip_prefix. rewrite Hnp, andb_false_r.
  exact (pre_on_llm_end _ (pre_init _ t)).
Qed.

(* the observable result of a run is a function of the text and of how its end is signalled *)
Definition outcome (e : end_mode) (t : str) : str :=
  if is_push_end e && negb (prefix_seen eqb c t) then [] else spec eqb c t.

Lemma good_finish (t : str) (st : state A) (e : end_mode) :
  good t st -> answer (finish eqb e st) (outcome e t).
Proof.
  unfold outcome. intros [Hpend | [Hseen Hg]]; [|rewrite Hseen, andb_false_r, spec_spec'; destruct Hg as [Hstr | Hstop]].
  - assert (Hns : prefix_seen eqb c t = false)
      by (destruct Hpend as [Htp [Hnp _]]; unfold prefix_seen; rewrite Htp, Hnp; reflexivity).
    rewrite Hns, andb_true_r.
    destruct e; simpl; [exact (pending_on_llm_end t st Hpend) | rewrite (pending_push_end t st _ Hpend) by reflexivity..];
      destruct Hpend as [_ [_ ->]]; split; reflexivity.
  - destruct e; simpl; [|apply (streaming_push_end _ st _ Hstr); reflexivity..].
    rewrite <- (str_text _ _ Hstr). exact (pre_on_llm_end st (str_pre _ _ Hstr)).
  - pose proof (stopped_answer _ st Hstop) as Ha.
    destruct e; simpl; [|unfold push; rewrite (stp_finished _ _ Hstop); exact Ha..].
    apply on_llm_end_answer. rewrite (stp_cur _ _ Hstop). exact Ha.
Qed.

(* every chunking, every way of signalling the end: the result depends on the text alone *)
Theorem run_outcome (chunks : list str) (e : end_mode) :
  Forall (fun x => x <> []) chunks -> answer (run eqb c chunks e) (outcome e (concat chunks)).
Proof. intros Hne. exact (good_finish _ _ e (good_run chunks Hne)). Qed.

(* on_llm_end: every chunking delivers the specified text and completion equals it *)
Theorem chunking_independent (chunks : list str) :
  Forall (fun x => x <> []) chunks -> answer (run eqb c chunks EndLLM) (spec eqb c (concat chunks)).
Proof. exact (run_outcome chunks EndLLM). Qed.

(* push_chunk("") / push_chunk(None) as end marker: the same, for texts that start with the prefix *)
Theorem chunking_independent_push_end (chunks : list str) (e : end_mode) :
  Forall (fun x => x <> []) chunks -> is_push_end e = true ->
  prefix_seen eqb c (concat chunks) = true ->
  answer (run eqb c chunks e) (spec eqb c (concat chunks)).
Proof.
  intros Hne He Hseen. pose proof (run_outcome chunks e Hne) as H.
  unfold outcome in H. rewrite Hseen, andb_false_r in H. exact H.
Qed.

(* ... and while the prefix has not been seen these end markers are ignored: nothing is delivered,
   the stream stays open *)
Theorem prefix_pending_end_ignored (chunks : list str) (e : end_mode) :
  Forall (fun x => x <> []) chunks -> is_push_end e = true ->
  prefix_seen eqb c (concat chunks) = false ->
  let st := run eqb c chunks e in
  delivered (s_queue st) = [] /\ s_completion st = [] /\ s_finished st = false /\ s_cur st = concat chunks.
Proof.
  intros Hne He Hseen. destruct (good_run chunks Hne) as [Hpend | [Hs _]]; [|congruence].
  assert (Hst : run eqb c chunks e = feed eqb (init c) chunks)
    by (destruct e; try discriminate; apply (pending_push_end _ _ _ Hpend); reflexivity).
  simpl. rewrite Hst. destruct Hpend as [_ [_ ->]]. repeat split; reflexivity.
Qed.

(* the LangChain entry path: tokens through on_llm_new_token (with or without on_chat_model_start,
   with or without the empty first token some providers send), then on_llm_end, is the same run *)
Lemma feed_tokens_not_first (st : state A) (tokens : list str) :
  feed_tokens eqb (st, false) tokens = (feed eqb st tokens, false).
Proof.
  revert st; induction tokens as [|x tokens IH]; intros st; simpl; [reflexivity|]. apply IH.
Qed.

Lemma feed_tokens_first (st : state A) (lead chunks : list str) :
  (lead = [] \/ lead = [[]]) -> Forall (fun x => x <> []) chunks ->
  fst (feed_tokens eqb (st, true) (lead ++ chunks)) = feed eqb st chunks.
Proof.
  intros [-> | ->] Hne; simpl.
  - destruct chunks as [|x chunks]; simpl; [reflexivity|].
    inversion Hne as [|? ? Hx _]; subst. destruct x as [|a x]; [contradiction|].
    fold (feed_tokens eqb (push eqb st (Some (a :: x)), false) chunks).
    rewrite feed_tokens_not_first. reflexivity.
  - fold (feed_tokens eqb (st, false) chunks). rewrite feed_tokens_not_first. reflexivity.
Qed.

Theorem callback_path_same_run (chat : bool) (lead chunks : list str) :
  (lead = [] \/ lead = [[]]) -> Forall (fun x => x <> []) chunks ->
  run_tokens eqb c chat (lead ++ chunks) = run eqb c chunks EndLLM.
Proof.
  intros Hl Hne. unfold run_tokens, run, finish.
  assert (Hst : (if chat then on_chat_model_start (init c) else init c) = init c) by (destruct chat; reflexivity).
  rewrite Hst, (feed_tokens_first (init c) lead chunks Hl Hne). reflexivity.
Qed.

Theorem chunking_independent_callback (chat : bool) (lead chunks : list str) :
  (lead = [] \/ lead = [[]]) -> Forall (fun x => x <> []) chunks ->
  answer (run_tokens eqb c chat (lead ++ chunks)) (spec eqb c (concat chunks)).
Proof.
  intros Hl Hne. rewrite (callback_path_same_run chat lead chunks Hl Hne).
  exact (chunking_independent chunks Hne).
Qed.

(* the statement in the words of the property: two chunkings of the same text are
   indistinguishable at the output *)
Theorem same_for_all_chunkings (chunks1 chunks2 : list str) (e : end_mode) :
  Forall (fun x => x <> []) chunks1 -> Forall (fun x => x <> []) chunks2 ->
  concat chunks1 = concat chunks2 ->
  concat (delivered (s_queue (run eqb c chunks1 e))) = concat (delivered (s_queue (run eqb c chunks2 e))) /\
  s_completion (run eqb c chunks1 e) = s_completion (run eqb c chunks2 e).
Proof.
  intros H1 H2 Heq.
  destruct (run_outcome chunks1 e H1) as [Ha Hb], (run_outcome chunks2 e H2) as [Ha' Hb'].
  rewrite Ha, Hb, Ha', Hb', Heq. split; reflexivity.
Qed.

(* what has been delivered is never retracted: at every moment of the stream the text
   delivered so far is a beginning of the final answer, however the text continues *)

Lemma good_delivered_prefix (t : str) (st : state A) (more : str) :
  good t st -> exists rest, spec eqb c (t ++ more) = concat (delivered (s_queue st)) ++ rest.
Proof.
  intros [Hpend | [Hseen Hg]].
  - destruct Hpend as [_ [_ ->]]. eexists. reflexivity.
  - rewrite spec_spec', (proj2 (strip_prefix_seen_app t more Hseen)).
    destruct Hg as [[Hpre _ _ <- _] | [_ _ H3]].
    + rewrite <- app_assoc, (spec'_pre st _ Hpre), (pre_deliv _ Hpre). eexists. reflexivity.
    + rewrite <- (proj1 (H3 more)). exists []. symmetry. apply app_nil_r.
Qed.

Theorem delivered_never_retracted (chunks : list str) (more : str) :
  Forall (fun x => x <> []) chunks ->
  exists rest,
    spec eqb c (concat chunks ++ more) = concat (delivered (s_queue (feed eqb (init c) chunks))) ++ rest.
Proof. intros Hne. exact (good_delivered_prefix _ _ more (good_run chunks Hne)). Qed.

End Config.

End Proofs.

(* The handler of the pinned snapshot (pre-fix transcription) refutes the statement:
   witnesses over code points, computed.  P = 80, S = 83, X = 88, a = 97, b = 98, c = 99 *)

Definition nonempty_chunks (chunks : list (list N)) : Prop := Forall (fun x => x <> []) chunks.

(* F2a: the end of the prefix and the suffix arrive in one chunk - the suffix is streamed *)
Lemma old_prefix_suffix_refuted :
  exists (c : config N) (chunks : list (list N)),
    nonempty_chunks chunks /\
    concat (delivered (s_queue (run_old N.eqb c chunks EndLLM))) <> spec N.eqb c (concat chunks).
Proof.
  exists (mkConfig (Some [80%N]) (Some [83%N]) []), [[80; 83]%N]. split.
  - repeat constructor; discriminate.
  - vm_compute. discriminate.
Qed.

(* F2b: a stop sequence duplicates the completion *)
Lemma old_stop_completion_refuted :
  exists (c : config N) (chunks : list (list N)),
    nonempty_chunks chunks /\
    s_completion (run_old N.eqb c chunks EndLLM) <> spec N.eqb c (concat chunks) /\
    s_completion (run_old N.eqb c chunks EndLLM) = [97; 97]%N /\ spec N.eqb c (concat chunks) = [97%N].
Proof.
  exists (mkConfig None None [[88%N]]), [[97; 88]%N]. split; [|split; [|split]].
  - repeat constructor; discriminate.
  - vm_compute. discriminate.
  - vm_compute. reflexivity.
  - vm_compute. reflexivity.
Qed.

(* the suffix was removed before the text was cut at the stop sequence: a stop sequence that
   ends with the suffix is missed and streamed *)
Lemma old_stop_after_suffix_refuted :
  exists (c : config N) (chunks : list (list N)),
    nonempty_chunks chunks /\
    concat (delivered (s_queue (run_old N.eqb c chunks EndLLM))) <> spec N.eqb c (concat chunks).
Proof.
  exists (mkConfig None (Some [98%N]) [[99; 98]%N]), [[99; 98]%N]. split.
  - repeat constructor; discriminate.
  - vm_compute. discriminate.
Qed.

(* two chunkings of one text that the snapshot handler tells apart (chunking dependence itself) *)
Lemma old_chunking_dependent :
  exists (c : config N) (chunks1 chunks2 : list (list N)),
    nonempty_chunks chunks1 /\ nonempty_chunks chunks2 /\ concat chunks1 = concat chunks2 /\
    concat (delivered (s_queue (run_old N.eqb c chunks1 EndLLM))) <>
    concat (delivered (s_queue (run_old N.eqb c chunks2 EndLLM))).
Proof.
  exists (mkConfig (Some [80%N]) (Some [83%N]) []), [[80; 83]%N], [[80%N]; [83%N]].
  split; [|split; [|split]].
  - repeat constructor; discriminate.
  - repeat constructor; discriminate.
  - reflexivity.
  - vm_compute. discriminate.
Qed.

(* the hypotheses of the main theorems are inhabited by non-trivial runs: prefix P-quote (80 34),
   suffix quote (34), stop sequence quote-newline (34 10); text  P-quote a b quote newline c  in
   chunks that split the prefix, join the prefix end with text, and split the stop sequence; the
   repaired handler answers  a b *)
Example main_theorem_inhabited :
  let c := mkConfig (Some [80; 34]%N) (Some [34%N]) [[34; 10]%N] in
  let chunks := [[80%N]; [34; 97]%N; [98; 34]%N; [10; 99]%N] in
  nonempty_chunks chunks /\ prefix_seen N.eqb c (concat chunks) = true /\
  spec N.eqb c (concat chunks) = [97; 98]%N /\
  concat (delivered (s_queue (run N.eqb c chunks EndLLM))) = [97; 98]%N /\
  s_completion (run N.eqb c chunks EndEmpty) = [97; 98]%N.
Proof.
  split; [repeat constructor; discriminate|]. vm_compute. repeat split; reflexivity.
Qed.

Example prefix_pending_inhabited :
  let c := mkConfig (Some [80; 34]%N) (Some [34%N]) [] in
  let chunks := [[97%N]; [98; 34]%N] in
  nonempty_chunks chunks /\ prefix_seen N.eqb c (concat chunks) = false /\
  concat (delivered (s_queue (run N.eqb c chunks EndLLM))) = [97; 98]%N /\
  delivered (s_queue (run N.eqb c chunks EndEmpty)) = [].
Proof.
  split; [repeat constructor; discriminate|]. vm_compute. repeat split; reflexivity.
Qed.
