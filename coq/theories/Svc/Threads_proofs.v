(* C20 - proofs about the server model (Svc/Threads.v): every loader call and every instance
   is inside the root over any request sequence; a rejected id gives the fixed reply without
   loader call; thread exactness, disjointness, and refinement to the abstract specification
   "thread id |-> concatenation of all its turns". *)
From Coq Require Import List Bool Arith.
From NG Require Import Svc.Path Svc.Path_proofs Svc.Threads.
Import ListNotations.

Arguments Path.ceq : simpl never.

Section ThreadsProofs.
  Variable A : Type.
  Variable eqA : forall x y : A, {x = y} + {x <> y}.
  Variables sep dot dash : A.
  Variable M : Type.
  Variable pat : list (list (list A)).
  Variable use_prefix_check : bool.
  Variable thread_prefix : list A.
  Variable min_len : nat.
  Variable base : list A.
  Variable single : option (list A).
  Variable default_id : option (list A).
  Variable load_ok : list A -> bool.
  Variable llm : list (list A) -> list M -> option M.

  Notation str := (list A).
  Notation str_eqb := (Path.str_eqb A eqA).
  Notation get_rails_path := (Path.get_rails_path A eqA sep dot pat use_prefix_check).
  Notation inside := (Path.inside A eqA sep dot).
  Notation abs_normal := (Path.abs_normal A sep dot).
  Notation aget := (Threads.aget A eqA).
  Notation aset := (Threads.aset A eqA).
  Notation thread := (Threads.thread A eqA M).
  Notation cache_key := (Threads.cache_key A dash).
  Notation load_all := (Threads.load_all A eqA sep dot pat use_prefix_check base load_ok).
  Notation get_rails := (Threads.get_rails A eqA sep dot dash pat use_prefix_check base single load_ok).
  Notation chat := (Threads.chat A eqA sep dot dash M pat use_prefix_check thread_prefix min_len
                                 base single default_id load_ok llm).
  Notation run := (Threads.run A eqA sep dot dash M pat use_prefix_check thread_prefix min_len
                               base single default_id load_ok llm).
  Notation effective_ids := (Threads.effective_ids A M default_id).
  Notation new_messages := (Threads.new_messages A M).
  Notation thread_of := (Threads.thread_of A M).
  Notation turn_of := (Threads.turn_of A eqA M).
  Notation turns_of := (Threads.turns_of A eqA M).
  Notation request := (Threads.request A M).

  Lemma aget_aset :
    forall V (m : list (str * V)) k k' v,
      aget (aset m k v) k' = if str_eqb k k' then Some v else aget m k'.
  Proof.
    intros V m k k' v. induction m as [|[k0 v0] m IH]; simpl; [reflexivity|].
    destruct (str_eqb k0 k) eqn:E; simpl.
    - apply (str_eqb_true A eqA) in E. subst k0. destruct (str_eqb k k'); reflexivity.
    - rewrite IH. destruct (str_eqb k0 k') eqn:E0; [|reflexivity].
      destruct (str_eqb k k') eqn:E1; [|reflexivity].
      apply (str_eqb_true A eqA) in E0, E1. subst k0 k'.
      rewrite (str_eqb_refl A eqA) in E. discriminate.
  Qed.

  Lemma thread_aset :
    forall (s : list (str * list M)) k k' v,
      thread (aset s k v) k' = if str_eqb k k' then v else thread s k'.
  Proof.
    intros s k k' v. unfold Threads.thread. rewrite aget_aset.
    destruct (str_eqb k k'); reflexivity.
  Qed.

  (* key prefixing is injective *)
  Lemma str_eqb_app_head : forall p t1 t2 : str, str_eqb (p ++ t1) (p ++ t2) = str_eqb t1 t2.
  Proof.
    induction p as [|c p IH]; intros t1 t2; simpl; [reflexivity|].
    rewrite (ceq_refl A eqA). apply IH.
  Qed.

  (* each loader call is for an accepted id, in order; a successful loop loaded exactly the
     paths of all ids *)
  Lemma load_all_trace :
    forall ids tr r, load_all ids = (tr, r) ->
      exists k, Forall2 (fun id p => get_rails_path base id = Accept p) (firstn k ids) tr
                /\ (forall inst, r = Some inst -> inst = tr /\ k = length ids).
  Proof.
    induction ids as [|id ids IH]; intros tr r H; simpl in H.
    - injection H as <- <-. exists 0. split; [constructor|]. intros inst [= <-]. auto.
    - destruct (get_rails_path base id) as [p|] eqn:Ep.
      2:{ injection H as <- <-. exists 0. split; [constructor | discriminate]. }
      destruct (load_ok p).
      2:{ injection H as <- <-. exists 1. split; [repeat constructor; assumption | discriminate]. }
      destruct (load_all ids) as [tr' r']. injection H as <- <-.
      destruct (IH tr' r' eq_refl) as [k [HF Hr]].
      exists (S k). split; [constructor; assumption|].
      intros inst Hi. destruct r' as [ps|]; [|discriminate]. injection Hi as <-.
      destruct (Hr ps eq_refl) as [-> ->]. auto.
  Qed.

  (* a rejected id anywhere in the list makes the whole call fail *)
  Lemma load_all_reject :
    forall ids id, In id ids -> get_rails_path base id = Reject -> snd (load_all ids) = None.
  Proof.
    induction ids as [|x ids IH]; intros id Hin Hrej; [contradiction|].
    simpl. destruct Hin as [->|Hin].
    - rewrite Hrej. reflexivity.
    - destruct (get_rails_path base x) as [p|]; [|reflexivity].
      destruct (load_ok p); [|reflexivity].
      specialize (IH id Hin Hrej). destruct (load_all ids) as [tr r]. simpl in *. subst r. reflexivity.
  Qed.

  (* ... and a rejected first id means the loader is not called at all *)
  Lemma load_all_reject_first :
    forall id ids, get_rails_path base id = Reject -> load_all (id :: ids) = ([], None).
  Proof. intros id ids H. simpl. rewrite H. reflexivity. Qed.

  (* the three ways through _get_rails: served from the instance cache; ids refused in
     single-config mode; one run of the loader loop, whose success is cached *)
  Inductive get_rails_res (c : list (str * list str)) (ids : list str)
    : list (str * list str) * list str * option (list str) -> Prop :=
  | GRHit : forall inst, aget c (cache_key ids) = Some inst -> get_rails_res c ids (c, [], Some inst)
  | GRRefused : aget c (cache_key ids) = None -> get_rails_res c ids (c, [], None)
  | GRLoad : forall ids' tr r,
      aget c (cache_key ids) = None -> (single = None -> ids' = ids) -> load_all ids' = (tr, r) ->
      get_rails_res c ids
        (match r with Some inst => aset c (cache_key ids) inst | None => c end, tr, r).

  Lemma get_rails_cases : forall c ids, get_rails_res c ids (get_rails c ids).
  Proof.
    intros c ids. unfold Threads.get_rails.
    destruct (aget c (cache_key ids)) as [inst|] eqn:Eg; [now apply GRHit|].
    destruct single as [sid|] eqn:Es.
    - destruct (Threads.ids_eqb A eqA ids [sid]); [|exact (GRRefused c ids Eg)].
      destruct (load_all [[]]) as [tr r] eqn:El.
      assert (Hi : single = None -> [[]] = ids) by congruence.
      destruct r; exact (GRLoad c ids _ tr _ Eg Hi El).
    - destruct (load_all ids) as [tr r] eqn:El.
      destruct r; exact (GRLoad c ids _ tr _ Eg (fun _ => eq_refl) El).
  Qed.

  Lemma get_rails_none_cache :
    forall c ids, snd (get_rails c ids) = None -> fst (fst (get_rails c ids)) = c.
  Proof.
    intros c ids. destruct (get_rails_cases c ids) as [inst _ | _ | ids' tr r _ _ _]; simpl.
    - discriminate.
    - reflexivity.
    - intros ->. reflexivity.
  Qed.

  (* a rejected id (cache miss, multi-config mode) makes _get_rails raise; when it is the
     first id the loader is not called *)
  Lemma get_rails_reject :
    forall c ids id, single = None -> aget c (cache_key ids) = None ->
      In id ids -> get_rails_path base id = Reject ->
      snd (get_rails c ids) = None
      /\ (forall tl, ids = id :: tl -> snd (fst (get_rails c ids)) = []).
  Proof.
    intros c ids id Hs Hc Hin Hrej.
    destruct (get_rails_cases c ids) as [inst Hhit | _ | ids' tr r _ Hids El]; simpl.
    - congruence.
    - split; reflexivity.
    - rewrite (Hids Hs) in El. split.
      + pose proof (load_all_reject ids id Hin Hrej) as Hl. rewrite El in Hl. exact Hl.
      + intros tl ->. rewrite load_all_reject_first in El by assumption. congruence.
  Qed.

  Definition history (s : list (str * list M)) (rq : request) : list M :=
    match thread_of rq with Some tid => thread s (thread_prefix ++ tid) | None => [] end.

  (* chat_completion, read off once.  Cache side: one _get_rails call on the effective ids,
     whose trace and result are reported as they are.  Store side: the only write is the
     request's own thread key, on a bot reply; what the LLM gets is history ++ new messages. *)
  Lemma chat_spec :
    forall st rq st' o, chat st rq = (st', o) ->
      let used := history (s_store A M st) rq ++ new_messages rq in
      match effective_ids rq with
      | Some ids => get_rails (s_cache A M st) ids = (s_cache A M st', o_loads A M o, o_inst A M o)
      | None => s_cache A M st' = s_cache A M st /\ o_loads A M o = [] /\ o_inst A M o = None
      end
      /\ s_store A M st' = match o_reply A M o, thread_of rq with
                           | RBot b, Some tid => aset (s_store A M st) (thread_prefix ++ tid) (used ++ [b])
                           | _, _ => s_store A M st
                           end
      /\ (o_used A M o = None
          \/ o_used A M o = Some used /\ forall tid, thread_of rq = Some tid -> min_len <= length tid)
      /\ (forall b, o_reply A M o = RBot b -> o_used A M o <> None).
  Proof.
    intros st rq st' o H. unfold history, Threads.chat in *.
    destruct (effective_ids rq) as [ids|].
    2:{ (* no config id, no default: nothing happens *)
        injection H as <- <-. simpl. repeat split; auto; discriminate. }
    destruct (get_rails (s_cache A M st) ids) as [[c' tr] [inst|]].
    2:{ (* _get_rails raised: the LLM is not called *)
        injection H as <- <-. simpl. repeat split; auto; discriminate. }
    destruct (thread_of rq) as [tid|].
    - destruct (length tid <? min_len) eqn:Elen.
      { (* thread id too short: the LLM is not called *)
        injection H as <- <-. simpl. repeat split; auto; discriminate. }
      apply Nat.ltb_ge in Elen.
      (* with a thread: the LLM gets the stored thread ++ new messages; its answer is stored,
         its failure is not *)
      destruct (llm inst _) as [bot|]; injection H as <- <-; simpl.
      all: split; [reflexivity|]; split; [reflexivity|].
      all: split; [right; split; [reflexivity | intros t [= <-]; exact Elen] | intros b _; discriminate].
    - (* without a thread: the LLM gets the new messages, nothing is stored *)
      destruct (llm inst _) as [bot|]; injection H as <- <-; simpl.
      all: split; [reflexivity|]; split; [reflexivity|].
      all: split; [right; split; [reflexivity | intros t Ht; discriminate Ht] | intros b _; discriminate].
  Qed.

  Section Confinement.
    Hypothesis base_normal : abs_normal base.
    Hypothesis guard_sep : Path.pat_rejects_char A eqA pat sep = true.
    Hypothesis guard_dotdot : Path.re_search A eqA pat (Path.dotdot A dot) = true \/ use_prefix_check = true.

    Lemma load_all_inside :
      forall ids tr r, load_all ids = (tr, r) -> Forall (inside base) tr.
    Proof.
      intros ids tr r H. destruct (load_all_trace ids tr r H) as [k [HF _]].
      clear H. generalize dependent (firstn k ids). intros l HF.
      induction HF as [|id p l tr' Hp _ IH]; constructor; [|exact IH].
      exact (get_rails_path_confined A eqA sep dot pat use_prefix_check guard_sep guard_dotdot
               base id p base_normal Hp).
    Qed.

    Definition cache_ok (c : list (str * list str)) : Prop :=
      forall k inst, aget c k = Some inst -> Forall (inside base) inst.

    Lemma cache_ok_nil : cache_ok [].
    Proof. intros k inst H. discriminate. Qed.

    Lemma cache_ok_aset :
      forall c k inst, cache_ok c -> Forall (inside base) inst -> cache_ok (aset c k inst).
    Proof.
      intros c k inst Hc Hi k' inst' H. rewrite aget_aset in H.
      destruct (str_eqb k k'); [injection H as <-; exact Hi | exact (Hc k' inst' H)].
    Qed.

    Lemma get_rails_inside :
      forall c ids c' tr r, get_rails c ids = (c', tr, r) -> cache_ok c ->
        cache_ok c' /\ Forall (inside base) tr /\ (forall inst, r = Some inst -> Forall (inside base) inst).
    Proof.
      intros c ids c' tr r H Hc. revert H.
      destruct (get_rails_cases c ids) as [inst Hhit | _ | ids' tr' r' _ _ El]; intros [= <- <- <-].
      - repeat split; [assumption | constructor |]. intros inst' [= <-]. exact (Hc _ _ Hhit).
      - repeat split; [assumption | constructor | discriminate].
      - pose proof (load_all_inside ids' tr' r' El) as Htr.
        destruct (load_all_trace ids' tr' r' El) as [k [_ Hr]].
        destruct r' as [inst|].
        + destruct (Hr inst eq_refl) as [-> _].
          repeat split; [apply cache_ok_aset; assumption | assumption |].
          intros inst [= <-]. assumption.
        + repeat split; [assumption | assumption | discriminate].
    Qed.

    (* one request: every loader call and the serving instance are inside the root *)
    Lemma chat_inside :
      forall st rq st' o, chat st rq = (st', o) -> cache_ok (s_cache A M st) ->
        cache_ok (s_cache A M st')
        /\ Forall (inside base) (o_loads A M o)
        /\ (forall inst, o_inst A M o = Some inst -> Forall (inside base) inst).
    Proof.
      intros st rq st' o H Hc. destruct (chat_spec st rq st' o H) as [Hr _].
      destruct (effective_ids rq) as [ids|].
      - exact (get_rails_inside _ _ _ _ _ Hr Hc).
      - destruct Hr as [-> [-> ->]]. repeat split; [assumption | constructor | discriminate].
    Qed.

    (* any request sequence from a state whose cached instances are inside the root *)
    Theorem run_inside :
      forall rqs st st' os, run st rqs = (st', os) -> cache_ok (s_cache A M st) ->
        Forall (fun o => Forall (inside base) (o_loads A M o)
                         /\ (forall inst, o_inst A M o = Some inst -> Forall (inside base) inst)) os.
    Proof.
      induction rqs as [|rq rqs IH]; intros st st' os H Hc; simpl in H.
      - injection H as <- <-. constructor.
      - destruct (chat st rq) as [st1 o] eqn:Ec. destruct (run st1 rqs) as [st2 os'] eqn:Er.
        injection H as <- <-.
        destruct (chat_inside st rq st1 o Ec Hc) as [H1 H2].
        constructor; [exact H2 | exact (IH st1 st2 os' Er H1)].
    Qed.
  End Confinement.

  (* whenever _get_rails raises ValueError - a rejected id, a failing load, a wrong id in
     single-config mode - the reply is the fixed one naming the requested ids, the LLM is not
     called and neither the cache nor the datastore changes *)
  Theorem chat_valueerror_fixed_reply :
    forall st rq ids st' o,
      effective_ids rq = Some ids -> snd (get_rails (s_cache A M st) ids) = None ->
      chat st rq = (st', o) ->
      st' = st /\ o_reply A M o = RCouldNotLoad ids /\ o_used A M o = None /\ o_inst A M o = None
      /\ o_loads A M o = snd (fst (get_rails (s_cache A M st) ids)).
  Proof.
    intros st rq ids st' o Hids Hgr H.
    pose proof (get_rails_none_cache _ _ Hgr) as Hc.
    unfold Threads.chat in H. rewrite Hids in H.
    destruct (get_rails (s_cache A M st) ids) as [[c' tr] r]. simpl in Hgr, Hc. subst r c'.
    injection H as <- <-. destruct st; simpl. auto.
  Qed.

  Theorem chat_reject_fixed_reply :
    forall st rq ids id st' o,
      single = None -> effective_ids rq = Some ids ->
      aget (s_cache A M st) (cache_key ids) = None ->
      In id ids -> get_rails_path base id = Reject ->
      chat st rq = (st', o) ->
      st' = st /\ o_reply A M o = RCouldNotLoad ids /\ o_used A M o = None
      /\ (forall tl, ids = id :: tl -> o_loads A M o = []).
  Proof.
    intros st rq ids id st' o Hs Hids Hc Hin Hrej H.
    destruct (get_rails_reject (s_cache A M st) ids id Hs Hc Hin Hrej) as [Hn Hl].
    destruct (chat_valueerror_fixed_reply st rq ids st' o Hids Hn H) as [E1 [E2 [E3 [_ E5]]]].
    rewrite E5. auto.
  Qed.

  (* EXACTNESS: with a thread id, the messages used are the stored thread followed by the new
     messages; after a bot reply the stored thread is that list plus the reply; without a
     bot reply nothing is stored *)
  Theorem chat_thread_exact :
    forall st rq st' o tid,
      chat st rq = (st', o) -> thread_of rq = Some tid ->
      let key := thread_prefix ++ tid in
      (forall u, o_used A M o = Some u ->
                 u = thread (s_store A M st) key ++ new_messages rq
                 /\ min_len <= length tid)
      /\ (forall b, o_reply A M o = RBot b ->
                    exists u, o_used A M o = Some u /\ thread (s_store A M st') key = u ++ [b])
      /\ ((forall b, o_reply A M o <> RBot b) -> s_store A M st' = s_store A M st).
  Proof.
    intros st rq st' o tid H Ht key. subst key.
    destruct (chat_spec st rq st' o H) as [_ [Hs [Hu Hb]]].
    unfold history in *. rewrite Ht in Hs, Hu. split; [|split].
    - intros u E. destruct Hu as [Hu|[Hu Hl]]; rewrite Hu in E; [discriminate|].
      injection E as <-. auto.
    - intros b E. rewrite E in Hs. destruct Hu as [Hu|[Hu _]]; [elim (Hb b E Hu)|].
      eexists. split; [exact Hu|]. rewrite Hs, thread_aset, (str_eqb_refl A eqA). reflexivity.
    - intros Hn. rewrite Hs. destruct (o_reply A M o) as [| | | |b|]; try reflexivity.
      elim (Hn b). reflexivity.
  Qed.

  (* without a thread id the messages used are exactly the new messages and nothing is stored *)
  Theorem chat_no_thread :
    forall st rq st' o,
      chat st rq = (st', o) -> thread_of rq = None ->
      s_store A M st' = s_store A M st /\ (forall u, o_used A M o = Some u -> u = new_messages rq).
  Proof.
    intros st rq st' o H Ht. destruct (chat_spec st rq st' o H) as [_ [Hs [Hu _]]].
    unfold history in *. rewrite Ht in Hs, Hu. split; [rewrite Hs; now destruct (o_reply A M o)|].
    intros u E. destruct Hu as [Hu|[Hu _]]; rewrite Hu in E; [discriminate|].
    injection E as <-. reflexivity.
  Qed.

  (* DISJOINTNESS: a request only ever writes the key "thread-"+its own thread id *)
  Theorem chat_store_frame :
    forall st rq st' o k,
      chat st rq = (st', o) ->
      (forall tid, thread_of rq = Some tid -> k <> thread_prefix ++ tid) ->
      aget (s_store A M st') k = aget (s_store A M st) k.
  Proof.
    intros st rq st' o k H Hk. destruct (chat_spec st rq st' o H) as [_ [-> _]].
    destruct (o_reply A M o); try reflexivity.
    destruct (thread_of rq) as [tid|] eqn:Et; [|reflexivity].
    rewrite aget_aset. destruct (str_eqb (thread_prefix ++ tid) k) eqn:E; [|reflexivity].
    apply (str_eqb_true A eqA) in E. elim (Hk tid eq_refl). symmetry. exact E.
  Qed.

  Corollary chat_threads_disjoint :
    forall st rq st' o tid1 tid2,
      chat st rq = (st', o) -> thread_of rq = Some tid1 -> tid1 <> tid2 ->
      thread (s_store A M st') (thread_prefix ++ tid2) = thread (s_store A M st) (thread_prefix ++ tid2).
  Proof.
    intros st rq st' o tid1 tid2 H Ht Hne. unfold Threads.thread.
    rewrite (chat_store_frame st rq st' o (thread_prefix ++ tid2) H); [reflexivity|].
    intros tid Htid E. apply app_inv_head in E. congruence.
  Qed.

  (* keys that do not start with the prefix (anything else kept in the datastore) are never
     written *)
  Corollary chat_foreign_keys :
    forall st rq st' o k,
      chat st rq = (st', o) -> (forall t, k <> thread_prefix ++ t) ->
      aget (s_store A M st') k = aget (s_store A M st) k.
  Proof. intros st rq st' o k H Hk. eapply chat_store_frame; [exact H|]. intros tid _. apply Hk. Qed.

  (* one step against the specification: the thread grows by exactly this request's turn *)
  Lemma chat_step_spec :
    forall st rq st' o tid,
      chat st rq = (st', o) ->
      thread (s_store A M st') (thread_prefix ++ tid)
      = thread (s_store A M st) (thread_prefix ++ tid) ++ turn_of tid rq o.
  Proof.
    intros st rq st' o tid H. destruct (chat_spec st rq st' o H) as [_ [-> _]].
    unfold Threads.turn_of, history.
    destruct (o_reply A M o), (thread_of rq) as [t|]; try (symmetry; apply app_nil_r).
    rewrite thread_aset, str_eqb_app_head. destruct (str_eqb t tid) eqn:E.
    - apply (str_eqb_true A eqA) in E. subst t. rewrite <- app_assoc. reflexivity.
    - symmetry. apply app_nil_r.
  Qed.

  (* REFINEMENT: after any request sequence every thread is its initial content followed by
     the concatenation of all its turns, in order *)
  Theorem run_refines_spec :
    forall rqs st st' os tid,
      run st rqs = (st', os) ->
      thread (s_store A M st') (thread_prefix ++ tid)
      = thread (s_store A M st) (thread_prefix ++ tid) ++ turns_of tid rqs os.
  Proof.
    induction rqs as [|rq rqs IH]; intros st st' os tid H; simpl in H.
    - injection H as <- <-. symmetry. apply app_nil_r.
    - destruct (chat st rq) as [st1 o] eqn:Ec. destruct (run st1 rqs) as [st2 os'] eqn:Er.
      injection H as <- <-. simpl.
      rewrite (IH st1 st2 os' tid Er), (chat_step_spec st rq st1 o tid Ec), app_assoc. reflexivity.
  Qed.

  Lemma run_app :
    forall rqs1 rqs2 st,
      run st (rqs1 ++ rqs2)
      = let '(st1, os1) := run st rqs1 in
        let '(st2, os2) := run st1 rqs2 in (st2, os1 ++ os2).
  Proof.
    induction rqs1 as [|rq rqs1 IH]; intros rqs2 st; simpl.
    - destruct (run st rqs2); reflexivity.
    - destruct (chat st rq) as [st1 o]. rewrite IH.
      destruct (run st1 rqs1) as [st2 os1]. destruct (run st2 rqs2) as [st3 os2]. reflexivity.
  Qed.

  Lemma run_length : forall rqs st, length (snd (run st rqs)) = length rqs.
  Proof.
    induction rqs as [|rq rqs IH]; intros st; simpl; [reflexivity|].
    destruct (chat st rq) as [st1 o]. specialize (IH st1).
    destruct (run st1 rqs) as [st2 os]. simpl in *. congruence.
  Qed.

  (* ... and the messages used by any turn of any sequence are all earlier turns of that
     thread followed by the new messages *)
  Theorem run_used_spec :
    forall rqs1 rq rqs2 st st1 os1 st2 o tid u,
      run st rqs1 = (st1, os1) -> chat st1 rq = (st2, o) ->
      thread_of rq = Some tid -> o_used A M o = Some u ->
      u = thread (s_store A M st) (thread_prefix ++ tid) ++ turns_of tid rqs1 os1 ++ new_messages rq
      /\ nth_error (snd (run st (rqs1 ++ rq :: rqs2))) (length rqs1) = Some o.
  Proof.
    intros rqs1 rq rqs2 st st1 os1 st2 o tid u Hr Hc Ht Hu. split.
    - destruct (chat_thread_exact st1 rq st2 o tid Hc Ht) as [H1 _].
      destruct (H1 u Hu) as [-> _]. rewrite (run_refines_spec rqs1 st st1 os1 tid Hr), app_assoc.
      reflexivity.
    - pose proof (run_length rqs1 st) as Hl. rewrite run_app, Hr in *. simpl in *. rewrite Hc.
      destruct (run st2 rqs2) as [st3 os2]. simpl.
      rewrite <- Hl, nth_error_app2, Nat.sub_diag by apply le_n. reflexivity.
  Qed.

  Variable field_min : nat.
  Variable field_max : option nat.

  Notation http_chat := (Threads.http_chat A eqA sep dot dash M pat use_prefix_check thread_prefix min_len
                                           field_min field_max base single default_id load_ok llm).
  Notation validate := (Threads.validate A M field_min field_max).

  (* an HTTP request is either refused by the field constraints (422: nothing happens) or is
     exactly a chat_completion call on the validated body, whose thread id - if any - has a
     length within the field bounds *)
  Theorem http_chat_cases :
    forall st h st' o,
      http_chat st h = (st', o) ->
      (st' = st /\ o_reply A M o = R422 /\ o_loads A M o = [] /\ o_used A M o = None)
      \/ exists rq, validate h = Some rq /\ chat st rq = (st', o)
                    /\ r_thread A M rq = h_thread A M h
                    /\ r_messages A M rq = h_messages A M h
                    /\ (forall t, r_thread A M rq = Some t ->
                                  field_min <= length t
                                  /\ match field_max with Some m => length t <= m | None => True end).
  Proof.
    intros st h st' o H. unfold Threads.http_chat in H.
    destruct (validate h) as [rq|] eqn:Ev.
    2:{ left. injection H as <- <-. simpl. auto. }
    right. exists rq. split; [reflexivity|]. split; [exact H|].
    unfold Threads.validate in Ev.
    destruct (match h_config_id A M h with Some _ => _ | None => _ end) as [ids|]; [|discriminate].
    destruct (h_thread A M h) as [t|].
    - (* a thread id: both field bounds were checked *)
      destruct (Nat.leb field_min (length t)) eqn:E1; [|discriminate]. apply Nat.leb_le in E1.
      destruct field_max as [m|].
      + destruct (Nat.leb (length t) m) eqn:E2; [|discriminate]. apply Nat.leb_le in E2.
        injection Ev as <-. simpl. repeat (split; [reflexivity|]). intros t0 [= <-]. auto.
      + injection Ev as <-. simpl. repeat (split; [reflexivity|]). intros t0 [= <-]. auto.
    - injection Ev as <-. simpl. repeat (split; [reflexivity|]). discriminate.
  Qed.

End ThreadsProofs.
