(* C13 (layout, Colang 2.x) - the layout layer in front of the LALR parser.

   Two stages, both modelled on the code that runs:

   1. lexing of layout.  colang.lark declares
          _NEWLINE: (/\r?\n[\t ]*/)+        COMMENT: /#[^\n]*/
          %ignore " "                       %ignore COMMENT
      (fingerprinted fail-closed by translator/gen_c13.py into Gen/C13Consts.v).  A source
      text is abstracted to a list of SEGMENTS: a newline character, a space, a tab, a whole
      comment `#...` up to the end of its line, an opening / closing bracket token, or any
      other content token (opaque: names, strings incl. multi-line strings, numbers,
      operators, and the `and`/`or` tokens that swallow a line break themselves).
      `lex_go` turns segments into the token stream the post-lexer receives: a maximal run
      newline (space|tab)* newline ... becomes ONE _NEWLINE token that carries the numbers of
      spaces and tabs after its LAST newline; spaces elsewhere are dropped; comments are
      dropped; a tab elsewhere is a lexing error unless tabs are ignored too.
      (`\r` is not modelled: the property does not speak about it.)

   2. lark.indenter.Indenter._process / handle_NL with PythonIndenter's settings (NL_type
      _NEWLINE, brackets LPAR/LSQB/LBRACE, tab_len 8): `process`.  The stack holds the
      indentation levels above the base level 0 (top first).  The output keeps exactly
      what the parser consumes: _NEWLINE / _INDENT / _DEDENT / bracket / content tokens, and
      the exception the generator raises, if any, after the tokens it has already yielded.

   ColangParser.get_parsing_tree parses `content + "\n"`: `lex_file`. *)
From Coq Require Import NArith List Bool.
Import ListNotations.
Open Scope N_scope.

Inductive seg := SNl | SSp | STab | SComment | SOpen | SClose | STok (id : N).

Inductive tok := TNL (sp tb : N) | TOpen | TClose | TOther (id : N).

Definition lstate := option (N * N).   (* Some (sp, tb): inside a _NEWLINE token, counts after its last newline *)

Definition flush (st : lstate) (r : list tok) : list tok :=
  match st with Some (sp, tb) => TNL sp tb :: r | None => r end.

(* ig = tabs between tokens are ignored (`%ignore` also covers \t); pinned grammar: false *)
Fixpoint lex_go (ig : bool) (st : lstate) (ss : list seg) : option (list tok) :=
  match ss with
  | [] => Some (flush st [])
  | SNl :: r => lex_go ig (Some (0, 0)) r
  | SSp :: r =>
      match st with
      | Some (sp, tb) => lex_go ig (Some (sp + 1, tb)) r
      | None => lex_go ig None r
      end
  | STab :: r =>
      match st with
      | Some (sp, tb) => lex_go ig (Some (sp, tb + 1)) r
      | None => if ig then lex_go ig None r else None      (* UnexpectedCharacters *)
      end
  | SComment :: r => option_map (flush st) (lex_go ig None r)
  | SOpen :: r => option_map (fun x => flush st (TOpen :: x)) (lex_go ig None r)
  | SClose :: r => option_map (fun x => flush st (TClose :: x)) (lex_go ig None r)
  | STok i :: r => option_map (fun x => flush st (TOther i :: x)) (lex_go ig None r)
  end.

Definition lex_file (ig : bool) (ss : list seg) : option (list tok) := lex_go ig None (ss ++ [SNl]).

Inductive otok := ONL | OIndent | ODedent | OOpen | OClose | OOther (id : N).
Inductive ierr := DedentError | ParenAssertion.

Definition ostream := (list otok * option ierr)%type.

Definition pre (l : list otok) (r : ostream) : ostream := (l ++ fst r, snd r).

Definition top (st : list N) : N := hd 0 st.

(* `while indent < self.indent_level[-1]: pop; yield DEDENT` *)
Fixpoint pop_to (ind : N) (st : list N) : list N * nat :=
  match st with
  | [] => ([], O)
  | x :: r => if ind <? x then let (s, n) := pop_to ind r in (s, S n) else (st, O)
  end.

Fixpoint process (tab_len : N) (ts : list tok) (paren : N) (st : list N) : ostream :=
  match ts with
  | [] => (repeat ODedent (List.length st), None)
  | TNL sp tb :: r =>
      if 0 <? paren then process tab_len r paren st
      else
        let ind := sp + tb * tab_len in
        if top st <? ind then pre [ONL; OIndent] (process tab_len r paren (ind :: st))
        else
          let (st', n) := pop_to ind st in
          if ind =? top st' then pre (ONL :: repeat ODedent n) (process tab_len r paren st')
          else (ONL :: repeat ODedent n, Some DedentError)
  | TOpen :: r => pre [OOpen] (process tab_len r (paren + 1) st)
  | TClose :: r =>
      if paren =? 0 then ([OClose], Some ParenAssertion)
      else pre [OClose] (process tab_len r (paren - 1) st)
  | TOther i :: r => pre [OOther i] (process tab_len r paren st)
  end.

Inductive lres := LexError | Lexed (o : ostream).

(* what the parser is fed for a file *)
Definition layout (ig : bool) (tab_len : N) (ss : list seg) : lres :=
  match lex_file ig ss with
  | None => LexError
  | Some ts => Lexed (process tab_len ts 0 [])
  end.

Definition is_ws (s : seg) : bool := match s with SSp | STab => true | _ => false end.
Definition is_sp (s : seg) : bool := match s with SSp => true | _ => false end.
Definition is_content (s : seg) : bool :=
  match s with STok _ | SOpen | SClose | SComment => true | _ => false end.

(* a blank line (possibly holding spaces/tabs) added after an existing line break *)
Inductive blank_edit : list seg -> list seg -> Prop :=
| BlankEdit : forall a ws b, forallb is_ws ws = true ->
    blank_edit (a ++ SNl :: b) (a ++ SNl :: ws ++ SNl :: b).

(* spaces added at the end of a line (before its line break, or at the end of the file) *)
Inductive trail_edit : list seg -> list seg -> Prop :=
| TrailEdit : forall a sps b, forallb is_sp sps = true ->
    trail_edit (a ++ SNl :: b) (a ++ sps ++ SNl :: b)
| TrailEof : forall a sps, forallb is_sp sps = true -> trail_edit a (a ++ sps).

(* the same with tabs allowed *)
Inductive trail_ws_edit : list seg -> list seg -> Prop :=
| TrailWsEdit : forall a ws b, forallb is_ws ws = true ->
    trail_ws_edit (a ++ SNl :: b) (a ++ ws ++ SNl :: b)
| TrailWsEof : forall a ws, forallb is_ws ws = true -> trail_ws_edit a (a ++ ws).

(* an end-of-line comment added to a line that has content (t is its last token) *)
Inductive comment_edit : list seg -> list seg -> Prop :=
| CommentEdit : forall a t sps sps' b, is_content t = true -> forallb is_sp sps = true -> forallb is_sp sps' = true ->
    comment_edit (a ++ t :: sps ++ SNl :: b) (a ++ t :: sps ++ sps' ++ SComment :: SNl :: b)
| CommentEof : forall a t sps sps', is_content t = true -> forallb is_sp sps = true -> forallb is_sp sps' = true ->
    comment_edit (a ++ t :: sps) (a ++ t :: sps ++ sps' ++ [SComment]).

(* uniform scaling of the indentation by k: every space / tab between a line break (or the
   start of the file) and the first other character of the line is written k times *)
Fixpoint scale_go (k : nat) (bol : bool) (ss : list seg) : list seg :=
  match ss with
  | [] => []
  | SNl :: r => SNl :: scale_go k true r
  | SSp :: r => (if bol then repeat SSp k else [SSp]) ++ scale_go k bol r
  | STab :: r => (if bol then repeat STab k else [STab]) ++ scale_go k bol r
  | x :: r => x :: scale_go k false r
  end.

Definition scale (k : nat) (ss : list seg) : list seg := scale_go k true ss.

(* sanity: "flow a\n  match (X\n    )\n  # c\n\nflow b\n    send Y" *)
Definition ex1 : list seg :=
  [STok 1; SSp; STok 2; SNl; SSp; SSp; STok 3; SSp; SOpen; STok 4; SNl; SSp; SSp; SSp; SSp; SClose; SNl;
   SSp; SSp; SComment; SNl; SNl; STok 1; SSp; STok 5; SNl; SSp; SSp; SSp; SSp; STok 6; SSp; STok 7].

Example ex1_layout :
  layout false 8 ex1 =
  Lexed ([OOther 1; OOther 2; ONL; OIndent; OOther 3; OOpen; OOther 4; OClose; ONL; ONL; ODedent;
          OOther 1; OOther 5; ONL; OIndent; OOther 6; OOther 7; ONL; ODedent], None).
Proof. vm_compute. reflexivity. Qed.

(* dedent to a level that was never opened *)
Example ex_dedent_error :
  layout false 8 [STok 1; SNl; SSp; SSp; SSp; SSp; STok 2; SNl; SSp; SSp; STok 3]
  = Lexed ([OOther 1; ONL; OIndent; OOther 2; ONL; ODedent], Some DedentError).
Proof. vm_compute. reflexivity. Qed.

(* a tab after a token is a lexing error in the pinned grammar *)
Example ex_trailing_tab : layout false 8 [STok 1; STab; SNl] = LexError /\ layout true 8 [STok 1; STab; SNl] = layout true 8 [STok 1; SNl].
Proof. split; vm_compute; reflexivity. Qed.
