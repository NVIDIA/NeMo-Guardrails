(* C19 - executable instance of Svc/EmbCache.v and Svc/Batch.v used by the correspondence
   check, including the trace replayer.  Texts, keys and vectors are atoms (nat): the harness
   numbers the distinct texts of a case in order of first occurrence, tabulates the REAL key
   generator over them (`keys`: text j has key number nth j keys) and decodes every vector the
   implementation returns back to the number of the text it is the fake model's embedding of
   (so emb is the identity here).  Nothing in this file is used by the theorems. *)
From Coq Require Import List Bool Arith.
From NG Require Import Svc.EmbCache Svc.Batch.
Import ListNotations.

Definition kg_tab (keys : list nat) (t : nat) : nat := nth t keys 0.
Definition emb_c (t : nat) : nat := t.

Definition opt_eqb {A} (eqb : A -> A -> bool) (a b : option A) : bool :=
  match a, b with
  | Some x, Some y => eqb x y
  | None, None => true
  | _, _ => false
  end.

Fixpoint list_eqb {A} (eqb : A -> A -> bool) (a b : list A) : bool :=
  match a, b with
  | [], [] => true
  | x :: a', y :: b' => eqb x y && list_eqb eqb a' b'
  | _, _ => false
  end.

Definition pair_eqb {A B} (ea : A -> A -> bool) (eb : B -> B -> bool) (a b : A * B) : bool :=
  ea (fst a) (fst b) && eb (snd a) (snd b).

Definition res_eqb := list_eqb (opt_eqb Nat.eqb).
Definition calls_eqb := list_eqb (list_eqb Nat.eqb).

(* ---------------------------------------------------------------------------------------
   cache differential.  One case = one index object / one store:
     (keys, enabled, persistent, calls, final)
   calls : (texts, results observed, argument lists the model was called with) per call;
   final : for a persistent store, key -> value found in the real store afterwards. *)
Definition cache_call := (list nat * list (option nat) * list (list nat))%type.
Definition cache_case := (list nat * bool * bool * list cache_call * list (nat * option nat))%type.

Definition wrapper_c (keys : list nat) (enabled : bool) :=
  wrapper Nat.eq_dec Nat.eq_dec (kg_tab keys) enabled (map emb_c).

Fixpoint run_calls (keys : list nat) (enabled persistent : bool) (s : store nat nat)
         (calls : list cache_call) : option (store nat nat) :=
  match calls with
  | [] => Some s
  | (texts, obs_res, obs_calls) :: rest =>
      let r := wrapper_c keys enabled (if persistent then s else []) texts in
      if res_eqb (w_results r) obs_res && calls_eqb (w_calls r) obs_calls
      then run_calls keys enabled persistent (w_store r) rest
      else None
  end.

Definition check_cache (c : cache_case) : bool :=
  let '(keys, enabled, persistent, calls, final) := c in
  match run_calls keys enabled persistent [] calls with
  | None => false
  | Some s =>
      if persistent && enabled
      then forallb (fun kv => opt_eqb Nat.eqb (store_get Nat.eq_dec s (fst kv)) (snd kv)) final
      else true
  end.

(* what the model answers, for the replay file of a disagreement *)
Definition model_cache (c : cache_case) :=
  let '(keys, enabled, persistent, calls, _) := c in
  (fix go s calls :=
     match calls with
     | [] => []
     | (texts, _, _) :: rest =>
         let r := wrapper_c keys enabled (if persistent then s else []) texts in
         (w_results r, w_calls r) :: go (w_store r) rest
     end) ([] : store nat nat) calls.

(* ---------------------------------------------------------------------------------------
   several indexes alive in one process, each with its own model (vector = (model, text)),
   key table and cache configuration.  An index is (keys, model, store, enabled) where store is
   Some d for the persistent store number d (the harness numbers the distinct
   (store type, cache_dir) pairs) and None for in_memory (fresh per call).
   calls: (index number, texts, results observed, model-call argument lists observed);
   final: (store number, key, value found in the real store afterwards). *)
Definition vec2 := (nat * nat)%type.
Definition v2_eqb : vec2 -> vec2 -> bool := pair_eqb Nat.eqb Nat.eqb.
Definition mindex := (list nat * nat * option nat * bool)%type.
Definition mobs := (nat * list nat * list (option vec2) * list (list nat))%type.
Definition multi_case := (list mindex * list mobs * list (nat * nat * option vec2))%type.
Definition mstores := list (nat * store nat vec2).

Definition sto_get (St : mstores) (d : nat) : store nat vec2 :=
  match find (fun p => fst p =? d) St with Some p => snd p | None => [] end.

Definition multi_step (ixs : list mindex) (St : mstores) (i : nat) (texts : list nat)
  : option (list (option vec2) * list (list nat) * mstores) :=
  match nth_error ixs i with
  | None => None
  | Some (keys, m, sid, en) =>
      let s := match sid with Some d => sto_get St d | None => [] end in
      let r := wrapper Nat.eq_dec Nat.eq_dec (kg_tab keys) en (map (fun t => (m, t))) s texts in
      Some (w_results r, w_calls r,
            match sid with Some d => if en then (d, w_store r) :: St else St | None => St end)
  end.

Fixpoint run_multi (ixs : list mindex) (St : mstores) (calls : list mobs) : option mstores :=
  match calls with
  | [] => Some St
  | (i, texts, ores, ocalls) :: rest =>
      match multi_step ixs St i texts with
      | None => None
      | Some (res, mc, St') =>
          if list_eqb (opt_eqb v2_eqb) res ores && calls_eqb mc ocalls then run_multi ixs St' rest else None
      end
  end.

Definition check_multi (c : multi_case) : bool :=
  let '(ixs, calls, final) := c in
  match run_multi ixs [] calls with
  | None => false
  | Some St => forallb (fun f => let '(d, k, v) := f in
                                opt_eqb v2_eqb (store_get Nat.eq_dec (sto_get St d) k) v) final
  end.

Definition model_multi (c : multi_case) :=
  let '(ixs, calls, _) := c in
  (fix go St calls :=
     match calls with
     | [] => []
     | (i, texts, _, _) :: rest =>
         match multi_step ixs St i texts with
         | None => []
         | Some (res, mc, St') => (res, mc) :: go St' rest
         end
     end) ([] : mstores) calls.

(* two indexes, two models, one text: separate stores keep the models apart, one store does not *)
Example multi_separate_and_shared :
  check_multi ([([0], 1, Some 0, true); ([0], 2, Some 1, true)],
               [(0, [0], [Some (1, 0)], [[0]]); (1, [0], [Some (2, 0)], [[0]])], []) = true /\
  check_multi ([([0], 1, Some 0, true); ([0], 2, Some 0, true)],
               [(0, [0], [Some (1, 0)], [[0]]); (1, [0], [Some (1, 0)], [])], []) = true.
Proof. vm_compute. split; reflexivity. Qed.

(* ---------------------------------------------------------------------------------------
   trace inclusion for batching.
   snapshot of the index object taken at the START of every logged atomic step:
     (list(_req_queue.items()), list(_req_results.items()) decoded, _req_idx,
      _current_batch_finished_event is None, _current_batch_submitted.is_set())
   observation of a step: (argument list of the model call made in it, value returned by the
   request in it). *)
Definition snapshot := (list (nat * nat) * list (nat * option nat) * nat * bool * bool)%type.
Definition obs := (option (list nat) * option (option nat))%type.
Definition state_c := state nat nat nat.

Definition snap_of (s : state_c) : snapshot :=
  (req_queue s, req_results s, req_idx s,
   match cur_finished s with None => true | Some _ => false end, submitted s).

Definition snap_eqb (a b : snapshot) : bool :=
  let '(q1, r1, i1, f1, s1) := a in
  let '(q2, r2, i2, f2, s2) := b in
  list_eqb (pair_eqb Nat.eqb Nat.eqb) q1 q2 &&
  list_eqb (pair_eqb Nat.eqb (opt_eqb Nat.eqb)) r1 r2 &&
  Nat.eqb i1 i2 && Bool.eqb f1 f2 && Bool.eqb s1 s2.

Definition obs_of (l : label) (s s' : state_c) : obs :=
  match l with
  | LReq i =>
      (None, match nth_error (reqs s') i with Some (_, RDone r) => Some r | _ => None end)
  | LBatch k =>
      (match nth_error (batches s) k, nth_error (batches s') k with
       | Some (BHold _ _), Some (BModel _ _ _ u) => Some u
       | _, _ => None
       end, None)
  | _ => (None, None)
  end.

Definition obs_eqb (a b : obs) : bool :=
  opt_eqb (list_eqb Nat.eqb) (fst a) (fst b) && opt_eqb (opt_eqb Nat.eqb) (snd a) (snd b).

Definition step_c (maxb : nat) (mode : cache_mode) (keys : list nat) :=
  step Nat.eq_dec Nat.eq_dec (kg_tab keys) emb_c maxb mode.

(* number of logged steps replayed successfully, and the state reached *)
Fixpoint replay (maxb : nat) (mode : cache_mode) (keys : list nat)
         (steps : list (label * snapshot * obs)) (s : state_c) (n : nat) : nat * option state_c :=
  match steps with
  | [] => (n, Some s)
  | (l, snap, ob) :: rest =>
      if snap_eqb (snap_of s) snap then
        match step_c maxb mode keys l s with
        | None => (n, None)                         (* logged step not enabled in the model *)
        | Some s' => if obs_eqb (obs_of l s s') ob then replay maxb mode keys rest s' (S n)
                     else (n, None)
        end
      else (n, None)
  end.

Definition result_of (r : nat * rpc nat) : option (option nat) :=
  match r with (_, RDone v) => Some v | _ => None end.

(* (max_batch_size, cache mode, keys, initial store, request texts, logged steps,
    final snapshot, what each request returned, final store lookups) *)
Definition trace_case :=
  (nat * cache_mode * list nat * list (nat * nat) * list nat * list (label * snapshot * obs)
   * snapshot * list (option (option nat)) * list (nat * option nat))%type.

Definition check_trace (c : trace_case) : bool :=
  let '(maxb, mode, keys, st0, texts, steps, final, rets, fstore) := c in
  match replay maxb mode keys steps (init texts st0) 0 with
  | (_, None) => false
  | (_, Some s) =>
      snap_eqb (snap_of s) final &&
      list_eqb (opt_eqb (opt_eqb Nat.eqb)) (map result_of (reqs s)) rets &&
      forallb (fun kv => opt_eqb Nat.eqb (store_get Nat.eq_dec (cstore s) (fst kv)) (snd kv)) fstore
  end.

(* diagnostics for the replay file: how many logged steps the model accepted, and the
   model's snapshot / label enabledness at the point of failure *)
Definition trace_diag (c : trace_case) :=
  let '(maxb, mode, keys, st0, texts, steps, final, rets, fstore) := c in
  let '(n, so) := replay maxb mode keys steps (init texts st0) 0 in
  (n, match so with
      | Some s => Some (snap_of s, map result_of (reqs s))
      | None => None
      end).

(* the model's state after a prefix of labels (no checks), for diagnostics *)
Definition model_after (maxb : nat) (mode : cache_mode) (keys : list nat) (st0 : list (nat * nat))
           (texts : list nat) (ls : list label) :=
  match exec Nat.eq_dec Nat.eq_dec (kg_tab keys) emb_c maxb mode ls (init texts st0) with
  | Some s => Some (snap_of s, map result_of (reqs s))
  | None => None
  end.

(* three requests, max_batch_size 2, no cache *)
Example three_requests :
  model_after 2 CacheOff [] [] [7; 8; 7]
    [LReq 0; LReq 1; LReq 2;          (* 0 and 1 fill batch 0; 2 finds the queue full *)
     LBatch 0; LBatch 0;              (* batch 0 starts holding, is full, is submitted: wakes 2 *)
     LReq 2;                          (* request 2 opens batch 1 *)
     LBatch 1; LTimer 1; LBatch 1;    (* batch 1 goes out on the timer *)
     LModel 1; LReq 2;                (* the model answers batch 1 FIRST *)
     LModel 0; LReq 1; LReq 0]
  = Some (([], [], 3, true, true), [Some (Some 7); Some (Some 8); Some (Some 7)]).
Proof. vm_compute. reflexivity. Qed.
