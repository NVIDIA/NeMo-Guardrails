(* C15 - model of nemoguardrails/llm/params.py::LLMParams on the SHARED LLM object.

   The LLM object is a set of attributes (name -> value; hasattr = the name is present) and,
   optionally, a `model_kwargs` dict.  Values are None or a number (the harness codes the
   values it uses as integers).

     __enter__: for param, value in altered_params.items():
                   if hasattr(llm, param):            save getattr; setattr
                   elif hasattr(llm, "model_kwargs"): save model_kwargs[param] (None if absent); set it
                   else:                              warning only
     __exit__:  for param, value in original_params.items():
                   if hasattr(llm, param):            setattr
                   elif hasattr(llm, "model_kwargs"): if param in model_kwargs: model_kwargs[param] = value

   Every LLM call is   with llm_params(llm, **altered): result = await llm_call(llm, prompt)
   i.e. three atomic steps separated by suspension points (measured on the real code: the
   LLM object reads its parameters only after at least one suspension):
       Enter (save + set)   |   Call (the LLM reads its parameters)   |   Exit (restore).
   asyncio tasks interleave at these points; a schedule is an arbitrary sequence of task ids. *)
From Coq Require Import List Bool Arith ZArith.
Import ListNotations.

Inductive pval : Type := PNone | PVal (z : Z).

Definition pval_eqb (a b : pval) : bool :=
  match a, b with
  | PNone, PNone => true
  | PVal x, PVal y => Z.eqb x y
  | _, _ => false
  end.

Definition name := nat.
Definition pmap := list (name * pval).          (* a Python dict: insertion ordered, unique keys *)

Fixpoint pget (m : pmap) (p : name) : option pval :=
  match m with
  | [] => None
  | (q, v) :: rest => if Nat.eqb q p then Some v else pget rest p
  end.

(* d[p] = v : in place when the key exists, appended otherwise *)
Fixpoint pset (m : pmap) (p : name) (v : pval) : pmap :=
  match m with
  | [] => [(p, v)]
  | (q, w) :: rest => if Nat.eqb q p then (q, v) :: rest else (q, w) :: pset rest p v
  end.

Definition keys (m : pmap) : list name := map fst m.

Record llm : Type := Llm { attrs : pmap; kwargs : option pmap }.

Definition set_attr (l : llm) (p : name) (v : pval) : llm := Llm (pset (attrs l) p v) (kwargs l).
Definition set_kw (l : llm) (kw : pmap) : llm := Llm (attrs l) (Some kw).

(* one parameter of __enter__: new object, what is saved (None = nothing saved) *)
Definition enter1 (l : llm) (p : name) (v : pval) : llm * option pval :=
  match pget (attrs l) p with
  | Some old => (set_attr l p v, Some old)
  | None =>
      match kwargs l with
      | Some kw => (set_kw l (pset kw p v),
                    Some (match pget kw p with Some old => old | None => PNone end))
      | None => (l, None)
      end
  end.

Fixpoint enter (altered : pmap) (l : llm) (saved : pmap) : llm * pmap :=
  match altered with
  | [] => (l, saved)
  | (p, v) :: rest =>
      let '(l', s) := enter1 l p v in
      enter rest l' (match s with Some old => pset saved p old | None => saved end)
  end.

(* one parameter of __exit__ *)
Definition restore1 (l : llm) (p : name) (v : pval) : llm :=
  match pget (attrs l) p with
  | Some _ => set_attr l p v
  | None =>
      match kwargs l with
      | Some kw => match pget kw p with Some _ => set_kw l (pset kw p v) | None => l end
      | None => l
      end
  end.

Fixpoint exit_ (saved : pmap) (l : llm) : llm :=
  match saved with
  | [] => l
  | (p, v) :: rest => exit_ rest (restore1 l p v)
  end.

(* the object a call is meant to see: the configured one with its own parameters applied *)
Definition with_params (altered : pmap) (l : llm) : llm := fst (enter altered l []).

(* a parameter has a proper place: an attribute, or an existing model_kwargs entry, or there
   is no place at all (then nothing is touched) *)
Definition placed (l : llm) (p : name) : Prop :=
  pget (attrs l) p <> None \/
  (exists kw, kwargs l = Some kw /\ pget kw p <> None) \/
  (pget (attrs l) p = None /\ kwargs l = None).

Definition normal (l : llm) (altered : pmap) : Prop :=
  NoDup (keys altered) /\ Forall (placed l) (keys altered).

Inductive pop : Type :=
| OEnter (altered : pmap)
| OCall
| OExit.

Record window : Type := Window { w_altered : pmap; w_saved : pmap }.

Record pstate : Type := PState { p_llm : llm; p_open : nat -> list window }.   (* per task: open managers, innermost first *)

Definition pupd (f : nat -> list window) (t : nat) (v : list window) : nat -> list window :=
  fun x => if Nat.eqb x t then v else f x.

(* observation of a call: who, with which own parameters, what the LLM object looked like *)
Record pobs : Type := PObs { po_task : nat; po_own : pmap; po_seen : llm }.

(* None = the step is not enabled (exit without an open manager) *)
Definition pstep (st : pstate) (t : nat) (o : pop) : option (pstate * option pobs) :=
  match o with
  | OEnter alt =>
      let '(l', sv) := enter alt (p_llm st) [] in
      Some (PState l' (pupd (p_open st) t (Window alt sv :: p_open st t)), None)
  | OCall =>
      let own := match p_open st t with w :: _ => w_altered w | [] => [] end in
      Some (st, Some (PObs t own (p_llm st)))
  | OExit =>
      match p_open st t with
      | w :: rest => Some (PState (exit_ (w_saved w) (p_llm st)) (pupd (p_open st) t rest), None)
      | [] => None
      end
  end.

Definition pinit (l : llm) : pstate := PState l (fun _ => []).

(* programs: a task is a list of calls, each with its altered parameters *)
Definition call_ops (alt : pmap) : list pop := [OEnter alt; OCall; OExit].
Definition task_ops (calls : list pmap) : list pop := flat_map call_ops calls.

Record sys : Type := Sys { s_st : pstate; s_prog : nat -> list pop }.

Definition supd (f : nat -> list pop) (t : nat) (v : list pop) : nat -> list pop :=
  fun x => if Nat.eqb x t then v else f x.

(* task t performs its next atomic step (nothing happens when it has finished) *)
Definition sstep (s : sys) (t : nat) : sys * option pobs :=
  match s_prog s t with
  | [] => (s, None)
  | o :: rest =>
      match pstep (s_st s) t o with
      | Some (st', ob) => (Sys st' (supd (s_prog s) t rest), ob)
      | None => (s, None)
      end
  end.

Fixpoint srun (sched : list nat) (s : sys) : sys * list pobs :=
  match sched with
  | [] => (s, [])
  | t :: rest =>
      let '(s1, ob) := sstep s t in
      let '(s2, log) := srun rest s1 in
      (s2, match ob with Some x => x :: log | None => log end)
  end.

Definition sinit (l : llm) (tasks : nat -> list pmap) : sys :=
  Sys (pinit l) (fun t => task_ops (tasks t)).

(* no request in flight *)
Definition quiescent (s : sys) : Prop := forall t, p_open (s_st s) t = [].

(* a serial schedule: every call's three steps run back to back *)
Inductive serial : list nat -> Prop :=
| serial_nil : serial []
| serial_call : forall t rest, serial rest -> serial (t :: t :: t :: rest).

(* decidable comparison, for the trace check *)
Fixpoint pmap_eqb (a b : pmap) : bool :=
  match a, b with
  | [], [] => true
  | (p, v) :: a', (q, w) :: b' => Nat.eqb p q && pval_eqb v w && pmap_eqb a' b'
  | _, _ => false
  end.

Definition llm_eqb (a b : llm) : bool :=
  pmap_eqb (attrs a) (attrs b) &&
  match kwargs a, kwargs b with
  | None, None => true
  | Some x, Some y => pmap_eqb x y
  | _, _ => false
  end.

(* one logged step of the real code: task, operation, the LLM object right after it *)
Definition plog := (nat * pop * llm)%type.

Fixpoint check_psteps (st : pstate) (log : list plog) : bool :=
  match log with
  | [] => true
  | (t, o, seen) :: rest =>
      match pstep st t o with
      | Some (st', _) => llm_eqb (p_llm st') seen && check_psteps st' rest
      | None => false
      end
  end.

Definition check_ptrace (c : llm * list plog) : bool := check_psteps (pinit (fst c)) (snd c).

Example enter_exit_attr :
  let l := Llm [(0, PVal 500)] None in
  let '(l', sv) := enter [(0, PVal 200)] l [] in
  l' = Llm [(0, PVal 200)] None /\ sv = [(0, PVal 500)] /\ exit_ sv l' = l.
Proof. repeat split. Qed.

(* tests/test_llm_params.py::TestLLMParamsWithEmptyModelKwargs::test_exit pins this *)
Example enter_exit_absent_kwarg :
  let l := Llm [] (Some []) in
  let '(l', sv) := enter [(1, PVal 7)] l [] in
  l' = Llm [] (Some [(1, PVal 7)]) /\ sv = [(1, PNone)] /\ exit_ sv l' = Llm [] (Some [(1, PNone)]).
Proof. repeat split. Qed.
