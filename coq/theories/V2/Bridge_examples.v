(* C11 - the bridge on the example State of V2/State_examples.v *)
From Coq Require Import ZArith List String Bool.
From NG Require Import V2.Serial V2.SerialRun V2.State_examples V2.Cleanup V2.BridgeDef V2.BridgeRun V2.CleanupRun.
Import ListNotations.
Open Scope string_scope.
Open Scope Z_scope.

Example st_alpha :
  alpha ts0 h_st (VO 0)
  = Some (mkState
            [ ("m", mkInst "main" "STARTED" 0 0 None ["a"] ["u"] [("h1", [])] [] 0);
              ("a", mkInst "a" "STARTED" 0 1 (Some "m") [] ["u"] [("h2", []); ("h3", [])] [] 0) ]
            [ ("main", ["m"]); ("a", ["a"]) ]
            [ ("u", 0) ]
            0).
Proof. vm_compute. reflexivity. Qed.

Example st_alpha_refs : check_alpha_refs (h_st, VO 0, ex_state) = true.
Proof. vm_compute. reflexivity. Qed.

(* the clean-up of the abstract state read off the restored graph (model's own save/restore) *)
Example st_alpha_restored_cleanup :
  match encode flags_fixed 50 h_st (VO 0) with
  | Some j =>
    match json_to_state flags_fixed classes_now 50 j with
    | Some (h2, r2) =>
      match alpha ts0 h2 r2, alpha ts0 h_st (VO 0) with
      | Some a2, Some a => oeqb state_eqb (cleanup_now 10000000 a2) (cleanup_now 10000000 a)
                           && match cleanup_now 10000000 a with Some _ => true | None => false end
      | _, _ => false
      end
    | None => false
    end
  | None => false
  end = true.
Proof. vm_compute. reflexivity. Qed.

Lemma bridge_inhabited :
  exists a, alpha ts0 h_st (VO 0) = Some a /\ refs_okb a = true /\ List.length (flows a) = 2%nat.
Proof. eexists. split; [exact st_alpha|]. split; vm_compute; reflexivity. Qed.
