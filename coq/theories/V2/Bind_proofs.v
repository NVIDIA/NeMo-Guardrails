(* Proofs about V2/Bind.v (C08).  The result of `bind` is determined once (bind_contig; lookups in
   bound_args / bound_ctx); the binding rule, O1-O3, the FlowStarted echo and the restart are read
   off it.  Then per-instance contexts (locals, return and O4, the call as a step), the
   re-activation test (O6), and examples that inhabit the premises (among them the witness of O5). *)
From Coq Require Import ZArith List String Ascii Bool Decimal DecimalNat DecimalString Lia.
From NG Require Import Val.Value V2.Bind.
Import ListNotations.
Open Scope string_scope.
Open Scope list_scope.
Open Scope nat_scope.

Section AssocLemmas.
  Context {A : Type}.
  Implicit Types d e : list (string * A).

  Lemma aget_aset k k' v d : aget k' (aset k v d) = if String.eqb k' k then Some v else aget k' d.
  Proof.
    induction d as [|[k0 v0] r IH]; simpl; [reflexivity|].
    destruct (String.eqb k k0) eqn:E; simpl.
    - apply String.eqb_eq in E. subst k0. now destruct (String.eqb k' k).
    - rewrite IH. destruct (String.eqb k' k0) eqn:E2; [|reflexivity].
      apply String.eqb_eq in E2. subst k0. now rewrite String.eqb_sym, E.
  Qed.

  Lemma aget_aset_same k v d : aget k (aset k v d) = Some v.
  Proof. now rewrite aget_aset, String.eqb_refl. Qed.

  Lemma aget_aset_other k k' v d : k <> k' -> aget k' (aset k v d) = aget k' d.
  Proof. intros H. rewrite aget_aset. apply not_eq_sym, String.eqb_neq in H. now rewrite H. Qed.

  Lemma ahas_aset_same k v d : ahas k (aset k v d) = true.
  Proof. unfold ahas. now rewrite aget_aset_same. Qed.

  Lemma ahas_aset_other k k' v d : k <> k' -> ahas k' (aset k v d) = ahas k' d.
  Proof. intros. unfold ahas. now rewrite aget_aset_other. Qed.

  Lemma aget_none_not_in k d : aget k d = None <-> ~ In k (map fst d).
  Proof.
    induction d as [|[k' v'] r IH]; simpl.
    - tauto.
    - destruct (String.eqb k k') eqn:E.
      + apply String.eqb_eq in E. subst. split; [discriminate | intros H; exfalso; apply H; auto].
      + apply String.eqb_neq in E. rewrite IH. split.
        * intros H [H1 | H1]; [congruence | auto].
        * intros H H1. apply H. auto.
  Qed.

  Lemma ahas_false_not_in k d : ahas k d = false <-> ~ In k (map fst d).
  Proof. rewrite <- aget_none_not_in. unfold ahas. destruct (aget k d); split; congruence. Qed.

  Lemma aget_In k d v : aget k d = Some v -> In (k, v) d.
  Proof.
    induction d as [|[k' v'] r IH]; simpl; [discriminate|].
    destruct (String.eqb_spec k k') as [-> | _]; [intros [= ->] |]; auto.
  Qed.

  Lemma keys_aset_in k v d : ahas k d = true -> map fst (aset k v d) = map fst d.
  Proof.
    unfold ahas. induction d as [|[k' v'] r IH]; simpl.
    - discriminate.
    - destruct (String.eqb k k') eqn:E; simpl; auto. intros H. now rewrite IH.
  Qed.

  Lemma aset_fresh k v d : ahas k d = false -> aset k v d = d ++ [(k, v)].
  Proof.
    unfold ahas. induction d as [|[k' v'] r IH]; simpl.
    - auto.
    - destruct (String.eqb k k') eqn:E; simpl; [discriminate|]. intros H. now rewrite IH.
  Qed.

  Lemma aset_keys_NoDup k v d : NoDup (map fst d) -> NoDup (map fst (aset k v d)).
  Proof.
    intros H. destruct (ahas k d) eqn:E.
    - now rewrite keys_aset_in.
    - rewrite aset_fresh, map_app by auto. apply (NoDup_Add (Add_app k (map fst d) [])).
      rewrite app_nil_r. split; [exact H | now apply ahas_false_not_in].
  Qed.

  Lemma aupdate_keys_NoDup d e : NoDup (map fst d) -> NoDup (map fst (aupdate d e)).
  Proof.
    unfold aupdate. revert d. induction e as [|[k v] r IH]; intros d H; simpl; auto.
    apply IH. now apply aset_keys_NoDup.
  Qed.

  Lemma aupdate_fresh e : forall d, NoDup (map fst (d ++ e)) -> aupdate d e = d ++ e.
  Proof.
    induction e as [|[k v] r IH]; intros d H.
    - now rewrite app_nil_r.
    - change (aupdate (aset k v d) r = d ++ (k, v) :: r).
      rewrite aset_fresh, IH, <- app_assoc; [reflexivity | now rewrite <- app_assoc |].
      rewrite map_app in H. apply NoDup_remove_2 in H. rewrite in_app_iff in H.
      apply ahas_false_not_in. intros Hin. apply H. now left.
  Qed.

  (* e is a dict: its keys are distinct *)
  Lemma aget_aupdate k d e :
    NoDup (map fst e) ->
    aget k (aupdate d e) = match aget k e with Some v => Some v | None => aget k d end.
  Proof.
    unfold aupdate. revert d. induction e as [|[k' v'] r IH]; intros d Hnd; simpl.
    - reflexivity.
    - simpl in Hnd. inversion Hnd as [|x l Hnotin Hnd']; subst.
      rewrite IH by auto. destruct (String.eqb k k') eqn:E.
      + apply String.eqb_eq in E. subst k'.
        apply aget_none_not_in in Hnotin. rewrite Hnotin. apply aget_aset_same.
      + apply String.eqb_neq in E. destruct (aget k r); auto. rewrite aget_aset_other; auto.
  Qed.

  Lemma aget_aupdate_none k d e : aget k e = None -> aget k (aupdate d e) = aget k d.
  Proof.
    unfold aupdate. revert d. induction e as [|[k' v'] r IH]; intros d H; simpl in *; auto.
    destruct (String.eqb k k') eqn:E; [discriminate|]. apply String.eqb_neq in E.
    rewrite IH by auto. apply aget_aset_other. congruence.
  Qed.
End AssocLemmas.

Lemma mem_In k l : mem k l = true <-> In k l.
Proof.
  unfold mem. rewrite existsb_exists. split.
  - intros [x [H1 H2]]. apply String.eqb_eq in H2. now subst.
  - intros H. exists k. split; auto. apply String.eqb_refl.
Qed.

Lemma mem_false k l : mem k l = false <-> ~ In k l.
Proof. rewrite <- mem_In. destruct (mem k l); split; congruence. Qed.

Lemma nodupb_NoDup l : nodupb l = true -> NoDup l.
Proof.
  induction l as [|x r IH]; simpl; intros H.
  - constructor.
  - apply andb_true_iff in H. destruct H as [H1 H2]. constructor; auto.
    apply negb_true_iff in H1. now apply mem_false.
Qed.

Lemma pos_key_inj i j : pos_key i = pos_key j -> i = j.
Proof.
  unfold pos_key. intros H. injection H as H.
  apply (f_equal NilEmpty.uint_of_string) in H. rewrite !NilEmpty.usu in H.
  injection H as H. apply (f_equal Nat.of_uint) in H. now rewrite !Unsigned.of_to in H.
Qed.

Lemma pos_key_not_plain i : plain (pos_key i) = false.
Proof. reflexivity. Qed.

Lemma plain_ne_pos_key s i : plain s = true -> s <> pos_key i.
Proof. intros H E. subst. now rewrite pos_key_not_plain in H. Qed.

(* a present `$i` has i < k, an absent one k <= i *)
Lemma contig_spec ev k i :
  pos_contig ev k -> match aget (pos_key i) ev with Some _ => i < k | None => k <= i end.
Proof.
  intros H. specialize (H i). unfold ahas in H.
  destruct (aget (pos_key i) ev); symmetry in H; [apply Nat.ltb_lt | apply Nat.ltb_ge]; exact H.
Qed.

(* keys `$idx+i` that the second loop appends *)
Fixpoint pos_present (n idx : nat) (ev : ctx) : list string :=
  match n with
  | O => []
  | S n' => (if ahas (pos_key idx) ev then [pos_key idx] else []) ++ pos_present n' (S idx) ev
  end.

Lemma pos_present_length n : forall idx ev, List.length (pos_present n idx ev) <= n.
Proof.
  induction n as [|n IH]; intros idx ev; simpl; auto.
  rewrite app_length. specialize (IH (S idx) ev). destruct (ahas (pos_key idx) ev); simpl; lia.
Qed.

Lemma pos_present_contig n : forall idx ev k, pos_contig ev k ->
  pos_present n idx ev = map pos_key (seq idx (Nat.min n (k - idx))).
Proof.
  induction n as [|n IH]; intros idx ev k Hc; simpl; auto.
  rewrite (Hc idx), (IH _ _ k Hc). destruct (Nat.ltb_spec idx k) as [Hlt | Hge].
  - replace (k - idx) with (S (k - S idx)) by lia. reflexivity.
  - replace (k - idx) with 0 by lia. replace (k - S idx) with 0 by lia. now rewrite Nat.min_0_r.
Qed.

Section BindProofs.
  Variable expr : Type.
  Variable eval : ctx -> expr -> value.

  Notation param := (param expr).
  Notation default_val := (default_val expr eval).
  Notation cfi_named := (cfi_named expr eval).
  Notation cfi_pos := (cfi_pos expr).
  Notation cfi_ret := (cfi_ret expr eval).
  Notation bind := (bind expr eval).
  Notation ev_value := (ev_value expr eval).

  Implicit Types (ps rs : list param) (ev : ctx).

  (* value chosen by the first loop *)
  Definition named_or_default (ev : ctx) (p : param) : value :=
    match aget (p_name p) ev with Some v => v | None => default_val (p_default p) end.

  Definition named_vals (ps : list param) (ev : ctx) : ctx := map (fun p => (p_name p, named_or_default ev p)) ps.

  Lemma named_vals_keys ps ev : map fst (named_vals ps ev) = map p_name ps.
  Proof. unfold named_vals. rewrite map_map. reflexivity. Qed.

  (* the first loop is `arguments.update(named_vals)` and `context.update(named_vals)` *)
  Lemma cfi_named_aupdate ps : forall ev args c,
    cfi_named ps ev args c = (aupdate args (named_vals ps ev), aupdate c (named_vals ps ev)).
  Proof. induction ps as [|p ps IH]; intros ev args c; simpl; [reflexivity | apply IH]. Qed.

  Lemma cfi_named_nil ps ev :
    NoDup (map p_name ps) -> cfi_named ps ev [] [] = (named_vals ps ev, named_vals ps ev).
  Proof.
    intros H. rewrite cfi_named_aupdate, aupdate_fresh; [reflexivity|]. simpl. now rewrite named_vals_keys.
  Qed.

  Lemma named_vals_in ps ev p :
    NoDup (map p_name ps) -> In p ps -> aget (p_name p) (named_vals ps ev) = Some (named_or_default ev p).
  Proof.
    induction ps as [|q ps IH]; simpl; intros Hnd Hin; [easy|].
    inversion Hnd as [|? ? Hq Hnd']; subst. destruct Hin as [-> | Hin].
    - now rewrite String.eqb_refl.
    - destruct (String.eqb_spec (p_name p) (p_name q)) as [E|]; [|auto].
      exfalso. apply Hq. rewrite <- E. now apply in_map.
  Qed.

  Lemma named_vals_other ps ev k : ~ In k (map p_name ps) -> aget k (named_vals ps ev) = None.
  Proof. intros H. apply aget_none_not_in. now rewrite named_vals_keys. Qed.

  Lemma plain_names_no_pos ps j :
    (forall p, In p ps -> plain (p_name p) = true) -> ~ In (pos_key j) (map p_name ps).
  Proof.
    intros Hplain Hin. apply in_map_iff in Hin. destruct Hin as [q [E Hq]].
    revert E. apply plain_ne_pos_key. auto.
  Qed.

  (* one round of the second loop: positional override in `arguments` *)
  Definition pos_step (p : param) (idx : nat) (ev args : ctx) : ctx :=
    match aget (pos_key idx) ev with
    | Some v => aset (pos_key idx) v (aset (p_name p) v args)
    | None => args
    end.

  Lemma cfi_pos_cons p ps idx ev args :
    cfi_pos (p :: ps) idx ev args = cfi_pos ps (S idx) ev (pos_step p idx ev args).
  Proof. reflexivity. Qed.

  Lemma pos_step_other p idx ev args x :
    x <> p_name p -> x <> pos_key idx -> aget x (pos_step p idx ev args) = aget x args.
  Proof.
    intros. unfold pos_step. destruct (aget (pos_key idx) ev); [|reflexivity].
    now rewrite !aget_aset_other by auto.
  Qed.

  (* a round writes the positional value, if there is one, under both of its keys *)
  Lemma pos_step_at p idx ev args x :
    p_name p <> pos_key idx -> x = p_name p \/ x = pos_key idx ->
    aget x (pos_step p idx ev args)
    = match aget (pos_key idx) ev with Some v => Some v | None => aget x args end.
  Proof.
    intros Hne Hx. unfold pos_step. destruct (aget (pos_key idx) ev); [|reflexivity].
    destruct Hx as [-> | ->]; [now rewrite aget_aset_other, aget_aset_same by auto | apply aget_aset_same].
  Qed.

  Lemma cfi_pos_other ps : forall idx ev args k,
    ~ In k (map p_name ps) -> (forall j, idx <= j < idx + List.length ps -> k <> pos_key j) ->
    aget k (cfi_pos ps idx ev args) = aget k args.
  Proof.
    induction ps as [|p ps IH]; intros idx ev args k Hk Hpk; [reflexivity|]. simpl in Hk, Hpk.
    rewrite cfi_pos_cons, IH, pos_step_other; auto; try (apply Hpk; lia).
    intros j Hj. apply Hpk. lia.
  Qed.

  (* no other round touches the two keys of round i: names are distinct and are no `$j` *)
  Lemma cfi_pos_at ps : forall idx ev args i p x,
    NoDup (map p_name ps) -> (forall q, In q ps -> plain (p_name q) = true) ->
    nth_error ps i = Some p -> x = p_name p \/ x = pos_key (idx + i) ->
    aget x (cfi_pos ps idx ev args)
    = match aget (pos_key (idx + i)) ev with Some v => Some v | None => aget x args end.
  Proof.
    induction ps as [|q ps IH]; intros idx ev args i p x Hnd Hplain Hnth Hx; [now destruct i|].
    inversion Hnd as [|? ? Hnotin Hnd']; subst. rewrite cfi_pos_cons.
    assert (Hpos : forall q0 j, In q0 (q :: ps) -> p_name q0 <> pos_key j)
      by (intros; now apply plain_ne_pos_key, Hplain).
    assert (Hinj : forall j j', j <> j' -> pos_key j <> pos_key j')
      by (intros j j' Hj E; now apply Hj, pos_key_inj).
    destruct i as [|i]; simpl in Hnth.
    - injection Hnth as ->. rewrite Nat.add_0_r in *. rewrite cfi_pos_other, pos_step_at; auto using in_eq.
      + destruct Hx as [-> | ->]; [exact Hnotin | apply plain_names_no_pos; auto using in_cons].
      + intros j Hj. destruct Hx as [-> | ->]; [auto using in_eq | apply Hinj; lia].
    - assert (Hp : In p ps) by (eapply nth_error_In; eauto).
      rewrite Nat.add_succ_r in *. rewrite (IH (S idx) _ _ i p), pos_step_other; auto using in_cons.
      + destruct Hx as [-> | ->]; [|apply not_eq_sym; auto using in_eq].
        intros E. apply Hnotin. rewrite <- E. now apply in_map.
      + destruct Hx as [-> | ->]; [auto using in_cons | apply Hinj; lia].
  Qed.

  Lemma pos_step_keys p idx ev args :
    ahas (p_name p) args = true -> ahas (pos_key idx) args = false -> p_name p <> pos_key idx ->
    map fst (pos_step p idx ev args) = map fst args ++ (if ahas (pos_key idx) ev then [pos_key idx] else []).
  Proof.
    intros Hp Hidx Hne. unfold pos_step, ahas at 1. destruct (aget (pos_key idx) ev); [|now rewrite app_nil_r].
    rewrite aset_fresh, map_app, keys_aset_in; auto. now rewrite ahas_aset_other.
  Qed.

  Lemma cfi_pos_keys ps : forall idx ev args,
    NoDup (map p_name ps) -> (forall q, In q ps -> plain (p_name q) = true) ->
    (forall q, In q ps -> ahas (p_name q) args = true) ->
    (forall j, idx <= j -> ahas (pos_key j) args = false) ->
    map fst (cfi_pos ps idx ev args) = map fst args ++ pos_present (List.length ps) idx ev.
  Proof.
    induction ps as [|q ps IH]; intros idx ev args Hnd Hplain Hin Hfresh; [simpl; now rewrite app_nil_r|].
    inversion Hnd as [|x l Hnotin Hnd']; subst.
    assert (Hpos : forall q0 j, In q0 (q :: ps) -> p_name q0 <> pos_key j)
      by (intros; now apply plain_ne_pos_key, Hplain).
    rewrite cfi_pos_cons, IH, pos_step_keys, <- app_assoc; auto using in_eq, in_cons.
    - intros q0 Hq0. unfold ahas. rewrite pos_step_other; [apply Hin | | ]; auto using in_cons.
      intros E. apply Hnotin. rewrite <- E. now apply in_map.
    - intros j Hj. unfold ahas. rewrite pos_step_other; [apply Hfresh; lia | apply not_eq_sym; auto using in_eq |].
      intros E. apply pos_key_inj in E. lia.
  Qed.

  Lemma cfi_pos_keys_NoDup ps : forall idx ev args,
    NoDup (map fst args) -> NoDup (map fst (cfi_pos ps idx ev args)).
  Proof.
    induction ps as [|p ps IH]; intros idx ev args H; simpl; auto.
    apply IH. destruct (aget (pos_key idx) ev); auto. now apply aset_keys_NoDup, aset_keys_NoDup.
  Qed.

  Lemma cfi_ret_other rs : forall c k,
    ~ In k (map p_name rs) -> aget k (cfi_ret rs c) = aget k c.
  Proof.
    induction rs as [|r rs IH]; intros c k Hk; simpl.
    - reflexivity.
    - simpl in Hk. rewrite IH by (intros H; apply Hk; auto).
      apply aget_aset_other. intros E. apply Hk. auto.
  Qed.

  Lemma sf_loop_notin ks : forall idx ev c next x,
    ~ In x ks -> aget x (fst (sf_loop ks idx ev c next)) = aget x c.
  Proof.
    induction ks as [|a r IH]; intros idx ev c next x Hx; simpl; auto.
    destruct (aget (pos_key idx) ev); auto.
    rewrite IH, aget_aset_other; simpl in Hx; tauto.
  Qed.

  (* the loop stops at the first `$idx+i` missing: by contiguity none is present after it *)
  Lemma sf_loop_nth ks : forall idx ev c next k i x,
    pos_contig ev k -> NoDup ks -> nth_error ks i = Some x ->
    aget x (fst (sf_loop ks idx ev c next))
    = match aget (pos_key (idx + i)) ev with Some v => Some v | None => aget x c end.
  Proof.
    induction ks as [|a r IH]; intros idx ev c next k i x Hc Hnd Hnth; [now destruct i|].
    inversion Hnd as [|? ? Ha Hnd']; subst. simpl.
    destruct (aget (pos_key idx) ev) as [v|] eqn:E.
    - destruct i as [|i]; simpl in Hnth.
      + injection Hnth as ->. now rewrite Nat.add_0_r, E, sf_loop_notin, aget_aset_same.
      + rewrite Nat.add_succ_r, (IH (S idx) _ _ _ k i) by auto. simpl.
        rewrite aget_aset_other; auto. intros ->. apply Ha. eapply nth_error_In; eauto.
    - pose proof (contig_spec ev k idx Hc) as Hk. rewrite E in Hk.
      pose proof (contig_spec ev k (idx + i) Hc) as Hi. destruct (aget (pos_key (idx + i)) ev); [lia | reflexivity].
  Qed.

  Lemma sf_loop_rejects ks : forall idx ev c k,
    pos_contig ev k ->
    ahas (pos_key (snd (sf_loop ks idx ev c idx))) ev = (idx + List.length ks <? k).
  Proof.
    induction ks as [|a r IH]; intros idx ev c k Hc; simpl.
    - now rewrite Nat.add_0_r.
    - rewrite Nat.add_succ_r. destruct (aget (pos_key idx) ev) eqn:E.
      + now apply IH.
      + simpl. rewrite (Hc (S idx)). pose proof (contig_spec ev k idx Hc) as Hk. rewrite E in Hk.
        transitivity false; [|symmetry]; apply Nat.ltb_ge; lia.
  Qed.

  Lemma start_flow_contig args ev c k :
    pos_contig ev k ->
    start_flow args ev c
    = if List.length args <? k then None else Some (fst (sf_loop (map fst args) 0 ev c 0)).
  Proof.
    intros Hc. unfold start_flow. rewrite (surjective_pairing (sf_loop _ _ _ _ _)).
    now rewrite (sf_loop_rejects _ _ _ _ k Hc), map_length.
  Qed.

  Lemma wf_sig_parts ps rs :
    wf_signature expr ps rs = true ->
    NoDup (map p_name ps)
    /\ (forall p, In p ps -> plain (p_name p) = true)
    /\ (forall p, In p ps -> ~ In (p_name p) reserved_keys)
    /\ (forall r, In r rs -> ~ In (p_name r) (map p_name ps)).
  Proof.
    unfold wf_signature. intros H.
    apply andb_true_iff in H. destruct H as [H H3].
    apply andb_true_iff in H. destruct H as [H1 H2].
    rewrite forallb_forall in H2, H3.
    repeat split.
    - now apply nodupb_NoDup.
    - intros p Hp. apply H2 in Hp. apply andb_true_iff in Hp. tauto.
    - intros p Hp. apply H2 in Hp. apply andb_true_iff in Hp. apply mem_false, negb_true_iff, Hp.
    - intros r Hr. apply mem_false, negb_true_iff, H3, Hr.
  Qed.

  Lemma ev_value_eq ev i p :
    ev_value ev i p = match aget (pos_key i) ev with Some v => v | None => named_or_default ev p end.
  Proof. reflexivity. Qed.

  (* an event that keeps `$i` and holds the bound value under the name binds the same value *)
  Lemma ev_value_rebound ev ev' i p :
    aget (pos_key i) ev' = aget (pos_key i) ev -> aget (p_name p) ev' = Some (ev_value ev i p) ->
    ev_value ev' i p = ev_value ev i p.
  Proof.
    intros Hi Hn. rewrite (ev_value_eq ev'), Hi. unfold named_or_default. rewrite Hn, ev_value_eq.
    now destruct (aget (pos_key i) ev).
  Qed.

  (* `arguments` and the context of the instance that a call with event arguments [ev] creates *)
  Definition bound_args (ps : list param) (ev : ctx) : ctx := cfi_pos ps 0 ev (named_vals ps ev).
  Definition bound_ctx (ps rs : list param) (ev : ctx) : ctx :=
    fst (sf_loop (map fst (bound_args ps ev)) 0 ev (cfi_ret rs (named_vals ps ev)) 0).

  (* `arguments` only ever holds parameter names and `$i` keys, whatever the call *)
  Lemma bound_args_other ps ev z :
    plain z = true -> ~ In z (map p_name ps) -> aget z (bound_args ps ev) = None.
  Proof.
    intros Hz Hnot. unfold bound_args. rewrite cfi_pos_other, named_vals_other; auto.
    intros j _. now apply plain_ne_pos_key.
  Qed.

  (* one flow with a well-formed signature, one event whose positional keys are `$0`..`$(k-1)` *)
  Section Bound.
    Variables (ps rs : list param) (ev : ctx) (k : nat).
    Hypothesis Hwf : wf_signature expr ps rs = true.
    Hypothesis Hc : pos_contig ev k.

    Lemma bind_start_flow :
      bind ps rs ev = match start_flow (bound_args ps ev) ev (cfi_ret rs (named_vals ps ev)) with
                      | None => BTooMany
                      | Some c => Bound (bound_args ps ev) c
                      end.
    Proof.
      unfold Bind.bind, bind_in, create_flow_instance.
      now rewrite cfi_named_nil by apply (wf_sig_parts ps rs Hwf).
    Qed.

    Lemma bound_is_bound_args a c : bind ps rs ev = Bound a c -> a = bound_args ps ev.
    Proof.
      intros Hb. rewrite bind_start_flow in Hb.
      destruct (start_flow _ _ _); [now injection Hb | discriminate].
    Qed.

    Lemma bound_args_NoDup : NoDup (map fst (bound_args ps ev)).
    Proof. apply cfi_pos_keys_NoDup. rewrite named_vals_keys. apply (wf_sig_parts ps rs Hwf). Qed.

    Lemma bound_args_name i p :
      nth_error ps i = Some p -> aget (p_name p) (bound_args ps ev) = Some (ev_value ev i p).
    Proof.
      intros Hnth. destruct (wf_sig_parts ps rs Hwf) as [Hnd [Hplain _]]. unfold bound_args.
      rewrite (cfi_pos_at ps 0 ev _ i p), named_vals_in by (eauto using nth_error_In).
      rewrite ev_value_eq. cbn [Nat.add]. now destruct (aget (pos_key i) ev).
    Qed.

    Lemma bound_args_pos j :
      aget (pos_key j) (bound_args ps ev) = if j <? List.length ps then aget (pos_key j) ev else None.
    Proof.
      destruct (wf_sig_parts ps rs Hwf) as [Hnd [Hplain _]]. unfold bound_args.
      pose proof (plain_names_no_pos ps j Hplain) as Hj.
      destruct (Nat.ltb_spec j (List.length ps)) as [Hlt | Hge].
      - destruct (nth_error ps j) as [p|] eqn:Hp; [|apply nth_error_None in Hp; lia].
        rewrite (cfi_pos_at ps 0 ev _ j p), named_vals_other by auto. cbn [Nat.add]. now destruct (aget (pos_key j) ev).
      - rewrite cfi_pos_other, named_vals_other; auto. intros j' Hj' E. apply pos_key_inj in E. lia.
    Qed.

    (* the parameter names, then the `$i` given *)
    Lemma bound_args_keys :
      map fst (bound_args ps ev) = map p_name ps ++ map pos_key (seq 0 (Nat.min (List.length ps) k)).
    Proof.
      destruct (wf_sig_parts ps rs Hwf) as [Hnd [Hplain _]]. unfold bound_args.
      rewrite cfi_pos_keys, named_vals_keys, (pos_present_contig _ _ _ k), Nat.sub_0_r; auto.
      - intros q Hq. unfold ahas. now rewrite named_vals_in.
      - intros j _. apply ahas_false_not_in. rewrite named_vals_keys. now apply plain_names_no_pos.
    Qed.

    Lemma bound_ctx_name i p :
      nth_error ps i = Some p -> aget (p_name p) (bound_ctx ps rs ev) = Some (ev_value ev i p).
    Proof.
      intros Hnth. destruct (wf_sig_parts ps rs Hwf) as [Hnd [Hplain [_ Hrets]]].
      assert (Hin : In p ps) by (eapply nth_error_In; eauto).
      assert (Hkey : nth_error (map fst (bound_args ps ev)) i = Some (p_name p)).
      { rewrite bound_args_keys, nth_error_app1, nth_error_map, Hnth; auto.
        rewrite map_length. apply nth_error_Some. congruence. }
      unfold bound_ctx.
      rewrite (sf_loop_nth _ 0 ev _ 0 k i _ Hc bound_args_NoDup Hkey), cfi_ret_other, named_vals_in; auto.
      - rewrite ev_value_eq. cbn [Nat.add]. now destruct (aget (pos_key i) ev).
      - intros Hr. apply in_map_iff in Hr. destruct Hr as [r [E Hr]].
        apply (Hrets r Hr). rewrite E. now apply in_map.
    Qed.

    (* a parameter whose positional argument is given receives it *)
    Lemma bound_pos_wins i p v :
      nth_error ps i = Some p -> aget (pos_key i) ev = Some v ->
      aget (p_name p) (bound_ctx ps rs ev) = Some v /\ aget (p_name p) (bound_args ps ev) = Some v.
    Proof.
      intros Hnth Hv. now rewrite (bound_ctx_name i p Hnth), (bound_args_name i p Hnth), ev_value_eq, Hv.
    Qed.

    (* past the parameter names the loop of _start_flow runs on into the `$i` keys of `arguments` *)
    Lemma bound_ctx_surplus :
      0 < List.length ps < k -> aget (pos_key 0) (bound_ctx ps rs ev) = aget (pos_key (List.length ps)) ev.
    Proof.
      intros Hn.
      assert (Hkey : nth_error (map fst (bound_args ps ev)) (List.length ps) = Some (pos_key 0)).
      { rewrite bound_args_keys, nth_error_app2, map_length, Nat.sub_diag, Nat.min_l by
          (rewrite ?map_length; auto; lia).
        destruct (List.length ps); [lia | reflexivity]. }
      unfold bound_ctx.
      rewrite (sf_loop_nth _ 0 ev _ 0 k _ _ Hc bound_args_NoDup Hkey). simpl.
      pose proof (contig_spec ev k (List.length ps) Hc) as Hv.
      destruct (aget (pos_key (List.length ps)) ev); [reflexivity | lia].
    Qed.

    Theorem bind_contig :
      bind ps rs ev = if 2 * List.length ps <? k then BTooMany
                      else Bound (bound_args ps ev) (bound_ctx ps rs ev).
    Proof.
      rewrite bind_start_flow, (start_flow_contig _ _ _ k) by auto. fold (bound_ctx ps rs ev).
      (* `arguments` has n + min n k keys *)
      rewrite <- (map_length fst (bound_args ps ev)), bound_args_keys.
      rewrite app_length, !map_length, seq_length.
      replace (List.length ps + Nat.min (List.length ps) k <? k) with (2 * List.length ps <? k); [now destruct (_ <? _)|].
      destruct (Nat.ltb_spec (2 * List.length ps) k); symmetry; [apply Nat.ltb_lt | apply Nat.ltb_ge]; lia.
    Qed.

    (* inside the premise the call binds *)
    Corollary bind_within (P : ctx -> ctx -> Prop) :
      k <= List.length ps -> P (bound_args ps ev) (bound_ctx ps rs ev) ->
      exists a c, bind ps rs ev = Bound a c /\ P a c.
    Proof.
      intros Hk HP. exists (bound_args ps ev), (bound_ctx ps rs ev). split; [|exact HP].
      rewrite bind_contig. now rewrite (proj2 (Nat.ltb_ge _ _)) by lia.
    Qed.

    Theorem bind_spec :
      k <= List.length ps ->
      exists a c, bind ps rs ev = Bound a c /\
        (forall i p, nth_error ps i = Some p ->
           aget (p_name p) c = Some (ev_value ev i p) /\ aget (p_name p) a = Some (ev_value ev i p)) /\
        map fst a = map p_name ps ++ map pos_key (seq 0 k).
    Proof.
      intros Hk. apply bind_within; [exact Hk|]. split.
      - intros i p Hnth. split; [now apply bound_ctx_name | now apply bound_args_name].
      - now rewrite bound_args_keys, Nat.min_r.
    Qed.

    (* O1: surplus positional arguments (k > n, contiguous).  The check
       `f"${last_idx+1}" in event_arguments` fires only when the flow has no parameter or
       more than 2n arguments were given; otherwise the callee runs with the first n values,
       `arguments` has no `$n` (the caller's FlowStarted match, which mentions `$n`, can never
       succeed) and the context gains the key `$0` holding argument number n. *)
    Theorem obs_surplus :
      List.length ps < k ->
      (bind ps rs ev = BTooMany <-> (List.length ps = 0 \/ 2 * List.length ps < k)) /\
      (forall a c, bind ps rs ev = Bound a c ->
         (forall i p, nth_error ps i = Some p ->
            aget (p_name p) c = aget (pos_key i) ev /\ aget (p_name p) a = aget (pos_key i) ev) /\
         aget (pos_key (List.length ps)) a = None /\
         aget (pos_key 0) c = aget (pos_key (List.length ps)) ev).
    Proof.
      intros Hk. rewrite bind_contig.
      destruct (Nat.ltb_spec (2 * List.length ps) k) as [Hlt | Hge]; (split; [|intros a c Hb]).
      - split; auto.
      - discriminate.
      - split; [discriminate | lia].
      - injection Hb as <- <-. split; [|split].
        + intros i p Hnth. assert (Hi : i < List.length ps) by (apply nth_error_Some; congruence).
          pose proof (contig_spec ev k i Hc) as Hv.
          destruct (aget (pos_key i) ev) as [v|] eqn:E; [now apply (bound_pos_wins i) | lia].
        + now rewrite bound_args_pos, Nat.ltb_irrefl.
        + apply bound_ctx_surplus. lia.
    Qed.

    (* inside the premise every argument of the call is echoed with the same value by
       `arguments`, i.e. by the FlowStarted event the caller waits for *)
    Theorem call_args_echoed :
      k <= List.length ps ->
      (forall i p, i < k -> nth_error ps i = Some p -> ahas (p_name p) ev = false) ->
      exists a c, bind ps rs ev = Bound a c /\
        (forall j v, aget (pos_key j) ev = Some v -> aget (pos_key j) a = Some v) /\
        (forall p v, In p ps -> aget (p_name p) ev = Some v -> aget (p_name p) a = Some v).
    Proof.
      intros Hk Hnodouble. apply bind_within; [exact Hk|]. split.
      - intros j v Hv. rewrite bound_args_pos.
        pose proof (contig_spec ev k j Hc) as Hj. rewrite Hv in Hj.
        now rewrite (proj2 (Nat.ltb_lt j (List.length ps))) by lia.
      - intros p v Hin Hv. apply In_nth_error in Hin. destruct Hin as [i Hnth].
        rewrite (bound_args_name i p Hnth). f_equal.
        pose proof (contig_spec ev k i Hc) as Hi.
        destruct (aget (pos_key i) ev) as [w|] eqn:Hw.
        + specialize (Hnodouble i p Hi Hnth). unfold ahas in Hnodouble. rewrite Hv in Hnodouble. discriminate.
        + rewrite ev_value_eq, Hw. unfold named_or_default. now rewrite Hv.
    Qed.
  End Bound.

  Notation arg := (arg expr).
  Notation parse_args := (parse_args expr).
  Notation eval_args := (eval_args expr eval).
  Notation pos_exprs := (pos_exprs expr).
  Notation named_names := (named_names expr).
  Notation named_expr := (named_expr expr).

  Lemma parse_args_below (l : list arg) : forall idx acc j,
    forallb plain (named_names l) = true -> j < idx ->
    aget (pos_key j) (parse_args l idx acc) = aget (pos_key j) acc.
  Proof.
    induction l as [|[e | n e] r IH]; intros idx acc j Hplain Hj; simpl in *; [reflexivity | |].
    - rewrite IH by (auto; lia). apply aget_aset_other. intros E. apply pos_key_inj in E. lia.
    - apply andb_true_iff in Hplain. destruct Hplain as [Hn Hplain].
      rewrite IH by auto. apply aget_aset_other. now apply plain_ne_pos_key.
  Qed.

  Lemma parse_args_pos (l : list arg) : forall idx acc i,
    forallb plain (named_names l) = true ->
    aget (pos_key (idx + i)) (parse_args l idx acc)
    = match nth_error (pos_exprs l) i with Some e => Some e | None => aget (pos_key (idx + i)) acc end.
  Proof.
    induction l as [|[e | n e] r IH]; intros idx acc i Hplain; simpl in *.
    - now destruct i.
    - destruct i as [|i]; simpl.
      + rewrite Nat.add_0_r, parse_args_below by auto. apply aget_aset_same.
      + replace (idx + S i) with (S idx + i) by lia. rewrite IH by auto.
        destruct (nth_error (pos_exprs r) i); auto.
        apply aget_aset_other. intros E. apply pos_key_inj in E. lia.
    - apply andb_true_iff in Hplain. destruct Hplain as [Hn Hplain].
      rewrite IH by auto. destruct (nth_error (pos_exprs r) i); auto.
      apply aget_aset_other. now apply plain_ne_pos_key.
  Qed.

  Lemma parse_args_named (l : list arg) : forall idx acc n,
    plain n = true ->
    aget n (parse_args l idx acc)
    = match named_expr n l with Some e => Some e | None => aget n acc end.
  Proof.
    induction l as [|[e | m e] r IH]; intros idx acc n Hn; simpl; [reflexivity | |]; rewrite IH by auto.
    - destruct (named_expr n r); auto.
      apply aget_aset_other, not_eq_sym. now apply plain_ne_pos_key.
    - rewrite aget_aset. now destruct (named_expr n r), (String.eqb n m).
  Qed.

  Lemma eval_args_get cc (d : list (string * expr)) k :
    aget k (eval_args cc d) = option_map (eval cc) (aget k d).
  Proof.
    induction d as [|[k' e] r IH]; simpl; auto.
    destruct (String.eqb k k'); auto.
  Qed.

  Lemma reserved_notin k (l : list string) :
    ~ In k reserved_keys -> forallb (fun x => mem x reserved_keys) l = true -> ~ In k l.
  Proof. intros H Hl Hin. rewrite forallb_forall in Hl. apply H, mem_In, Hl, Hin. Qed.

  (* `arguments.update({flow_id, flow_instance_uid[, activated]})`, then the keys slide adds *)
  Lemma start_event_args_update R act evargs :
    start_event_args R act evargs
    = aupdate evargs ([("flow_id", r_flow_id R); ("flow_instance_uid", r_instance_uid R)]
                      ++ (if act then [("activated", VBool true)] else [])
                      ++ [("source_flow_instance_uid", r_source_uid R); ("source_head_uid", r_head_uid R);
                          ("flow_hierarchy_position", r_hier R)]).
  Proof. now destruct act. Qed.

  Lemma start_event_args_get R act evargs k :
    ~ In k reserved_keys -> aget k (start_event_args R act evargs) = aget k evargs.
  Proof.
    intros H. rewrite start_event_args_update.
    apply aget_aupdate_none, aget_none_not_in, (reserved_notin k _ H). now destruct act.
  Qed.

  Lemma reserved_plain z : In z reserved_keys -> plain z = true.
  Proof. apply (proj1 (forallb_forall plain reserved_keys)). reflexivity. Qed.

  Lemma pos_key_not_reserved i : ~ In (pos_key i) reserved_keys.
  Proof. intros H. apply reserved_plain in H. discriminate. Qed.

  Notation spec_value := (spec_value expr eval).

  (* the StartFlow event arguments of a call, read through the specification *)
  Section Call.
    Variables (l : list arg) (R : reserved) (act : bool) (cc : ctx).
    Hypothesis Hsyn : syntactic_call expr l = true.

    Lemma call_event_pos i :
      aget (pos_key i) (start_event_args R act (eval_args cc (parse_args l 0 [])))
      = option_map (eval cc) (nth_error (pos_exprs l) i).
    Proof.
      rewrite start_event_args_get by apply pos_key_not_reserved.
      rewrite eval_args_get, (parse_args_pos l 0 [] i Hsyn : aget (pos_key i) _ = _).
      now destruct (nth_error (pos_exprs l) i).
    Qed.

    Lemma call_event_named n :
      plain n = true -> ~ In n reserved_keys ->
      aget n (start_event_args R act (eval_args cc (parse_args l 0 [])))
      = option_map (eval cc) (named_expr n l).
    Proof.
      intros Hp Hr. rewrite start_event_args_get by auto.
      rewrite eval_args_get, parse_args_named by auto.
      now destruct (named_expr n l).
    Qed.

    Lemma call_event_contig :
      pos_contig (start_event_args R act (eval_args cc (parse_args l 0 []))) (List.length (pos_exprs l)).
    Proof.
      intros i. unfold ahas. rewrite call_event_pos.
      destruct (nth_error (pos_exprs l) i) eqn:E; simpl; symmetry.
      - apply Nat.ltb_lt. apply nth_error_Some. congruence.
      - apply Nat.ltb_ge. now apply nth_error_None.
    Qed.

    Lemma call_event_value i p :
      plain (p_name p) = true -> ~ In (p_name p) reserved_keys ->
      ev_value (start_event_args R act (eval_args cc (parse_args l 0 []))) i p = spec_value cc l i p.
    Proof.
      intros Hp Hr. unfold Bind.ev_value, Bind.spec_value.
      rewrite call_event_pos, call_event_named by auto.
      destruct (nth_error (pos_exprs l) i); simpl; auto.
      destruct (named_expr (p_name p) l); simpl; auto.
    Qed.

    (* C08_binding: parameter i receives positional argument i if given, else the named argument,
       else the declared default (evaluated in the empty context), else None; the arguments are
       evaluated in [cc].  A parameter given both ways receives the positional value in spec_value
       as in the code, so only the positional count of well_formed_call is needed. *)
    Theorem bind_call_spec ps rs :
      wf_signature expr ps rs = true ->
      List.length (pos_exprs l) <= List.length ps ->
      exists a c,
        bind ps rs (start_event_args R act (eval_args cc (parse_args l 0 []))) = Bound a c /\
        forall i p, nth_error ps i = Some p ->
          aget (p_name p) c = Some (spec_value cc l i p) /\ aget (p_name p) a = Some (spec_value cc l i p).
    Proof.
      intros Hwf Hle.
      destruct (bind_spec ps rs _ _ Hwf call_event_contig Hle) as [a [c [Hb [Hv _]]]].
      exists a, c. split; auto.
      intros i p Hnth. destruct (wf_sig_parts ps rs Hwf) as [_ [Hplain [Hres _]]].
      assert (Hin : In p ps) by (eapply nth_error_In; eauto).
      rewrite <- (call_event_value i p) by auto. now apply Hv.
    Qed.
  End Call.

  Lemma well_formed_call_length ps (l : list arg) :
    well_formed_call expr ps l = true -> List.length (pos_exprs l) <= List.length ps.
  Proof. unfold well_formed_call. intros H. apply andb_true_iff in H. now apply Nat.leb_le. Qed.

  Definition out_event_base (uid fid : value) : ctx := [("source_flow_instance_uid", uid); ("flow_instance_uid", uid); ("flow_id", fid)].

  (* no parameter is called like a key the runtime writes *)
  Lemma started_args_reserved ps rs ev a c uid fid z :
    wf_signature expr ps rs = true -> bind ps rs ev = Bound a c -> In z reserved_keys ->
    aget z (started_args uid fid a)
    = aget z (out_event_base uid fid).
  Proof.
    intros Hwf Hb Hz. destruct (wf_sig_parts ps rs Hwf) as [_ [_ [Hres _]]].
    rewrite (bound_is_bound_args ps rs ev Hwf a c Hb).
    apply (aget_aupdate_none z _ (bound_args ps ev)), bound_args_other; auto using reserved_plain.
    intros Hin. apply in_map_iff in Hin. destruct Hin as [q [E Hq]]. subst z. now apply (Hres q).
  Qed.

  (* When the FlowStarted match carries only flow_id and flow_instance_uid, EVERY call that
     binds (well-formed or not, whatever happens to globals in between) is echoed by the
     callee's FlowStarted event: the caller is never left waiting for the start *)
  Theorem started_uid_only_echoed : forall ps rs ev a c R evargs_at_match,
    wf_signature expr ps rs = true ->
    bind ps rs ev = Bound a c ->
    forall k v, aget k (started_pattern false R evargs_at_match) = Some v ->
                aget k (started_args (r_instance_uid R) (r_flow_id R) a) = Some v.
  Proof.
    intros ps rs ev a c R pe Hwf Hb k v Hk.
    apply aget_In in Hk. destruct Hk as [[= <- <-] | [[= <- <-] | []]];
      now rewrite (started_args_reserved ps rs ev a c) by (auto; apply mem_In; reflexivity).
  Qed.

  Lemma restart_event_args_get R act a k :
    NoDup (map fst a) -> ~ In k reserved_keys -> aget k (restart_event_args R act a) = aget k a.
  Proof.
    intros Hnd H. unfold restart_event_args.
    rewrite aget_aset_other, aget_aupdate by (auto; intros E; subst k; apply H, mem_In; reflexivity).
    destruct (aget k a); [reflexivity|].
    apply aget_none_not_in, (reserved_notin k _ H). reflexivity.
  Qed.

  (* The successor instance of a restarted activated flow binds every parameter to the value
     the ORIGINAL call bound (positional, else named, else default), whatever the predecessor
     assigned to its parameter variables or locals meanwhile: the restart event is built from
     `arguments`, which no Assignment touches. *)
  Theorem restart_rebinds_original_values : forall ps rs ev k a c R act,
    wf_signature expr ps rs = true -> pos_contig ev k ->
    bind ps rs ev = Bound a c ->
    exists a' c', bind ps rs (restart_event_args R act a) = Bound a' c' /\
      forall i p, nth_error ps i = Some p ->
        aget (p_name p) c' = Some (ev_value ev i p) /\ aget (p_name p) a' = Some (ev_value ev i p).
  Proof.
    intros ps rs ev k a c R act Hwf Hc Hb.
    destruct (wf_sig_parts ps rs Hwf) as [_ [_ [Hres _]]].
    rewrite (bound_is_bound_args ps rs ev Hwf a c Hb). clear Hb.
    pose proof (bound_args_NoDup ps rs ev Hwf) as HndA.
    set (ev' := restart_event_args R act (bound_args ps ev)).
    (* the restart event has the positional keys that were copied for the parameters ... *)
    assert (Hpos : forall j, aget (pos_key j) ev' = if j <? List.length ps then aget (pos_key j) ev else None).
    { intros j. unfold ev'. now rewrite restart_event_args_get, (bound_args_pos ps rs ev Hwf) by (auto; apply pos_key_not_reserved). }
    assert (Hc' : pos_contig ev' (Nat.min (List.length ps) k)).
    { intros j. unfold ahas. rewrite Hpos. specialize (Hc j). unfold ahas in Hc.
      destruct (Nat.ltb_spec j (List.length ps)).
      - rewrite Hc. apply eq_iff_eq_true. rewrite !Nat.ltb_lt. lia.
      - symmetry. apply Nat.ltb_ge. lia. }
    destruct (bind_spec ps rs ev' _ Hwf Hc' (Nat.le_min_l _ _)) as [a' [c' [Hb' [Hvals' _]]]].
    exists a', c'. split; auto. intros i p Hnth.
    (* ... and under each parameter name the value bound *)
    rewrite <- (ev_value_rebound ev ev' i p); [now apply Hvals' | |].
    - rewrite Hpos. now rewrite (proj2 (Nat.ltb_lt _ _)) by (apply nth_error_Some; congruence).
    - unfold ev'. rewrite restart_event_args_get by eauto using nth_error_In. now apply (bound_args_name ps rs ev Hwf).
  Qed.

  Notation step := (step expr eval).
  Notation run := (run expr eval).
  Notation op := (op expr).

  (* cells handed out so far are below m_next; no two instances own the same cell *)
  Definition bounded (st : mstate) : Prop := forall i c, m_cell st i = Some c -> c < m_next st.
  Definition separate (st : mstate) : Prop := forall i j c, m_cell st i = Some c -> m_cell st j = Some c -> i = j.

  Lemma init_bounded : bounded m_init.
  Proof. intros i c. simpl. destruct (Nat.eqb i 0); intros H; inversion H; lia. Qed.

  Lemma init_separate : separate m_init.
  Proof.
    intros i j c. simpl. destruct (Nat.eqb i 0) eqn:E1, (Nat.eqb j 0) eqn:E2; try discriminate.
    apply Nat.eqb_eq in E1, E2. congruence.
  Qed.

  Lemma assign_val_cells st i k v st' :
    assign_val st i k v = Ok st' -> m_cell st' = m_cell st /\ m_next st' = m_next st.
  Proof.
    unfold assign_val. destruct (m_cell st i); [|discriminate].
    destruct (ahas (global_key k) (m_heap st n)); intros H; injection H as <-; auto.
  Qed.

  Lemma step_cells st o st' :
    step st o = Ok st' ->
    match o with
    | OStart _ _ callee _ _ _ _ _ =>
        m_cell st' = upd (m_cell st) callee (Some (m_next st)) /\ m_next st' = S (m_next st)
    | OStartShared _ caller callee _ =>
        exists c, m_cell st caller = Some c /\ m_cell st' = upd (m_cell st) callee (Some c) /\ m_next st' = m_next st
    | _ => m_cell st' = m_cell st /\ m_next st' = m_next st
    end.
  Proof.
    destruct o; simpl.
    - destruct (eval_ctx st i); [|discriminate]. apply assign_val_cells.
    - destruct (m_cell st i); [|discriminate]. intros H; injection H as <-; auto.
    - destruct (eval_ctx st caller); [|discriminate].
      destruct (Bind.bind expr eval ps rs _); try discriminate. intros H; injection H as <-; auto.
    - destruct (m_cell st caller) eqn:E; [|discriminate]. intros H; injection H as <-. eauto.
    - destruct (m_cell st i); [|discriminate]. destruct (eval_ctx st i); [|discriminate].
      intros H; injection H as <-; auto.
    - destruct (aget "return_value" _); [|discriminate]. apply assign_val_cells.
  Qed.

  Lemma step_bounded st o st' : bounded st -> step st o = Ok st' -> bounded st'.
  Proof.
    intros Hb Hs. apply step_cells in Hs. intros i c Hi.
    destruct o.
    1,2,5,6: destruct Hs as [E1 E2]; rewrite E1 in Hi; rewrite E2; now apply (Hb i).
    - destruct Hs as [E1 E2]. rewrite E1 in Hi. rewrite E2. unfold upd in Hi.
      destruct (Nat.eqb i callee).
      + injection Hi as <-. lia.
      + specialize (Hb i c Hi). lia.
    - destruct Hs as [c0 [Hc0 [E1 E2]]]. rewrite E1 in Hi. rewrite E2. unfold upd in Hi.
      destruct (Nat.eqb i callee).
      + injection Hi as <-. now apply (Hb caller).
      + now apply (Hb i).
  Qed.

  Lemma step_separate st o st' :
    bounded st -> separate st -> is_shared_start expr o = false -> step st o = Ok st' -> separate st'.
  Proof.
    intros Hb Hsep Hns Hs. apply step_cells in Hs. intros i j c Hi Hj.
    destruct o; try discriminate.
    1,2,4,5: destruct Hs as [E1 _]; rewrite E1 in Hi, Hj; now apply (Hsep i j c).
    destruct Hs as [E1 _]. rewrite E1 in Hi, Hj. unfold upd in Hi, Hj.
    destruct (Nat.eqb i callee) eqn:Ei, (Nat.eqb j callee) eqn:Ej.
    - apply Nat.eqb_eq in Ei, Ej. congruence.
    - injection Hi as <-. specialize (Hb j _ Hj). lia.
    - injection Hj as <-. specialize (Hb i _ Hi). lia.
    - now apply (Hsep i j c).
  Qed.

  Definition no_shared_start (os : list op) : Prop := forallb (fun o => negb (is_shared_start expr o)) os = true.

  Lemma run_invariant os : forall st st',
    bounded st -> separate st -> no_shared_start os -> run st os = Ok st' -> bounded st' /\ separate st'.
  Proof.
    induction os as [|o r IH]; intros st st' Hb Hsep Hns Hrun; simpl in Hrun.
    - injection Hrun as <-. auto.
    - unfold no_shared_start in Hns. simpl in Hns. apply andb_true_iff in Hns. destruct Hns as [Ho Hr].
      apply negb_true_iff in Ho.
      destruct (step st o) as [st1|] eqn:Es; [|discriminate].
      apply (IH st1 st'); auto.
      + eapply step_bounded; eauto.
      + eapply step_separate; eauto.
  Qed.

  Lemma run_bounded os : forall st st', bounded st -> run st os = Ok st' -> bounded st'.
  Proof.
    induction os as [|o r IH]; intros st st' Hb Hrun; simpl in Hrun.
    - now injection Hrun as <-.
    - destruct (step st o) as [st1|] eqn:Es; [|discriminate].
      apply (IH st1 st'); auto. eapply step_bounded; eauto.
  Qed.

  (* what a local assignment and `return` do to the state *)
  Definition set_heap (st : mstate) (c : nat) (d : ctx) : mstate :=
    mkM (m_cell st) (upd (m_heap st) c d) (m_args st) (m_gctx st) (m_next st).

  Lemma ctx_of_cell st i c : m_cell st i = Some c -> ctx_of st i = m_heap st c.
  Proof. intros H. unfold ctx_of. now rewrite H. Qed.

  Lemma ctx_of_no_cell st i : m_cell st i = None -> ctx_of st i = [].
  Proof. intros H. unfold ctx_of. now rewrite H. Qed.

  Lemma ctx_of_same_cell st i j : m_cell st i = m_cell st j -> ctx_of st i = ctx_of st j.
  Proof. intros H. unfold ctx_of. now rewrite H. Qed.

  Lemma ctx_of_set_heap_same st c d j : m_cell st j = Some c -> ctx_of (set_heap st c d) j = d.
  Proof. intros H. unfold ctx_of, set_heap, upd. cbn [m_cell m_heap]. now rewrite H, Nat.eqb_refl. Qed.

  Lemma ctx_of_set_heap_other st c d j : m_cell st j <> Some c -> ctx_of (set_heap st c d) j = ctx_of st j.
  Proof.
    intros H. unfold ctx_of, set_heap, upd. cbn [m_cell m_heap].
    destruct (m_cell st j) as [c'|]; [|reflexivity].
    destruct (Nat.eqb_spec c' c); [congruence | reflexivity].
  Qed.

  Lemma assign_val_local st i k v c :
    m_cell st i = Some c -> ahas (global_key k) (m_heap st c) = false ->
    assign_val st i k v = Ok (set_heap st c (aset k v (m_heap st c))).
  Proof. intros Hc Hk. unfold assign_val. now rewrite Hc, Hk. Qed.

  (* an assignment to a key that the instance has not declared global: whole-state frame,
     stated on cells (two instances that were started with a shared context own one cell) *)
  Theorem assign_local_frame : forall st i k e st',
    step st (OAssign expr i k e) = Ok st' ->
    ahas (global_key k) (ctx_of st i) = false ->
    (forall j, m_cell st j <> m_cell st i -> ctx_of st' j = ctx_of st j) /\
    m_gctx st' = m_gctx st /\
    (forall j, m_args st' j = m_args st j) /\
    (forall j, m_cell st' j = m_cell st j) /\
    exists ec, eval_ctx st i = Some ec /\ ctx_of st' i = aset k (eval ec e) (ctx_of st i).
  Proof.
    intros st i k e st' Hs Hloc. cbn [Bind.step] in Hs.
    destruct (eval_ctx st i) as [ec|] eqn:Eec; [|discriminate].
    destruct (m_cell st i) as [c|] eqn:Ec; [|unfold assign_val in Hs; now rewrite Ec in Hs].
    rewrite (ctx_of_cell st i c Ec) in *. rewrite (assign_val_local st i k _ c Ec Hloc) in Hs. injection Hs as <-.
    split; [|repeat split].
    - intros j Hj. now apply ctx_of_set_heap_other.
    - exists ec. split; [reflexivity|]. now apply ctx_of_set_heap_same.
  Qed.

  (* C08_locals_private: in every state reached without a shared-context start, an Assign to
     a non-global key in instance i changes only instance i's context *)
  Theorem locals_private : forall os st i k e st',
    no_shared_start os -> run m_init os = Ok st ->
    step st (OAssign expr i k e) = Ok st' ->
    ahas (global_key k) (ctx_of st i) = false ->
    (forall j, j <> i -> ctx_of st' j = ctx_of st j) /\
    m_gctx st' = m_gctx st /\
    (forall j, m_args st' j = m_args st j) /\
    exists ec, eval_ctx st i = Some ec /\ ctx_of st' i = aset k (eval ec e) (ctx_of st i).
  Proof.
    intros os st i k e st' Hns Hrun Hs Hloc.
    destruct (run_invariant os m_init st init_bounded init_separate Hns Hrun) as [_ Hsep].
    destruct (assign_local_frame st i k e st' Hs Hloc) as [H1 [H2 [H3 [H4 H5]]]].
    split; [|split; [|split]]; auto.
    intros j Hji. destruct (m_cell st j) as [c|] eqn:Ej.
    - apply H1. rewrite Ej. intros E. symmetry in E. apply Hji. eapply Hsep; eauto.
    - now rewrite !ctx_of_no_cell by (rewrite ?H4; exact Ej).
  Qed.

  (* the stated exception: after StartFlow(.., context=$self.context) the two instances
     share one context, and an assignment in one is visible in the other *)
  Theorem shared_context_is_shared : forall st caller callee rs st1 k e st2,
    step st (OStartShared expr caller callee rs) = Ok st1 ->
    step st1 (OAssign expr callee k e) = Ok st2 ->
    ahas (global_key k) (ctx_of st1 callee) = false ->
    m_cell st1 callee = m_cell st1 caller /\ ctx_of st2 caller = ctx_of st2 callee /\
    exists v, aget k (ctx_of st2 caller) = Some v.
  Proof.
    intros st caller callee rs st1 k e st2 H1 H2 Hloc.
    assert (Hc : m_cell st1 callee = m_cell st1 caller).
    { apply step_cells in H1. destruct H1 as [c [Hc [E _]]]. rewrite E. unfold upd.
      rewrite Nat.eqb_refl. destruct (Nat.eqb caller callee); auto. }
    destruct (assign_local_frame st1 callee k e st2 H2 Hloc) as [_ [_ [_ [H4 [ec [_ H5]]]]]].
    assert (Hsame : ctx_of st2 caller = ctx_of st2 callee) by (apply ctx_of_same_cell; now rewrite !H4).
    split; auto. split; auto. exists (eval ec e). rewrite Hsame, H5. apply aget_aset_same.
  Qed.

  Lemma finished_args_NoDup uid fid a c : NoDup (map fst (finished_args uid fid a c)).
  Proof.
    unfold finished_args, out_event_args. apply aupdate_keys_NoDup, aupdate_keys_NoDup, nodupb_NoDup. reflexivity.
  Qed.

  Lemma finished_return_value uid fid a c :
    aget "return_value" (finished_args uid fid a c)
    = match aget "_return_value" c with
      | Some v => Some v
      | None => aget "return_value" (aupdate (out_event_base uid fid) a)
      end.
  Proof.
    unfold finished_args, out_event_args. destruct (aget "_return_value" c); [apply aget_aset_same | reflexivity].
  Qed.

  Lemma event_ref_same k fin : NoDup (map fst fin) -> aget k (event_ref_args fin fin) = aget k fin.
  Proof. intros H. unfold event_ref_args. rewrite aget_aupdate by auto. now destruct (aget k fin). Qed.

  (* the expansion's `$x = $ev.arguments.return_value` *)
  Lemma step_await_assign st caller callee uid fid x :
    step st (OAwaitAssign expr caller callee uid fid x)
    = match aget "_return_value" (ctx_of st callee) with
      | Some v => assign_val st caller x v
      | None =>
          match aget "return_value" (aupdate (out_event_base uid fid) (m_args st callee)) with
          | Some v => assign_val st caller x v
          | None => Err ENoReturnValue
          end
      end.
  Proof.
    cbn [Bind.step]. rewrite event_ref_same, finished_return_value by apply finished_args_NoDup.
    now destruct (aget "_return_value" (ctx_of st callee)).
  Qed.

  (* C08_return: `$x = await f(..)` stores in the caller the value of the executed `return e`
     (None for a bare `return`), evaluated in the callee's context at the return *)
  Theorem return_spec : forall st callee e st1 caller x uid fid st2 ec,
    eval_ctx st callee = Some ec ->
    step st (OReturn expr callee e) = Ok st1 ->
    m_cell st caller <> m_cell st callee ->
    ahas (global_key x) (ctx_of st caller) = false ->
    step st1 (OAwaitAssign expr caller callee uid fid x) = Ok st2 ->
    aget x (ctx_of st2 caller) = Some (match e with Some e' => eval ec e' | None => VNone end) /\
    (forall j, m_cell st j <> m_cell st caller -> ctx_of st2 j = ctx_of st1 j) /\
    m_gctx st2 = m_gctx st.
  Proof.
    intros st callee e st1 caller x uid fid st2 ec Hec H1 Hne Hloc H2.
    cbn [Bind.step] in H1. destruct (m_cell st callee) as [cc|] eqn:Ecc; [|discriminate].
    rewrite Hec in H1. injection H1 as H1.
    set (v := match e with Some e' => eval ec e' | None => VNone end) in *.
    change (set_heap st cc (aset "_return_value" v (m_heap st cc)) = st1) in H1. subst st1.
    rewrite step_await_assign, ctx_of_set_heap_same, aget_aset_same in H2 by auto.
    destruct (m_cell st caller) as [c1|] eqn:Ec1; [|unfold assign_val in H2; cbn in H2; now rewrite Ec1 in H2].
    rewrite (ctx_of_cell st caller c1 Ec1) in Hloc.
    rewrite (assign_val_local _ caller x v c1) in H2; [injection H2 as <- | exact Ec1 |].
    - split; [|split; [|reflexivity]].
      + rewrite ctx_of_set_heap_same by exact Ec1. apply aget_aset_same.
      + intros j Hj. now apply ctx_of_set_heap_other.
    - cbn [set_heap m_heap]. unfold upd. destruct (Nat.eqb_spec c1 cc); [congruence | exact Hloc].
  Qed.

  (* O4: the callee ended without executing `return` (and has no parameter called
     return_value): the expansion's `$x = $ev.arguments.return_value` raises, the caller fails *)
  Theorem obs_no_return : forall st caller callee uid fid x,
    aget "_return_value" (ctx_of st callee) = None ->
    aget "return_value" (m_args st callee) = None ->
    step st (OAwaitAssign expr caller callee uid fid x) = Err ENoReturnValue.
  Proof.
    intros st caller callee uid fid x H1 H2.
    now rewrite step_await_assign, H1, aget_aupdate_none by auto.
  Qed.

  Definition new_instance (st : mstate) (callee : nat) (a c : ctx) : mstate :=
    mkM (upd (m_cell st) callee (Some (m_next st))) (upd (m_heap st) (m_next st) c)
        (upd (m_args st) callee a) (m_gctx st) (S (m_next st)).

  Lemma ctx_of_new_instance_same st callee a c : ctx_of (new_instance st callee a c) callee = c.
  Proof. unfold ctx_of, new_instance, upd. cbn [m_cell m_heap]. now rewrite !Nat.eqb_refl. Qed.

  Lemma ctx_of_new_instance_other st callee a c j :
    bounded st -> j <> callee -> ctx_of (new_instance st callee a c) j = ctx_of st j.
  Proof.
    intros Hb Hj. unfold ctx_of, new_instance, upd. cbn [m_cell m_heap].
    apply Nat.eqb_neq in Hj. rewrite Hj. destruct (m_cell st j) as [cj|] eqn:Ej; [|reflexivity].
    apply Hb in Ej. now rewrite (proj2 (Nat.eqb_neq cj (m_next st))) by lia.
  Qed.

  (* C08_caller_eval: the call as a step of the machine.  The callee's parameters hold the
     values of the argument expressions evaluated in the CALLER's context at the call
     (eval_ctx st caller); no other instance's context and no global changes *)
  Theorem caller_eval : forall st caller callee ps rs R act (l : list arg) ec,
    wf_signature expr ps rs = true ->
    syntactic_call expr l = true ->
    List.length (pos_exprs l) <= List.length ps ->
    bounded st ->
    eval_ctx st caller = Some ec ->
    exists st',
      step st (OStart expr caller callee ps rs R act (parse_args l 0 [])) = Ok st' /\
      (forall i p, nth_error ps i = Some p ->
         aget (p_name p) (ctx_of st' callee) = Some (spec_value ec l i p) /\
         aget (p_name p) (m_args st' callee) = Some (spec_value ec l i p)) /\
      (forall j, j <> callee -> ctx_of st' j = ctx_of st j) /\
      m_gctx st' = m_gctx st.
  Proof.
    intros st caller callee ps rs R act l ec Hwf Hsyn Hle Hb Hec.
    destruct (bind_call_spec l R act ec Hsyn ps rs Hwf Hle) as [a [c [Hbind Hvals]]].
    exists (new_instance st callee a c). cbn [Bind.step]. rewrite Hec, Hbind.
    split; [reflexivity|]. split; [|split; [|reflexivity]].
    - intros i p Hnth. rewrite ctx_of_new_instance_same. cbn [new_instance m_args]. unfold upd.
      rewrite Nat.eqb_refl. now apply Hvals.
    - intros j Hj. now apply ctx_of_new_instance_other.
  Qed.

  Variable veq : value -> value -> bool.
  Notation param_matched := (param_matched expr eval veq).
  Notation params_match := (params_match expr eval veq).

  (* what the loop of _get_reference_activated_flow_instance computes, with no premise *)
  Lemma params_match_true_iff ps : forall idx ev act,
    params_match ps idx ev act = Some true <->
    forall i p, nth_error ps i = Some p ->
      exists val, aget (p_name p) act = Some val /\ param_matched ev val (idx + i) p = true.
  Proof.
    induction ps as [|q ps IH]; intros idx ev act; simpl.
    - split; auto. intros _ i p H. destruct i; discriminate.
    - split.
      + intros H i p Hnth.
        destruct (aget (p_name q) act) as [val|] eqn:Ea; [|discriminate].
        destruct (param_matched ev val idx q) eqn:Em; [|discriminate].
        destruct i as [|i]; simpl in Hnth.
        * injection Hnth as <-. rewrite Nat.add_0_r. eauto.
        * replace (idx + S i) with (S idx + i) by lia. apply (proj1 (IH (S idx) ev act) H i p Hnth).
      + intros H. destruct (H 0 q eq_refl) as [val [Ea Em]]. rewrite Nat.add_0_r in Em.
        rewrite Ea, Em. apply IH. intros i p Hnth.
        replace (S idx + i) with (idx + S i) by lia. now apply H.
  Qed.

  Definition has_default (p : param) : bool := match p_default p with Some _ => true | None => false end.

  (* for a parameter that is not bound both ways and that has an argument or a declared
     default, the test compares the activated instance's value with the value the new call
     BINDS to that parameter (ev_value: the rule of C08_binding) *)
  Lemma param_matched_bound ev val idx p :
    ahas (pos_key idx) ev && ahas (p_name p) ev = false ->
    ahas (pos_key idx) ev || ahas (p_name p) ev || has_default p = true ->
    param_matched ev val idx p = veq val (ev_value ev idx p).
  Proof.
    unfold Bind.param_matched, ahas, has_default. intros Hone Hgiven.
    destruct (aget (pos_key idx) ev) as [v1|] eqn:E1.
    - (* positional, hence not named: the second disjunct decides *)
      rewrite ev_value_eq, E1.
      destruct (aget (p_name p) ev); [discriminate|]. simpl. apply orb_false_r.
    - rewrite ev_value_eq, E1. unfold named_or_default.
      destruct (aget (p_name p) ev) as [v2|].
      + (* named only: the first disjunct *)
        simpl. now rewrite !orb_false_r.
      + (* neither: there is a default, the third disjunct compares with it *)
        destruct (p_default p); [reflexivity | discriminate].
  Qed.

  (* Two activations are identified iff the parameter values they BIND are equal (Python ==):
     [act] is `arguments` of the already activated instance, [ev] the new StartFlow event. *)
  Theorem activation_identified_iff : forall ps ev act,
    (forall i p, nth_error ps i = Some p -> ahas (pos_key i) ev && ahas (p_name p) ev = false) ->
    (forall i p, nth_error ps i = Some p -> ahas (pos_key i) ev || ahas (p_name p) ev || has_default p = true) ->
    (forall p, In p ps -> ahas (p_name p) act = true) ->
    (params_match ps 0 ev act = Some true <->
     forall i p, nth_error ps i = Some p -> veq (getN (p_name p) act) (ev_value ev i p) = true).
  Proof.
    intros ps ev act Hnd Hgiven Hact. rewrite params_match_true_iff. split.
    - intros H i p Hnth. destruct (H i p Hnth) as [val [Ea Em]]. simpl in Em.
      rewrite param_matched_bound in Em by auto. unfold getN. now rewrite Ea.
    - intros H i p Hnth.
      assert (Hin : In p ps) by (eapply nth_error_In; eauto).
      specialize (Hact p Hin). unfold ahas in Hact.
      destruct (aget (p_name p) act) as [val|] eqn:Ea; [|discriminate].
      exists val. split; auto. simpl. rewrite param_matched_bound by auto.
      specialize (H i p Hnth). unfold getN in H. now rewrite Ea in H.
  Qed.

  (* ... in particular when the activated instance was itself bound from a call [ev0] *)
  Theorem two_activations_identified_iff : forall ps rs ev0 a0 c0 ev,
    wf_signature expr ps rs = true -> bind ps rs ev0 = Bound a0 c0 ->
    (forall i p, nth_error ps i = Some p -> ahas (pos_key i) ev && ahas (p_name p) ev = false) ->
    (forall i p, nth_error ps i = Some p -> ahas (pos_key i) ev || ahas (p_name p) ev || has_default p = true) ->
    (params_match ps 0 ev a0 = Some true <->
     forall i p, nth_error ps i = Some p -> veq (ev_value ev0 i p) (ev_value ev i p) = true).
  Proof.
    intros ps rs ev0 a0 c0 ev Hwf Hb Hnd Hgiven.
    rewrite (bound_is_bound_args ps rs ev0 Hwf a0 c0 Hb).
    pose proof (bound_args_name ps rs ev0 Hwf) as Ha.
    rewrite activation_identified_iff; auto.
    - split; intros H i p Hnth; specialize (H i p Hnth); unfold getN in *; now rewrite (Ha i p Hnth) in *.
    - intros p Hin. apply In_nth_error in Hin. destruct Hin as [i Hnth]. unfold ahas. now rewrite (Ha i p Hnth).
  Qed.

  (* observation O6: a parameter without default whose argument is omitted never matches,
     so such an activation is never identified with an earlier one (a new instance is started
     every time, although both bind None) *)
  Theorem obs_activation_omitted_without_default : forall ps ev act i p,
    nth_error ps i = Some p ->
    ahas (pos_key i) ev = false -> ahas (p_name p) ev = false -> p_default p = None ->
    params_match ps 0 ev act <> Some true.
  Proof.
    intros ps ev act i p Hnth H1 H2 H3 H. rewrite params_match_true_iff in H.
    destruct (H i p Hnth) as [val [_ Em]]. simpl in Em.
    unfold Bind.param_matched, ahas in *.
    destruct (aget (pos_key i) ev); [discriminate|]. destruct (aget (p_name p) ev); [discriminate|].
    rewrite H3 in Em. simpl in Em. discriminate.
  Qed.

End BindProofs.

(* The hypotheses of the theorems are inhabited by non-trivial calls and states. *)

Module Examples.
  Inductive xe := XLit (v : value) | XVar (x : string).
  Definition xeval (c : ctx) (e : xe) : value :=
    match e with
    | XLit v => v
    | XVar x => if ahas (global_key x) c then getN (global_key x) c else getN x c
    end.

  (* flow f $a $b=3 $c=[1] -> $r = "d" *)
  Definition ps : list (param xe) :=
    [mkParam "a" None; mkParam "b" (Some (XLit (VInt 3))); mkParam "c" (Some (XLit (VList [VInt 1])))].
  Definition rs : list (param xe) := [mkParam "r" (Some (XLit (VStr "d")))].
  (* f($y, c=$loc)  with b omitted *)
  Definition call1 : list (arg xe) := [APos (XVar "y"); ANamed "c" (XVar "loc")].
  Definition R1 := mkReserved (VStr "f") (VStr "(f)1") (VStr "(main)0") (VStr "h") (VStr "0.3").

  Example premises_inhabited :
    wf_signature xe ps rs = true /\ syntactic_call xe call1 = true /\ well_formed_call xe ps call1 = true /\
    (* and the predicate is not trivially true *)
    well_formed_call xe ps [APos (XVar "y"); ANamed "a" (XVar "loc")] = false /\
    well_formed_call xe ps [APos (XLit VNone); APos (XLit VNone); APos (XLit VNone); APos (XLit VNone)] = false.
  Proof. repeat split; reflexivity. Qed.

  Example binding_computed :
    bind xe xeval ps rs (start_event_args R1 false
                           (eval_args xe xeval [("y", VInt 10); ("loc", VStr "L")] (parse_args xe call1 0 [])))
    = Bound [("a", VInt 10); ("b", VInt 3); ("c", VStr "L"); ("$0", VInt 10)]
            [("a", VInt 10); ("b", VInt 3); ("c", VStr "L"); ("r", VStr "d")].
  Proof. reflexivity. Qed.

  (* main assigns loc, calls f, f assigns its own loc: both instances hold a `loc` *)
  Definition ops1 : list (op xe) :=
    [OAssign xe 0 "loc" (XLit (VInt 1)); OAssign xe 0 "y" (XLit (VInt 10));
     OStart xe 0 1 ps rs R1 false (parse_args xe call1 0 []);
     OAssign xe 1 "loc" (XLit (VInt 2))].

  Definition got (r : res mstate) : mstate := match r with Ok st => st | Err _ => m_init end.
  (* evaluated once; a normal form inlined as a witness is checked again at every `split` *)
  Definition st_ops1 : mstate := Eval vm_compute in got (run xe xeval m_init ops1).

  Example locals_private_inhabited :
    exists st st',
      no_shared_start xe ops1 /\ run xe xeval m_init ops1 = Ok st /\
      step xe xeval st (OAssign xe 1 "loc" (XLit (VInt 3))) = Ok st' /\
      ahas (global_key "loc") (ctx_of st 1) = false /\
      aget "loc" (ctx_of st 0) = Some (VInt 1) /\ aget "loc" (ctx_of st 1) = Some (VInt 2) /\
      aget "loc" (ctx_of st' 0) = Some (VInt 1) /\ aget "loc" (ctx_of st' 1) = Some (VInt 3) /\
      aget "c" (ctx_of st' 1) = Some (VInt 1).
  Proof.
    exists st_ops1, (got (step xe xeval st_ops1 (OAssign xe 1 "loc" (XLit (VInt 3))))).
    repeat split; reflexivity.
  Qed.

  Example return_inhabited :
    exists st st1 st2 ec,
      run xe xeval m_init ops1 = Ok st /\ eval_ctx st 1 = Some ec /\
      step xe xeval st (OReturn xe 1 (Some (XVar "b"))) = Ok st1 /\
      m_cell st 0 <> m_cell st 1 /\ ahas (global_key "x") (ctx_of st 0) = false /\
      step xe xeval st1 (OAwaitAssign xe 0 1 (VStr "(f)1") (VStr "f") "x") = Ok st2 /\
      aget "x" (ctx_of st2 0) = Some (VInt 3).
  Proof.
    set (st1 := got (step xe xeval st_ops1 (OReturn xe 1 (Some (XVar "b"))))).
    exists st_ops1, st1, (got (step xe xeval st1 (OAwaitAssign xe 0 1 (VStr "(f)1") (VStr "f") "x"))).
    eexists. repeat split; try reflexivity. discriminate.
  Qed.

  (* O1 on `flow g $a`: two arguments are NOT rejected (k = 2n), three are *)
  Definition gs : list (param xe) := [mkParam "a" None].
  Example surplus_not_rejected :
    bind xe xeval gs [] [("$0", VInt 1); ("$1", VInt 2)]
    = Bound [("a", VInt 1); ("$0", VInt 1)] [("a", VInt 1); ("$0", VInt 2)].
  Proof. reflexivity. Qed.
  Example surplus_rejected :
    bind xe xeval gs [] [("$0", VInt 1); ("$1", VInt 2); ("$2", VInt 3)] = BTooMany.
  Proof. reflexivity. Qed.
  Example surplus_premises : wf_signature xe gs [] = true /\ pos_contig [("$0", VInt 1); ("$1", VInt 2)] 2.
  Proof.
    split; [reflexivity|]. intros [|[|i]]; try reflexivity.
    apply ahas_false_not_in. intros [E | [E | []]]; [apply (pos_key_inj 0) in E | apply (pos_key_inj 1) in E]; discriminate.
  Qed.

  (* O2: f 1 $a=2 *)
  Example double_binding_positional_wins :
    bind xe xeval gs [] [("$0", VInt 1); ("a", VInt 2)] = Bound [("a", VInt 1); ("$0", VInt 1)] [("a", VInt 1)].
  Proof. reflexivity. Qed.

  (* the shared-context start: main (0) and the generated flow (2) share one context *)
  Example shared_inhabited :
    exists st st1 st2,
      run xe xeval m_init ops1 = Ok st /\
      step xe xeval st (OStartShared xe 0 2 []) = Ok st1 /\
      step xe xeval st1 (OAssign xe 2 "loc" (XLit (VInt 9))) = Ok st2 /\
      ahas (global_key "loc") (ctx_of st1 2) = false /\
      aget "loc" (ctx_of st2 0) = Some (VInt 9) /\ aget "loc" (ctx_of st2 1) = Some (VInt 2).
  Proof.
    set (st1 := got (step xe xeval st_ops1 (OStartShared xe 0 2 []))).
    exists st_ops1, st1, (got (step xe xeval st1 (OAssign xe 2 "loc" (XLit (VInt 9))))).
    repeat split; reflexivity.
  Qed.

  (* O5 / known finding: `global $g ; $g = 1 ; $x = await g1($g)` where g1 does
     `global $g ; $g = 2` before it is started.  The call is well formed and binds a = 1, but a
     FlowStarted match that carries the call arguments is evaluated when the event arrives:
     it asks for `$0` = 2 while the event says `$0` = 1. *)
  Definition call5 : list (arg xe) := [APos (XVar "g")].
  Definition ops5 : list (op xe) :=
    [OGlobal xe 0 "g"; OAssign xe 0 "g" (XLit (VInt 1));
     OStart xe 0 1 gs [] R1 false (parse_args xe call5 0 []);
     OGlobal xe 1 "g"; OAssign xe 1 "g" (XLit (VInt 2))].

  Example await_hang_witness :
    wf_signature xe gs [] = true /\ syntactic_call xe call5 = true /\ well_formed_call xe gs call5 = true /\
    exists st ec2,
      run xe xeval m_init ops5 = Ok st /\ eval_ctx st 0 = Some ec2 /\
      aget "a" (ctx_of st 1) = Some (VInt 1) /\
      aget "$0" (started_pattern true R1 (eval_args xe xeval ec2 (parse_args xe call5 0 []))) = Some (VInt 2) /\
      aget "$0" (started_args (r_instance_uid R1) (r_flow_id R1) (m_args st 1)) = Some (VInt 1).
  Proof.
    split; [reflexivity|]. split; [reflexivity|]. split; [reflexivity|].
    eexists. eexists. split; [vm_compute; reflexivity|]. split; [vm_compute; reflexivity|].
    repeat split; reflexivity.
  Qed.

  (* why the re-activation test is transcribed literally: its `or`-chain "simplification"
         val = event.arguments.get(name) or event.arguments.get(f"${idx}")
         if val is None and default is not None: val = default
         mismatch if val is None or val != activated.arguments[name]
     treats a falsy NAMED argument as absent: `activate watch $level=0` after `activate watch`
     (default 1) is identified with the level = 1 instance although the call binds level = 0 *)
  Definition truthy (v : value) : bool :=
    match v with
    | VNone => false
    | VBool b => b
    | VInt z => negb (Z.eqb z 0)
    | VFloat q => negb (Z.eqb q 0)
    | VStr s => negb (String.eqb s "")
    | VList l | VSet l => match l with [] => false | _ => true end
    | VDict l => match l with [] => false | _ => true end
    | _ => true
    end.
  Definition xveq (a b : value) : bool :=
    match a, b with VInt x, VInt y => Z.eqb x y | VNone, VNone => true | _, _ => false end.
  Definition or_chain_matched (ev : ctx) (val : value) (idx : nat) (p : param xe) : bool :=
    let v1 := if truthy (getN (p_name p) ev) then getN (p_name p) ev else getN (pos_key idx) ev in
    let v2 := match v1, p_default p with VNone, Some e => xeval [] e | _, _ => v1 end in
    match v2 with VNone => false | _ => xveq v2 val end.
  Definition watch : list (param xe) := [mkParam "level" (Some (XLit (VInt 1)))].
  Definition ev_level0 : ctx := [("level", VInt 0); ("flow_id", VStr "watch"); ("activated", VBool true)].

  Example or_chain_variant_refuted :
    or_chain_matched ev_level0 (VInt 1) 0 (mkParam "level" (Some (XLit (VInt 1)))) = true /\
    params_match xe xeval xveq watch 0 ev_level0 [("level", VInt 1)] = Some false /\
    ev_value xe xeval ev_level0 0 (mkParam "level" (Some (XLit (VInt 1)))) = VInt 0 /\
    ev_value xe xeval [("flow_id", VStr "watch")] 0 (mkParam "level" (Some (XLit (VInt 1)))) = VInt 1.
  Proof. repeat split; reflexivity. Qed.
End Examples.
