(* C07 - the head protocol that the expansion emits for a group statement, and its run.

   Source: nemoguardrails/colang/v2_x/lang/expansion.py
             _expand_match_element (group case), _expand_await_element (group case),
             _expand_when_stmt_element (one `when` case)
           nemoguardrails/colang/v2_x/runtime/statemachine.py
             slide: ForkHead / WaitForHeads / MergeHeads; run_to_completion: every head whose
             `match` element matches the processed event advances.

   What the expansion emits for the normalised group  alts = [c_1; ...; c_k]  (c_i a list of Specs):

     match, k = 1, c_1 = [a]         match a                                       (no fork)
     match, k = 1, |c_1| <> 1        Fork [event_0..event_n-1]; event_j: match a_j; goto end
                                     end: WaitForHeads(len(c_1)); MergeHeads
     match, k > 1                    Fork [group_0..group_k-1]; group_i: match {spec_and c_i}; goto end
                                     end: MergeHeads
                                     and `match {spec_and c_i}` is expanded again by the same
                                     function (normalize of an and-group of Specs = one
                                     alternative), giving one of the two k = 1 shapes
     await, k = 1                    start c_1...; match {spec_and [ref.Finished ...]}
     await, k > 1                    Fork [group_i]; group_i: start c_i...; match {spec_and [ref.Finished...]}; goto end
                                     end: MergeHeads; EndScope
     when (one case)                 Fork [case]; Fork [group_i]  (always, also for k = 1);
                                     group_i: start c_i...; match {spec_and ...}; goto case
                                     case: MergeHeads(cases fork); EndScope

   Runtime: a head sitting on `match a` advances when an event matching `a` is processed;
   a head that reaches WaitForHeads(n) passes iff at least n active heads sit on that element;
   the first head to reach the outer MergeHeads wins, every sibling head under the fork
   (all other alternatives and all their member heads) is removed, and the statement is
   complete.  Afterwards nothing of the statement is left to react.

   The state is therefore: per alternative, per member, whether its head still listens
   (HMatch a) or has matched and waits at WaitForHeads (HWait).

   `mt a e` says that the `match` element of atom `a` matches event `e`:
     match groups : the event has the name (and parameters) of the Spec;
     await / when on flows : atom = the flow instance started for that member occurrence,
       event step e makes that instance finish (its FlowFinished event is processed in step e). *)
From Coq Require Import List Bool Arith.
From NG Require Import V2.Dnf.
Import ListNotations.

Inductive stmt := SMatch | SAwait | SWhen.

(* result of observing a statement over a sequence of event steps *)
Inductive outcome :=
| OErr               (* the expansion raised *)
| ONever             (* not complete after all the events *)
| OAt (n : nat).     (* complete in step n (1-based: after n events) and not earlier *)

Section Groups.
  Variable A : Type.     (* atoms: the Specs of the group *)
  Variable E : Type.     (* events / steps *)
  Variable mt : A -> E -> bool.

  Inductive branch :=
  | BMatch (a : A)                              (* plain `match a` *)
  | BAnd (members : list A) (wait_n : nat).     (* fork per member, WaitForHeads(wait_n), merge *)

  Inductive prog :=
  | PSingle (b : branch)          (* a single alternative: no or-fork *)
  | POr (bs : list branch).       (* or-fork, one branch per alternative *)

  (*  if len(normalized_group["elements"][0]["elements"]) == 1:  SpecOp(match, the element)
      else:  ... WaitForHeads(number=len(and_group["elements"])) ...                         *)
  Definition branch_of (c : list A) : branch :=
    match c with
    | [a] => BMatch a
    | _ => BAnd c (length c)
    end.

  (* `match {spec_and c}` emitted inside an or-branch is expanded again by _expand_match_element:
     normalize it, expect a single alternative *)
  Definition branch_of_group (g : formula A) : option branch :=
    bind (normalize g) (fun d =>
    bind (alts_of d) (fun alts =>
    match alts with
    | [c] => Some (branch_of c)
    | _ => None   (* would be a further or-fork: cannot happen for an and-group of Specs *)
    end)).

  Definition compile (st : stmt) (f : formula A) : option prog :=
    bind (normalize f) (fun d =>
    bind (alts_of d) (fun alts =>
    match st, alts with
    | SWhen, _ => bind (mapM (fun c => branch_of_group (And (map Atom c))) alts) (fun bs => Some (POr bs))
    | _, [c] => bind (branch_of_group (And (map Atom c))) (fun b => Some (PSingle b))
    | _, _ => bind (mapM (fun c => branch_of_group (And (map Atom c))) alts) (fun bs => Some (POr bs))
    end)).

  (* what compile amounts to, given the alternatives of the DNF (Groups_proofs.compile_spec):
     one branch per alternative, one member head per atom occurrence, WaitForHeads(number of
     members); `when` always forks, match/await only for more than one alternative *)
  Definition prog_of (st : stmt) (alts : list (list A)) : prog :=
    match st, alts with
    | SWhen, _ => POr (map branch_of alts)
    | _, [c] => PSingle (branch_of c)
    | _, _ => POr (map branch_of alts)
    end.

  Inductive head :=
  | HMatch (a : A)   (* listening on `match a` *)
  | HWait.           (* matched; sitting on WaitForHeads (or, for BMatch, past the match) *)

  Record bstate := mkB { b_heads : list head; b_need : nat }.

  Inductive gstate :=
  | GActive (bs : list bstate)
  | GDone.           (* merged: all heads of the statement are gone *)

  (* a plain `match a` branch is complete as soon as its only head has matched: need = 1 *)
  Definition init_branch (b : branch) : bstate :=
    match b with
    | BMatch a => mkB [HMatch a] 1
    | BAnd ms n => mkB (map HMatch ms) n
    end.

  Definition init (p : prog) : gstate :=
    match p with
    | PSingle b => GActive [init_branch b]
    | POr bs => GActive (map init_branch bs)
    end.

  Definition adv_head (e : E) (h : head) : head :=
    match h with
    | HMatch a => if mt a e then HWait else h
    | HWait => HWait
    end.

  Definition head_moves (e : E) (h : head) : bool :=
    match h with
    | HMatch a => mt a e
    | HWait => false
    end.

  Definition is_wait (h : head) : bool := match h with HWait => true | _ => false end.

  Definition adv_branch (e : E) (b : bstate) : bstate :=
    mkB (map (adv_head e) (b_heads b)) (b_need b).

  (* WaitForHeads is evaluated by a head that arrives there: some head of the branch moved on
     this event, and now at least b_need heads sit on the element *)
  Definition passes (e : E) (b : bstate) : bool :=
    existsb (head_moves e) (b_heads b)
    && (b_need b <=? length (filter is_wait (map (adv_head e) (b_heads b)))).

  (* one event step; the boolean says "the statement completed in this step" *)
  Definition deliver (s : gstate) (e : E) : gstate * bool :=
    match s with
    | GDone => (GDone, false)
    | GActive bs =>
        if existsb (passes e) bs then (GDone, true)
        else (GActive (map (adv_branch e) bs), false)
    end.

  Fixpoint run_from (s : gstate) (evs : list E) (k : nat) : outcome :=
    match evs with
    | [] => ONever
    | e :: r =>
        let (s', d) := deliver s e in
        if d then OAt (S k) else run_from s' r (S k)
    end.

  Definition run (st : stmt) (f : formula A) (evs : list E) : outcome :=
    match compile st f with
    | None => OErr
    | Some p => run_from (init p) evs 0
    end.

  (* the set of atoms received (matched by some event) in a sequence of events *)
  Definition received (evs : list E) (a : A) : bool := existsb (mt a) evs.

  (* the first n in 1..length evs such that the events of the first n steps satisfy f *)
  Definition first_sat (f : formula A) (evs : list E) : outcome :=
    match find (fun n => eval (received (firstn n evs)) f) (seq 1 (length evs)) with
    | Some n => OAt n
    | None => ONever
    end.

End Groups.

Arguments BMatch {A} a.
Arguments BAnd {A} members wait_n.
Arguments PSingle {A} b.
Arguments POr {A} bs.
Arguments branch_of {A} c.
Arguments branch_of_group {A} g.
Arguments compile {A} st f.
Arguments prog_of {A} st alts.
Arguments HMatch {A} a.
Arguments HWait {A}.
Arguments mkB {A} b_heads b_need.
Arguments GActive {A} bs.
Arguments GDone {A}.
Arguments init_branch {A} b.
Arguments init {A} p.
Arguments b_heads {A} b.
Arguments b_need {A} b.
Arguments adv_head {A E} mt e h.
Arguments head_moves {A E} mt e h.
Arguments is_wait {A} h.
Arguments adv_branch {A E} mt e b.
Arguments passes {A E} mt e b.
Arguments deliver {A E} mt s e.
Arguments run_from {A E} mt s evs k.
Arguments run {A E} mt st f evs.
Arguments received {A E} mt evs a.
Arguments first_sat {A E} mt f evs.

Example compile_ex1 :
  compile SMatch (Or [And [Atom 0; Atom 1]; Atom 2])
  = Some (POr [BAnd [0; 1] 2; BMatch 2]).
Proof. reflexivity. Qed.

Example compile_ex2 : compile SMatch (And [Atom 0; Atom 1]) = Some (PSingle (BAnd [0; 1] 2)).
Proof. reflexivity. Qed.

Example compile_ex3 : compile SWhen (And [Atom 0; Atom 1]) = Some (POr [BAnd [0; 1] 2]).
Proof. reflexivity. Qed.

(* (0 and 1) or (0 and 2) over events 1, 9, 1, 2, 0 : complete in step 5, whichever comes first *)
Example run_ex1 :
  run Nat.eqb SMatch (Or [And [Atom 0; Atom 1]; And [Atom 0; Atom 2]]) [1; 9; 1; 2; 0; 0] = OAt 5.
Proof. reflexivity. Qed.

Example run_ex2 :
  run Nat.eqb SAwait (And [Or [Atom 0; Atom 1]; Atom 2]) [2; 9; 2; 1; 0] = OAt 4
  /\ first_sat Nat.eqb (And [Or [Atom 0; Atom 1]; Atom 2]) [2; 9; 2; 1; 0] = OAt 4.
Proof. split; reflexivity. Qed.
