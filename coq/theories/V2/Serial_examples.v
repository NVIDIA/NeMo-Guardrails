(* C11 - witnesses: reachable values outside `supported` (regex, non-str keys, raw Action
   arguments: refuted for the UNREPAIRED encoder), cyclic graphs and shared lists (refuted for
   both), and non-trivial states that inhabit the hypotheses of the round-trip theorem. *)
From Coq Require Import ZArith List String Bool Lia.
From NG Require Import Gen.C11Consts V2.Serial V2.SerialRun V2.Serial_proofs.
Import ListNotations.
Open Scope string_scope.
Open Scope Z_scope.

Definition acyclicb (h : heap) (rk : id -> nat) : bool :=
  forallb (fun kn => forallb (fun v => match v with VO j => Nat.ltb (rk j) (rk (fst kn)) | VP _ => true end)
                             (tkids (snd kn))) h.

Lemma acyclicb_sound h rk : acyclicb h rk = true -> acyclic h rk.
Proof.
  intros H i n Hl j Hj. unfold acyclicb in H. rewrite forallb_forall in H.
  specialize (H (i, n) (lookup_in _ _ _ Hl)). simpl in H. rewrite forallb_forall in H.
  specialize (H (VO j) Hj). simpl in H. now apply Nat.ltb_lt in H.
Qed.

Definition rank_tbl (t : list (Z * nat)) (i : id) : nat := match lookup t i with Some n => n | None => O end.

(* the class table of the current source satisfies the side condition of the decoder *)
Lemma late_tags_free_now : late_tags_free classes_now.
Proof.
  intros t Ht. simpl in Ht.
  repeat (destruct Ht as [<-|Ht]; [vm_compute; reflexivity|]). contradiction.
Qed.

(* F7: `$r = regex("a")` in a flow variable.  context = {"r": re.compile("a")} *)
Definition h_regex : heap :=
  [ (0, mk (HDict [KS "r"]) [VO 1]); (1, mk (HRegex "a" 32) []) ].

Lemma regex_refuted : forall limit, encode flags_orig limit h_regex (VO 0) = None.
Proof. intros [|[|n]]; reflexivity. Qed.

(* ... and it is inside `supported` for the repaired encoder, where it round-trips *)
Example regex_supported_fixed : supported flags_fixed classes_now h_regex (VO 0) = true.
Proof. vm_compute. reflexivity. Qed.

Example regex_not_supported_orig : supported flags_orig classes_now h_regex (VO 0) = false.
Proof. vm_compute. reflexivity. Qed.

(* non-string dict keys change type: {1: "a"} comes back as {"1": "a"} *)
Definition h_intkey : heap := [ (0, mk (HDict [KI 1]) [VP (PStr "a")]) ].

Lemma intkey_refuted :
  exists j h' r',
    encode flags_orig 5 h_intkey (VO 0) = Some j /\
    decode flags_orig classes_now 5 j = Some (h', r') /\
    ~ exists M, bisim false h_intkey (VO 0) h' r' M.
Proof.
  eexists. eexists. eexists. split; [vm_compute; reflexivity|]. split; [vm_compute; reflexivity|].
  intros [M [Hroot Hstep]]. inversion Hroot as [| i i' Hin |]; subst.
  destruct (Hstep _ _ Hin) as (n & n' & H1 & H2 & [H3 _]).
  vm_compute in H1, H2. inversion H1; subst. inversion H2; subst. simpl in H3. discriminate.
Qed.

(* an Action whose arguments hold a set: Action.to_dict() is handed raw to json.dumps *)
Definition h_action : heap :=
  [ (0, mk (HAction action_fields)
           [VP (PStr "u"); VP (PStr "MyAction"); VP (PStr "f"); VP (PStr "STARTING"); VO 1; VO 2; VP (PInt 1)]);
    (1, mk (HDict []) []);
    (2, mk (HDict [KS "tags"]) [VO 3]);
    (3, mk HSet [VP (PStr "a"); VP (PStr "b")]) ].

Lemma action_args_refuted : forall limit, encode flags_orig limit h_action (VO 0) = None.
Proof. intros [|[|[|n]]]; reflexivity. Qed.

Example action_supported_fixed : supported flags_fixed classes_now h_action (VO 0) = true.
Proof. vm_compute. reflexivity. Qed.

(* defects the repair does not remove *)

(* a cyclic reference ($l.append($l)): unbounded recursion, RecursionError at every limit *)
Definition h_cyclic : heap := [ (0, mk HList [VO 0]) ].

Lemma cyclic_refuted : forall fl limit, encode fl limit h_cyclic (VO 0) = None.
Proof.
  intros fl limit. unfold encode.
  assert (H : forall n, enc fl n h_cyclic [] (VO 0) = None).
  { induction n as [|n IH]; [reflexivity|]. simpl. rewrite IH. reflexivity. }
  now rewrite H.
Qed.

Example cyclic_is_supported_kind : supported flags_fixed classes_now h_cyclic (VO 0) = true.
Proof. vm_compute. reflexivity. Qed.

(* a list referenced twice ($b = $a) is decoded as two lists: no isomorphism that is a function *)
Definition h_shared_list : heap :=
  [ (0, mk (HDict [KS "a"; KS "b"]) [VO 1; VO 1]); (1, mk HList [VP (PInt 1)]) ].

Lemma shared_list_refuted :
  exists j h' r',
    encode flags_fixed 5 h_shared_list (VO 0) = Some j /\
    decode flags_fixed classes_now 5 j = Some (h', r') /\
    ~ exists M, bisim false h_shared_list (VO 0) h' r' M /\ functional M.
Proof.
  eexists. eexists. eexists. split; [vm_compute; reflexivity|]. split; [vm_compute; reflexivity|].
  intros [M [[Hroot Hstep] Hfun]]. inversion Hroot as [| i i' Hin |]; subst.
  destruct (Hstep _ _ Hin) as (n & n' & H1 & H2 & [_ H3]).
  vm_compute in H1, H2. inversion H1; subst. inversion H2; subst. simpl in H3.
  inversion H3 as [|? ? ? ? Ha H4]; subst. inversion H4 as [|? ? ? ? Hb _]; subst.
  inversion Ha as [| ? ? Ia |]; subst. inversion Hb as [| ? ? Ib |]; subst.
  specialize (Hfun _ _ _ Ia Ib). discriminate.
Qed.

(* the hypotheses of the round-trip theorem are inhabited by a non-trivial state:
   a State with two flow states that reference ONE Action, a set, a regex, an int-keyed dict,
   a tuple, an enum member shared by both flows, head callbacks *)
Definition h_state : heap :=
  [ (0, mk (HData "Event" ["name"; "arguments"; "matching_scores"]) [VP (PStr "root"); VO 1; VO 9]);
    (1, mk (HDict [KS "f1"; KS "f2"; KS "acts"]) [VO 2; VO 3; VO 4]);
    (2, mk (HDict [KS "act"; KS "status"; KS "s"; KS "cb"]) [VO 5; VO 6; VO 7; VO 12]);
    (3, mk (HDict [KS "act"; KS "status"; KS "r"; KI 1]) [VO 5; VO 6; VO 8; VP (PFloat 3)]);
    (4, mk (HDict [KS "u"]) [VO 5]);
    (5, mk (HAction action_fields)
           [VP (PStr "u"); VP (PStr "MyAction"); VP (PStr "f1"); VP (PStr "STARTED"); VO 10; VO 11; VP (PInt 2)]);
    (6, mk (HEnum "FlowStatus" "STARTED") []);
    (7, mk HSet [VP (PStr "a"); VP (PInt 2)]);
    (8, mk (HRegex "a." 32) []);
    (9, mk HList [VP (PFloat 1); VP PNone; VP (PBool true)]);
    (10, mk (HDict []) []);
    (11, mk (HDict [KS "tags"]) [VO 7]);
    (12, mk (HPartial "_flow_head_changed") [VO 0; VO 2]) ].

Definition rk_state : id -> nat :=
  rank_tbl [(0, 5%nat); (1, 4%nat); (2, 3%nat); (3, 3%nat); (4, 3%nat); (5, 2%nat); (6, 0%nat); (7, 0%nat);
            (8, 0%nat); (9, 0%nat); (10, 0%nat); (11, 1%nat); (12, 0%nat)].

Example state_supported : supported flags_fixed classes_now h_state (VO 0) = true.
Proof. vm_compute. reflexivity. Qed.

Example state_acyclic : acyclic h_state rk_state.
Proof. apply acyclicb_sound. vm_compute. reflexivity. Qed.

Example state_rank : (rank_of rk_state (VO 0%Z) < 50)%nat.
Proof. vm_compute. lia. Qed.

(* the model decodes its own output for this state (in it the shared Action, enum member and set are
   written once, with __id, then as refs): the canonical form of the decoded graph exists *)
Example state_json_has_refs :
  match encode flags_fixed 50 h_state (VO 0) with
  | Some j => match canon_of 100 (decode flags_fixed classes_now 50 j) with Some _ => true | None => false end
  | None => false
  end = true.
Proof. vm_compute. reflexivity. Qed.

(* the refs table and temporaries (the trial change C11-c11_r2_2 of /verif/seeded, to_dict() handing
   out copies, is what `enc_tmp` models): two actions with different
   arguments, encoded by an encoder whose Action branch registers temporary copies *)
Definition h_two_actions : heap :=
  [ (0, mk (HDict [KS "a"; KS "b"]) [VO 1; VO 2]);
    (1, mk (HAction action_fields)
           [VP (PStr "u1"); VP (PStr "UtteranceBotAction"); VP (PStr "f"); VP (PStr "STARTED"); VO 3; VO 4; VP (PInt 1)]);
    (2, mk (HAction action_fields)
           [VP (PStr "u2"); VP (PStr "GestureBotAction"); VP (PStr "f"); VP (PStr "STARTED"); VO 5; VO 6; VP (PInt 1)]);
    (3, mk (HDict []) []);
    (4, mk (HDict [KS "script"]) [VP (PStr "one")]);
    (5, mk (HDict []) []);
    (6, mk (HDict [KS "gesture"]) [VP (PStr "wave")]) ].

(* CPython: the memory of a freed temporary is handed to the next one *)
Definition alloc_reuse (k : nat) : id := 1000 + Z.of_nat (Nat.modulo k 2).
(* an allocator that never reuses an identity during one encoding *)
Definition alloc_distinct (k : nat) : id := 1000 + Z.of_nat k.

Lemma alloc_distinct_fresh : tmp_ids_fresh alloc_distinct h_two_actions.
Proof.
  split.
  - intro k. unfold alloc_distinct.
    destruct (lookup h_two_actions (1000 + Z.of_nat k)) as [n|] eqn:E; [|reflexivity]. exfalso.
    apply lookup_in in E. unfold h_two_actions in E. cbn [In] in E.
    repeat (destruct E as [E|E]; [apply (f_equal fst) in E; cbn [fst] in E; lia|]). exact E.
  - intros k k' H. unfold alloc_distinct in H. lia.
Qed.

(* with reuse the second action is written with refs to the FIRST action's dicts: the restored
   graph is not the saved one *)
Lemma tmp_reuse_refuted :
  exists j, encode_tmp alloc_reuse flags_fixed 10 h_two_actions (VO 0) = Some j /\
            canon_of 100 (decode flags_fixed classes_now 10 j) <> canon_of 100 (Some (h_two_actions, VO 0)).
Proof. eexists. split; [vm_compute; reflexivity|]. vm_compute. discriminate. Qed.

(* the second action of the restored graph carries the first action's arguments *)
Example tmp_reuse_symptom :
  match encode_tmp alloc_reuse flags_fixed 10 h_two_actions (VO 0) with
  | Some j =>
    match decode flags_fixed classes_now 10 j with
    | Some (h', VO r') =>
      match dict_values h' (VO r') with
      | Some [VO a1; VO a2] =>
        match lookup h' a1, lookup h' a2 with
        | Some (mk _ [_; _; _; _; c1; s1; _]), Some (mk _ [_; _; _; _; c2; s2; _]) => val_eqb s1 s2 && val_eqb c1 c2
        | _, _ => false
        end
      | _ => false
      end
    | _ => false
    end
  | None => false
  end = true.
Proof. vm_compute. reflexivity. Qed.

(* without reuse the same encoder is restored correctly, and `enc` (no temporaries) as well *)
Example tmp_distinct_ok :
  match encode_tmp alloc_distinct flags_fixed 10 h_two_actions (VO 0) with
  | Some j => opt_eqb ctree_eqb (canon_of 100 (decode flags_fixed classes_now 10 j)) (canon_of 100 (Some (h_two_actions, VO 0)))
  | None => false
  end = true.
Proof. vm_compute. reflexivity. Qed.

Example no_tmp_ok :
  match encode flags_fixed 10 h_two_actions (VO 0) with
  | Some j => opt_eqb ctree_eqb (canon_of 100 (decode flags_fixed classes_now 10 j)) (canon_of 100 (Some (h_two_actions, VO 0)))
  | None => false
  end = true.
Proof. vm_compute. reflexivity. Qed.
