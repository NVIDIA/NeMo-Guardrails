(* C09 - executable instance of V2/Index.v for the correspondence check (harness/c09.py).

   A case is one run_to_completion of the real interpreter (or initialize_state +
   the start of `main`): the program-table rows the run touched, the abstract snapshot of
   the real State before, the list of mutations the traced code performed, the snapshot
   after.  `check_seg` replays the mutations on the model and compares the result with the
   real snapshot by plain equality (dict orders included).
   `check_quiescent` / `check_exact` evaluate the quiescence predicate and the from-scratch
   scan on snapshots of the real State. *)
From Coq Require Import NArith List Bool.
From NG Require Import V2.Index.
Import ListNotations.
Open Scope N_scope.

Definition table := list (uid * list (N * elem)).

Definition prog_of (t : table) : uid -> N -> option elem :=
  fun f p => match aget N.eqb t f with
             | Some row => aget N.eqb row p
             | None => None
             end.

Fixpoint list_eqb {A} (eqb : A -> A -> bool) (a b : list A) : bool :=
  match a, b with
  | [], [] => true
  | x :: a', y :: b' => eqb x y && list_eqb eqb a' b'
  | _, _ => false
  end.

Definition head_eqb (a b : head) : bool :=
  N.eqb (h_pos a) (h_pos b) && hstatus_eqb (h_st a) (h_st b).

Definition inst_eqb (a b : inst) : bool :=
  fstatus_eqb (i_st a) (i_st b)
  && list_eqb (fun p q => N.eqb (fst p) (fst q) && head_eqb (snd p) (snd q)) (i_heads a) (i_heads b).

Definition state_eqb (a b : state) : bool :=
  list_eqb (fun p q => N.eqb (fst p) (fst q) && inst_eqb (snd p) (snd q)) (insts a) (insts b)
  && list_eqb (fun p q => N.eqb (fst p) (fst q) && list_eqb key_eqb (snd p) (snd q)) (index a) (index b)
  && list_eqb (fun p q => key_eqb (fst p) (fst q) && N.eqb (snd p) (snd q)) (rev a) (rev b).

Definition seg := (table * state * list op * state)%type.

Definition check_seg (c : seg) : bool :=
  let '(t, s0, ops, s1) := c in
  match run (prog_of t) s0 ops with
  | Ok s' => state_eqb s' s1
  | Fail _ => false
  end.

(* diagnostics for a failing case: Some (i, code) = operation i is not a step of the model;
   None = all operations are steps (then the final state differs from the snapshot) *)
Definition diag_seg (c : seg) : option (N * N) * option state :=
  let '(t, s0, ops, s1) := c in
  match run_diag (prog_of t) s0 ops 0 with
  | Some d => (Some d, None)
  | None => match run (prog_of t) s0 ops with Ok s' => (None, Some s') | Fail _ => (None, None) end
  end.

Definition count_key (k : key) (l : list key) : nat :=
  List.length (filter (key_eqb k) l).

Definition exactb (prog : uid -> N -> option elem) (s : state) : bool :=
  (* no stale entry, no duplicate, reverse map agrees *)
  forallb (fun p => forallb (fun k => Nat.eqb (count_key k (snd p)) 1
                                      && scanb prog s (fst p) k
                                      && match rev_get s k with
                                         | Some n => N.eqb n (fst p)
                                         | None => false
                                         end) (snd p)) (index s)
  (* no missed head *)
  && forallb (fun p => if is_listening (i_st (snd p))
                       then forallb (fun q => match rel_of prog (fst p) (snd q) with
                                              | Some n => existsb (key_eqb (fst p, fst q)) (ix_get s n)
                                              | None => true
                                              end) (i_heads (snd p))
                       else true) (insts s)
  (* reverse map has nothing else *)
  && forallb (fun p => existsb (key_eqb (fst p)) (ix_get s (snd p))) (rev s).

Definition check_quiescent (c : table * snapshot) : bool :=
  quiescentb (prog_of (fst c)) (snd c).

Definition check_exact (c : table * snapshot) : bool :=
  exactb (prog_of (fst c)) (sn_state (snd c)).

Definition check_snap (c : table * snapshot) : bool := check_quiescent c && check_exact c.

(* flow `main`: 0 match StartFlow(key 1) ; 1 fork ; 3 match A(key 2) ; 6 match B(key 3) *)
Definition t0 : table := [(1, [(0, EMatch 1); (1, EOther); (2, EOther); (3, EMatch 2); (4, EOther);
                                (5, EOther); (6, EMatch 3); (7, EMerge); (8, EAction)])].

Definition ops0 : list op :=
  [ OResetInsts;
    ONewInst 1 FWaiting 10 (mkH 0 HActive) true true;
    OSetPos 1 10 1 Fire;
    OInstStatus 1 FStarting;
    OSetStatus 1 10 HInactive Fire;
    OForkHead 1 11 (mkH 0 HActive) true true 2 Fire;
    OForkHead 1 12 (mkH 0 HActive) true true 5 Fire;
    OSetPos 1 11 3 Fire;
    OSetPos 1 12 6 Fire;
    OInstStatus 1 FStarted ].

Example run_ops0 :
  run (prog_of t0) empty_state ops0
  = Ok (mkS [(1, mkI FStarted [(10, mkH 1 HInactive); (11, mkH 3 HActive); (12, mkH 6 HActive)])]
            [(1, []); (2, [(1, 11)]); (3, [(1, 12)])]
            [((1, 11), 2); ((1, 12), 3)]).
Proof. vm_compute. reflexivity. Qed.

(* event A: head 11 moves on to the merge, wins, the fork parent continues, children go *)
Definition ops1 : list op :=
  [ OSetPos 1 11 4 Fire; OSetPos 1 11 7 Fire; OSetStatus 1 11 HMerging Fire;
    OSetStatus 1 11 HInactive Fire;
    OSetPos 1 10 7 Fire; OSetStatus 1 10 HActive Fire;
    OSetStatus 1 11 HInactive NoFire; ODelHead 1 11;
    OSetStatus 1 12 HInactive Fire; ODelHead 1 12;
    OSetPos 1 10 8 Fire ].

Example run_ops1 :
  match run (prog_of t0) empty_state (ops0 ++ ops1) with
  | Ok s => exactb (prog_of t0) s && state_eqb s (mkS [(1, mkI FStarted [(10, mkH 8 HActive)])]
                                                  [(1, []); (2, []); (3, [])] [])
  | Fail _ => false
  end = true.
Proof. vm_compute. reflexivity. Qed.

(* heads.clear() without the explicit removal is not a step of the model *)
Example clear_without_removal_rejected :
  run (prog_of t0) empty_state (ops0 ++ [OClearHeads 1 []]) = Fail E_STALE.
Proof. vm_compute. reflexivity. Qed.

Example clear_with_removal_ok :
  match run (prog_of t0) empty_state (ops0 ++ [OClearHeads 1 [10; 11; 12]; OInstStatus 1 FStopped]) with
  | Ok s => exactb (prog_of t0) s
  | Fail _ => false
  end = true.
Proof. vm_compute. reflexivity. Qed.

(* a setter that changes the value without invoking the callback is not a step *)
Example silent_setter_rejected :
  run (prog_of t0) empty_state (ops0 ++ [OSetStatus 1 11 HInactive NoFire]) = Fail E_FIRE.
Proof. vm_compute. reflexivity. Qed.

(* a fork head without callbacks is not a step *)
Example fork_without_callbacks_rejected :
  run (prog_of t0) empty_state (ops0 ++ [OForkHead 1 13 (mkH 0 HActive) false false 3 NoFire]) = Fail E_NO_CALLBACK.
Proof. vm_compute. reflexivity. Qed.

