(* C07 - non-vacuity: the hypotheses of the property theorems are inhabited by non-trivial
   groups and event sequences (nested and/or, an atom shared by two alternatives, an
   irrelevant event 9 and repeated events). *)
From Coq Require Import List Bool Arith Permutation.
From NG Require Import V2.Dnf V2.Dnf_proofs V2.Groups V2.Groups_proofs.
Import ListNotations.

(* (0 or 1) and (2 or (3 and 4)) : four alternatives after normalisation *)
Definition ex_f : formula nat := And [Or [Atom 0; Atom 1]; Or [Atom 2; And [Atom 3; Atom 4]]].

Example ex_dnf :
  normalize ex_f = Some (Or [And [Atom 0; Atom 2]; And [Atom 0; Atom 3; Atom 4];
                             And [Atom 1; Atom 2]; And [Atom 1; Atom 3; Atom 4]])
  /\ eval (fun a => Nat.eqb a 1 || Nat.eqb a 3 || Nat.eqb a 4) ex_f = true
  /\ eval (fun a => Nat.eqb a 1 || Nat.eqb a 3) ex_f = false.
Proof. repeat split. Qed.

(* hypothesis of the protocol theorems holds, and the run is non-trivial: irrelevant event 9,
   event 3 repeated, completion exactly when 4 arrives (received {3,1,4} satisfies 1 and (3 and 4)) *)
Example ex_first_moment :
  eval (fun _ => false) ex_f = false
  /\ run Nat.eqb SMatch ex_f [3; 9; 3; 1; 4; 0; 2] = OAt 5
  /\ first_sat Nat.eqb ex_f [3; 9; 3; 1; 4; 0; 2] = OAt 5
  /\ run Nat.eqb SMatch ex_f [3; 9; 3; 1] = ONever.
Proof. repeat split. Qed.

(* another arrival order of the same events completes as well (at another step) *)
Example ex_order :
  Permutation [3; 9; 3; 1; 4] [4; 1; 3; 3; 9]
  /\ run Nat.eqb SMatch ex_f [3; 9; 3; 1; 4] = OAt 5
  /\ run Nat.eqb SMatch ex_f [4; 1; 3; 3; 9] = OAt 3.
Proof.
  repeat split.
  apply Permutation_cons_app with (l1 := [4; 1]) (l2 := [3; 9]). simpl.
  apply Permutation_cons_app with (l1 := [4; 1; 3]) (l2 := []). simpl.
  apply Permutation_cons_app with (l1 := [4; 1]) (l2 := []). simpl.
  apply Permutation_cons_app with (l1 := [4]) (l2 := []). simpl.
  apply Permutation_refl.
Qed.

(* an ignored event: 9 matches no atom; the second 3 matches only an atom already received *)
Example ex_ignored :
  (forall a, In a (atoms ex_f) -> Nat.eqb a 9 = true -> received Nat.eqb [3] a = true)
  /\ (forall a, In a (atoms ex_f) -> Nat.eqb a 3 = true -> received Nat.eqb [3; 9] a = true)
  /\ run Nat.eqb SMatch ex_f ([3] ++ 9 :: [1; 4]) = shift_after 1 (run Nat.eqb SMatch ex_f ([3] ++ [1; 4])).
Proof.
  repeat split.
  - intros a Ha H9. simpl in Ha. repeat (destruct Ha as [<-|Ha]; [discriminate|]). contradiction.
  - intros a Ha H3. apply Nat.eqb_eq in H3. subst. reflexivity.
Qed.

(* await / when : atoms are flows, step e finishes the instances of flow e *)
Example ex_await_when :
  run Nat.eqb SAwait ex_f [2; 9; 2; 1; 0] = OAt 4
  /\ run Nat.eqb SWhen ex_f [2; 9; 2; 1; 0] = OAt 4
  /\ compile SWhen (And [Atom 0; Atom 1]) = Some (POr [BAnd [0; 1] 2])
  /\ compile SAwait (And [Atom 0; Atom 1]) = Some (PSingle (BAnd [0; 1] 2)).
Proof. repeat split. Qed.

From NG Require Import V2.GroupsFail V2.GroupsFail_proofs.

(* when (f0 and f1) or f2 ... or when f2 and f3 : hypotheses of C07_cases_fail are inhabited,
   members fail and finish interleaved *)
Definition ex_cases : list (formula nat) := [Or [And [Atom 0; Atom 1]; Atom 2]; And [Atom 2; Atom 3]].

Example ex_cases_fail :
  stmt_ok nat SWhen ex_cases /\ ex_cases <> []
  /\ (forall f, In f ex_cases -> eval (fun _ => false) f = false)
  /\ (forall f, In f ex_cases -> eval (fun _ => true) f = true)
  (* f2 stopped, f0 finishes, f3 stopped (case 1 dead), f1 finishes -> case 0 *)
  /\ frun ex_mt ex_fl SWhen ex_cases [(2, false); (0, true); (3, false); (1, true)] = FoDone 4 [0]
  (* f2 stopped, f0 stopped -> every alternative of every case has a failed member *)
  /\ frun ex_mt ex_fl SWhen ex_cases [(2, false); (0, false); (1, true)] = FoFail 2
  (* f3 then f2 finish -> both cases hold in step 2 *)
  /\ frun ex_mt ex_fl SWhen ex_cases [(3, true); (2, true)] = FoDone 2 [0; 1].
Proof.
  split; [left; reflexivity|]. split; [discriminate|].
  split; [intros f [<-|[<-|[]]]; reflexivity|].
  split; [intros f [<-|[<-|[]]]; reflexivity|].
  repeat split.
Qed.
