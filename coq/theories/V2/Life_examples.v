(* V2/Life_examples.v - the hypotheses of the C06 theorems are inhabited by non-trivial
   states (a 3-level hierarchy with a shared action, an activated flow with two activators),
   the witness that WITHOUT the release at a scope end the property is false, and the late
   ActionStarted after a Stop: what the guard `flow_scope_count == 0` protects and what a guard
   `<= 0` would break (`stop_action_le`). *)
From Coq Require Import ZArith NArith List Bool Lia.
From NG Require Import V2.Life V2.Life_proofs V2.Life_scope V2.Life_fuel.
Import ListNotations.
Open Scope N_scope.

Definition ranked_b (rk : uid -> nat) (s : st) : bool :=
  forallb (fun xi : uid * inst => forallb (fun c => Nat.ltb (rk c) (rk (fst xi))) (i_children (snd xi)))
          (flows s).

Lemma ranked_b_sound : forall rk s, ranked_b rk s = true -> ranked rk s.
Proof.
  unfold ranked_b, ranked, getf; intros rk s. induction (flows s) as [|[k v] m IH]; simpl; intros H x i c E Hin.
  - discriminate.
  - apply andb_prop in H. destruct H as (H1 & H2).
    destruct (N.eqb x k) eqn:Ek.
    + apply N.eqb_eq in Ek; subst. inversion E; subst.
      rewrite forallb_forall in H1. specialize (H1 _ Hin). apply Nat.ltb_lt in H1. auto.
    + eapply IH; eauto.
Qed.

(* main(1) -> p(2) -> c(3); action 10 owned by p, action 11 SHARED by p and c (count 2),
   action 12 of c already finished *)
Definition ex_rk (x : uid) : nat := match x with 1 => 3%nat | 2 => 2%nat | 3 => 1%nat | _ => 0%nat end.

Example ex_ranked : ranked ex_rk ex_state.
Proof. apply ranked_b_sound. vm_compute. reflexivity. Qed.

Example ex_started_by : started_by ex_state 1 3.
Proof.
  eapply sb_trans with (c := 2) (ci := ex_i 1 FStarted (Some 1) [3] [10; 11] 0%Z).
  - eapply sb_child with (i := ex_i 0 FStarted None [2] [] 1%Z); [reflexivity|simpl; auto|].
    intros i E. vm_compute in E. inversion E; subst. reflexivity.
  - reflexivity.
  - reflexivity.
  - simpl; auto.
  - intros i E. vm_compute in E. inversion E; subst. reflexivity.
Qed.

(* hypotheses of abort_children_stop / abort_stop_once / abort_frame at ex_state, f = p *)
Example ex_hyps_abort_p :
  exists s', abort 3 ex_state 2 false = Ok s' /\ proceeds ex_state 2 false = true /\ lv ex_state 2 = true /\
             lst s' 3 = false /\ nstops 10 (out s') = 1%nat /\ nstops 11 (out s') = 1%nat /\ nstops 12 (out s') = 0%nat.
Proof. eexists. split; [apply ex_abort_p|]. vm_compute. repeat split. Qed.

(* the child alone ends: the shared action 11 gives up one share (2 -> 1) and gets NO Stop;
   then the parent ends: exactly one Stop for 11 *)
Example ex_shared_two_steps :
  exists s1 s2, abort 3 ex_state 3 false = Ok s1 /\ nstops 11 (out s1) = 0%nat /\
                geta s1 11 = Some (mkAct AStarting 1%Z) /\
                abort 3 s1 2 false = Ok s2 /\ nstops 11 (out s2) = 1%nat /\
                geta s2 11 = Some (mkAct AStopping 0%Z).
Proof. eexists. eexists. split; [apply ex_abort_c_only|]. vm_compute. repeat split. Qed.

Example ex_fuel_enough : abort 4 ex_state 1 false <> Err EFuel.
Proof. apply (abort_nofuel ex_rk); [apply ex_ranked|simpl; lia]. Qed.

(* an activated flow a(5) (flow id 3), activated by p1(2) and p2(3): reference count 2 *)
Definition act_state : st :=
  mkSt [ (1, ex_i 0 FStarted None [2; 3] [] 1%Z);
         (2, ex_i 1 FStarted (Some 1) [5] [] 0%Z);
         (3, ex_i 2 FStarted (Some 1) [5] [] 0%Z);
         (5, ex_i 3 FStarted (Some 2) [] [20] 2%Z) ]
       [ (20, mkAct AStarted 1%Z) ] [].
Definition act_rk (x : uid) : nat := match x with 1 => 3%nat | 2 => 2%nat | 3 => 2%nat | 5 => 1%nat | _ => 0%nat end.

Example act_ranked : ranked act_rk act_state.
Proof. apply ranked_b_sound. vm_compute. reflexivity. Qed.

(* the activated instance ends by itself: FlowFinished, then the restart (source = itself,
   marker = its count); its action is stopped *)
Example act_finish_restarts :
  exists s', finish 3 act_state 5 false = Ok s' /\
             out s' = [EStop 20; EFinished 5; ERestart 5 5 2%Z] /\
             lst s' 5 = false /\ (exists i, getf s' 5 = Some i /\ i_nis i = true /\ i_activated i = 2%Z).
Proof. eexists. split; [vm_compute; reflexivity|]. vm_compute. repeat split. eexists; repeat split. Qed.

(* the first activator ends: count 2 -> 1, the instance keeps running; the second activator ends:
   count 0, the instance is stopped, no restart *)
Example act_two_activators :
  exists s1 s2, abort 3 act_state 2 false = Ok s1 /\ lst s1 5 = true /\
                (exists i, getf s1 5 = Some i /\ i_activated i = 1%Z) /\ nstops 20 (out s1) = 0%nat /\
                abort 3 s1 3 false = Ok s2 /\ lst s2 5 = false /\
                (exists i, getf s2 5 = Some i /\ i_activated i = 0%Z) /\ nstops 20 (out s2) = 1%nat /\
                out s2 = [EFailed 2; EStop 20; EFailed 5; EFailed 3].
Proof.
  eexists. eexists. split; [vm_compute; reflexivity|].
  vm_compute. repeat split; try (eexists; split; reflexivity).
Qed.

(* The scenario of the defect repaired in _release_shared_action: f1(2) and f2(3) share action
   10 (count 2); f1 started it inside a `when` scope (7).  Scope end, then f1 finishes. *)
Definition scope_state : st :=
  mkSt [ (1, ex_i 0 FStarted None [2; 3] [] 1%Z);
         (2, mkInst 1 FStarted (Some 1) [] [10] [(7, ([], [10]))] 0%Z false);
         (3, ex_i 2 FStarted (Some 1) [] [10] 0%Z) ]
       [ (10, mkAct AStarting 2%Z) ] [].
Definition scope_ops : list lop := [LEndScope 2 7; LFinish 2 false].

(* with the release (current source): no Stop, f2 keeps its action *)
Example scope_with_release :
  exists s', lrun true 3 scope_ops scope_state = Ok s' /\ nstops 10 (out s') = 0%nat /\
             geta s' 10 = Some (mkAct AStarting 1%Z) /\ lst s' 3 = true /\ lst s' 2 = false.
Proof. eexists. split; [vm_compute; reflexivity|]. vm_compute. repeat split. Qed.

(* a Stop is sent for an action that a still-running flow holds and never released *)
Definition stop_while_shared (rel : bool) : Prop :=
  exists s ops s' a q qi,
    out s = [] /\ Forall allowed ops /\ lrun rel 3 ops s = Ok s' /\
    nstops a (out s') = 1%nat /\
    getf s' q = Some qi /\ listening (i_status qi) = true /\ In a (i_actions qi) /\
    (forall o, In o ops -> o <> LAbort q true /\ o <> LAbort q false /\ o <> LFinish q true /\
                           o <> LFinish q false /\ forall n, o <> LEndScope q n).

(* WITHOUT the release the property is false (regression documentation) *)
Theorem release_missing_witness : stop_while_shared false.
Proof.
  exists scope_state, scope_ops. eexists. exists 10, 3. eexists.
  split; [reflexivity|]. split; [repeat constructor|].
  split; [vm_compute; reflexivity|].
  split; [vm_compute; reflexivity|].
  split; [vm_compute; reflexivity|].
  split; [reflexivity|]. split; [simpl; auto|].
  intros o [<-|[<-|[]]]; repeat split; try discriminate; intros; discriminate.
Qed.

(* A late ActionStarted after the Stop.  `LEvent KStarted a` is an ALLOWED operation of the trace
   theorem (only a second Start is excluded): process_event puts the action back to STARTED and
   leaves flow_scope_count at 0.  The guard `flow_scope_count == 0` then protects the action: every
   later release decrements 0 -> -1 -> ... and never sees 0 again. *)

Lemma stop_action_below_zero : forall s a c s',
  geta s a = Some c -> (a_count c <= 0)%Z -> stop_action s a = Ok s' ->
  out s' = out s /\
  exists c', geta s' a = Some c' /\ (a_count c' <= 0)%Z /\
             (active (a_status c) = true -> a_count c' = (a_count c - 1)%Z /\ a_status c' = a_status c).
Proof.
  unfold stop_action; intros s a c s' Hc Hle H. rewrite Hc in H.
  destruct (active (a_status c)) eqn:Ea.
  - destruct (a_count c - 1 =? 0)%Z eqn:Ez; [apply Z.eqb_eq in Ez; lia|].
    inversion H; subst. split; auto.
    exists (mkAct (a_status c) (a_count c - 1)%Z). rewrite (geta_seta_same _ _ _ _ Hc). simpl.
    repeat split; auto; lia.
  - inversion H; subst. split; auto. exists c. repeat split; auto. discriminate.
Qed.

(* f(2) started action 10 inside scope 7; the scope ends (Stop), the ActionStarted arrives late,
   then f finishes *)
Definition late_state : st :=
  mkSt [ (1, ex_i 0 FStarted None [2] [] 1%Z);
         (2, mkInst 1 FStarted (Some 1) [] [10] [(7, ([], [10]))] 0%Z false) ]
       [ (10, mkAct AStarting 1%Z) ] [].
Definition late_ops : list lop := [LEndScope 2 7; LEvent KStarted 10; LFinish 2 false].

Example late_started_one_stop :
  Forall allowed late_ops /\
  exists s', lrun true 3 late_ops late_state = Ok s' /\ out s' = [EStop 10; EFinished 2] /\
             geta s' 10 = Some (mkAct AStarted (-1)%Z).
Proof. split; [repeat constructor|]. eexists. split; [vm_compute; reflexivity|]. vm_compute. auto. Qed.

(* the variant of the guard with `flow_scope_count <= 0` *)
Definition stop_action_le (s : st) (a : uid) : res st :=
  match geta s a with
  | None => Err EKeyAction
  | Some c =>
    if active (a_status c) then
      let n := (a_count c - 1)%Z in
      if (n <=? 0)%Z then Ok (emit1 (seta s a (mkAct AStopping n)) (EStop a))
      else Ok (seta s a (mkAct (a_status c) n))
    else Ok s
  end.

(* the two guards agree as long as the count is positive ... *)
Lemma stop_action_le_agrees : forall s a c, geta s a = Some c -> (0 < a_count c)%Z ->
  stop_action_le s a = stop_action s a.
Proof.
  unfold stop_action_le, stop_action; intros s a c Hc Hp. rewrite Hc.
  destruct (active (a_status c)); auto.
  destruct (a_count c - 1 =? 0)%Z eqn:E1, (a_count c - 1 <=? 0)%Z eqn:E2; auto.
  - apply Z.eqb_eq in E1. apply Z.leb_gt in E2. lia.
  - apply Z.eqb_neq in E1. apply Z.leb_le in E2. lia.
Qed.

(* ... but with `<= 0` the release at the scope end, the late Started and the release at the end of
   the flow send TWO Stops for the same action: `== 0` is what makes the second one impossible *)
Definition stop_guard_le_two_stops : Prop :=
  exists s a s1 s3,
    stop_action_le s a = Ok s1 /\ nstops a (out s1) = 1%nat /\
    stop_action_le (action_event KStarted a s1) a = Ok s3 /\ nstops a (out s3) = 2%nat.

Theorem stop_guard_le_witness : stop_guard_le_two_stops.
Proof.
  exists late_state, 10. eexists. eexists.
  split; [vm_compute; reflexivity|]. split; [reflexivity|].
  split; [vm_compute; reflexivity|]. reflexivity.
Qed.

(* the same three steps with the real guard: one Stop, count -1 *)
Example stop_guard_eq_one_stop :
  exists s1 s3, stop_action late_state 10 = Ok s1 /\
                stop_action (action_event KStarted 10 s1) 10 = Ok s3 /\
                nstops 10 (out s3) = 1%nat /\ geta s3 10 = Some (mkAct AStarted (-1)%Z).
Proof. eexists. eexists. split; [vm_compute; reflexivity|]. split; [vm_compute; reflexivity|]. vm_compute. auto. Qed.
