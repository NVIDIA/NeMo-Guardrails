(* C09 - examples: the hypotheses of the property theorems are inhabited by non-trivial states. *)
From Coq Require Import NArith List Bool.
From NG Require Import V2.Index V2.Index_proofs V2.IndexRun.
Import ListNotations.
Open Scope N_scope.

Definition s_ex : state :=
  mkS [(1, mkI FStarted [(10, mkH 1 HInactive); (11, mkH 3 HActive); (12, mkH 6 HActive)])]
      [(1, []); (2, [(1, 11)]); (3, [(1, 12)])]
      [((1, 11), 2); ((1, 12), 3)].

Definition sn_ex : snapshot := mkSnap 0 [] [(1, mkR [] [] [] [] [10])] s_ex.

Example reachable_nontrivial :
  run (prog_of t0) empty_state ops0 = Ok s_ex
  /\ ix_get s_ex 2 = [(1, 11)]
  /\ quiescentb (prog_of t0) sn_ex = true
  /\ exactb (prog_of t0) s_ex = true.
Proof. split; [exact run_ops0|]. vm_compute. repeat split. Qed.

Example no_stopping_inhabited : no_stopping s_ex.
Proof.
  intros f i H. unfold find_inst in H. apply (aget_Some_in _ N.eqb_eq) in H.
  destruct H as [H|[]]. inversion H; subst. simpl. intro X. discriminate X.
Qed.

(* a `stopping` instance keeps stale entries until _abort_flow clears the heads: the sandwich,
   not exactness, is what holds there (Abort element in a forked flow) *)
Example stopping_state_is_not_exact :
  match run (prog_of t0) empty_state (ops0 ++ [OInstStatus 1 FStopping; OSetPos 1 11 9 Fire]) with
  | Ok s => negb (exactb (prog_of t0) s) && existsb (key_eqb (1, 12)) (ix_get s 3)
  | Fail _ => false
  end = true.
Proof. vm_compute. reflexivity. Qed.

Example inv_inhabited : Inv (prog_of t0) s_ex.
Proof. exact (reachable_inv (prog_of t0) ops0 s_ex run_ops0). Qed.
