(* Executable instance of V2/Bind.v for the C08 correspondence check:
   a concrete expression language (literals, variables, list/dict displays, `e - 1`),
   structural equality on values, and a big-step interpreter of the generated call programs
   built on Bind.step, so that whole programs run on the real interpreter can be compared with
   the model.  Nothing here is used by the theorems (they hold for every [eval]). *)
From Coq Require Import ZArith List String Bool.
From NG Require Import Gen.C08Consts Val.Value Val.Match Val.MatchRun V2.Bind.
Import ListNotations.
Open Scope string_scope.

Inductive cexpr :=
| CLit (v : value)
| CVar (x : string)
| CList (l : list cexpr)
| CDict (kvs : list (string * cexpr))
| CSub1 (e : cexpr).

(* eval_expression: `$x` reads context["_global_x"] when that key exists, else context.get(x) *)
Fixpoint ceval (c : ctx) (e : cexpr) : value :=
  match e with
  | CLit v => v
  | CVar x => if ahas (global_key x) c then getN (global_key x) c else getN x c
  | CList l => VList (map (ceval c) l)
  | CDict kvs => VDict (map (fun kv => (fst kv, ceval c (snd kv))) kvs)
  | CSub1 e => match ceval c e with VInt z => VInt (z - 1) | v => v end
  end.

Definition num_eqb (a b : num) : bool :=
  match a, b with
  | NInt x, NInt y => Z.eqb x y
  | NBool x, NBool y => Bool.eqb x y
  | NFloat x, NFloat y => Z.eqb x y
  | _, _ => false
  end.

Definition cmpop_eqb (a b : cmpop) : bool :=
  match a, b with
  | OpLt, OpLt | OpLe, OpLe | OpGt, OpGt | OpGe, OpGe | OpNe, OpNe => true
  | _, _ => false
  end.

(* structural equality (bool and int are different values here: stricter than Python ==) *)
Fixpoint veqb (a b : value) {struct a} : bool :=
  match a with
  | VNone => match b with VNone => true | _ => false end
  | VBool x => match b with VBool y => Bool.eqb x y | _ => false end
  | VInt x => match b with VInt y => Z.eqb x y | _ => false end
  | VFloat x => match b with VFloat y => Z.eqb x y | _ => false end
  | VStr x => match b with VStr y => String.eqb x y | _ => false end
  | VRegex x => match b with VRegex y => String.eqb x y | _ => false end
  | VCmp o n => match b with VCmp o' n' => cmpop_eqb o o' && num_eqb n n' | _ => false end
  | VList l =>
      match b with
      | VList m =>
          (fix go (l m : list value) : bool :=
             match l, m with
             | [], [] => true
             | x :: l', y :: m' => veqb x y && go l' m'
             | _, _ => false
             end) l m
      | _ => false
      end
  | VSet l =>
      match b with
      | VSet m =>
          (fix go (l m : list value) : bool :=
             match l, m with
             | [], [] => true
             | x :: l', y :: m' => veqb x y && go l' m'
             | _, _ => false
             end) l m
      | _ => false
      end
  | VDict l =>
      match b with
      | VDict m =>
          (fix go (l m : list (string * value)) : bool :=
             match l, m with
             | [], [] => true
             | (k, x) :: l', (k', y) :: m' => String.eqb k k' && veqb x y && go l' m'
             | _, _ => false
             end) l m
      | _ => false
      end
  end.

Fixpoint ctx_eqb (a b : ctx) : bool :=
  match a, b with
  | [], [] => true
  | (k, x) :: a', (k', y) :: b' => String.eqb k k' && veqb x y && ctx_eqb a' b'
  | _, _ => false
  end.

(* Python's == on the generated values: bool/int/float compare numerically (floats are
   quarters), lists elementwise, dicts as unordered maps (keys are distinct) *)
Definition num_of (v : value) : option Z :=
  match v with
  | VBool b => Some (4 * Z_of_bool b)%Z
  | VInt z => Some (4 * z)%Z
  | VFloat q => Some q
  | _ => None
  end.

Fixpoint pyeqb (a b : value) {struct a} : bool :=
  match a with
  | VNone => match b with VNone => true | _ => false end
  | VBool _ | VInt _ | VFloat _ =>
      match num_of a, num_of b with Some x, Some y => Z.eqb x y | _, _ => false end
  | VStr x => match b with VStr y => String.eqb x y | _ => false end
  | VRegex x => match b with VRegex y => String.eqb x y | _ => false end
  | VCmp _ _ => false
  | VList l =>
      match b with
      | VList m =>
          (fix go (l m : list value) : bool :=
             match l, m with
             | [], [] => true
             | x :: l', y :: m' => pyeqb x y && go l' m'
             | _, _ => false
             end) l m
      | _ => false
      end
  | VSet l =>
      match b with
      | VSet m =>
          (fix go (l m : list value) : bool :=
             match l, m with
             | [], [] => true
             | x :: l', y :: m' => pyeqb x y && go l' m'
             | _, _ => false
             end) l m
      | _ => false
      end
  | VDict l =>
      match b with
      | VDict m =>
          Nat.eqb (List.length l) (List.length m)
          && (fix go (l : list (string * value)) : bool :=
                match l with
                | [] => true
                | (k, x) :: l' => match aget k m with Some y => pyeqb x y | None => false end && go l'
                end) l
      | _ => false
      end
  end.

(* ---- function level: _get_reference_activated_flow_instance ----
   parameters, the instances of the flow in state.flow_id_states order (is it a reference
   instance?, its `arguments`), the StartFlow event arguments, and the index of the instance
   the implementation returned *)
Definition check_actref (c : list (param cexpr) * list (bool * ctx) * ctx * option nat) : bool :=
  let '(ps, insts, ev, x) := c in
  match find_reference cexpr ceval pyeqb ps ev insts 0, x with
  | Some (Some i), Some j => Nat.eqb i j
  | Some None, None => true
  | _, _ => false
  end.

(* ---- function level: create_flow_instance + _start_flow on one event_arguments dict ---- *)

Inductive xbound := XShared | XTooMany | XBound (args c : ctx).

Definition check_bind
  (c : list (param cexpr) * list (param cexpr) * ctx * option ctx * xbound) : bool :=
  let '(ps, rs, ev, shared, x) := c in
  match bind_in cexpr ceval ps rs ev shared, x with
  | BSharedWithParams, XShared => true
  | BTooMany, XTooMany => true
  | Bound a k, XBound a' k' => ctx_eqb a a' && ctx_eqb k k'
  | _, _ => false
  end.

(* restart of an activated flow: bind [ev], then bind the predecessor's start_event again;
   compared with create_flow_instance + _start_flow run on the real start_event() arguments *)
Definition check_restart
  (c : list (param cexpr) * list (param cexpr) * ctx * xbound) : bool :=
  let '(ps, rs, ev, x) := c in
  match bind cexpr ceval ps rs ev with
  | Bound a _ =>
      let R := mkReserved (VStr "f") (VStr "(f)again") (VStr "@MAIN") (VStr "(head)") (VStr "0.1") in
      match bind cexpr ceval ps rs (restart_event_args R (VInt 1) a), x with
      | BTooMany, XTooMany => true
      | Bound a' k', XBound a'' k'' => ctx_eqb a' a'' && ctx_eqb k' k''
      | _, _ => false
      end
  | _ => false
  end.

Inductive form := FAwait | FStart | FActivate.

Inductive stmt :=
| SAssign (x : string) (e : cexpr)
| SGlobal (x : string)
| SEcho (tag : Z) (kvs : list (string * cexpr))
| SCall (fm : form) (f : string) (args : list (arg cexpr)) (ret : option string)
| SReturn (e : option cexpr)
| SIfPos (x : string) (body : list stmt)           (* if $x > 0 *)
| SWait.                                            (* match Never() *)

Record flowdef := mkFlow { f_params : list (param cexpr); f_rets : list (param cexpr); f_body : list stmt }.
Definition prog := list (string * flowdef).

Inductive outcome :=
| ODone        (* reached the end of the flow without `return` *)
| OReturned
| OWaiting     (* waits at a user-level match: the flow counts as started *)
| OStuck       (* waits for a FlowStarted that never matches (observations O1-O3, O5) *)
| OFailed      (* a Colang runtime error failed the flow *)
| OCrash       (* ColangRuntimeError escaped run_to_completion (surplus check fired) *)
| OFuel.

Definition outcome_code (o : outcome) : Z :=
  match o with ODone => 0 | OReturned => 1 | OWaiting => 2 | OStuck => 3 | OFailed => 4 | OCrash => 5 | OFuel => 6 end.

(* x_act: the activated reference instances (flow, uid) in creation order *)
Record xstate := mkX { x_st : mstate; x_uid : nat; x_out : list (Z * ctx) (* reversed *); x_act : list (string * nat) }.

Definition the_reserved (f : string) : reserved :=
  mkReserved (VStr f) (VStr "(uid)") (VStr "(src)") (VStr "(head)") (VStr "(hier)").

(* does the caller's `match FlowStarted(<call arguments>)` accept the callee's FlowStarted event?
   (the real matcher, Val.Match, on the two argument dicts) *)
Definition started_ok (pattern received : ctx) : bool :=
  match score_c (VDict pattern) (VDict received) with RYes _ => true | _ => false end.

Definition is_activate (fm : form) : bool := match fm with FActivate => true | _ => false end.

(* does the FlowStarted match of this call form carry the call arguments? (read from the
   current expansion.py by translator/gen_c08.py) *)
Definition match_with_args (fm : form) : bool :=
  match fm with
  | FActivate => started_match_call_args_activate
  | _ => started_match_call_args_start
  end.

(* `activate f(..)` when the flow already has activated reference instances
   (_process_internal_events_without_default_matchers + _get_reference_activated_flow_instance):
   if one has the same parameters no instance is created; the reference instance's FlowStarted
   event (its own `arguments`, flow_instance_uid := the new uid) is sent to the caller, which
   proceeds iff its FlowStarted match accepts it.  None = not this path (ordinary start). *)
Inductive reuse_result := RKeyError | RStuck | RContinue.

Definition reuse_activated (fm : form) (f : string) (fd : flowdef) (R : reserved)
           (d : list (string * cexpr)) (i : nat) (X : xstate) : option reuse_result :=
  if negb (is_activate fm) then None else
  match eval_ctx (x_st X) i with
  | None => None
  | Some ec =>
      let ev := start_event_args R true (eval_args cexpr ceval ec d) in
      let insts := filter (fun fu => String.eqb (fst fu) f) (x_act X) in
      match find_reference cexpr ceval pyeqb (f_params fd) ev
                           (map (fun fu => (true, m_args (x_st X) (snd fu))) insts) 0 with
      | None => Some RKeyError
      | Some None => None
      | Some (Some n) =>
          match nth_error insts n with
          | None => None
          | Some fu =>
              let pat := started_pattern (match_with_args fm) R (eval_args cexpr ceval ec d) in
              let rcv := out_event_args (r_instance_uid R) (r_flow_id R) (m_args (x_st X) (snd fu))
                                        [("flow_instance_uid", r_instance_uid R)] in
              Some (if started_ok pat rcv then RContinue else RStuck)
          end
      end
  end.

Fixpoint exec (fuel : nat) (P : prog) (X : xstate) (i : nat) (body : list stmt) : xstate * outcome :=
  match fuel with
  | O => (X, OFuel)
  | S fuel' =>
      match body with
      | [] => (X, ODone)
      | s :: rest =>
          match s with
          | SAssign x e =>
              match step cexpr ceval (x_st X) (OAssign cexpr i x e) with
              | Ok st' => exec fuel' P (mkX st' (x_uid X) (x_out X) (x_act X)) i rest
              | Err _ => (X, OFailed)
              end
          | SGlobal x =>
              match step cexpr ceval (x_st X) (OGlobal cexpr i x) with
              | Ok st' => exec fuel' P (mkX st' (x_uid X) (x_out X) (x_act X)) i rest
              | Err _ => (X, OFailed)
              end
          | SEcho t kvs =>
              match eval_ctx (x_st X) i with
              | Some ec => exec fuel' P (mkX (x_st X) (x_uid X) ((t, eval_args cexpr ceval ec kvs) :: x_out X) (x_act X)) i rest
              | None => (X, OFailed)
              end
          | SReturn e =>
              match step cexpr ceval (x_st X) (OReturn cexpr i e) with
              | Ok st' => (mkX st' (x_uid X) (x_out X) (x_act X), OReturned)
              | Err _ => (X, OFailed)
              end
          | SWait => (X, OWaiting)
          | SIfPos x body' =>
              match eval_ctx (x_st X) i with
              | Some ec =>
                  match ceval ec (CVar x) with
                  | VInt z => if (z >? 0)%Z then exec fuel' P X i (body' ++ rest) else exec fuel' P X i rest
                  | _ => (X, OFailed)
                  end
              | None => (X, OFailed)
              end
          | SCall fm f args ret =>
              match aget f P with
              | None => (X, OFailed)
              | Some fd =>
                  let callee := x_uid X in
                  let R := the_reserved f in
                  let d := parse_args cexpr args 0 [] in
                  match reuse_activated fm f fd R d i X with
                  | Some r => match r with
                              | RKeyError => (X, OCrash)
                              | RStuck => (X, OStuck)
                              | RContinue => exec fuel' P X i rest
                              end
                  | None =>
                  match step cexpr ceval (x_st X)
                             (OStart cexpr i callee (f_params fd) (f_rets fd) R (is_activate fm) d) with
                  | Err ETooMany => (X, OCrash)
                  | Err _ => (X, OFailed)
                  | Ok st1 =>
                      (* the callee runs until it finishes or waits; only then is its
                         FlowStarted event matched by the caller *)
                      let acts := if is_activate fm then (x_act X ++ [(f, callee)])%list else x_act X in
                      let '(X2, out) := exec fuel' P (mkX st1 (S (x_uid X)) (x_out X) acts) callee (f_body fd) in
                      match out with
                      | OCrash => (X2, OCrash)
                      | OFuel => (X2, OFuel)
                      | _ =>
                          match eval_ctx (x_st X2) i with
                          | None => (X2, OFailed)
                          | Some ec2 =>
                              (* the match pattern is evaluated when the event arrives *)
                              let pat := started_pattern (match_with_args fm) R (eval_args cexpr ceval ec2 d) in
                              let rcv := started_args (r_instance_uid R) (r_flow_id R) (m_args (x_st X2) callee) in
                              if negb (started_ok pat rcv) then (X2, OStuck) else
                              match out with
                              | OStuck => (X2, OStuck)
                              | OFailed => (X2, OFailed)
                              | OWaiting =>
                                  match fm with
                                  | FAwait => (X2, OWaiting)
                                  | _ => exec fuel' P X2 i rest
                                  end
                              | _ =>
                                  match fm, ret with
                                  | FAwait, Some x =>
                                      match step cexpr ceval (x_st X2)
                                                 (OAwaitAssign cexpr i callee (r_instance_uid R) (r_flow_id R) x) with
                                      | Ok st3 => exec fuel' P (mkX st3 (x_uid X2) (x_out X2) (x_act X2)) i rest
                                      | Err _ => (X2, OFailed)
                                      end
                                  | _, _ => exec fuel' P X2 i rest
                                  end
                              end
                          end
                      end
                  end
                  end
              end
          end
      end
  end.

Definition is_public (k : string) : bool := negb (Bind.prefixb "_" k).
Definition public (c : ctx) : ctx := filter (fun kv => is_public (fst kv)) c.

(* final context of every instance, in creation order (keys not starting with `_`) *)
Definition final_ctxs (X : xstate) : list ctx :=
  map (fun u => public (ctx_of (x_st X) u)) (seq 0 (x_uid X)).

Definition final_globals (X : xstate) : ctx :=
  filter (fun kv => mem (fst kv) ["g"; "h"]) (m_gctx (x_st X)).

Definition run_full (P : prog) : list (Z * ctx) * outcome * list ctx * ctx :=
  match aget "main" P with
  | None => ([], OFailed, [], [])
  | Some fd =>
      let '(X, out) := exec 400 P (mkX m_init 1 [] []) 0 (f_body fd) in
      (rev (x_out X), out, final_ctxs X, final_globals X)
  end.

Definition run_prog (P : prog) : list (Z * ctx) * outcome :=
  let '(es, out, _, _) := run_full P in (es, out).

Definition echo_eqb (a b : Z * ctx) : bool := Z.eqb (fst a) (fst b) && ctx_eqb (snd a) (snd b).

Fixpoint list_eqb (a b : list (Z * ctx)) : bool :=
  match a, b with
  | [], [] => true
  | x :: a', y :: b' => echo_eqb x y && list_eqb a' b'
  | _, _ => false
  end.

Fixpoint remove_first (x : Z * ctx) (l : list (Z * ctx)) : option (list (Z * ctx)) :=
  match l with
  | [] => None
  | y :: r => if echo_eqb x y then Some r
              else match remove_first x r with Some r' => Some (y :: r') | None => None end
  end.

Fixpoint perm_eqb (a b : list (Z * ctx)) : bool :=
  match a with
  | [] => match b with [] => true | _ => false end
  | x :: a' => match remove_first x b with Some b' => perm_eqb a' b' | None => false end
  end.

Fixpoint ctxs_eqb (a b : list ctx) : bool :=
  match a, b with
  | [], [] => true
  | x :: a', y :: b' => ctx_eqb x y && ctxs_eqb a' b'
  | _, _ => false
  end.

(* one end-to-end case: program, compare echoes in order?, echoes observed on the
   implementation (None = not observable: the run raised), outcome of `main` observed,
   final contexts of all instances in creation order + the global context *)
Definition check_prog (c : prog * bool * option (list (Z * ctx)) * Z * option (list ctx * ctx)) : bool :=
  let '(P, ordered, echoes, oc, finals) := c in
  let '(es, out, fc, fg) := run_full P in
  Z.eqb (outcome_code out) oc
  && match echoes with
     | None => true
     | Some obs => if ordered then list_eqb es obs else perm_eqb es obs
     end
  && match finals with
     | None => true
     | Some (oc', og) => ctxs_eqb fc oc' && ctx_eqb fg og
     end.

(* sanity: `flow f $a $b=3` called as `$x = await f(10)`; f echoes and returns [$a,$b] *)
Example run_prog_sanity :
  run_prog
    [("f", mkFlow [mkParam "a" None; mkParam "b" (Some (CLit (VInt 3)))] []
             [SAssign "loc" (CLit (VInt 7)); SEcho 1 [("a", CVar "a"); ("b", CVar "b")];
              SReturn (Some (CList [CVar "a"; CVar "b"]))]);
     ("main", mkFlow [] []
             [SAssign "loc" (CLit (VInt 1)); SCall FAwait "f" [APos (CLit (VInt 10))] (Some "x");
              SEcho 2 [("x", CVar "x"); ("loc", CVar "loc")]; SWait])]
  = ([(1%Z, [("a", VInt 10); ("b", VInt 3)]); (2%Z, [("x", VList [VInt 10; VInt 3]); ("loc", VInt 1)])], OWaiting).
Proof. vm_compute. reflexivity. Qed.
