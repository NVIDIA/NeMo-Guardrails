(* V2/Life_activation_examples.v - a run that exercises every clause: two activators of one
   flow, the instance ends by itself and is restarted, the activators end one after the other. *)
From Coq Require Import ZArith NArith List Bool.
From NG Require Import V2.Life V2.Life_proofs V2.Life_count V2.Life_activation V2.Life_examples.
Import ListNotations.
Open Scope N_scope.

Definition all_match : uid -> bool := fun _ => true.
Definition rk20 (x : uid) : nat := (20 - N.to_nat x)%nat.

Definition a_init : st := mkSt [ (1, ex_i 0 FStarted None [] [] 1%Z) ] [] [].

Definition a_run : list aop :=
  [ AStart all_match (mkSfev 1 2 (Some 1) 0%Z);      (* main starts p (2) *)
    AAdvance 2 FStarted;
    AStart all_match (mkSfev 3 5 (Some 2) 1%Z);      (* p activates flow 3: reference instance 5, count 1 *)
    AAdvance 5 FStarted;
    AStart all_match (mkSfev 2 3 (Some 1) 0%Z);      (* main starts q (3) *)
    AAdvance 3 FStarted;
    AStart all_match (mkSfev 3 6 (Some 3) 1%Z);      (* q activates flow 3 too: count 2, no new instance *)
    AFinish 5;                                       (* the instance ends by itself: restart emitted *)
    AStart all_match (mkSfev 3 7 (Some 5) 2%Z);      (* the restart is processed: instance 7 under 5 *)
    AAdvance 7 FStarted;
    AAbort 2 true;                                   (* first activator ends: count 1, 7 keeps running *)
    AFinish 3 ].                                     (* last activator ends: count 0, 7 stopped *)

Lemma a_init_inv : Inv a_init.
Proof.
  split.
  - unfold nodupk; simpl. repeat constructor; simpl; tauto.
  - intros x i c E Hin. unfold getf in E; simpl in E. destruct (N.eqb x 1); inversion E; subst. simpl in Hin. tauto.
  - intros x i p E Hp. unfold getf in E; simpl in E. destruct (N.eqb x 1); inversion E; subst. simpl in Hp. discriminate.
  - intros r (i & p & pi & E & Hp & _). unfold getf in E; simpl in E. destruct (N.eqb r 1); inversion E; subst. simpl in Hp. discriminate.
  - exists rk20. apply ranked_b_sound. vm_compute. reflexivity.
Qed.

Definition a_mid : st :=
  mkSt [ (1, ex_i 0 FStarted None [2; 3] [] 1%Z); (2, ex_i 1 FStarted (Some 1) [5] [] 0%Z);
         (5, ex_i 3 FStarted (Some 2) [] [] 2%Z); (3, ex_i 2 FStarted (Some 1) [5] [] 0%Z) ]
       [] [EStarted 5].

Definition a_final : st :=
  mkSt [ (1, ex_i 0 FStarted None [] [] 1%Z); (2, ex_i 1 FStopped (Some 1) [5] [] 0%Z);
         (5, mkInst 3 FFinished (Some 2) [7] [] [] 0%Z true); (3, ex_i 2 FFinished (Some 1) [5] [] 0%Z);
         (7, ex_i 3 FStopped (Some 5) [] [] 0%Z) ]
       [] [EStarted 5; EFinished 5; ERestart 5 5 2%Z; EFailed 2; EFailed 7; EFinished 3].

Lemma a_mid_run : arun true 5 (firstn 7 a_run) a_init = Ok a_mid.
Proof. vm_compute. reflexivity. Qed.

Lemma a_final_run : arun true 5 a_run a_init = Ok a_final.
Proof. vm_compute. reflexivity. Qed.

(* one operation of the run: evaluate it (aoks_cons); its side condition is left *)
Ltac step_ok := eapply aoks_cons; [vm_compute; reflexivity| |].

Ltac wfs_now := exists rk20; apply ranked_b_sound; vm_compute; reflexivity.

(* a start with marker 0 or 1 *)
Ltac start_ok := split; [reflexivity|split; [apply ev_wf_marker; vm_compute; auto|wfs_now]].

Lemma a_run_ok : aoks true 5 a_run a_init.
Proof.
  unfold a_run.
  step_ok; [start_ok|]. step_ok; [exact I|]. step_ok; [start_ok|]. step_ok; [exact I|].
  step_ok; [start_ok|]. step_ok; [exact I|]. step_ok; [start_ok|].
  step_ok; [intros i Hi; cbv in Hi; injection Hi as <-; discriminate|].
  (* the restart carries the count; its sender is the ended instance of the same flow *)
  step_ok; [split; [reflexivity|split; [eapply ev_wf_same_flow; reflexivity|wfs_now]]|].
  step_ok; [exact I|]. step_ok; [exact I|].
  step_ok; [intros i Hi; cbv in Hi; injection Hi as <-; discriminate|].
  exact I.
Qed.

Example a_run_result :
  exists s', arun true 5 a_run a_init = Ok s' /\ Inv s' /\
    act s' 5 = 0%Z /\ lst s' 5 = false /\ lst s' 7 = false /\ lst s' 1 = true /\
    out s' = [EStarted 5; EFinished 5; ERestart 5 5 2%Z; EFailed 2; EFailed 7; EFinished 3].
Proof.
  exists a_final. split; [exact a_final_run|]. split; [|repeat split].
  exact (arun_inv _ _ _ _ _ a_init_inv a_final_run a_run_ok).
Qed.

(* after the first six operations + the second activation: count 2 = two entries of live activators *)
Example a_count_two :
  exists s', arun true 5 (firstn 7 a_run) a_init = Ok s' /\ act s' 5 = 2%Z /\ E s' 5 = 2%Z.
Proof. exists a_mid. split; [exact a_mid_run|]. split; reflexivity. Qed.

(* An EXPLICIT deactivation (`deactivate X`, StopFlow(.., deactivate=True): a top-level _abort_flow with
   deactivate_flow=True on the reference instance) decrements the count but leaves the entry of the
   activator in place: the counting invariant does not survive it.  This is why the invariant theorem
   is about flows that END, as the property text is. *)
Lemma aoks_firstn : forall rel fuel k l s, aoks rel fuel l s -> aoks rel fuel (firstn k l) s.
Proof.
  induction k as [|k IH]; intros l s H; [exact I|].
  destruct l as [|o l]; [exact I|]. simpl in *.
  intros s1 H1. destruct (H _ H1) as (Ho & Hr). split; auto.
Qed.

Definition explicit_deactivation_breaks_count : Prop :=
  exists s s', Inv s /\ abort 5 s 5 true = Ok s' /\ refshape s' 5 /\ act s' 5 = 1%Z /\ E s' 5 = 2%Z.

Theorem explicit_deactivation_witness : explicit_deactivation_breaks_count.
Proof.
  exists a_mid. eexists. split; [|split; [vm_compute; reflexivity|]].
  - exact (arun_inv _ _ _ _ _ a_init_inv a_mid_run (aoks_firstn _ _ 7 _ _ a_run_ok)).
  - split; [|split; reflexivity].
    eexists. exists 2. eexists. vm_compute. repeat split. discriminate.
Qed.
