(* C07 - proofs about the failure side of the group protocol (model in GroupsFail.v).
   As in Groups_proofs.v the state after the events p is a function of p through two sets only:
   the finished members `is_fin p` (their heads wait) and the failed members (an alternative with
   one of them is dead).  A live alternative is an alternative of Groups_proofs.v with
   s = is_fin p, so its WaitForHeads test is heads_pass.  The main result is
     frun_fspec : frun mt fl st fs evs = fspec mt fl fs evs
   for a `when` with any number of cases, or a match/await on one group, whose groups are false
   of the empty set and true of the full set: the statement completes in the first step in which
   the finished members satisfy the formula of some case (and one of exactly those cases fires),
   it fails in the first step in which no case can be satisfied any more, whichever comes first,
   and nothing happens before. *)
From Coq Require Import List Bool Arith Lia.
From NG Require Import V2.Dnf V2.Dnf_proofs V2.Groups V2.Groups_proofs V2.GroupsFail.
Import ListNotations.

Lemma forallb_ext_in {X} (g h : X -> bool) (l : list X) :
  (forall x, In x l -> g x = h x) -> forallb g l = forallb h l.
Proof.
  induction l as [|x l IH]; simpl; intros H; [reflexivity|].
  rewrite (H x) by now left. rewrite IH; [reflexivity|]. intros y Hy. apply H. now right.
Qed.

Lemma iw_from_map_ext {X Y} (g : Y -> bool) (h : X -> Y) (g' : X -> bool) (l : list X) : forall k,
  (forall x, In x l -> g (h x) = g' x) -> iw_from g k (map h l) = iw_from g' k l.
Proof.
  induction l as [|x l IH]; intros k H; simpl; [reflexivity|].
  rewrite (H x) by now left. rewrite (IH (S k)); [reflexivity|]. intros y Hy. apply H. now right.
Qed.

Lemma iw_from_nil {X} (g : X -> bool) (l : list X) : forall k,
  iw_from g k l = [] <-> (forall x, In x l -> g x = false).
Proof.
  induction l as [|x l IH]; intros k; simpl.
  - split; [intros _ x []|reflexivity].
  - destruct (g x) eqn:Hg.
    + split; [discriminate|]. intros H. rewrite (H x) in Hg by now left. discriminate.
    + rewrite IH. split.
      * intros H y [<-|Hy]; auto.
      * intros H y Hy. apply H. now right.
Qed.

Lemma iw_from_sound {X} (g : X -> bool) (l : list X) (d : X) : forall k i,
  In i (iw_from g k l) <-> exists j, i = k + j /\ j < length l /\ g (nth j l d) = true.
Proof.
  induction l as [|x l IH]; intros k i; simpl.
  - split; [intros [] | intros (j & _ & H & _); inversion H].
  - (* position k itself if g x, or a later one *)
    transitivity ((g x = true /\ i = k) \/ In i (iw_from g (S k) l));
      [destruct (g x); simpl; intuition congruence|].
    rewrite IH. split.
    + intros [[Hg ->]|(j & -> & Hj & Hn)]; [exists 0 | exists (S j)]; repeat split; auto; lia.
    + intros ([|j] & -> & Hj & Hn); [left; split; [exact Hn | lia]|].
      right. exists j. repeat split; [lia | lia | exact Hn].
Qed.

Section Proofs.
  Variables A E : Type.
  Variables mt fl : A -> E -> bool.

  Notation status := (status mt fl).
  Notation is_fin := (is_fin mt fl).
  Notation not_failed := (not_failed mt fl).
  Notation fspec_at := (fspec_at mt fl).
  Notation hd_of := (hd_of A).

  Definition is_failed (p : list E) (a : A) : bool := negb (not_failed p a).

  Lemma status_app (p : list E) (e : E) (a : A) :
    status (p ++ [e]) a
    = match status p a with
      | Some b => Some b
      | None => if fl a e then Some false else if mt a e then Some true else None
      end.
  Proof.
    induction p as [|x p IH]; simpl; [reflexivity|].
    destruct (fl a x); [reflexivity|]. destruct (mt a x); [reflexivity|]. exact IH.
  Qed.

  (* how the two sets grow with one event: the first event that finishes or fails a decides *)
  Lemma sets_snoc (p : list E) (e : E) (a : A) :
    is_fin (p ++ [e]) a = is_fin p a || (negb (is_failed p a) && negb (fl a e) && mt a e)
    /\ is_failed (p ++ [e]) a = is_failed p a || (negb (is_fin p a) && fl a e).
  Proof.
    unfold is_failed, GroupsFail.is_fin, GroupsFail.not_failed. rewrite status_app.
    destruct (status p a) as [[|]|]; simpl; auto.
    destruct (fl a e); simpl; auto. destruct (mt a e); auto.
  Qed.

  Lemma fin_not_failed (q : list E) (a : A) : is_fin q a = true -> is_failed q a = false.
  Proof.
    unfold is_failed, GroupsFail.is_fin, GroupsFail.not_failed.
    destruct (status q a) as [[|]|]; simpl; congruence.
  Qed.

  Definition dead (p : list E) (c : list A) : bool := existsb (is_failed p) c.
  Definition AS (p : list E) (c : list A) : astate A :=
    if dead p c then ADead else ALive (map (hd_of (is_fin p)) c) (length c).
  Definition CS (fw : formula A -> option nat) (p : list E) (f : formula A) : cstate A :=
    mkCS (map (AS p) (nf f)) (fw f).

  (* the WaitForHeads number o stands for "all n" *)
  Definition fw_ok (o : option nat) (n : nat) : Prop := o = Some n \/ (o = None /\ n = 1).

  Lemma wait_ok_all {X} (o : option nat) (g : X -> bool) (l : list X) :
    fw_ok o (length l) -> wait_ok o (length (filter g l)) = forallb g l.
  Proof.
    intros [->|[-> H1]]; unfold wait_ok.
    - apply need_met.
    - rewrite <- H1. apply need_met.
  Qed.

  Lemma dead_mono (p : list E) (e : E) (c : list A) : dead p c = true -> dead (p ++ [e]) c = true.
  Proof.
    unfold dead. rewrite !existsb_exists. intros [a [Ha Hf]]. exists a. split; [exact Ha|].
    now rewrite (proj2 (sets_snoc p e a)), Hf.
  Qed.

  Lemma dead_not_fin (q : list E) (c : list A) :
    dead q c = true -> forallb (is_fin q) c = false.
  Proof.
    intros H. apply existsb_exists in H. destruct H as [a [Ha Hf]].
    destruct (forallb (is_fin q) c) eqn:Hall; [|reflexivity].
    rewrite forallb_forall in Hall. now rewrite (fin_not_failed q a (Hall a Ha)) in Hf.
  Qed.

  Lemma fails_live (p : list E) (e : E) (c : list A) :
    dead p c = false ->
    existsb (head_fails fl e) (map (hd_of (is_fin p)) c) = dead (p ++ [e]) c.
  Proof.
    intros Hl. unfold dead. rewrite existsb_map. apply existsb_ext_in. intros a Ha.
    rewrite (proj2 (sets_snoc p e a)), (existsb_false_in _ _ Hl a Ha).
    unfold Groups_proofs.hd_of. now destruct (is_fin p a).
  Qed.

  (* on an alternative still live after e the finished set grows by what e matches: it steps
     like an alternative of Groups_proofs.v *)
  Lemma live_step (p : list E) (e : E) (c : list A) :
    dead (p ++ [e]) c = false ->
    forall a, In a c -> is_fin (p ++ [e]) a = is_fin p a || mt a e.
  Proof.
    intros Hl a Ha. pose proof (existsb_false_in _ _ Hl a Ha) as Hnf.
    destruct (sets_snoc p e a) as [Hfin Hfail]. rewrite Hfail in Hnf. rewrite Hfin.
    destruct (is_failed p a), (is_fin p a), (fl a e); simpl in *; try discriminate; reflexivity.
  Qed.

  Lemma alt_next_AS (p : list E) (e : E) (c : list A) :
    alt_next mt fl e (AS p c) = AS (p ++ [e]) c.
  Proof.
    unfold AS. destruct (dead p c) eqn:Hd.
    - simpl. now rewrite (dead_mono p e c Hd).
    - cbn [alt_next]. rewrite (fails_live p e c Hd).
      destruct (dead (p ++ [e]) c) eqn:Hd'; [reflexivity|].
      now rewrite (heads_adv A E mt _ _ e c (live_step p e c Hd')).
  Qed.

  Lemma alt_fails_AS (p : list E) (e : E) (c : list A) :
    alt_fails fl e (AS p c) = negb (dead p c) && dead (p ++ [e]) c.
  Proof.
    unfold AS. destruct (dead p c) eqn:Hd; [reflexivity|].
    cbn [alt_fails]. now rewrite (fails_live p e c Hd).
  Qed.

  Lemma alt_passes_AS (p : list E) (e : E) (c : list A) :
    forallb (is_fin p) c = false ->
    alt_passes mt fl e (AS p c) = forallb (is_fin (p ++ [e])) c.
  Proof.
    intros Hnot. unfold AS. destruct (dead p c) eqn:Hd.
    - symmetry. apply dead_not_fin, dead_mono, Hd.
    - cbn [alt_passes]. rewrite (fails_live p e c Hd).
      destruct (dead (p ++ [e]) c) eqn:Hd'.
      + symmetry. apply dead_not_fin, Hd'.
      + cbn [negb andb]. apply heads_pass; [apply live_step, Hd' | exact Hnot].
  Qed.

  Lemma case_passes_CS fw (p : list E) (e : E) (f : formula A) :
    eval (is_fin p) f = false ->
    case_passes mt fl e (CS fw p f) = eval (is_fin (p ++ [e])) f.
  Proof.
    intros Hnot. rewrite <- nf_eval in Hnot. rewrite <- nf_eval.
    unfold case_passes, CS. cbn [cs_alts]. rewrite existsb_map.
    apply existsb_ext_in. intros c Hc. apply alt_passes_AS.
    exact (existsb_false_in _ _ Hnot c Hc).
  Qed.

  Lemma all_dead_unsat (q : list E) (f : formula A) :
    forallb (dead q) (nf f) = negb (eval (not_failed q) f).
  Proof.
    rewrite <- nf_eval. unfold eval_dnf, dead.
    induction (nf f) as [|c cs IH]; simpl; [reflexivity|].
    rewrite IH, negb_orb. f_equal.
    clear. induction c as [|a c IH]; simpl; [reflexivity|].
    rewrite IH, negb_andb. reflexivity.
  Qed.

  Lemma case_failed_CS fw (q : list E) (f : formula A) :
    fw_ok (fw f) (length (nf f)) ->
    case_failed (CS fw q f) = negb (eval (not_failed q) f).
  Proof.
    intros Hfw. unfold case_failed, CS. cbn [cs_alts cs_fail_wait].
    rewrite (filter_map_length _ _ (dead q)) by (intros c _; unfold AS; now destruct (dead q c)).
    rewrite (wait_ok_all _ _ _ Hfw). apply all_dead_unsat.
  Qed.

  Lemma case_next_CS fw (p : list E) (e : E) (f : formula A) :
    case_next mt fl e (CS fw p f) = CS fw (p ++ [e]) f.
  Proof.
    unfold case_next, CS. cbn [cs_alts cs_fail_wait]. f_equal.
    rewrite map_map. apply map_ext. intros c. apply alt_next_AS.
  Qed.

  (* a case that could still hold before e and cannot after it: one of its alternatives dies in
     step e, so a head arrives at the failure handler *)
  Lemma arrival_CS fw (p : list E) (e : E) (f : formula A) :
    eval (not_failed p) f = true ->
    eval (not_failed (p ++ [e])) f = false ->
    existsb (alt_fails fl e) (cs_alts (CS fw p f)) = true.
  Proof.
    intros Hs Hu. unfold CS. cbn [cs_alts]. rewrite existsb_map.
    assert (H1 : forallb (dead p) (nf f) = false) by (rewrite all_dead_unsat, Hs; reflexivity).
    assert (H2 : forallb (dead (p ++ [e])) (nf f) = true) by (rewrite all_dead_unsat, Hu; reflexivity).
    destruct (forallb_false_ex _ _ H1) as [c [Hc Hl]].
    apply existsb_exists. exists c. split; [exact Hc|].
    rewrite forallb_forall in H2. now rewrite alt_fails_AS, Hl, (H2 c Hc).
  Qed.

  Definition FS fw (els : option nat) (p : list E) (fs : list (formula A)) : fstate A :=
    FActive (map (CS fw p) fs) els.

  (* when no case holds, fspec_at asks whether some case still can *)
  Lemma fspec_at_undone (fs : list (formula A)) (p : list E) (b : bool) :
    fspec_at fs p = (if b then RFail else RNone) <->
    ((forall f, In f fs -> eval (is_fin p) f = false)
     /\ forallb (fun f => negb (eval (not_failed p) f)) fs = b).
  Proof.
    unfold GroupsFail.fspec_at. rewrite <- (iw_from_nil (eval (is_fin p)) fs 0).
    fold (indices_where (eval (is_fin p)) fs).
    destruct (indices_where (eval (is_fin p)) fs) as [|i0 w0];
      [|split; [now destruct b | intros [[=] _]]].
    destruct (forallb (fun f => negb (eval (not_failed p) f)) fs), b;
      split; try discriminate; try (intros [_ [=]]); auto.
  Qed.

  (* between events: no case holds and some case still can *)
  Lemma fspec_at_none (fs : list (formula A)) (p : list E) :
    fspec_at fs p = RNone <->
    ((forall f, In f fs -> eval (is_fin p) f = false)
     /\ exists f, In f fs /\ eval (not_failed p) f = true).
  Proof.
    rewrite (fspec_at_undone fs p false). split; intros [Hn H]; (split; [exact Hn|]).
    - destruct (forallb_false_ex _ _ H) as [f [Hf Hs]]. exists f. now apply negb_false_iff in Hs.
    - destruct H as [f [Hf Hs]].
      destruct (forallb (fun f => negb (eval (not_failed p) f)) fs) eqn:Hall; [|reflexivity].
      rewrite forallb_forall in Hall. specialize (Hall f Hf). now rewrite Hs in Hall.
  Qed.

  Lemma winners_FS fw (p : list E) (e : E) (fs : list (formula A)) :
    (forall f, In f fs -> eval (is_fin p) f = false) ->
    indices_where (case_passes mt fl e) (map (CS fw p) fs)
    = indices_where (eval (is_fin (p ++ [e]))) fs.
  Proof.
    intros Hnot. apply iw_from_map_ext. intros f Hf. apply case_passes_CS, Hnot, Hf.
  Qed.

  (* the WaitForHeads test at the else label *)
  Lemma failed_FS fw els (q : list E) (fs : list (formula A)) :
    (forall f, In f fs -> fw_ok (fw f) (length (nf f))) ->
    fw_ok els (length fs) ->
    wait_ok els (length (filter case_failed (map (CS fw q) fs)))
    = forallb (fun f => negb (eval (not_failed q) f)) fs.
  Proof.
    intros Hfw Hels.
    rewrite (filter_map_length _ _ (fun f => negb (eval (not_failed q) f)))
      by (intros f Hf; apply case_failed_CS, Hfw, Hf).
    apply wait_ok_all, Hels.
  Qed.

  Lemma fdeliver_FS fw els (p : list E) (e : E) (fs : list (formula A)) :
    (forall f, In f fs -> fw_ok (fw f) (length (nf f))) ->
    fw_ok els (length fs) ->
    fspec_at fs p = RNone ->
    fdeliver mt fl (FS fw els p fs) e
    = match fspec_at fs (p ++ [e]) with
      | RNone => (FS fw els (p ++ [e]) fs, RNone)
      | RDone w => (FDone, RDone w)
      | RFail => (FFailed, RFail)
      end.
  Proof.
    intros Hfw Hels Hinv. apply fspec_at_none in Hinv. destruct Hinv as [Hnot [f [Hf Hs]]].
    unfold fdeliver, FS, GroupsFail.fspec_at. rewrite (winners_FS fw p e fs Hnot).
    destruct (indices_where (eval (is_fin (p ++ [e]))) fs) as [|i w]; [|reflexivity].
    rewrite map_map, (map_ext _ _ (case_next_CS fw p e)), (failed_FS fw els _ fs Hfw Hels).
    destruct (forallb (fun f => negb (eval (not_failed (p ++ [e])) f)) fs) eqn:Hall;
      [|now rewrite andb_false_r].
    (* all cases unsatisfiable now, f was not before: one of its alternatives died in this step *)
    rewrite forallb_forall in Hall. specialize (Hall f Hf). apply negb_true_iff in Hall.
    replace (existsb (fun c => existsb (alt_fails fl e) (cs_alts c)) (map (CS fw p) fs)) with true;
      [reflexivity|].
    symmetry. apply existsb_exists. exists (CS fw p f).
    split; [now apply in_map | now apply arrival_CS].
  Qed.

  Lemma frun_from_FS fw els (fs : list (formula A)) (r : list E) : forall (p : list E) (k : nat),
    (forall f, In f fs -> fw_ok (fw f) (length (nf f))) ->
    fw_ok els (length fs) ->
    fspec_at fs p = RNone ->
    frun_from mt fl (FS fw els p fs) r k = fspec_from mt fl fs p r k.
  Proof.
    induction r as [|e r IH]; intros p k Hfw Hels Hinv; [reflexivity|].
    cbn [frun_from fspec_from]. rewrite (fdeliver_FS fw els p e fs Hfw Hels Hinv).
    destruct (fspec_at fs (p ++ [e])) eqn:Hat; try reflexivity.
    apply IH; assumption.
  Qed.

  Lemma dead_nil (c : list A) : dead [] c = false.
  Proof. induction c as [|a c IH]; [reflexivity | exact IH]. Qed.

  Lemma AS_nil (c : list A) : AS [] c = init_alt (branch_of c).
  Proof. unfold AS, init_alt. rewrite dead_nil. destruct c as [|a [|b c']]; reflexivity. Qed.

  Definition fw_of (st : stmt) (f : formula A) : option nat := cp_fail_wait (cprog_of (prog_of st (nf f))).

  Lemma cprog_of_prog_of (st : stmt) (alts : list (list A)) :
    cp_branches (cprog_of (prog_of st alts)) = map branch_of alts
    /\ fw_ok (cp_fail_wait (cprog_of (prog_of st alts))) (length alts).
  Proof.
    unfold fw_ok.
    destruct st, alts as [|c [|c' cs]]; simpl; rewrite ?map_length; auto.
  Qed.

  Lemma init_case_CS (st : stmt) (f : formula A) :
    init_case (cprog_of (prog_of st (nf f))) = CS (fw_of st) [] f.
  Proof.
    unfold init_case, CS, fw_of. destruct (cprog_of_prog_of st (nf f)) as [Hb _].
    rewrite Hb. f_equal. rewrite map_map. apply map_ext. intros c. symmetry. apply AS_nil.
  Qed.

  (* well-formed statements: `when` with any cases, match/await with one group *)
  Definition stmt_ok (st : stmt) (fs : list (formula A)) : Prop :=
    st = SWhen \/ exists f, fs = [f].

  Theorem fcompile_spec (st : stmt) (fs : list (formula A)) :
    stmt_ok st fs ->
    exists els,
      fcompile st fs = Some (mkF (map (fun f => cprog_of (prog_of st (nf f))) fs) els)
      /\ fw_ok els (length fs).
  Proof.
    intros [->|[f ->]].
    - exists (Some (length fs)). split; [|now left].
      unfold fcompile.
      rewrite (mapM_some _ (fun f => cprog_of (prog_of SWhen (nf f)))).
      + cbn [bind]. now rewrite map_length.
      + apply Forall_forall. intros f _. now rewrite compile_spec.
    - exists (match st with SWhen => Some 1 | _ => None end).
      unfold fw_ok. destruct st; simpl; rewrite compile_spec; auto.
  Qed.

  Theorem frun_fspec (st : stmt) (fs : list (formula A)) (evs : list E) :
    stmt_ok st fs ->
    fs <> [] ->
    (forall f, In f fs -> eval (fun _ => false) f = false) ->
    (forall f, In f fs -> eval (fun _ => true) f = true) ->
    frun mt fl st fs evs = fspec mt fl fs evs.
  Proof.
    intros Hok Hne H0 H1. unfold frun, fspec.
    destruct (fcompile_spec st fs Hok) as [els [Hc Hels]]. rewrite Hc.
    unfold finit. cbn [fp_cases fp_else_wait]. rewrite map_map, (map_ext _ _ (init_case_CS st)).
    apply (frun_from_FS (fw_of st) els fs evs [] 0).
    - intros f _. apply cprog_of_prog_of.
    - exact Hels.
    - (* before any event is_fin [] is the empty set and not_failed [] the full set, by conversion *)
      apply fspec_at_none. split; [exact H0|].
      destruct fs as [|f fs']; [congruence|]. exists f. split; [now left|]. apply H1. now left.
  Qed.

  Lemma frun_from_no_error (s : fstate A) (evs : list E) : forall k, frun_from mt fl s evs k <> FoErr.
  Proof.
    revert s. induction evs as [|e r IH]; intros s k; simpl; [discriminate|].
    destruct (fdeliver mt fl s e) as [s' [|w|]]; try discriminate. apply IH.
  Qed.

  Theorem frun_no_error (st : stmt) (fs : list (formula A)) (evs : list E) :
    stmt_ok st fs -> frun mt fl st fs evs <> FoErr.
  Proof.
    intros Hok. unfold frun. destruct (fcompile_spec st fs Hok) as [els [Hc _]]. rewrite Hc.
    apply frun_from_no_error.
  Qed.

  Definition decided (r : fres) : bool := match r with RNone => false | _ => true end.

  Lemma decided_false r : decided r = false <-> r = RNone.
  Proof. destruct r; simpl; split; congruence. Qed.

  Lemma fspec_from_first_at (fs : list (formula A)) (r : list E) : forall p k,
    fspec_from mt fl fs p r k
    = match first_at (fun q => decided (fspec_at fs q)) p r with
      | Some n =>
          match fspec_at fs (p ++ firstn n r) with
          | RDone w => FoDone (k + n) w
          | RFail => FoFail (k + n)
          | RNone => FoNever
          end
      | None => FoNever
      end.
  Proof.
    induction r as [|e r IH]; intros p k; [reflexivity|].
    cbn [fspec_from]. rewrite first_at_cons.
    destruct (fspec_at fs (p ++ [e])) eqn:Hat; cbn [decided firstn];
      [|now rewrite Hat, Nat.add_1_r..].
    rewrite IH. destruct (first_at _ (p ++ [e]) r) as [n|]; cbn [option_map firstn]; [|reflexivity].
    now rewrite <- app_assoc, Nat.add_succ_r.
  Qed.

  (* completion, spelled out: in step n the finished members satisfy some case (and `w` are exactly
     those cases); in no earlier step was a case satisfied or the statement failed *)
  Theorem fspec_done_iff (fs : list (formula A)) (evs : list E) (n : nat) (w : list nat) :
    fspec mt fl fs evs = FoDone n w <->
    (1 <= n <= length evs
     /\ fspec_at fs (firstn n evs) = RDone w
     /\ forall m, 1 <= m < n -> fspec_at fs (firstn m evs) = RNone).
  Proof.
    unfold fspec. rewrite fspec_from_first_at. cbn [app Nat.add]. split.
    - destruct (first_at _ [] evs) as [n'|] eqn:Hf; [|discriminate].
      apply first_at_some in Hf. destruct Hf as [Hr [_ Hlt]]. cbn [app] in Hlt.
      destruct (fspec_at fs (firstn n' evs)) eqn:Hat; intros [= <- <-].
      split; [exact Hr|]. split; [exact Hat|]. intros m Hm. apply decided_false, Hlt, Hm.
    - intros [Hr [Hd Hlt]].
      assert (Hf : first_at (fun q => decided (fspec_at fs q)) [] evs = Some n).
      { apply first_at_some. cbn [app]. split; [exact Hr|]. split; [now rewrite Hd|].
        intros m Hm. apply decided_false, Hlt, Hm. }
      now rewrite Hf, Hd.
  Qed.

  (* the winners are exactly the cases whose formula holds *)
  Theorem fspec_at_done (fs : list (formula A)) (p : list E) (w : list nat) (d : formula A) :
    fspec_at fs p = RDone w ->
    w <> [] /\ forall i, In i w <-> (i < length fs /\ eval (is_fin p) (nth i fs d) = true).
  Proof.
    unfold GroupsFail.fspec_at. destruct (indices_where (eval (is_fin p)) fs) as [|i0 w0] eqn:Hiw.
    - destruct (forallb _ fs); discriminate.
    - intros [= <-]. split; [discriminate|]. intros i.
      rewrite <- Hiw. unfold indices_where. rewrite (iw_from_sound _ fs d 0 i).
      split; [intros (j & -> & H); exact H | intros H; exists i; split; [reflexivity | exact H]].
  Qed.

  Theorem fspec_at_fail (fs : list (formula A)) (p : list E) :
    fspec_at fs p = RFail <->
    ((forall f, In f fs -> eval (is_fin p) f = false)
     /\ forall f, In f fs -> eval (not_failed p) f = false).
  Proof.
    rewrite (fspec_at_undone fs p true), forallb_forall.
    split; intros [Hn H]; (split; [exact Hn|]); intros f Hf; apply negb_true_iff, H, Hf.
  Qed.

End Proofs.
