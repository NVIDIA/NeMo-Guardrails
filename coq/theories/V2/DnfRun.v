(* C07 - executable instances of Dnf.v, Groups.v and GroupsFail.v used by the correspondence check
   (harness/c07.py).
   Atoms and events are numbers: atom i is the Spec `E<i>()` (match) or the flow `f<i>` that
   finishes on event E<i> (await/when); event j is the external event `E<j>`; an event matches
   an atom iff the numbers are equal.  Nothing here is used by the theorems, which hold for
   every atom type, event type and matching relation. *)
From Coq Require Import List Bool NArith Arith.
From NG Require Import V2.Dnf V2.Groups.
Import ListNotations.

Fixpoint formula_eqb (f g : formula N) {struct f} : bool :=
  match f, g with
  | Atom a, Atom b => N.eqb a b
  | And l, And l' =>
      (fix go (l l' : list (formula N)) : bool :=
         match l, l' with
         | [], [] => true
         | x :: xs, y :: ys => formula_eqb x y && go xs ys
         | _, _ => false
         end) l l'
  | Or l, Or l' =>
      (fix go (l l' : list (formula N)) : bool :=
         match l, l' with
         | [], [] => true
         | x :: xs, y :: ys => formula_eqb x y && go xs ys
         | _, _ => false
         end) l l'
  | _, _ => false
  end.

Definition opt_formula_eqb (a b : option (formula N)) : bool :=
  match a, b with
  | Some x, Some y => formula_eqb x y
  | None, None => true
  | _, _ => false
  end.

(* X1: (group, result of the real normalize_element_groups; None = it raised) *)
Definition check_norm (c : formula N * option (formula N)) : bool :=
  let '(f, r) := c in opt_formula_eqb (normalize f) r.

(* X3: the skeleton of the real expansion: per alternative the atoms of its `match` elements
   in order and the WaitForHeads number on its success path (None = no WaitForHeads);
   or_fork = whether an or-level ForkHead was emitted *)
Definition skeleton := (bool * list (list N * option nat))%type.

Definition skel_branch (b : branch N) : list N * option nat :=
  match b with
  | BMatch a => ([a], None)
  | BAnd ms n => (ms, Some n)
  end.

Definition skel_of (p : prog N) : skeleton :=
  match p with
  | PSingle b => (false, [skel_branch b])
  | POr bs => (true, map skel_branch bs)
  end.

Fixpoint list_eqb {X} (eqb : X -> X -> bool) (l l' : list X) : bool :=
  match l, l' with
  | [], [] => true
  | x :: xs, y :: ys => eqb x y && list_eqb eqb xs ys
  | _, _ => false
  end.

Definition opt_nat_eqb (a b : option nat) : bool :=
  match a, b with
  | Some x, Some y => Nat.eqb x y
  | None, None => true
  | _, _ => false
  end.

Definition skel_eqb (a b : skeleton) : bool :=
  Bool.eqb (fst a) (fst b)
  && list_eqb (fun x y => list_eqb N.eqb (fst x) (fst y) && opt_nat_eqb (snd x) (snd y)) (snd a) (snd b).

Definition check_compile (c : stmt * formula N * skeleton) : bool :=
  let '(st, f, sk) := c in
  match compile st f with
  | Some p => skel_eqb (skel_of p) sk
  | None => false
  end.

Definition outcome_eqb (a b : outcome) : bool :=
  match a, b with
  | OErr, OErr => true
  | ONever, ONever => true
  | OAt n, OAt m => Nat.eqb n m
  | _, _ => false
  end.

Definition run_c : stmt -> formula N -> list N -> outcome := run N.eqb.
Definition first_sat_c : formula N -> list N -> outcome := first_sat N.eqb.

(* X2: (statement kind, group, [(event sequence, step at which Done was observed on the real
   interpreter)]): the model's run and the first-satisfaction spec must both give that step *)
Definition check_run (c : stmt * formula N * list (list N * outcome)) : bool :=
  let '(st, f, obs) := c in
  forallb (fun eo : list N * outcome =>
             let '(evs, o) := eo in
             outcome_eqb (run_c st f evs) o && outcome_eqb (first_sat_c f evs) o) obs.

(* per-sequence variant, for pinpointing a disagreement *)
Definition check_run1 (c : stmt * formula N * list N * outcome) : bool :=
  let '(st, f, evs, o) := c in outcome_eqb (run_c st f evs) o.

Example check_run_ex :
  check_run (SMatch, Or [And [Atom 0%N; Atom 1%N]; Atom 2%N],
             [([0; 9; 0; 1; 2], OAt 4); ([9; 2], OAt 2); ([1; 9; 1], ONever)]%N) = true.
Proof. vm_compute. reflexivity. Qed.

Example check_norm_ex :
  check_norm (And [Atom 0%N; Or [Atom 1%N; Atom 2%N]], Some (Or [And [Atom 0%N; Atom 1%N]; And [Atom 0%N; Atom 2%N]]))%N = true.
Proof. vm_compute. reflexivity. Qed.

Example check_compile_ex :
  check_compile (SAwait, Or [And [Atom 0%N; Atom 1%N]; Atom 2%N], (true, [([0%N; 1%N], Some 2); ([2%N], None)])) = true.
Proof. vm_compute. reflexivity. Qed.

From NG Require Import V2.GroupsFail.

(* an event step is (flow number, finishes?) : (i, true) = E<i> arrives and flow f<i> finishes,
   (i, false) = StopFlow(flow_id="f<i>") : the running instances of f<i> fail *)
Definition fmt_c (a : N) (e : N * bool) : bool := N.eqb a (fst e) && snd e.
Definition ffl_c (a : N) (e : N * bool) : bool := N.eqb a (fst e) && negb (snd e).
Definition frun_c : stmt -> list (formula N) -> list (N * bool) -> foutcome := frun fmt_c ffl_c.
Definition fspec_c : list (formula N) -> list (N * bool) -> foutcome := fspec fmt_c ffl_c.

(* X3 with the failure handlers: per case (or-fork emitted?, alternatives as in `skeleton`,
   WaitForHeads number of the case's failure handler), and the WaitForHeads number at the else label *)
Definition fskeleton := (list (bool * list (list N * option nat) * option nat) * option nat)%type.

Definition fskel_of (p : fprog N) : fskeleton :=
  (map (fun c => (cp_fork c, map skel_branch (cp_branches c), cp_fail_wait c)) (fp_cases p),
   fp_else_wait p).

Definition alts_eqb (x y : list (list N * option nat)) : bool :=
  list_eqb (fun a b => list_eqb N.eqb (fst a) (fst b) && opt_nat_eqb (snd a) (snd b)) x y.

Definition fskel_eqb (a b : fskeleton) : bool :=
  list_eqb (fun x y : bool * list (list N * option nat) * option nat =>
              Bool.eqb (fst (fst x)) (fst (fst y))
              && alts_eqb (snd (fst x)) (snd (fst y))
              && opt_nat_eqb (snd x) (snd y)) (fst a) (fst b)
  && opt_nat_eqb (snd a) (snd b).

Definition check_fcompile (c : stmt * list (formula N) * fskeleton) : bool :=
  let '(st, fs, sk) := c in
  match fcompile st fs with
  | Some p => fskel_eqb (fskel_of p) sk
  | None => false
  end.

(* what was observed on the interpreter *)
Inductive fobs := ObsNever | ObsDone (n : nat) (case : nat) | ObsFail (n : nat).

Definition fobs_ok (o : foutcome) (b : fobs) : bool :=
  match o, b with
  | FoNever, ObsNever => true
  | FoDone n w, ObsDone m i => Nat.eqb n m && existsb (Nat.eqb i) w
  | FoFail n, ObsFail m => Nat.eqb n m
  | _, _ => false
  end.

Definition check_frun (c : stmt * list (formula N) * list (list (N * bool) * fobs)) : bool :=
  let '(st, fs, obs) := c in
  forallb (fun eo : list (N * bool) * fobs =>
             let '(evs, o) := eo in
             fobs_ok (frun_c st fs evs) o && fobs_ok (fspec_c fs evs) o) obs.

Definition check_frun1 (c : stmt * list (formula N) * list (N * bool) * fobs) : bool :=
  let '(st, fs, evs, o) := c in fobs_ok (frun_c st fs evs) o.

Example check_frun_ex :
  check_frun (SWhen, [Or [Atom 0%N; Atom 1%N]; Atom 2%N],
              [([(0%N, false); (2%N, false); (1%N, true)], ObsDone 3 0);
               ([(0%N, false); (1%N, false); (2%N, false)], ObsFail 3);
               ([(2%N, true)], ObsDone 1 1);
               ([(0%N, false); (2%N, false)], ObsNever)]) = true.
Proof. vm_compute. reflexivity. Qed.

Example check_fcompile_ex :
  check_fcompile (SWhen, [Or [Atom 0%N; Atom 1%N]; Atom 2%N],
                  ([(true, [([0%N], None); ([1%N], None)], Some 2); (true, [([2%N], None)], Some 1)], Some 2)) = true.
Proof. vm_compute. reflexivity. Qed.
