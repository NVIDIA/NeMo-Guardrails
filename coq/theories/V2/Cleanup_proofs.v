(* C11 - _clean_up_state (V2/Cleanup.v).  The removal loop keeps an invariant stated through
   lookups (LInv); from it comes one description of the flow states after a clean-up
   (cleanup_flows), and the theorems are its consequences. *)
From Coq Require Import ZArith List String Bool.
From NG Require Import V2.Cleanup.
Import ListNotations.
Open Scope string_scope.
Open Scope Z_scope.

Lemma slook_in {A} (l : list (string * A)) k x : slook l k = Some x -> In (k, x) l.
Proof.
  induction l as [|[k' y] r IH]; simpl; [discriminate|].
  destruct (String.eqb_spec k' k) as [->|_]; intro H.
  - injection H as ->. now left.
  - right. auto.
Qed.

Lemma in_slook {A} (l : list (string * A)) k x : NoDup (map fst l) -> In (k, x) l -> slook l k = Some x.
Proof.
  induction l as [|[k' y] r IH]; simpl; intros Hn Hi; [contradiction|].
  inversion Hn as [|? ? Hnot Hn']; subst.
  destruct Hi as [Hi|Hi].
  - injection Hi as -> ->. now rewrite String.eqb_refl.
  - destruct (String.eqb_spec k' k) as [->|_]; [|auto].
    exfalso. apply Hnot. apply in_map_iff. exists (k, x). auto.
Qed.

Lemma slook_sdelete {A} (l : list (string * A)) k u :
  slook (sdelete k l) u = if String.eqb u k then None else slook l u.
Proof.
  induction l as [|[k' y] r IH]; simpl; [now destruct (String.eqb u k)|].
  destruct (String.eqb_spec k' k) as [->|E1]; simpl.
  - rewrite IH. destruct (String.eqb_spec u k) as [_|E2]; [reflexivity|].
    destruct (String.eqb_spec k u) as [E3|_]; [now symmetry in E3|reflexivity].
  - rewrite IH. destruct (String.eqb_spec k' u) as [<-|_]; [|reflexivity].
    now destruct (String.eqb_spec k' k).
Qed.

Lemma slook_supdate {A} (l : list (string * A)) k x u :
  slook (supdate k x l) u = if String.eqb k u then option_map (fun _ => x) (slook l u) else slook l u.
Proof.
  induction l as [|[k' y] r IH]; simpl; [now destruct (String.eqb k u)|].
  destruct (String.eqb_spec k' k) as [->|E1]; simpl.
  - destruct (String.eqb k u); reflexivity || exact IH.
  - destruct (String.eqb_spec k' u) as [<-|_]; [|exact IH].
    now destruct (String.eqb_spec k k'); [symmetry in e|].
Qed.

Lemma slook_app {A} (a b : list (string * A)) k :
  slook (a ++ b) k = match slook a k with Some x => Some x | None => slook b k end.
Proof.
  induction a as [|[k' y] r IH]; simpl; [reflexivity|]. now destruct (String.eqb k' k).
Qed.

Lemma slook_map_snd {A B} (f : A -> B) (l : list (string * A)) k :
  slook (map (fun kv => (fst kv, f (snd kv))) l) k = option_map f (slook l k).
Proof.
  induction l as [|[k' y] r IH]; simpl; [reflexivity|]. destruct (String.eqb k' k); [reflexivity|exact IH].
Qed.

Lemma nodup_filter_keys {A} (f : string * A -> bool) (l : list (string * A)) :
  NoDup (map fst l) -> NoDup (map fst (filter f l)).
Proof.
  induction l as [|[k x] r IH]; simpl; intro H; [constructor|].
  inversion H as [|? ? Hn Hr]; subst. destruct (f (k, x)); simpl; [|auto].
  constructor; [|auto]. intro Hin. apply Hn. apply in_map_iff in Hin as ([k' y] & Hk & Hy).
  apply filter_In in Hy as [Hy _]. apply in_map_iff. exists (k', y). auto.
Qed.

Lemma supdate_keys {A} k (x : A) l : map fst (supdate k x l) = map fst l.
Proof.
  unfold supdate. rewrite map_map. apply map_ext. intros [k' y]. simpl. now destruct (String.eqb k' k).
Qed.

Lemma smem_in s l : smem s l = true <-> In s l.
Proof.
  induction l as [|x r [I1 I2]]; simpl; [split; [discriminate|contradiction]|].
  destruct (String.eqb_spec s x) as [->|Hne]; simpl.
  - split; [now left|reflexivity].
  - split; [auto|]. intros [H|H]; [congruence|auto].
Qed.

Lemma filter_none {A} (f : A -> bool) (l : list A) : (forall x, In x l -> f x = false) -> filter f l = [].
Proof.
  induction l as [|x r IH]; simpl; intro H; [reflexivity|].
  rewrite (H x (or_introl eq_refl)). apply IH. intros; apply H; now right.
Qed.

(* a uid list after removals: nothing new, and what left it is `gone`.  The child list of an
   instance, the flow lists of its scopes and the per-flow lists all change in this way only. *)

Definition shrunk (gone : string -> Prop) (l l' : list string) : Prop :=
  (forall x, In x l' -> In x l) /\ (forall x, In x l -> ~ In x l' -> gone x).

Lemma shrunk_refl gone l : shrunk gone l l.
Proof. split; [auto|tauto]. Qed.

Lemma shrunk_trans (g1 g2 g : string -> Prop) l l1 l2 :
  shrunk g1 l l1 -> shrunk g2 l1 l2 -> (forall x, g1 x -> g x) -> (forall x, g2 x -> g x) -> shrunk g l l2.
Proof.
  intros [S1 G1] [S2 G2] H1 H2. split; [auto|]. intros x Hx Hn.
  destruct (in_dec string_dec x l1); auto.
Qed.

Lemma shrunk_weaken (g g' : string -> Prop) l l' : shrunk g l l' -> (forall x, g x -> g' x) -> shrunk g' l l'.
Proof. intros [S G] H. split; auto. Qed.

Lemma shrunk_remove_first s l : shrunk (eq s) l (remove_first s l).
Proof.
  split; intro x; induction l as [|y r IH]; simpl; try tauto; destruct (String.eqb_spec y s) as [->|Hne]; simpl.
  - auto.
  - intros [H|H]; auto.
  - intros [H|H] Hn; [exact H|contradiction].
  - intros [H|H] Hn; [tauto|auto].
Qed.

Lemma remove_first_nodup s l : NoDup l -> NoDup (remove_first s l) /\ ~ In s (remove_first s l).
Proof.
  induction l as [|x r IH]; simpl; intro H; [split; [constructor|tauto]|].
  inversion H as [|? ? Hx Hr]; subst. destruct (String.eqb_spec x s) as [->|E]; [auto|].
  destruct (IH Hr) as [I1 I2]. split.
  - constructor; [|exact I1]. intro Hin. apply Hx. now apply (shrunk_remove_first s r).
  - intros [->|Hin]; [congruence|tauto].
Qed.

(* list.remove for each of `us` in turn *)
Definition strike (us l : list string) : list string := fold_left (fun l u => remove_first u l) us l.

Lemma strike_snoc us u l : strike (us ++ [u]) l = remove_first u (strike us l).
Proof. unfold strike. now rewrite fold_left_app. Qed.

Lemma strike_shrunk us l : shrunk (fun x => In x us) l (strike us l).
Proof.
  induction us as [|u us IH] using rev_ind; [apply shrunk_refl|]. rewrite strike_snoc.
  apply (shrunk_trans _ _ _ _ _ _ IH (shrunk_remove_first u _)); intros x Hx; apply in_or_app; [now left|].
  right. now left.
Qed.

(* list.remove drops the first occurrence only: the uid has left the list for good if the list
   had no duplicates *)
Lemma strike_nodup us l : NoDup l -> NoDup (strike us l) /\ forall x, In x us -> ~ In x (strike us l).
Proof.
  intro N. induction us as [|u us [N0 G]] using rev_ind; [split; [exact N|intros x []]|]. rewrite strike_snoc.
  destruct (remove_first_nodup u _ N0) as [N1 N2]. split; [exact N1|].
  intros x Hx Hin. apply in_app_or in Hx as [Hx|[<-|[]]]; [|exact (N2 Hin)].
  apply (G x Hx). now apply (shrunk_remove_first u).
Qed.

Lemma keep_uids_in rem l x : In x (keep_uids rem l) <-> In x l /\ ~ In x rem.
Proof.
  unfold keep_uids. rewrite filter_In, negb_true_iff, <- not_true_iff_false, smem_in. reflexivity.
Qed.

Lemma shrunk_keep_uids rem l : shrunk (fun x => In x rem) l (keep_uids rem l).
Proof.
  split; intro x; rewrite keep_uids_in; [tauto|]. intros Hx Hn.
  destruct (in_dec string_dec x rem); tauto.
Qed.

Lemma shrunk_char (gone : string -> Prop) l l' :
  shrunk gone l l' -> (forall x, In x l' -> ~ gone x) -> forall x, In x l' <-> In x l /\ ~ gone x.
Proof.
  intros [S G] H x. split; [auto|]. intros [Hx Hp]. destruct (in_dec string_dec x l'); [assumption|].
  exfalso. auto.
Qed.

Definition same_but_children (a b : inst) : Prop :=
  i_flow a = i_flow b /\ i_status a = i_status b /\ i_updated a = i_updated b /\ i_activated a = i_activated b /\
  i_parent a = i_parent b /\ i_actions a = i_actions b /\ i_heads a = i_heads b /\ i_rest a = i_rest b /\
  i_scopes a = i_scopes b.

Lemma sbc_refl a : same_but_children a a.
Proof. unfold same_but_children. tauto. Qed.

Lemma sbc_trans a b c : same_but_children a b -> same_but_children b c -> same_but_children a c.
Proof.
  unfold same_but_children. intros H1 H2. decompose [and] H1. decompose [and] H2.
  repeat split; etransitivity; eassumption.
Qed.

(* what the removal loop does to a remaining instance *)
Definition pruned (gone : string -> Prop) (a b : inst) : Prop :=
  same_but_children a b /\ shrunk gone (i_children a) (i_children b).

Lemma pruned_refl gone a : pruned gone a a.
Proof. split; [apply sbc_refl|apply shrunk_refl]. Qed.

Lemma pruned_trans (g1 g2 g : string -> Prop) a b c :
  pruned g1 a b -> pruned g2 b c -> (forall x, g1 x -> g x) -> (forall x, g2 x -> g x) -> pruned g a c.
Proof. intros [E1 S1] [E2 S2] H1 H2. split; [eapply sbc_trans|eapply shrunk_trans]; eauto. Qed.

Lemma pruned_remove_child uid a : pruned (eq uid) a (set_children a (remove_first uid (i_children a))).
Proof. split; [unfold same_but_children; simpl; tauto|apply shrunk_remove_first]. Qed.

(* the fields a removal condition may depend on *)
Record core_eq (a b : inst) : Prop := {
  ce_flow : i_flow a = i_flow b;
  ce_status : i_status a = i_status b;
  ce_updated : i_updated a = i_updated b;
  ce_activated : i_activated a = i_activated b;
  ce_parent : i_parent a = i_parent b
}.
Arguments ce_flow {a b}.
Arguments ce_status {a b}.
Arguments ce_updated {a b}.
Arguments ce_activated {a b}.
Arguments ce_parent {a b}.

Lemma core_eq_trans a b c : core_eq a b -> core_eq b c -> core_eq a c.
Proof. intros [] []. constructor; congruence. Qed.

Definition core_pred (P : string -> inst -> bool) : Prop := forall u a b, core_eq a b -> P u a = P u b.

Lemma sbc_core a b : same_but_children a b -> core_eq a b.
Proof. unfold same_but_children. intro H. decompose [and] H. now constructor. Qed.

Lemma sbc_actions a b : same_but_children a b -> i_actions a = i_actions b.
Proof. unfold same_but_children. intro H. decompose [and] H. assumption. Qed.

Lemma sbc_heads a b : same_but_children a b -> i_heads a = i_heads b.
Proof. unfold same_but_children. intro H. decompose [and] H. assumption. Qed.

Lemma sbc_rest a b : same_but_children a b -> i_rest a = i_rest b.
Proof. unfold same_but_children. intro H. decompose [and] H. assumption. Qed.

Lemma sbc_scopes a b : same_but_children a b -> i_scopes a = i_scopes b.
Proof. unfold same_but_children. intro H. decompose [and] H. assumption. Qed.

Lemma clear_core a : core_eq (clear_heads a) a.
Proof. now constructor. Qed.

Lemma is_done_in c i : is_done c i = true <-> In (i_status i) (done_set c).
Proof. apply smem_in. Qed.

Lemma removable_core c now a b : core_eq a b -> removable c now a = removable c now b.
Proof. intro H. unfold removable, is_done, old_enough. now rewrite (ce_status H), (ce_updated H), (ce_activated H). Qed.

Lemma sbc_removable c now a b : same_but_children a b -> removable c now a = removable c now b.
Proof. intro H. exact (removable_core c now a b (sbc_core a b H)). Qed.

Lemma clear_heads_removable c now a : removable c now (clear_heads a) = removable c now a.
Proof. reflexivity. Qed.

Lemma clear_heads_idem a : clear_heads (clear_heads a) = clear_heads a.
Proof.
  unfold clear_heads. simpl. f_equal. rewrite map_map. reflexivity.
Qed.

(* the flow states before and after one iteration has updated the parent's child list *)
Definition pruned_flows (uid : string) (fl fl1 : list (string * inst)) : Prop :=
  map fst fl1 = map fst fl /\
  (forall u i, slook fl1 u = Some i -> exists i0, slook fl u = Some i0 /\ pruned (eq uid) i0 i) /\
  (forall u, slook fl1 u = None -> slook fl u = None).

Lemma pruned_flows_refl uid fl : pruned_flows uid fl fl.
Proof.
  split; [reflexivity|]. split; [|auto]. intros u i Hi. exists i. split; [exact Hi|apply pruned_refl].
Qed.

Lemma pruned_flows_update uid fl p pi : slook fl p = Some pi ->
  pruned_flows uid fl (supdate p (set_children pi (remove_first uid (i_children pi))) fl).
Proof.
  intro Hp. split; [apply supdate_keys|].
  split; intros u; rewrite slook_supdate; (destruct (String.eqb_spec p u) as [<-|_]; [rewrite Hp; simpl|]).
  - intros i Hi. injection Hi as <-. exists pi. split; [reflexivity|apply pruned_remove_child].
  - intros i Hi. exists i. split; [exact Hi|apply pruned_refl].
  - discriminate.
  - auto.
Qed.

Lemma remove_one_spec s uid s' : remove_one (Some s) uid = Some s' ->
  exists fs lst fl1,
    slook (flows s) uid = Some fs /\ slook (by_flow s) (i_flow fs) = Some lst /\ In uid lst /\
    pruned_flows uid (flows s) fl1 /\
    s' = mkState (sdelete uid fl1) (supdate (i_flow fs) (remove_first uid lst) (by_flow s)) (actions s) (s_rest s).
Proof.
  intro H. simpl in H.
  destruct (slook (flows s) uid) as [fs|] eqn:Hfs; [|discriminate].
  destruct (slook (by_flow s) (i_flow fs)) as [lst|] eqn:Hl; [|discriminate].
  destruct (smem uid lst) eqn:Hm; [|discriminate].
  injection H as <-. exists fs, lst. eexists.
  split; [reflexivity|]. split; [exact Hl|]. split; [now apply smem_in|]. split; [|reflexivity].
  destruct (i_parent fs) as [p|]; [|apply pruned_flows_refl]. destruct (String.eqb p ""); [apply pruned_flows_refl|].
  destruct (slook (flows s) p) as [pi|] eqn:Hp; [|apply pruned_flows_refl].
  destruct (smem uid (i_children pi)); [now apply pruned_flows_update|apply pruned_flows_refl].
Qed.

(* the invariant of the removal loop, after the uids `done` were removed *)

Section Loop.
  Variable F1 : list (string * inst).        (* flow_states after step 1 *)
  Variable B1 : list (string * list string). (* flow_id_states *)
  Variable A1 : list (string * Z).
  Variable R1 : Z.

  Definition of_flow (f u : string) : bool :=
    match slook F1 u with Some i0 => String.eqb (i_flow i0) f | None => false end.

  Record LInv (done : list string) (s : state) : Prop := {
    li_keys : NoDup (map fst (flows s));
    li_gone : forall u, In u done -> slook (flows s) u = None;
    li_look : forall u i, slook (flows s) u = Some i ->
              exists i0, slook F1 u = Some i0 /\ pruned (fun x => In x done) i0 i;
    li_keep : forall u, slook F1 u <> None -> ~ In u done -> slook (flows s) u <> None;
    li_by : forall f, slook (by_flow s) f = option_map (strike (filter (of_flow f) done)) (slook B1 f);
    li_act : actions s = A1;
    li_rest : s_rest s = R1
  }.

  Lemma linv_init : NoDup (map fst F1) -> LInv [] (mkState F1 B1 A1 R1).
  Proof.
    intro Hk. constructor; simpl; auto.
    - intros u [].
    - intros u i H. exists i. split; [exact H|apply pruned_refl].
    - intro f. now destruct (slook B1 f).
  Qed.

  Lemma linv_step done s uid s' :
    LInv done s -> remove_one (Some s) uid = Some s' -> LInv (done ++ [uid]) s'.
  Proof.
    intros [Hkeys Hgone Hlook Hkeep Hby Hact Hrest] H.
    apply remove_one_spec in H as (fs & lst & fl1 & Hfs & Hl & Hin & (Hk1 & Hl1 & Hn1) & ->).
    assert (Hd : forall x, In x done -> In x (done ++ [uid])) by (intros; apply in_or_app; now left).
    assert (Hu : forall x, uid = x -> In x (done ++ [uid])) by (intros x <-; apply in_or_app; right; now left).
    destruct (Hlook uid fs Hfs) as (fs0 & Hfs0 & Hp). pose proof (ce_flow (sbc_core _ _ (proj1 Hp))) as Hflow.
    constructor; simpl; auto.
    - apply nodup_filter_keys. now rewrite Hk1.
    - intros u Hu'. rewrite slook_sdelete. destruct (String.eqb_spec u uid) as [|Hne]; [reflexivity|].
      apply in_app_or in Hu' as [Hu'|[Hu'|[]]]; [|congruence].
      destruct (slook fl1 u) as [i|] eqn:E; [|reflexivity].
      destruct (Hl1 u i E) as (i0 & Hi0 & _). rewrite (Hgone u Hu') in Hi0. discriminate.
    - intros u i Hi. rewrite slook_sdelete in Hi. destruct (String.eqb u uid); [discriminate|].
      destruct (Hl1 u i Hi) as (i1 & Hi1 & Hp1). destruct (Hlook u i1 Hi1) as (i0 & Hi0 & Hp0).
      exists i0. split; [exact Hi0|exact (pruned_trans _ _ _ _ _ _ Hp0 Hp1 Hd Hu)].
    - intros u H0 Hnd. rewrite slook_sdelete. destruct (String.eqb_spec u uid) as [->|_]; [exfalso; auto|].
      intro E. apply Hn1 in E. revert E. apply Hkeep; auto.
    - intro f. rewrite slook_supdate, filter_app, Hby. cbn [filter].
      replace (of_flow f uid) with (String.eqb (i_flow fs) f) by (unfold of_flow; now rewrite Hfs0, Hflow).
      destruct (String.eqb_spec (i_flow fs) f) as [<-|Hne]; [|now rewrite app_nil_r].
      rewrite Hby in Hl. destruct (slook B1 (i_flow fs)) as [l0|]; [|discriminate]. injection Hl as <-.
      simpl. now rewrite strike_snoc.
  Qed.

  (* over the option state: once an iteration has raised there is no final state to speak of *)
  Lemma linv_fold rem : forall done os s',
    match os with Some s => LInv done s | None => True end ->
    fold_left remove_one rem os = Some s' -> LInv (done ++ rem) s'.
  Proof.
    induction rem as [|u r IH]; intros done os s' HI H; cbn [fold_left] in H.
    - subst os. now rewrite app_nil_r.
    - replace (done ++ u :: r)%list with ((done ++ [u]) ++ r)%list by (rewrite <- app_assoc; reflexivity).
      apply (IH _ (remove_one os u)); [|exact H]. destruct os as [s|]; [|exact I].
      destruct (remove_one (Some s) u) as [s1|] eqn:E; [exact (linv_step done s u s1 HI E)|exact I].
  Qed.
End Loop.

Arguments li_keys {F1 B1 A1 R1 done s}.
Arguments li_gone {F1 B1 A1 R1 done s}.
Arguments li_look {F1 B1 A1 R1 done s}.
Arguments li_keep {F1 B1 A1 R1 done s}.
Arguments li_by {F1 B1 A1 R1 done s}.
Arguments li_act {F1 B1 A1 R1 done s}.
Arguments li_rest {F1 B1 A1 R1 done s}.

(* where an entry of the rebuilt table comes from, and that every listed uid has one *)
Lemma rebuild_spec old : forall uids acc B, rebuild_actions old uids acc = Some B -> forall a,
  (forall x, slook B a = Some x -> slook acc a = Some x \/ In a uids /\ slook old a = Some x) /\
  (In a uids \/ slook acc a <> None -> slook B a <> None).
Proof.
  induction uids as [|a0 r IH]; intros acc B H a; simpl in H.
  - injection H as <-. split; [now left|tauto].
  - destruct (slook acc a0) eqn:Ea; [|destruct (slook old a0) as [x0|] eqn:Eo; [|discriminate]];
      destruct (IH _ _ H a) as [Hin Hhit]; split.
    + intros x Hx. destruct (Hin x Hx) as [?|[? ?]]; [now left|right; simpl; auto].
    + intros Ha. apply Hhit. destruct Ha as [[<-|?]|?]; auto. right. congruence.
    + intros x Hx. destruct (Hin x Hx) as [Ha|[? ?]]; [|right; simpl; auto].
      rewrite slook_app in Ha. destruct (slook acc a); [now left|]. simpl in Ha.
      destruct (String.eqb_spec a0 a) as [<-|_]; [|discriminate]. right. split; [now left|congruence].
    + intros Ha. apply Hhit. rewrite slook_app. destruct Ha as [[<-|?]|?]; auto; right.
      * rewrite Ea. simpl. now rewrite String.eqb_refl.
      * now destruct (slook acc a).
Qed.

Lemma rebuild_ext old old' : forall uids acc,
  (forall a, In a uids -> slook old a = slook old' a) -> rebuild_actions old uids acc = rebuild_actions old' uids acc.
Proof.
  induction uids as [|a0 r IH]; intros acc H; simpl; [reflexivity|].
  rewrite <- (H a0 (or_introl eq_refl)).
  destruct (slook acc a0); [|destruct (slook old a0)]; auto; apply IH; intros; apply H; now right.
Qed.

Lemma rebuild_idem old uids B : rebuild_actions old uids [] = Some B -> rebuild_actions B uids [] = Some B.
Proof.
  intro H. rewrite <- H. apply rebuild_ext. intros a Ha.
  destruct (slook B a) as [x|] eqn:E; [|now destruct (proj2 (rebuild_spec _ _ _ _ H a) (or_introl Ha))].
  destruct (proj1 (rebuild_spec _ _ _ _ H a) x E) as [?|[_ ?]]; [discriminate|congruence].
Qed.

Definition heads_cleared (i i' : inst) : Prop := i_heads i' = map (fun hs => (fst hs, @nil Z)) (i_heads i).

(* how a surviving instance may differ: scores cleared, removed children pruned, removed flows
   dropped from the flow lists of its open scopes; nothing else *)
Definition frame_core (gone : string -> Prop) (i i' : inst) : Prop :=
  i_flow i' = i_flow i /\ i_status i' = i_status i /\ i_updated i' = i_updated i /\
  i_activated i' = i_activated i /\ i_parent i' = i_parent i /\ i_actions i' = i_actions i /\
  i_rest i' = i_rest i /\ heads_cleared i i' /\
  (forall c, In c (i_children i') -> In c (i_children i)) /\
  (forall c, In c (i_children i) -> ~ In c (i_children i') -> gone c).

Definition scopes_rel (gone : string -> Prop) (i i' : inst) : Prop :=
  map fst (i_scopes i') = map fst (i_scopes i) /\
  (forall k l', slook (i_scopes i') k = Some l' ->
     exists l, slook (i_scopes i) k = Some l /\ (forall x, In x l' -> In x l) /\
               (forall x, In x l -> ~ In x l' -> gone x)).

Definition frame_rel (gone : string -> Prop) (i i' : inst) : Prop :=
  frame_core gone i i' /\ scopes_rel gone i i'.

(* frame_rel with its parts named *)
Record frame (gone : string -> Prop) (i i' : inst) : Prop := {
  fr_core : core_eq i' i;
  fr_actions : i_actions i' = i_actions i;
  fr_rest : i_rest i' = i_rest i;
  fr_heads : heads_cleared i i';
  fr_children : shrunk gone (i_children i) (i_children i');
  fr_scope_keys : map fst (i_scopes i') = map fst (i_scopes i);
  fr_scopes : forall k l', slook (i_scopes i') k = Some l' ->
              exists l, slook (i_scopes i) k = Some l /\ shrunk gone l l'
}.
Arguments fr_core {gone i i'}.
Arguments fr_actions {gone i i'}.
Arguments fr_rest {gone i i'}.
Arguments fr_heads {gone i i'}.
Arguments fr_children {gone i i'}.
Arguments fr_scope_keys {gone i i'}.
Arguments fr_scopes {gone i i'}.

Lemma frame_rel_frame gone i i' : frame_rel gone i i' <-> frame gone i i'.
Proof.
  split.
  - intros [(E1 & E2 & E3 & E4 & E5 & E6 & E7 & E8 & E9) (E10 & E11)]. constructor; [constructor|..]; assumption.
  - intros [[E1 E2 E3 E4 E5] E6 E7 E8 E9 E10 E11]. split; [repeat (split; [assumption|])|split]; assumption.
Qed.

Lemma frame_of {gone i i'} : frame_rel gone i i' -> frame gone i i'.
Proof. apply frame_rel_frame. Qed.

Lemma frame_rel_core gone i i' : frame_rel gone i i' -> core_eq i' i.
Proof. intro H. exact (fr_core (frame_of H)). Qed.

Lemma heads_cleared_fix i i' : heads_cleared i i' -> clear_heads i' = i'.
Proof.
  unfold heads_cleared, clear_heads. destruct i'; simpl. intros ->. rewrite map_map. reflexivity.
Qed.

Lemma slook_purge c rem l u : slook (purge_flows c rem l) u = option_map (purge_inst c rem) (slook l u).
Proof. apply slook_map_snd. Qed.

Lemma in_purge c rem l u i : In (u, i) (purge_flows c rem l) -> exists i0, In (u, i0) l /\ i = purge_inst c rem i0.
Proof.
  unfold purge_flows. intro H. apply in_map_iff in H as ([u0 i0] & Heq & Hin). injection Heq as <- <-. eauto.
Qed.

Lemma purge_flows_keys c rem l : map fst (purge_flows c rem l) = map fst l.
Proof. unfold purge_flows. rewrite map_map. reflexivity. Qed.

Lemma actions_purge c rem l :
  flat_map (fun kv : string * inst => i_actions (snd kv)) (purge_flows c rem l)
  = flat_map (fun kv : string * inst => i_actions (snd kv)) l.
Proof. unfold purge_flows. induction l as [|[k x] r IH]; simpl; [reflexivity|now rewrite IH]. Qed.

Lemma keep_uids_nil l : keep_uids [] l = l.
Proof. unfold keep_uids. induction l as [|x r IH]; simpl; [reflexivity|f_equal; exact IH]. Qed.

Lemma purge_inst_nil c i : purge_inst c [] i = i.
Proof.
  unfold purge_inst. destruct i as [a b d e f ch ac hs sc r]. simpl. f_equal.
  - destruct (purge_children c); [apply keep_uids_nil|reflexivity].
  - destruct (purge_scopes c); [|reflexivity].
    induction sc as [|[k l] t IH]; simpl; [reflexivity|]. rewrite keep_uids_nil. now f_equal.
Qed.

Lemma purge_flows_nil c l : purge_flows c [] l = l.
Proof.
  unfold purge_flows. induction l as [|[k x] r IH]; simpl; [reflexivity|]. rewrite purge_inst_nil. now f_equal.
Qed.

(* steps 1, 3 and 3b on one instance: clear_heads, then the loop's pruning, then purge_inst *)
Lemma frame_rel_purge c rem (gone : string -> Prop) i i2 :
  pruned (fun x => In x rem) (clear_heads i) i2 -> (forall x, In x rem -> gone x) ->
  frame_rel gone i (purge_inst c rem i2).
Proof.
  intros [He Hs] Hg. pose proof (sbc_scopes _ _ He) as E9. pose proof (sbc_core _ _ He) as Hc. simpl in E9.
  apply frame_rel_frame. constructor; simpl.
  - constructor; simpl; symmetry; apply Hc.
  - symmetry. exact (sbc_actions _ _ He).
  - symmetry. exact (sbc_rest _ _ He).
  - symmetry. exact (sbc_heads _ _ He).
  - destruct (purge_children c); [|exact (shrunk_weaken _ _ _ _ Hs Hg)].
    exact (shrunk_trans _ _ _ _ _ _ Hs (shrunk_keep_uids rem _) Hg Hg).
  - rewrite <- E9. destruct (purge_scopes c); [rewrite map_map|]; reflexivity.
  - rewrite <- E9. destruct (purge_scopes c).
    + intros k l' Hl'. rewrite (slook_map_snd (keep_uids rem)) in Hl'.
      destruct (slook (i_scopes i) k) as [l|]; [|discriminate]. injection Hl' as <-.
      exists l. split; [reflexivity|exact (shrunk_weaken _ _ _ _ (shrunk_keep_uids rem l) Hg)].
    + intros k l' Hl'. exists l'. split; [exact Hl'|apply shrunk_refl].
Qed.

Section Cleared.
  Variable s : state.

  Let F1 := map (fun kv => (fst kv, clear_heads (snd kv))) (flows s).

  Lemma F1_keys : map fst F1 = map fst (flows s).
  Proof. unfold F1. rewrite map_map. reflexivity. Qed.

  Lemma F1_look u : slook F1 u = option_map clear_heads (slook (flows s) u).
  Proof. unfold F1. apply slook_map_snd. Qed.
End Cleared.

Lemma to_remove_in P s u : NoDup (map fst (flows s)) -> In u (to_remove_gen P (clear_scores s)) ->
  exists i, slook (flows s) u = Some i /\ P u (clear_heads i) = true.
Proof.
  intros Hn H. apply in_map_iff in H as ([u' i1] & <- & Hf). apply filter_In in Hf as [Hi Hr]. simpl in *.
  apply in_slook in Hi; [|now rewrite F1_keys]. rewrite F1_look in Hi.
  destruct (slook (flows s) u') as [i|]; [|discriminate]. injection Hi as <-. eauto.
Qed.

(* P: a removal condition that is fixed before the loop and reads only the fields the clean-up
   leaves alone *)

Section Theorems.
  Variable c : cfg.
  Variable P : string -> inst -> bool.
  Hypothesis HP : core_pred P.
  Variable s s' : state.
  Hypothesis Hdict : NoDup (map fst (flows s)).          (* flow_states is a dict *)
  Hypothesis Hrun : cleanup_gen c P s = Some s'.

  Let rem := to_remove_gen P (clear_scores s).

  Definition gone' (x : string) : Prop := slook (flows s') x = None.

  Lemma rem_spec u : In u rem <-> exists i, slook (flows s) u = Some i /\ P u i = true.
  Proof.
    split.
    - intro H. destruct (to_remove_in P s u Hdict H) as (i & Hi & Hr).
      exists i. split; [exact Hi|]. now rewrite <- (HP _ _ _ (clear_core i)).
    - intros (i & Hi & Hr). apply in_map_iff. exists (u, clear_heads i). split; [reflexivity|]. apply filter_In. split.
      + apply slook_in. simpl. now rewrite F1_look, Hi.
      + simpl. now rewrite (HP u _ _ (clear_core i)).
  Qed.

  (* the run, taken apart: s2 is the state after the removal loop *)
  Lemma cleanup_run :
    exists s2, LInv (flows (clear_scores s)) (by_flow s) (actions s) (s_rest s) rem s2 /\
               flows s' = purge_flows c rem (flows s2) /\ by_flow s' = by_flow s2 /\ s_rest s' = s_rest s /\
               rebuild_actions (actions s) (all_action_uids s2) [] = Some (actions s').
  Proof.
    unfold cleanup_gen in Hrun. fold rem in Hrun.
    destruct (fold_left remove_one rem (Some (clear_scores s))) as [s2|] eqn:E; [|discriminate].
    assert (HI : LInv (flows (clear_scores s)) (by_flow s) (actions s) (s_rest s) ([] ++ rem) s2)
      by (refine (linv_fold _ _ _ _ rem [] (Some _) s2 _ E); apply linv_init; simpl; now rewrite F1_keys).
    rewrite (li_act HI) in Hrun.
    destruct (rebuild_actions (actions s) (all_action_uids s2) []) as [acts|] eqn:Ea; [|discriminate].
    injection Hrun as <-. exists s2. simpl. split; [exact HI|]. split; [reflexivity|]. split; [reflexivity|].
    split; [exact (li_rest HI)|exact Ea].
  Qed.

  (* the flow states afterwards, as a function of the flow states before: an instance that
     meets the removal condition is gone, every other one is there, changed as frame_rel allows *)
  Theorem cleanup_flows u :
    match slook (flows s) u with
    | Some i => if P u i then gone' u
                else exists i', slook (flows s') u = Some i' /\ frame_rel gone' i i'
    | None => gone' u
    end.
  Proof.
    destruct cleanup_run as (s2 & HI & Hf & _).
    assert (Hl : forall x, slook (flows s') x = option_map (purge_inst c rem) (slook (flows s2) x))
      by (intro; now rewrite Hf, slook_purge).
    assert (Hg : forall x, In x rem -> gone' x).
    { intros x Hx. unfold gone'. now rewrite Hl, (li_gone HI x Hx). }
    destruct (slook (flows s) u) as [i|] eqn:Hi.
    - destruct (P u i) eqn:E; [apply Hg, rem_spec; eauto|]. rewrite Hl.
      destruct (slook (flows s2) u) as [i2|] eqn:E2.
      + destruct (li_look HI u i2 E2) as (i0 & H0 & Hp). simpl in H0. rewrite F1_look, Hi in H0.
        injection H0 as <-. exists (purge_inst c rem i2). split; [reflexivity|]. now apply frame_rel_purge.
      + exfalso. revert E2. apply (li_keep HI); [simpl; now rewrite F1_look, Hi|].
        intro H. apply rem_spec in H as (i2 & H1 & H2). congruence.
    - unfold gone'. rewrite Hl. destruct (slook (flows s2) u) as [i2|] eqn:E2; [|reflexivity].
      destruct (li_look HI u i2 E2) as (i0 & H0 & _). simpl in H0. rewrite F1_look, Hi in H0. discriminate.
  Qed.

  Lemma cleanup_kept u i : slook (flows s) u = Some i -> P u i = false ->
    exists i', slook (flows s') u = Some i' /\ frame_rel gone' i i'.
  Proof. intros Hi E. generalize (cleanup_flows u). now rewrite Hi, E. Qed.

  Lemma cleanup_survivor u i' : slook (flows s') u = Some i' ->
    exists i, slook (flows s) u = Some i /\ P u i = false /\ frame_rel gone' i i'.
  Proof.
    intro H. generalize (cleanup_flows u). unfold gone'.
    destruct (slook (flows s) u) as [i|]; [|congruence]. destruct (P u i) eqn:E; [congruence|].
    intros (i2 & H2 & Hfr). exists i. rewrite H in H2. injection H2 as <-. split; [reflexivity|]. split; [exact E|exact Hfr].
  Qed.

  Lemma cleanup_resolves x : present s' x ->
    exists ix ix', slook (flows s) x = Some ix /\ slook (flows s') x = Some ix' /\ frame_rel gone' ix ix'.
  Proof.
    unfold present. intro Hp. destruct (slook (flows s') x) as [ix'|] eqn:E; [|congruence].
    destruct (cleanup_survivor x ix' E) as (ix & Hix & _ & Hfr). eauto.
  Qed.

  Lemma cleanup_dom u :
    slook (flows s') u = None <-> slook (flows s) u = None \/ exists i, slook (flows s) u = Some i /\ P u i = true.
  Proof.
    generalize (cleanup_flows u). unfold gone'. destruct (slook (flows s) u) as [i|]; [|tauto].
    destruct (P u i) eqn:E.
    - intro H. split; [right; eauto|auto].
    - intros (i' & -> & _). split; [discriminate|]. intros [?|(i2 & H1 & H2)]; congruence.
  Qed.

  Lemma cleanup_keys : NoDup (map fst (flows s')).
  Proof.
    destruct cleanup_run as (s2 & HI & -> & _). rewrite purge_flows_keys. exact (li_keys HI).
  Qed.

  Lemma cleanup_rest : s_rest s' = s_rest s.
  Proof. now destruct cleanup_run as (s2 & _ & _ & _ & ? & _). Qed.

  (* the actions: the rebuilt table is the old one restricted to what a remaining instance lists *)
  Lemma cleanup_actions_old a x : slook (actions s') a = Some x -> slook (actions s) a = Some x.
  Proof.
    destruct cleanup_run as (s2 & _ & _ & _ & _ & Ha). intro Hx.
    destruct (proj1 (rebuild_spec _ _ _ _ Ha a) x Hx) as [?|[_ ?]]; [discriminate|assumption].
  Qed.

  Lemma cleanup_actions_kept u i a : In (u, i) (flows s') -> In a (i_actions i) -> slook (actions s') a <> None.
  Proof.
    destruct cleanup_run as (s2 & _ & Hf & _ & _ & Ha). intros Hi Hin.
    rewrite Hf in Hi. apply in_purge in Hi as (i0 & Hi0 & ->).
    apply (rebuild_spec _ _ _ _ Ha). left. apply in_flat_map. exists (u, i0). auto.
  Qed.

  Lemma cleanup_actions_ref a x :
    slook (actions s') a = Some x -> exists u i, In (u, i) (flows s') /\ In a (i_actions i).
  Proof.
    destruct cleanup_run as (s2 & _ & Hf & _ & _ & Ha). intro Hx.
    destruct (proj1 (rebuild_spec _ _ _ _ Ha a) x Hx) as [?|[H _]]; [discriminate|].
    apply in_flat_map in H as ([u i] & Hin & Hia). exists u, (purge_inst c rem i). split; [|exact Hia].
    rewrite Hf. apply in_map_iff. exists (u, i). auto.
  Qed.

  Lemma cleanup_by_flow f l' : slook (by_flow s') f = Some l' ->
    exists l, slook (by_flow s) f = Some l /\ shrunk gone' l l' /\
      (NoDup l -> NoDup l' /\ forall x i, slook (flows s) x = Some i -> P x i = true -> i_flow i = f -> ~ In x l').
  Proof.
    destruct cleanup_run as (s2 & HI & Hf & Hb & _). rewrite Hb, (li_by HI). intro Hl'.
    destruct (slook (by_flow s) f) as [l|]; [|discriminate]. injection Hl' as <-. exists l. split; [reflexivity|]. split.
    - apply (shrunk_weaken _ _ _ _ (strike_shrunk _ l)). intros x Hx. apply filter_In in Hx as [Hx _]. unfold gone'.
      now rewrite Hf, slook_purge, (li_gone HI x Hx).
    - intro N. destruct (strike_nodup (filter (of_flow (flows (clear_scores s)) f) rem) l N) as [N' G]. split; [exact N'|].
      intros x i Hi Hr Hfl. apply G, filter_In. split; [apply rem_spec; eauto|].
      unfold of_flow. simpl. rewrite F1_look, Hi. simpl. rewrite Hfl. apply String.eqb_refl.
  Qed.

  Lemma cleanup_by_flow_kept f : slook (by_flow s) f <> None -> slook (by_flow s') f <> None.
  Proof. destruct cleanup_run as (s2 & HI & _ & -> & _). rewrite (li_by HI). now destruct (slook (by_flow s) f). Qed.

  (* only instances that meet the removal condition are removed; only unreferenced actions are removed *)
  Theorem cleanup_only_done :
    (forall u i, slook (flows s) u = Some i -> slook (flows s') u = None -> P u i = true) /\
    (forall a, slook (actions s') a = None -> forall u i, In (u, i) (flows s') -> ~ In a (i_actions i)).
  Proof.
    split.
    - intros u i Hi Hn. generalize (cleanup_flows u). rewrite Hi. destruct (P u i); [reflexivity|].
      intros (i' & H & _). congruence.
    - intros a Hn u i Hi Hin. exact (cleanup_actions_kept u i a Hi Hin Hn).
  Qed.

  (* frame: everything else is unchanged *)
  Theorem cleanup_frame :
    s_rest s' = s_rest s /\
    (forall u i, slook (flows s) u = Some i -> P u i = false ->
                 exists i', slook (flows s') u = Some i' /\ frame_rel (fun x => slook (flows s') x = None) i i') /\
    (forall u i', slook (flows s') u = Some i' ->
                  exists i, slook (flows s) u = Some i /\ P u i = false) /\
    (forall a x, slook (actions s') a = Some x -> slook (actions s) a = Some x) /\
    (forall u i a, In (u, i) (flows s') -> In a (i_actions i) -> slook (actions s') a <> None) /\
    (forall f l', slook (by_flow s') f = Some l' ->
                  exists l, slook (by_flow s) f = Some l /\ (forall x, In x l' -> In x l) /\
                            (forall x, In x l -> ~ In x l' -> slook (flows s') x = None)) /\
    (forall f l, slook (by_flow s) f = Some l -> exists l', slook (by_flow s') f = Some l').
  Proof.
    split; [exact cleanup_rest|].
    split; [exact cleanup_kept|].
    split; [intros u i' Hi'; destruct (cleanup_survivor u i' Hi') as (i & ? & ? & _); eauto|].
    split; [exact cleanup_actions_old|]. split; [exact cleanup_actions_kept|]. split.
    - intros f l' Hl'. destruct (cleanup_by_flow f l' Hl') as (l & Hl & Hs & _). eauto.
    - intros f l Hl. destruct (slook (by_flow s') f) as [l'|] eqn:E; [eauto|].
      now destruct (cleanup_by_flow_kept f); [rewrite Hl|].
  Qed.

  Theorem cleanup_idempotent : cleanup_gen c P s' = Some s'.
  Proof.
    assert (Hfix : forall ui, In ui (flows s') -> clear_heads (snd ui) = snd ui /\ P (fst ui) (snd ui) = false).
    { intros [u i'] Hi. apply in_slook in Hi; [|exact cleanup_keys].
      destruct (cleanup_survivor u i' Hi) as (i & _ & Hn & Hfr). simpl. split.
      - exact (heads_cleared_fix i i' (fr_heads (frame_of Hfr))).
      - now rewrite (HP u _ _ (frame_rel_core _ _ _ Hfr)). }
    assert (Hcl : clear_scores s' = s').
    { unfold clear_scores. destruct s' as [fl bf ac rs]. simpl in *. f_equal.
      rewrite <- (map_id fl) at 2. apply map_ext_in. intros [u i] Hi. simpl. f_equal. exact (proj1 (Hfix _ Hi)). }
    assert (Hno : to_remove_gen P s' = []).
    { unfold to_remove_gen. rewrite filter_none; [reflexivity|]. intros ui Hi. exact (proj2 (Hfix _ Hi)). }
    destruct cleanup_run as (s2 & _ & Hf & _ & _ & Ha).
    unfold cleanup_gen. rewrite Hcl, Hno. simpl.
    replace (all_action_uids s') with (all_action_uids s2) by (unfold all_action_uids; now rewrite Hf, actions_purge).
    rewrite (rebuild_idem _ _ _ Ha), purge_flows_nil. now destruct s'.
  Qed.

  (* step 3b: no uid removed by this clean-up stays listed as a child or in an open scope *)
  Lemma cleanup_purged u i' :
    slook (flows s') u = Some i' ->
    (purge_children c = true -> forall x, In x (i_children i') -> ~ In x rem) /\
    (purge_scopes c = true -> forall k l x, slook (i_scopes i') k = Some l -> In x l -> ~ In x rem).
  Proof.
    destruct cleanup_run as (s2 & _ & Hf & _). intro Hi'.
    rewrite Hf, slook_purge in Hi'. destruct (slook (flows s2) u) as [i0|]; [|discriminate].
    injection Hi' as <-. simpl. split.
    - intros -> x Hx. apply keep_uids_in in Hx. tauto.
    - intros -> k l x Hl Hx. rewrite (slook_map_snd (keep_uids rem)) in Hl.
      destruct (slook (i_scopes i0) k) as [l0|]; [|discriminate]. injection Hl as <-.
      apply keep_uids_in in Hx. tauto.
  Qed.

  Lemma not_rem_present x : ~ In x rem -> present s x -> present s' x.
  Proof.
    intros Hn Hp Hg. apply cleanup_dom in Hg as [Hg|Hg]; [exact (Hp Hg)|exact (Hn (proj2 (rem_spec x) Hg))].
  Qed.

  (* the reference closure is an invariant of the clean-up (thanks to step 3b) *)
  Theorem cleanup_preserves_closed :
    purge_children c = true -> purge_scopes c = true -> closed_refs s -> closed_refs s'.
  Proof.
    intros Pc Ps [C1 C2 C3 C4]. constructor.
    - intros u i' x Hi' Hx. destruct (cleanup_survivor u i' Hi') as (i & Hi & _ & Hfr).
      destruct (cleanup_purged u i' Hi') as [Pg _]. apply (not_rem_present x (Pg Pc x Hx)).
      apply (C1 u i x Hi). now apply (fr_children (frame_of Hfr)).
    - intros u i' k l x Hi' Hl Hx. destruct (cleanup_survivor u i' Hi') as (i & Hi & _ & Hfr).
      destruct (cleanup_purged u i' Hi') as [_ Pg]. apply (not_rem_present x (Pg Ps k l x Hl Hx)).
      destruct (fr_scopes (frame_of Hfr) k l Hl) as (l0 & Hl0 & Hs). apply (C2 u i k l0 x Hi Hl0). now apply Hs.
    - intros u i' a Hi' Ha. exact (cleanup_actions_kept u i' a (slook_in _ _ _ Hi') Ha).
    - intros f l' Hl'. destruct (cleanup_by_flow f l' Hl') as (l & Hl & Hs & Hnd). destruct Hs as [Hsub _].
      destruct (C4 f l Hl) as [N Hmem]. destruct (Hnd N) as [N' G]. split; [exact N'|].
      intros u Hu. destruct (Hmem u (Hsub u Hu)) as (i & Hi & Hfl).
      destruct (P u i) eqn:E; [destruct (G u i Hi E Hfl Hu)|].
      destruct (cleanup_kept u i Hi E) as (i' & Hi' & Hfr). exists i'.
      split; [exact Hi'|]. now rewrite (ce_flow (frame_rel_core _ _ _ Hfr)).
  Qed.

  (* every lookup through a list of a remaining instance resolves after the clean-up to the
     frame-image of what it resolved to before; a uid that left a list named an instance this
     clean-up discarded; the actions a remaining instance lists are the same objects *)
  Theorem cleanup_lookups :
    purge_children c = true -> purge_scopes c = true -> closed_refs s ->
    forall u i i', slook (flows s) u = Some i -> slook (flows s') u = Some i' ->
      (forall x, In x (i_children i') ->
         exists ix ix', slook (flows s) x = Some ix /\ slook (flows s') x = Some ix' /\ frame_rel gone' ix ix') /\
      (forall x, In x (i_children i) -> ~ In x (i_children i') ->
         exists ix, slook (flows s) x = Some ix /\ P x ix = true /\ slook (flows s') x = None) /\
      (forall k l' x, slook (i_scopes i') k = Some l' -> In x l' ->
         exists ix ix', slook (flows s) x = Some ix /\ slook (flows s') x = Some ix' /\ frame_rel gone' ix ix') /\
      (forall a, In a (i_actions i') -> exists act, slook (actions s) a = Some act /\ slook (actions s') a = Some act).
  Proof.
    intros Pc Ps Hcl u i i' Hi Hi'. destruct (cleanup_preserves_closed Pc Ps Hcl) as [C1' C2' _ _].
    destruct (cleanup_survivor u i' Hi') as (i1 & Hi1 & _ & Hfr). rewrite Hi in Hi1. injection Hi1 as <-.
    split; [|split; [|split]].
    - intros x Hx. exact (cleanup_resolves x (C1' u i' x Hi' Hx)).
    - intros x Hx Hnx. pose proof (proj2 (fr_children (frame_of Hfr)) x Hx Hnx) as Hg.
      destruct (proj1 (cleanup_dom x) Hg) as [Hn|(ix & Hix & E)]; [destruct (cr_children s Hcl u i x Hi Hx Hn)|eauto].
    - intros k l' x Hl' Hx. exact (cleanup_resolves x (C2' u i' k l' x Hi' Hl' Hx)).
    - intros a Ha. pose proof (cleanup_actions_kept u i' a (slook_in _ _ _ Hi') Ha) as Hn.
      destruct (slook (actions s') a) as [act|] eqn:Ea; [|congruence]. exists act. split; [exact (cleanup_actions_old a act Ea)|reflexivity].
  Qed.

  (* the part of event dispatch that is modelled: resolving the entries of the matcher index.
     If the index only lists heads of instances that do not meet the removal condition (for
     the source's condition: that are not done, Cleanup_now.candidates_now - the invariant the
     harness checks on real states), then after the clean-up every entry resolves to the same
     head of the same instance; the instance differs only as the frame allows. *)
  Theorem cleanup_candidates (ix : index) :
    (forall name es e, slook ix name = Some es -> In e es ->
       exists i, slook (flows s) (fst e) = Some i /\ P (fst e) i = false /\ slook (i_heads i) (snd e) <> None) ->
    forall name,
      Forall2 (fun a b => exists fu hu i i', a = Some (fu, hu, i) /\ b = Some (fu, hu, i') /\ frame_rel gone' i i')
              (candidates ix s name) (candidates ix s' name).
  Proof.
    intros Hix name. unfold candidates. destruct (slook ix name) as [es|] eqn:E; [|constructor].
    pose proof (fun e => Hix name es e E) as H. clear E Hix. induction es as [|e r IH]; simpl; constructor.
    - destruct (H e (or_introl eq_refl)) as (i & Hi & Hd & Hh).
      destruct (cleanup_kept _ i Hi Hd) as (i' & Hi' & Hfr).
      exists (fst e), (snd e), i, i'. unfold resolve. rewrite Hi, Hi', (fr_heads (frame_of Hfr)).
      rewrite (slook_map_snd (fun _ => @nil Z)). destruct (slook (i_heads i) (snd e)); [simpl; auto|congruence].
    - apply IH. intros; apply H; now right.
  Qed.
End Theorems.

(* with the two done statuses, `>` and both conjuncts required, as the translator finds them in
   the source (age, purge_children, purge_scopes, needs_unneeded left open): removable => FINISHED
   or STOPPED, not activated, strictly older than the age *)
Lemma removable_meaning age0 pc ps nu now i :
  removable (mkCfg age0 true true true ["FINISHED"; "STOPPED"] pc ps nu) now i = true ->
  (i_status i = "FINISHED" \/ i_status i = "STOPPED") /\ i_activated i = 0 /\ age0 < now - i_updated i.
Proof.
  unfold removable, old_enough. simpl. intro H.
  apply andb_true_iff in H as [H H3]. apply andb_true_iff in H as [H1 H2].
  apply Z.eqb_eq in H3. apply Z.ltb_lt in H2. apply is_done_in in H1 as [H1|[H1|[]]]; auto.
Qed.
