(* V2/Life_activation.v - activation as a whole.
   First half: over any sequence of the modelled operations (StartFlow processed = start / activate /
   restart; an instance ends by itself or is stopped; an activator ends; scope ends; action events;
   status moves) the reference count of an activated flow equals the number of child-list entries of
   live instances that refer to it (`Inv`, `astep_inv`, `arun_inv`), and an entry of the same flow in a
   child list is a restarted instance (`famk`).
   Second half: the clauses of C06_activation that speak of single operations - a processed restart
   creates the next instance (`restart_processed`, clause a3), events of ended senders are dropped
   (clauses c2, c3), and when the last activator ends the reference instance and its restarted
   instances are down (`ZS`, `family_down`, `last_activator_ends`, clause c1). *)
From Coq Require Import ZArith NArith List Bool Lia.
From NG Require Import V2.Life V2.Life_proofs V2.Life_scope V2.Life_count.
Import ListNotations.
Open Scope N_scope.

(* the key list of the instance map is never changed by the lifetime operations *)
Definition keys (s : st) : list uid := map fst (flows s).

Lemma keys_upd : forall A k (v : A) m, map fst (upd k v m) = map fst m.
Proof.
  induction m as [|[k' v'] m IH]; simpl; auto.
  destruct (N.eqb k k'); simpl; congruence.
Qed.

Lemma keys_setf : forall s x i, keys (setf s x i) = keys s.
Proof. intros; unfold keys, setf; simpl. apply keys_upd. Qed.

Lemma keys_modf : forall s x g, keys (modf s x g) = keys s.
Proof. intros; unfold modf. destruct (getf s x); auto using keys_setf. Qed.

Lemma keys_flows : forall s s', flows s' = flows s -> keys s' = keys s.
Proof. intros s s' H; unfold keys; rewrite H; auto. Qed.

Lemma keys_unlink : forall s f s', unlink s f = Ok s' -> keys s' = keys s.
Proof.
  intros s f s' H. destruct (unlink_ok _ _ _ H) as [->|(p & pi & l & _ & _ & ->)]; auto using keys_setf.
Qed.

Lemma keys_restart : forall s f d s', restart s f d = Ok s' -> keys s' = keys s.
Proof.
  intros s f d s' H. destruct (restart_ok _ _ _ _ H) as (i & _ & ->).
  destruct (negb d && (0 <? i_activated i)%Z && negb (i_nis i)); auto. rewrite keys_modf. reflexivity.
Qed.

Section KeysLoops.
  Variable ab : st -> uid -> bool -> res st.
  Hypothesis Habk : forall s c d s', ab s c d = Ok s' -> keys s' = keys s.

  Lemma keys_abort_same : forall fid l s s', abort_same ab fid l s = Ok s' -> keys s' = keys s.
  Proof.
    induction l as [|c l IH]; simpl; intros s s' H; [inversion H; auto|].
    destruct (getf s c) as [ci|]; try discriminate.
    destruct (N.eqb (i_flow ci) fid); [|eauto].
    bind_inv H. rewrite (IH _ _ H), keys_modf. eauto.
  Qed.

  Lemma keys_abort_children : forall l s s', abort_children ab l s = Ok s' -> keys s' = keys s.
  Proof.
    induction l as [|c l IH]; simpl; intros s s' H; [inversion H; auto|].
    destruct (getf s c) as [ci|]; [|eauto].
    destruct (is_child_activated s ci); [eauto|].
    bind_inv H. rewrite (IH _ _ H). eauto.
  Qed.

  Lemma keys_scope_flows : forall l s s', scope_flows ab l s = Ok s' -> keys s' = keys s.
  Proof.
    induction l as [|c l IH]; simpl; intros s s' H; [inversion H; auto|].
    destruct (getf s c) as [ci|]; [|eauto].
    destruct (listening (i_status ci)); [|eauto].
    bind_inv H. rewrite (IH _ _ H). eauto.
  Qed.

  Lemma keys_deactivate : forall s f d s1 b, deactivate ab s f d = Ok (s1, b) -> keys s1 = keys s.
  Proof.
    intros s f d s1 b H. destruct (deactivate_ok _ _ _ _ _ _ H) as (i & isref & _ & _ & _ & H').
    assert (K : keys (dec s f i isref) = keys s) by (destruct isref; simpl; auto using keys_modf).
    destruct (isref && (i_activated i - 1 =? 0)%Z); [|inversion H'; subst; exact K].
    rewrite (keys_abort_same _ _ _ _ H'). exact K.
  Qed.

  Lemma keys_prologue : forall skip s f d s3 go, prologue ab skip s f d = Ok (s3, go) -> keys s3 = keys s.
  Proof.
    intros skip s f d s3 go H. destruct (prologue_ok _ _ _ _ _ _ _ H) as (s1 & b & Hd & H').
    transitivity (keys s1); [|exact (keys_deactivate _ _ _ _ _ Hd)].
    destruct H' as [| |i1 s2 i2 s3 _ _ Hc _ Ha]; auto.
    transitivity (keys s2); [exact (keys_flows _ _ (stop_actions_flows _ _ _ Ha))|exact (keys_abort_children _ _ _ Hc)].
  Qed.

  Lemma keys_ending : forall skip epi s f d s',
    (forall s3, epi s3 = Ok s' -> keys s' = keys s3) -> ending ab skip epi s f d = Ok s' -> keys s' = keys s.
  Proof.
    intros skip epi s f d s' Hepi H. destruct (ending_ok _ _ _ _ _ _ _ H) as (s3 & go & Hp & He).
    rewrite <- (keys_prologue _ _ _ _ _ _ Hp). destruct go; [auto|inversion He; auto].
  Qed.
End KeysLoops.

Lemma keys_epilogue_abort : forall s f d s', epilogue_abort s f d = Ok s' -> keys s' = keys s.
Proof.
  unfold epilogue_abort; intros s f d s' H. bind_inv H.
  rewrite (keys_restart _ _ _ _ H). unfold keys at 1. simpl. fold (keys (modf s0 f (set_status FStopped))).
  rewrite keys_modf. eapply keys_unlink; eauto.
Qed.

Lemma keys_epilogue_finish : forall s f d s', epilogue_finish s f d = Ok s' -> keys s' = keys s.
Proof.
  unfold epilogue_finish; intros s f d s' H. destruct (getf s f) as [i|]; try discriminate.
  destruct (N.eqb (i_flow i) main_id); [inversion H; apply keys_modf|].
  bind_inv H. rewrite (keys_restart _ _ _ _ H). unfold keys at 1. simpl. fold (keys s0).
  rewrite (keys_unlink _ _ _ Hb). apply keys_modf.
Qed.

Lemma keys_abort : forall n s f d s', abort n s f d = Ok s' -> keys s' = keys s.
Proof.
  induction n as [|n IH]; intros s f d s' H; [discriminate|]. rewrite abort_ending in H.
  eapply (keys_ending _ IH); [|exact H]. intros s3. apply keys_epilogue_abort.
Qed.

Lemma keys_abort_top : forall b n s f d s', abort_top b n s f d = Ok s' -> keys s' = keys s.
Proof.
  intros b [|n] s f d s' H; [discriminate|]. rewrite abort_top_ending in H.
  eapply (keys_ending _ (keys_abort n)); [|exact H]. intros s3. apply keys_epilogue_abort.
Qed.

Lemma keys_finish : forall n s f d s', finish n s f d = Ok s' -> keys s' = keys s.
Proof.
  intros n s f d s' H. rewrite finish_ending in H.
  eapply (keys_ending _ (keys_abort n)); [|exact H]. intros s3. apply keys_epilogue_finish.
Qed.

Definition nodupk (s : st) : Prop := NoDup (keys s).
Definition closedk (s : st) : Prop :=
  forall x i c, getf s x = Some i -> In c (i_children i) -> getf s c <> None.
(* the parent of an instance that is live or still activated exists (the clean-up of old instances may
   discard the parent of an ended, non-activated instance) *)
Definition needs_parent (i : inst) : Prop := live (i_status i) = true \/ i_activated i <> 0%Z.
Definition parentsk (s : st) : Prop :=
  forall x i p, getf s x = Some i -> i_parent i = Some p -> needs_parent i -> getf s p <> None.
(* THE invariant: the count of a reference instance that is still activated equals the number of
   child-list entries of live instances that refer to it *)
Definition CntInv (s : st) : Prop :=
  forall r, refshape s r -> act s r <> 0%Z -> act s r = E s r.
Definition wfs (s : st) : Prop := exists rk, ranked rk s.

Record Inv (s : st) : Prop := {
  inv_nodup : nodupk s;
  inv_closed : closedk s;
  inv_parents : parentsk s;
  inv_cnt : CntInv s;
  inv_wf : wfs s
}.

(* an entry of the same flow in a child list is a restarted instance linked to that parent *)
Definition famk (s : st) : Prop :=
  forall x xi c ci, getf s x = Some xi -> In c (i_children xi) -> getf s c = Some ci ->
    i_flow ci = i_flow xi -> i_parent ci = Some x.

Lemma E_nonneg : forall s c, (0 <= E s c)%Z.
Proof.
  intros s c. unfold E. induction (flows s) as [|[k i] l IH]; simpl; [lia|].
  assert (0 <= contrib c i)%Z by (unfold contrib; destruct (live (i_status i)); [apply occ_nonneg|lia]). lia.
Qed.

Lemma get_in : forall A k (m : list (N * A)) v, get k m = Some v -> In (k, v) m.
Proof.
  induction m as [|[k' v'] m IH]; simpl; intros v H; try discriminate.
  destruct (N.eqb k k') eqn:Ek; [apply N.eqb_eq in Ek; subst; inversion H; auto|right; auto].
Qed.

Lemma get_none_notin : forall A k (m : list (N * A)), get k m = None -> ~ In k (map fst m).
Proof.
  induction m as [|[k' v'] m IH]; simpl; intros H; auto.
  destruct (N.eqb k k') eqn:Ek; try discriminate.
  intros [->|Hin]; [rewrite N.eqb_refl in Ek; discriminate|apply IH; auto].
Qed.

Lemma nodup_in_get : forall A (m : list (N * A)) k v, NoDup (map fst m) -> In (k, v) m -> get k m = Some v.
Proof.
  induction m as [|[k' v'] m IH]; simpl; intros k v Hn Hin; [destruct Hin|].
  inversion Hn; subst. destruct Hin as [Heq|Hin].
  - inversion Heq; subst. rewrite N.eqb_refl. auto.
  - destruct (N.eqb k k') eqn:Ek.
    + apply N.eqb_eq in Ek; subst. exfalso. apply H1. apply in_map_iff. exists (k', v); auto.
    + apply IH; auto.
Qed.

Lemma E_fresh : forall s x, nodupk s -> closedk s -> getf s x = None -> E s x = 0%Z.
Proof.
  intros s x Hn Hc Hx. unfold E.
  assert (H : forall k i, In (k, i) (flows s) -> ~ In x (i_children i)).
  { intros k i Hin Hin'. exact (Hc _ _ _ (nodup_in_get _ _ _ _ Hn Hin) Hin' Hx). }
  revert H. generalize (flows s). induction l as [|[k i] l IH]; simpl; intros H; auto.
  rewrite IH by (intros; eapply H; right; eauto). unfold contrib, occ.
  rewrite (proj1 (count_occ_not_In N.eq_dec _ _) (H k i (or_introl eq_refl))). destruct (live (i_status i)); reflexivity.
Qed.

Lemma act_nonneg_stable : forall (R A : uid -> Prop) s s' c, Srel R A s s' -> (0 <= act s c)%Z -> (0 <= act s' c)%Z.
Proof.
  intros R A s s' c S H. unfold act in *. destruct (getf s' c) as [i'|] eqn:Ec'; [|lia].
  destruct (srel_bwd _ _ _ _ _ _ S Ec') as (i & Ec & Hi).
  rewrite Ec in H. apply (irel_activated _ _ _ _ Hi); auto.
Qed.

(* every instance of s' was there in s with the same parent and flow, has no new child entry and needs its
   parent no more than before: along such a step refshape goes back, famk and ranked go forward *)
Definition Back (s s' : st) : Prop :=
  forall x i', getf s' x = Some i' -> exists i, getf s x = Some i /\
    i_parent i' = i_parent i /\ i_flow i' = i_flow i /\
    (forall c, In c (i_children i') -> In c (i_children i)) /\ (needs_parent i' -> needs_parent i).

Lemma back_trans : forall s1 s2 s3, Back s1 s2 -> Back s2 s3 -> Back s1 s3.
Proof.
  intros s1 s2 s3 B1 B2 x i3 H. destruct (B2 _ _ H) as (i2 & H2 & P2 & F2 & C2 & N2).
  destruct (B1 _ _ H2) as (i1 & H1 & P1 & F1 & C1 & N1). exists i1. rewrite P2, F2. auto 7.
Qed.

Lemma srel_back : forall (R A : uid -> Prop) s s', Srel R A s s' -> Back s s'.
Proof.
  intros R A s s' S x i' Ex'. destruct (srel_bwd _ _ _ _ _ _ S Ex') as (i & Ex & Hrel).
  exists i. split; [exact Ex|]. split; [exact (irel_parent _ _ _ _ Hrel)|]. split; [exact (irel_flow _ _ _ _ Hrel)|].
  split; [intros c; apply (irel_children _ _ _ _ _ Hrel)|]. intros [Hl|Ha].
  - left. destruct (live (i_status i)) eqn:El; auto. rewrite (irel_lv _ _ _ _ Hrel El) in Hl. discriminate.
  - right. intros Hz. apply Ha. apply (irel_activated _ _ _ _ Hrel); auto.
Qed.

Lemma back_refshape : forall s s' r, Back s s' -> refshape s' r -> refshape s r.
Proof.
  intros s s' r B (i' & p & pi' & Ei' & Hp & Epi' & Hfl).
  destruct (B _ _ Ei') as (i & Ei & Pi & Fi & _). destruct (B _ _ Epi') as (pi & Epi & _ & Fp & _).
  exists i, p, pi. repeat split; auto; congruence.
Qed.

Lemma back_famk : forall s s', Back s s' -> famk s -> famk s'.
Proof.
  intros s s' B Hf x xi' c ci' Ex' Hin Ec' Hfl.
  destruct (B _ _ Ex') as (xi & Ex & _ & Fx & Cx & _). destruct (B _ _ Ec') as (ci & Ec & Pc & Fc & _).
  rewrite Pc. eapply Hf; eauto. congruence.
Qed.

Lemma back_ranked : forall rk s s', Back s s' -> ranked rk s -> ranked rk s'.
Proof.
  intros rk s s' B Hr x i' c Ex' Hin. destruct (B _ _ Ex') as (i & Ex & _ & _ & Cx & _). eapply Hr; eauto.
Qed.

(* what every operation of a run does, from a state with Inv: it keeps Inv, and famk if that held *)
Definition keeps (s s' : st) : Prop := Inv s' /\ (famk s -> famk s').

(* ... and, when no instance disappears and the key list stays, Inv is a matter of the counts *)
Lemma back_inv : forall s s', Inv s -> Back s s' -> (forall x, getf s x <> None -> getf s' x <> None) ->
  keys s' = keys s -> CntInv s' -> keeps s s'.
Proof.
  intros s s' [Hn Hc Hp _ (rk & Hr)] B Fw K Hi. split; [|apply back_famk; exact B]. split; auto.
  - unfold nodupk. rewrite K. exact Hn.
  - intros x i' c Ex' Hin. destruct (B _ _ Ex') as (i & Ex & _ & _ & Cx & _). apply Fw. eapply Hc; eauto.
  - intros x i' p Ex' Hpar Hnd. destruct (B _ _ Ex') as (i & Ex & Px & _ & _ & Nx). apply Fw. eapply Hp; eauto. congruence.
  - exists rk. eapply back_ranked; eauto.
Qed.

Lemma keeps_trans : forall s s1 s2, keeps s s1 -> (Inv s1 -> keeps s1 s2) -> keeps s s2.
Proof. intros s s1 s2 (I1 & F1) H. destruct (H I1) as (I2 & F2). split; auto. Qed.

Lemma srel_famk : forall (R A : uid -> Prop) s s', Srel R A s s' -> famk s -> famk s'.
Proof. intros R A s s' S. apply back_famk. eapply srel_back; eauto. Qed.

Lemma shift_inv : forall k s s', Inv s -> Shift k s s' -> (forall r, k r = 0%Z) -> keys s' = keys s -> keeps s s'.
Proof.
  intros k s s' HI (S & _ & K) Hk Hks. pose proof (srel_back _ _ _ _ S) as B. apply (back_inv s); auto.
  - intros x Hx. destruct (getf s x) as [i|] eqn:Ex; [|contradiction].
    destruct (srel_fwd _ _ _ _ _ _ S Ex) as (i' & -> & _). discriminate.
  - intros r Hrs' Hnz. pose proof (back_refshape _ _ _ B Hrs') as Hrs.
    assert (Hnz0 : act s r <> 0%Z) by (intros Hz; apply Hnz; eapply act0_stable; eauto).
    pose proof (inv_cnt _ HI r Hrs Hnz0) as Heq. pose proof (E_nonneg s r).
    assert (0 <= act s' r)%Z by (eapply act_nonneg_stable; eauto; lia).
    specialize (K r Hrs). rewrite Hk in K. lia.
Qed.

(* operations that change neither counts nor entries nor the hierarchy *)
Record samecnt (s s' : st) : Prop := {
  sc_keys : keys s' = keys s;
  sc_cnt : forall r, E s' r = E s r /\ act s' r = act s r;
  sc_back : Back s s';
  sc_fwd : forall x, getf s x <> None -> getf s' x <> None
}.

Lemma samecnt_flows : forall s s', flows s' = flows s -> samecnt s s'.
Proof.
  intros s s' H. repeat split.
  - apply keys_flows; auto.
  - apply E_flows; auto.
  - apply act_flows; auto.
  - intros x i' Hx. unfold getf in *. rewrite H in Hx. exists i'. repeat split; auto.
  - intros x Hx. unfold getf in *. rewrite H. auto.
Qed.

Lemma samecnt_refl : forall s, samecnt s s.
Proof. intros s. apply samecnt_flows. reflexivity. Qed.

Lemma samecnt_trans : forall s1 s2 s3, samecnt s1 s2 -> samecnt s2 s3 -> samecnt s1 s3.
Proof.
  intros s1 s2 s3 [K1 C1 B1 N1] [K2 C2 B2 N2]. split; [congruence| |eapply back_trans; eauto|auto].
  intros r. destruct (C1 r) as (E1 & A1), (C2 r) as (E2 & A2). split; congruence.
Qed.

Lemma samecnt_setf : forall s x i i', getf s x = Some i ->
  live (i_status i') = live (i_status i) -> i_children i' = i_children i -> i_activated i' = i_activated i ->
  i_parent i' = i_parent i -> i_flow i' = i_flow i -> samecnt s (setf s x i').
Proof.
  intros s x i i' Ex Hl Hc Ha Hp Hf. repeat split.
  - apply keys_setf.
  - rewrite (E_setf _ _ _ _ _ Ex). unfold contrib. rewrite Hl, Hc. lia.
  - unfold act. destruct (N.eq_dec x r) as [<-|Hne].
    + rewrite (getf_setf_same _ _ _ _ Ex), Ex. auto.
    + rewrite getf_setf_other; auto.
  - intros y j Hy. destruct (N.eq_dec x y) as [<-|Hne].
    + rewrite (getf_setf_same _ _ _ _ Ex) in Hy. inversion Hy; subst. exists i.
      unfold needs_parent. rewrite Hl, Hc, Ha. repeat split; auto.
    + rewrite getf_setf_other in Hy; auto. exists j. repeat split; auto.
  - intros y Hy. destruct (N.eq_dec x y) as [<-|Hne].
    + rewrite (getf_setf_same _ _ _ _ Ex). discriminate.
    + rewrite getf_setf_other; auto.
Qed.

Lemma samecnt_modf : forall s x g,
  (forall i, live (i_status (g i)) = live (i_status i) /\ i_children (g i) = i_children i /\
             i_activated (g i) = i_activated i /\ i_parent (g i) = i_parent i /\ i_flow (g i) = i_flow i) ->
  samecnt s (modf s x g).
Proof.
  intros s x g Hg. unfold modf. destruct (getf s x) as [i|] eqn:Ex; [|apply samecnt_refl].
  destruct (Hg i) as (Hl & Hc & Ha & Hp & Hf). eapply samecnt_setf; eauto.
Qed.

Lemma samecnt_inv : forall s s', samecnt s s' -> Inv s -> keeps s s'.
Proof.
  intros s s' [K C B Fw] HI. apply (back_inv s); auto.
  intros r Hrs Hnz. destruct (C r) as (Er & Ar). rewrite Er, Ar in *.
  apply (inv_cnt _ HI); auto. eapply back_refshape; eauto.
Qed.

Lemma keeps_emit1 : forall s s1 e, keeps s s1 -> keeps s (emit1 s1 e).
Proof. intros s s1 e H. apply (keeps_trans _ _ _ H). apply samecnt_inv. apply samecnt_flows. reflexivity. Qed.

Lemma samecnt_action_event : forall k a s, samecnt s (action_event k a s).
Proof.
  intros. apply samecnt_flows.
  destruct (action_event_spec (fun _ => True) k a s (fun _ _ => I)) as (F & _). auto.
Qed.

Lemma samecnt_advance : forall s f v, samecnt s (advance s f v).
Proof.
  intros s f v. unfold advance. destruct (getf s f) as [i|] eqn:Ef; [|apply samecnt_refl].
  destruct (listening (i_status i) && listening v) eqn:El; [|apply samecnt_refl].
  apply andb_prop in El. destruct El as (L1 & L2).
  apply (samecnt_setf _ _ _ _ Ef); auto. unfold live; simpl. rewrite L1, L2. auto.
Qed.

(* the action loop of EndScope leaves the instance map alone, except that f gives up its share *)
Lemma samecnt_scope_actions : forall rel f l s s', scope_actions rel f l s = Ok s' -> samecnt s s'.
Proof.
  induction l as [|a l IH]; simpl; intros s s' H; [inversion H; apply samecnt_refl|].
  bind_inv H. eapply samecnt_trans; [|eapply IH; eauto].
  destruct (scope_action_ok _ _ _ _ _ Hb) as (c & _ & ->).
  destruct (active (a_status c)); [|apply samecnt_refl].
  destruct (a_count c - 1 =? 0)%Z; [apply samecnt_flows; reflexivity|].
  destruct rel; [|apply samecnt_flows; reflexivity].
  eapply samecnt_trans; [apply (samecnt_flows s (seta s a (mkAct (a_status c) (a_count c - 1)%Z))); reflexivity|].
  unfold release_shared. apply samecnt_modf. intros i. simpl. auto.
Qed.

(* the flows of a scope are stopped with deactivate_flow = False: only entries are given back *)
Lemma scope_flows_shift : forall rk n l s s',
  ranked rk s -> scope_flows (abort n) l s = Ok s' -> Shift (fun _ => 0%Z) s s'.
Proof.
  induction l as [|c l IH]; simpl; intros s s' Hr H.
  - inversion H; subst. apply shift_refl.
  - destruct (getf s c) as [ci|]; [|eapply IH; eauto].
    destruct (listening (i_status ci)); [|eapply IH; eauto].
    bind_inv H. pose proof (abort_cs rk n _ _ _ _ Hr Hb) as T0.
    eapply shift_ext; [exact (shift_trans _ _ _ _ _ T0 (IH _ _ (srel_ranked _ _ _ _ _ (proj1 T0) Hr) H))|].
    intros. cbv beta. rewrite self_dec_false. reflexivity.
Qed.

Lemma end_scope_inv : forall rel n s f name s', Inv s -> end_scope rel n s f name = Ok s' -> keeps s s'.
Proof.
  intros rel n s f name s' HI H0.
  destruct (end_scope_ok _ _ _ _ _ _ H0) as (i & fl & al & rest & s0 & Ef & _ & Hb & H).
  apply (keeps_trans s (modf s f (set_scopes rest))).
  { apply samecnt_inv; [apply samecnt_modf; intros j; simpl; auto|exact HI]. }
  intros I1. destruct (inv_wf _ I1) as (rk & Hr).
  apply (keeps_trans _ s0); [|apply samecnt_inv; eapply samecnt_scope_actions; eauto].
  apply (shift_inv _ _ _ I1 (scope_flows_shift rk n _ _ _ Hr Hb) (fun _ => eq_refl)).
  eapply keys_scope_flows; eauto using keys_abort.
Qed.

Lemma keys_end_scope : forall rel n s f name s', end_scope rel n s f name = Ok s' -> keys s' = keys s.
Proof.
  intros rel n s f name s' H. destruct (end_scope_ok _ _ _ _ _ _ H) as (i & fl & al & rest & s0 & _ & _ & Hf & Ha).
  rewrite (sc_keys _ _ (samecnt_scope_actions _ _ _ _ _ Ha)), (keys_scope_flows _ (keys_abort n) _ _ _ Hf).
  apply keys_modf.
Qed.

Lemma get_app : forall A k (m1 m2 : list (N * A)),
  get k (m1 ++ m2) = match get k m1 with Some v => Some v | None => get k m2 end.
Proof.
  induction m1 as [|[k' v'] m1 IH]; simpl; intros; auto.
  destruct (N.eqb k k'); auto.
Qed.

Lemma Esum_app : forall c l1 l2, Esum c (l1 ++ l2) = (Esum c l1 + Esum c l2)%Z.
Proof. induction l1 as [|[k i] l1 IH]; simpl; intros; [lia|rewrite IH; lia]. Qed.

Lemma addf_fresh : forall s x i, getf s x = None ->
  addf s x i = mkSt (flows s ++ [(x, i)]) (acts s) (out s).
Proof. unfold addf; intros s x i H; rewrite H; auto. Qed.

Lemma getf_addf : forall s x i y, getf s x = None ->
  getf (addf s x i) y = if N.eqb x y then Some i else getf s y.
Proof.
  intros s x i y H. rewrite (addf_fresh _ _ _ H). unfold getf; simpl. rewrite get_app. simpl.
  rewrite (N.eqb_sym y x). destruct (N.eqb_spec x y) as [<-|_].
  - unfold getf in H. rewrite H. auto.
  - destruct (get y (flows s)); auto.
Qed.

Lemma E_addf : forall s x i c, getf s x = None -> E (addf s x i) c = (E s c + contrib c i)%Z.
Proof. intros s x i c H. rewrite (addf_fresh _ _ _ H). unfold E; simpl. rewrite Esum_app. simpl. lia. Qed.

Lemma keys_addf : forall s x i, getf s x = None -> keys (addf s x i) = keys s ++ [x].
Proof. intros s x i H. rewrite (addf_fresh _ _ _ H). unfold keys; simpl. rewrite map_app. auto. Qed.

Definition add_child (c : uid) (i : inst) : inst := set_children (i_children i ++ [c]) i.

Lemma E_add_child : forall s p pi c r, getf s p = Some pi ->
  E (modf s p (add_child c)) r =
  (E s r + (if live (i_status pi) then (if N.eqb c r then 1 else 0) else 0))%Z.
Proof.
  intros s p pi c r Ep. rewrite (modf_some _ _ _ _ Ep), (E_setf _ _ _ _ _ Ep). unfold contrib, add_child; simpl.
  destruct (live (i_status pi)); [|lia]. rewrite occ_app, occ_cons. unfold occ at 3. simpl. lia.
Qed.

Lemma not_done_live : forall x, done x = false -> live x = true.
Proof. destruct x; simpl; auto; discriminate. Qed.

Lemma ref_lookup_spec : forall pm s fid l r, ref_lookup pm s fid l = Some r ->
  exists ri, In (r, ri) l /\ i_flow ri = fid /\ i_activated ri <> 0%Z /\ pm r = true /\
             exists p pi, i_parent ri = Some p /\ getf s p = Some pi /\ i_flow pi <> i_flow ri.
Proof.
  induction l as [|[u i] l IH]; simpl; intros r H; try discriminate.
  destruct (N.eqb (i_flow i) fid) eqn:Ef.
  2:{ destruct (IH _ H) as (ri & Hin & Hrest). exists ri; split; auto. }
  destruct ((i_activated i =? 0)%Z ||
            match i_parent i with
            | Some p => match getf s p with Some pi => N.eqb (i_flow i) (i_flow pi) | None => true end
            | None => true end) eqn:Esk.
  { destruct (IH _ H) as (ri & Hin & Hrest). exists ri; split; auto. }
  destruct (pm u) eqn:Epm.
  2:{ destruct (IH _ H) as (ri & Hin & Hrest). exists ri; split; auto. }
  inversion H; subst. exists i. apply orb_false_elim in Esk. destruct Esk as (Ea & Ep).
  apply N.eqb_eq in Ef. apply Z.eqb_neq in Ea. repeat split; auto.
  destruct (i_parent i) as [p|]; try discriminate. destruct (getf s p) as [pi|] eqn:Epi; try discriminate.
  exists p, pi. repeat split; auto. apply N.eqb_neq in Ep. congruence.
Qed.

Lemma ref_lookup_refshape : forall pm s fid r, nodupk s -> ref_lookup pm s fid (flows s) = Some r ->
  exists ri, getf s r = Some ri /\ i_flow ri = fid /\ i_activated ri <> 0%Z /\ refshape s r /\ pm r = true.
Proof.
  intros pm s fid r Hn H. destruct (ref_lookup_spec _ _ _ _ _ H) as (ri & Hin & Hf & Ha & Hpm & p & pi & Hp & Epi & Hfl).
  pose proof (nodup_in_get _ _ _ _ Hn Hin) as Hg. exists ri. repeat split; auto.
  exists ri, p, pi. auto.
Qed.

Lemma nodup_snoc : forall (l : list uid) x, NoDup l -> ~ In x l -> NoDup (l ++ [x]).
Proof. intros l x Hn Hx. apply (NoDup_Add (Add_app x l [])). rewrite app_nil_r. auto. Qed.

(* What a processed StartFlow does to the hierarchy: ONE child entry c is appended to the list of q.
   The instance at c is new (linked to q, no children) or an existing one of which only the count has
   changed; every other instance is as it was. *)
Definition added (s s' : st) (c q : uid) (qi ci' : inst) : Prop :=
  (forall r, E s' r = (E s r + (if live (i_status qi) then if N.eqb c r then 1 else 0 else 0))%Z) /\
  forall y, getf s' y = if N.eqb c y then Some ci' else if N.eqb q y then Some (add_child c qi) else getf s y.

Section AddEntry.
  Variables (s s' : st) (c q : uid) (qi ci' : inst).
  Hypothesis HI : Inv s.
  Hypothesis Eq : getf s q = Some qi.
  Hypothesis HA : added s s' c q qi ci'.
  Hypothesis Hc : (exists ci, getf s c = Some ci /\ i_parent ci' = i_parent ci /\ i_flow ci' = i_flow ci /\
                              i_children ci' = i_children ci /\ (needs_parent ci' -> needs_parent ci)) \/
                  (getf s c = None /\ i_parent ci' = Some q /\ i_children ci' = []).

  Lemma ae_ex : forall y, getf s y <> None -> getf s' y <> None.
  Proof.
    intros y Hy. rewrite (proj2 HA). destruct (N.eqb c y); [discriminate|]. destruct (N.eqb q y); [discriminate|auto].
  Qed.

  Lemma ae_shape : forall y i', getf s' y = Some i' ->
    (exists i, getf s y = Some i /\ i_parent i' = i_parent i /\ i_flow i' = i_flow i /\
               (forall ch, In ch (i_children i') -> In ch (i_children i) \/ (ch = c /\ y = q)) /\
               (needs_parent i' -> needs_parent i)) \/
    (y = c /\ getf s c = None /\ i_parent i' = Some q /\ i_children i' = []).
  Proof.
    intros y i' Hy. rewrite (proj2 HA) in Hy. destruct (N.eqb c y) eqn:Eyc.
    - apply N.eqb_eq in Eyc; subst y. inversion Hy; subst i'.
      destruct Hc as [(ci & Eci & P & F & C & Nd)|Hnew]; [left|right; exact (conj eq_refl Hnew)].
      exists ci. rewrite C. repeat split; auto.
    - left. destruct (N.eqb q y) eqn:Eyq.
      + apply N.eqb_eq in Eyq; subst y. inversion Hy; subst i'. exists qi. repeat split; auto.
        simpl. intros ch Hin. apply in_app_or in Hin. destruct Hin as [|[<-|[]]]; auto.
      + exists i'. repeat split; auto.
  Qed.

  Lemma ae_act : forall r, r <> c -> act s' r = act s r.
  Proof.
    intros r Hr. unfold act. rewrite (proj2 HA). destruct (N.eqb_spec c r) as [->|_]; [contradiction|].
    destruct (N.eqb_spec q r) as [<-|_]; auto. rewrite Eq. reflexivity.
  Qed.

  Lemma ae_cnt : forall r, r <> c -> refshape s' r -> act s' r <> 0%Z -> act s' r = E s' r.
  Proof.
    intros r Hr (i' & p0 & p0i' & Ei' & Hp0 & Ep0 & Hfl) Hnz. rewrite (ae_act _ Hr) in *.
    assert (Erc : N.eqb c r = false) by (apply N.eqb_neq; auto). rewrite (proj1 HA), Erc.
    destruct (ae_shape _ _ Ei') as [(i & Ei & Hpi & Hfi & _)|(-> & _)]; [|contradiction].
    assert (Hrs : refshape s r).
    { destruct (ae_shape _ _ Ep0) as [(p0i & Ep0s & _ & Hfp & _)|(-> & Hnew & _)].
      - exists i, p0, p0i. repeat split; auto; congruence.
      - (* the parent of an activated instance exists *)
        exfalso. apply (inv_parents _ HI _ _ c Ei); auto; [congruence|].
        right. rewrite <- (act_getf _ _ _ Ei). auto. }
    rewrite (inv_cnt _ HI r Hrs Hnz). destruct (live (i_status qi)); lia.
  Qed.

  (* given the count of c itself, and that c is linked to q if it is of the flow of q *)
  Lemma ae_keeps : nodupk s' -> wfs s' -> (refshape s' c -> act s' c <> 0%Z -> act s' c = E s' c) ->
    (i_flow ci' = i_flow qi -> i_parent ci' = Some q) -> keeps s s'.
  Proof.
    intros Hn Hw Hcc Hcq. split; [split; auto|].
    - intros y i' ch Hy Hin.
      destruct (ae_shape _ _ Hy) as [(i & Ei & _ & _ & Hch & _)|(_ & _ & _ & Hnil)]; [|rewrite Hnil in Hin; destruct Hin].
      destruct (Hch _ Hin) as [Hin0|(-> & _)]; [apply ae_ex; eapply (inv_closed _ HI); eauto|].
      rewrite (proj2 HA), N.eqb_refl. discriminate.
    - intros y i' p0 Hy Hpar Hnd. apply ae_ex.
      destruct (ae_shape _ _ Hy) as [(i & Ei & Hp & _ & _ & Hn')|(_ & _ & Hp & _)]; [|congruence].
      eapply (inv_parents _ HI); eauto. congruence.
    - intros r Hrs Hnz. destruct (N.eq_dec r c) as [->|Hne]; [auto|apply ae_cnt; auto].
    - intros Hf y yi' ch chi' Ey' Hin Ech' Hfl.
      destruct (ae_shape _ _ Ey') as [(yi & Ey & _ & Fy & Hch & _)|(_ & _ & _ & Hnil)]; [|rewrite Hnil in Hin; destruct Hin].
      destruct (Hch _ Hin) as [Hin0|(-> & ->)].
      + destruct (ae_shape _ _ Ech') as [(chi & Ech & Pc & Fc & _)|(-> & Hnew & _)].
        * rewrite Pc. eapply Hf; eauto. congruence.
        * exfalso. eapply (inv_closed _ HI); eauto.
      + rewrite (proj2 HA), N.eqb_refl in Ech'. inversion Ech'; subst chi'. apply Hcq.
        rewrite Eq in Ey. inversion Ey; subst yi. congruence.
  Qed.
End AddEntry.

Lemma start_link_new : forall s x fid q qi a,
  getf s x = None -> fid <> main_id -> getf s q = Some qi ->
  exists s', start_link (addf s x (new_inst fid)) x q a = Ok s' /\
    keys s' = keys s ++ [x] /\ added s s' x q qi (mkInst fid FWaiting (Some q) [] [] [] a false).
Proof.
  intros s x fid q qi a Hx Hm Eq.
  assert (Hqx : N.eqb q x = false) by (apply N.eqb_neq; intros ->; congruence).
  assert (Hxq : N.eqb x q = false) by (rewrite N.eqb_sym; exact Hqx).
  assert (G1 : forall y, getf (addf s x (new_inst fid)) y = if N.eqb x y then Some (new_inst fid) else getf s y)
    by (intros; apply getf_addf; auto).
  unfold start_link. rewrite (G1 x), N.eqb_refl. simpl i_flow.
  destruct (N.eqb fid main_id) eqn:Em; [apply N.eqb_eq in Em; contradiction|].
  rewrite (G1 q), Hxq, Eq. change (fun i : inst => set_children (i_children i ++ [x]) i) with (add_child x).
  eexists; split; [reflexivity|]. split; [|split].
  - rewrite !keys_modf. apply keys_addf; auto.
  - intros r. rewrite E_modf_same by auto.
    rewrite (E_add_child _ _ qi) by (rewrite getf_modf, Hxq, G1, Hxq; exact Eq).
    rewrite E_modf_same by auto. rewrite (E_addf _ _ _ _ Hx). unfold contrib, occ; simpl. lia.
  - intros y. rewrite !getf_modf, !G1.
    destruct (N.eqb_spec x y) as [<-|_]; [rewrite Hqx; reflexivity|].
    destruct (N.eqb_spec q y) as [<-|_]; [rewrite Eq|]; reflexivity.
Qed.

Lemma create_link_inv : forall s x fid q qi a s',
  Inv s -> getf s x = None -> fid <> main_id -> getf s q = Some qi ->
  (i_flow qi <> fid -> live (i_status qi) = true /\ (a = 0 \/ a = 1)%Z) ->
  start_link (addf s x (new_inst fid)) x q a = Ok s' -> wfs s' -> keeps s s'.
Proof.
  intros s x fid q qi a s' HI Hx Hm Eq Hcond H Hwf.
  destruct (start_link_new s x fid q qi a Hx Hm Eq) as (s'' & H' & K & HA).
  rewrite H in H'. inversion H'; subst s''. clear H'. pose proof HA as (HE & G).
  apply (ae_keeps s s' x q qi _ HI Eq HA (or_intror (conj Hx (conj eq_refl eq_refl)))); auto.
  - unfold nodupk. rewrite K. apply nodup_snoc; [apply HI|]. apply (get_none_notin _ _ _ Hx).
  - (* the new instance is a reference instance only under a live parent of another flow, with marker 1 *)
    intros (i' & p0 & p0i & Ei' & Hp0 & Ep0i & Hflp) Hnz.
    assert (Hxq : N.eqb x q = false) by (apply N.eqb_neq; intros ->; congruence).
    rewrite G, N.eqb_refl in Ei'. inversion Ei'; subst i'. simpl in Hp0. inversion Hp0; subst p0.
    rewrite G, Hxq, N.eqb_refl in Ep0i. inversion Ep0i; subst p0i. simpl in Hflp.
    destruct (Hcond Hflp) as (Hl & Ha). unfold act in *. rewrite G, N.eqb_refl in *. simpl in *.
    rewrite HE, Hl, N.eqb_refl, (E_fresh _ _ (inv_nodup _ HI) (inv_closed _ HI) Hx). lia.
Qed.

(* (re-)activation of an already activated flow: count + 1 and one more entry of the activator *)
Lemma reactivate_inv : forall s r ri p pi s1 e,
  Inv s -> getf s r = Some ri -> refshape s r -> i_activated ri <> 0%Z ->
  getf s p = Some pi -> live (i_status pi) = true -> i_flow pi <> i_flow ri ->
  s1 = modf (modf s r (fun i => set_activated (i_activated i + 1)%Z i)) p (add_child r) ->
  wfs s1 -> keeps s (emit1 s1 e).
Proof.
  intros s r ri p pi s1 e HI Er Hrs Ha Ep Hl Hfl Hs1 Hwf. apply keeps_emit1.
  assert (Hrp : N.eqb r p = false) by (apply N.eqb_neq; intros ->; rewrite Er in Ep; inversion Ep; subst; contradiction).
  assert (HA : added s s1 r p pi (set_activated (i_activated ri + 1)%Z ri)).
  { subst s1. split.
    - intros r0. rewrite (E_add_child _ _ pi) by (rewrite getf_modf, Hrp; exact Ep).
      rewrite E_modf_same by auto. reflexivity.
    - intros y. rewrite !getf_modf.
      destruct (N.eqb_spec p y) as [<-|_]; [rewrite Hrp, Ep; reflexivity|].
      destruct (N.eqb_spec r y) as [<-|_]; [rewrite Er|]; reflexivity. }
  pose proof HA as (HE & G). apply (ae_keeps s s1 r p pi _ HI Ep HA); auto.
  - left. exists ri. repeat split; auto. intros _; right; exact Ha.
  - unfold nodupk. subst s1. rewrite !keys_modf. apply HI.
  - intros _ _. rewrite HE, Hl, N.eqb_refl. unfold act. rewrite G, N.eqb_refl. simpl.
    rewrite <- (inv_cnt _ HI r Hrs); rewrite (act_getf _ _ _ Er); auto.
  - intros Heq. simpl in Heq. congruence.
Qed.

(* a well-formed StartFlow event: a flow that is started by a flow of ANOTHER flow id carries the
   marker 0 (start / await) or 1 (`activate` sends True); only restarts, which come from an
   instance of the same flow, carry the count *)
Definition ev_wf (s : st) (e : sfev) : Prop :=
  forall p pi, sf_src e = Some p -> getf s p = Some pi -> i_flow pi <> sf_flow e ->
    (sf_activated e = 0 \/ sf_activated e = 1)%Z.

Lemma ev_wf_marker : forall s e, (sf_activated e = 0 \/ sf_activated e = 1)%Z -> ev_wf s e.
Proof. intros s e H p pi _ _ _. exact H. Qed.

Lemma ev_wf_same_flow : forall s e p pi,
  sf_src e = Some p -> getf s p = Some pi -> i_flow pi = sf_flow e -> ev_wf s e.
Proof. intros s e p pi Hs Hg Hf p' pi' Hs' Hg' Hne. exfalso. apply Hne. congruence. Qed.

Lemma start_dropped_src : forall s e p si, sf_src e = Some p -> getf s p = Some si ->
  start_dropped s e = done (i_status si) &&
                      (negb (N.eqb (i_flow si) (sf_flow e)) || (negb (sf_activated e =? 0)%Z && (i_activated si =? 0)%Z)).
Proof. intros s e p si Hs Hp. unfold start_dropped. rewrite Hs, Hp. reflexivity. Qed.

(* what processing a StartFlow event with a fresh uid does: nothing (main flow, or the event is dropped);
   a new instance linked under q - the sender, or for a restart a reference instance of the same flow;
   or one more activation of the reference instance r by the sender p *)
Theorem start_flow_inv : forall pm s e s',
  Inv s -> getf s (sf_uid e) = None -> ev_wf s e -> start_flow pm s e = Ok s' -> wfs s' -> keeps s s'.
Proof.
  unfold start_flow, start_proc; intros pm s e s' HI Hx Hwfe H Hwf.
  destruct (N.eqb (sf_flow e) main_id) eqn:Em; [simpl in H; inversion H; subst; split; auto|].
  apply N.eqb_neq in Em.
  destruct (start_dropped s e) eqn:Edrop; [simpl in H; inversion H; subst; split; auto|].
  destruct (sf_src e) as [p|] eqn:Esrc; [|simpl in H; discriminate].
  destruct (getf s p) as [si|] eqn:Ep; [|simpl in H; discriminate].
  (* a sender of another flow is live, as the event was not dropped, and sends the marker 0 or 1 *)
  assert (Hcond : i_flow si <> sf_flow e ->
                  live (i_status si) = true /\ (sf_activated e = 0 \/ sf_activated e = 1)%Z).
  { intros Hfl. split; [|eapply Hwfe; eauto]. rewrite (start_dropped_src _ _ _ _ Esrc Ep) in Edrop.
    apply not_done_live. destruct (done (i_status si)); auto. simpl in Edrop.
    destruct (N.eqb (i_flow si) (sf_flow e)) eqn:Ef; [apply N.eqb_eq in Ef; contradiction|]. simpl in Edrop. discriminate. }
  destruct (if (sf_activated e =? 0)%Z then None else ref_lookup pm s (sf_flow e) (flows s)) as [r|] eqn:Est.
  - assert (Hlk : ref_lookup pm s (sf_flow e) (flows s) = Some r).
    { destruct (sf_activated e =? 0)%Z; [discriminate|auto]. }
    destruct (ref_lookup_refshape _ _ _ _ (inv_nodup _ HI) Hlk) as (ri & Er & Hfr & Har & Hrs & _).
    destruct (N.eqb (sf_flow e) (i_flow si)) eqn:Echild; simpl in H.
    + (* a restart: the new instance is linked under the reference instance, which is of its flow *)
      apply (create_link_inv s (sf_uid e) (sf_flow e) r ri (sf_activated e) s' HI Hx Em Er); auto.
      intros Hne. contradiction.
    + (* one more activation of r by the sender p *)
      apply N.eqb_neq in Echild. injection H as <-.
      assert (Hne : i_flow si <> sf_flow e) by congruence.
      refine (reactivate_inv s r ri p si _ _ HI Er Hrs Har Ep (proj1 (Hcond Hne)) _ eq_refl Hwf). congruence.
  - (* a new instance linked under the sender *)
    apply (create_link_inv s (sf_uid e) (sf_flow e) p si (sf_activated e) s' HI Hx Em Ep); auto.
Qed.

Inductive aop :=
| AStart (pm : uid -> bool) (e : sfev)   (* a StartFlow event is processed: start / activate / queued restart *)
| AAbort (f : uid) (r : bool)            (* an instance fails or is stopped: _abort_flow(f, restart_flow = r) *)
| AFinish (f : uid)                      (* an instance finishes: _finish_flow(f) *)
| AEndScope (f : uid) (name : N)
| AEvent (k : akind) (a : uid)
| AAdvance (f : uid) (v : fstatus).

Definition astep (rel : bool) (fuel : nat) (s : st) (o : aop) : res st :=
  match o with
  | AStart pm e => start_flow pm s e
  | AAbort f r => abort_top r fuel s f false
  | AFinish f => finish fuel s f false
  | AEndScope f name => end_scope rel fuel s f name
  | AEvent k a => Ok (action_event k a s)
  | AAdvance f v => Ok (advance s f v)
  end.

(* side conditions: fresh uid and well-formed event for a start, hierarchy stays well-founded after
   a (re-)activation, the main flow is not among the flows that finish (it restarts in place and
   keeps its child entries; every activator is one of its descendants and ends with it) *)
Definition aok (s : st) (o : aop) (s' : st) : Prop :=
  match o with
  | AStart pm e => getf s (sf_uid e) = None /\ ev_wf s e /\ wfs s'
  | AFinish f => forall i, getf s f = Some i -> i_flow i <> main_id
  | _ => True
  end.

Theorem astep_inv : forall rel fuel s o s', Inv s -> astep rel fuel s o = Ok s' -> aok s o s' -> keeps s s'.
Proof.
  intros rel fuel s o s' HI H Hok. destruct o as [pm e|f r|f|f name|k a|f v]; simpl in *.
  - destruct Hok as (Hx & Hw & Hwf). eapply start_flow_inv; eauto.
  - destruct (inv_wf _ HI) as (rk & Hr).
    eapply shift_inv; [exact HI|eapply abort_top_cs; eauto|apply self_dec_false|eapply keys_abort_top; eauto].
  - destruct (inv_wf _ HI) as (rk & Hr).
    destruct (getf s f) as [i|] eqn:Ef.
    + eapply shift_inv; [exact HI|eapply finish_cs; eauto|apply self_dec_false|eapply keys_finish; eauto].
    + unfold finish, prologue, deactivate in H. rewrite Ef in H. discriminate.
  - eapply end_scope_inv; eauto.
  - inversion H; subst. eapply samecnt_inv; eauto. apply samecnt_action_event.
  - inversion H; subst. eapply samecnt_inv; eauto. apply samecnt_advance.
Qed.

Fixpoint arun (rel : bool) (fuel : nat) (l : list aop) (s : st) : res st :=
  match l with
  | [] => Ok s
  | o :: l' => bind (astep rel fuel s o) (arun rel fuel l')
  end.

Fixpoint aoks (rel : bool) (fuel : nat) (l : list aop) (s : st) : Prop :=
  match l with
  | [] => True
  | o :: l' => forall s1, astep rel fuel s o = Ok s1 -> aok s o s1 /\ aoks rel fuel l' s1
  end.

Lemma aoks_cons : forall rel fuel o l s s1,
  astep rel fuel s o = Ok s1 -> aok s o s1 -> aoks rel fuel l s1 -> aoks rel fuel (o :: l) s.
Proof. intros rel fuel o l s s1 H Ho Hl s1' H'. rewrite H in H'. inversion H'; subst. auto. Qed.

Lemma arun_ind : forall (P : st -> Prop) rel fuel,
  (forall s o s', P s -> astep rel fuel s o = Ok s' -> aok s o s' -> P s') ->
  forall l s s', P s -> arun rel fuel l s = Ok s' -> aoks rel fuel l s -> P s'.
Proof.
  intros P rel fuel Hstep. induction l as [|o l IH]; simpl; intros s s' HP H Hok.
  - inversion H; subst; auto.
  - bind_inv H. destruct (Hok _ Hb) as (Ho & Hrest). exact (IH s0 s' (Hstep _ _ _ HP Hb Ho) H Hrest).
Qed.

Theorem arun_inv : forall rel fuel l s s', Inv s -> arun rel fuel l s = Ok s' -> aoks rel fuel l s -> Inv s'.
Proof. intros rel fuel. apply arun_ind. intros s o s' HI H Hok. apply (astep_inv _ _ _ _ _ HI H Hok). Qed.

Lemma ref_lookup_complete : forall pm s fid l r ri,
  In (r, ri) l -> i_flow ri = fid -> i_activated ri <> 0%Z -> pm r = true ->
  (exists p pi, i_parent ri = Some p /\ getf s p = Some pi /\ i_flow pi <> i_flow ri) ->
  exists r0, ref_lookup pm s fid l = Some r0.
Proof.
  induction l as [|[u i] l IH]; simpl; intros r ri Hin Hf Ha Hpm Hpar; [destruct Hin|].
  destruct Hin as [Heq|Hin].
  - inversion Heq; subst u i. subst fid. rewrite N.eqb_refl.
    destruct Hpar as (p & pi & Hp & Epi & Hfl). rewrite Hp, Epi.
    destruct (i_activated ri =? 0)%Z eqn:Ez; [apply Z.eqb_eq in Ez; contradiction|].
    destruct (N.eqb (i_flow ri) (i_flow pi)) eqn:Efl; [apply N.eqb_eq in Efl; congruence|].
    simpl. rewrite Hpm. eauto.
  - destruct (N.eqb (i_flow i) fid); [|eapply IH; eauto].
    match goal with |- context [if ?b then _ else _] => destruct b end; [eapply IH; eauto|].
    destruct (pm u); [eauto|eapply IH; eauto].
Qed.

(* C06_activation a3: the restart of an activated flow that is still activated, when processed, creates the new
   instance (WAITING, i.e. listening), links it under a reference instance of the flow that is
   activated, with the count as marker *)
Theorem restart_processed : forall pm s r ri e,
  Inv s -> getf s r = Some ri -> refshape s r -> i_activated ri <> 0%Z -> pm r = true ->
  i_flow ri <> main_id ->
  sf_flow e = i_flow ri -> sf_src e = Some r -> sf_activated e <> 0%Z -> getf s (sf_uid e) = None ->
  exists s' r0 r0i,
    start_flow pm s e = Ok s' /\
    getf s r0 = Some r0i /\ i_flow r0i = i_flow ri /\ i_activated r0i <> 0%Z /\ refshape s r0 /\
    getf s' (sf_uid e) = Some (mkInst (i_flow ri) FWaiting (Some r0) [] [] [] (sf_activated e) false) /\
    getf s' r0 = Some (add_child (sf_uid e) r0i) /\
    lst s' (sf_uid e) = true.
Proof.
  intros pm s r ri e HI Er Hrs Ha Hpm Hmain Hfl Hsrc Hact Hx.
  assert (Hin : In (r, ri) (flows s)) by (apply get_in; exact Er).
  destruct Hrs as (ri0 & p & pi & Er0 & Hp & Epi & Hflp). rewrite Er in Er0. inversion Er0; subst ri0.
  destruct (ref_lookup_complete pm s (i_flow ri) (flows s) r ri Hin eq_refl Ha Hpm) as (r0 & Hlk); [eauto|].
  destruct (ref_lookup_refshape _ _ _ _ (inv_nodup _ HI) Hlk) as (r0i & Er0i & Hf0 & Ha0 & Hrs0 & _).
  destruct (start_link_new s (sf_uid e) (i_flow ri) r0 r0i (sf_activated e) Hx Hmain Er0i) as (s' & Hl & _ & _ & G).
  exists s', r0, r0i.
  assert (Hsf : start_flow pm s e = Ok s').
  { unfold start_flow, start_proc. rewrite Hfl.
    destruct (N.eqb (i_flow ri) main_id) eqn:Em; [apply N.eqb_eq in Em; contradiction|].
    assert (Hd : start_dropped s e = false).
    { rewrite (start_dropped_src _ _ _ _ Hsrc Er), Hfl, N.eqb_refl. simpl.
      destruct (i_activated ri =? 0)%Z eqn:Ez; [apply Z.eqb_eq in Ez; contradiction|].
      rewrite andb_false_r. apply andb_false_r. }
    rewrite Hd, Hsrc, Er.
    destruct (sf_activated e =? 0)%Z eqn:Ez; [apply Z.eqb_eq in Ez; contradiction|].
    rewrite Hlk, N.eqb_refl. simpl. exact Hl. }
  repeat split; auto.
  - rewrite G, N.eqb_refl. auto.
  - rewrite G. destruct (N.eqb_spec (sf_uid e) r0) as [E0|_]; [congruence|]. rewrite N.eqb_refl. auto.
  - unfold lst. rewrite G, N.eqb_refl. auto.
Qed.

Theorem no_entry_no_activation : forall s r, Inv s -> refshape s r -> E s r = 0%Z -> act s r = 0%Z.
Proof.
  intros s r HI Hrs HE. destruct (Z.eq_dec (act s r) 0) as [|Hnz]; auto.
  rewrite (inv_cnt _ HI r Hrs Hnz). auto.
Qed.

(* an event that one of the two done-source guards rejects changes nothing *)
Lemma start_flow_dropped : forall pm s e, start_dropped s e = true -> start_flow pm s e = Ok s.
Proof.
  intros pm s e H. unfold start_flow, start_proc. rewrite H. destruct (N.eqb (sf_flow e) main_id); reflexivity.
Qed.

(* C06_activation c2: a restart that is still queued when the count has reached 0 is dropped *)
Theorem queued_restart_dropped : forall pm s r ri e,
  getf s r = Some ri -> done (i_status ri) = true -> i_activated ri = 0%Z ->
  sf_src e = Some r -> sf_activated e <> 0%Z ->
  start_flow pm s e = Ok s.
Proof.
  intros pm s r ri e Er Hd Ha Hsrc Hact. apply start_flow_dropped.
  rewrite (start_dropped_src _ _ _ _ Hsrc Er), Hd, Ha. apply Z.eqb_neq in Hact. rewrite Hact. apply orb_true_r.
Qed.

(* C06_activation c3: so is the start / activation sent by a flow that has ended meanwhile *)
Theorem queued_start_of_ended_sender_dropped : forall pm s p pi e,
  getf s p = Some pi -> done (i_status pi) = true -> i_flow pi <> sf_flow e -> sf_src e = Some p ->
  start_flow pm s e = Ok s.
Proof.
  intros pm s p pi e Ep Hd Hfl Hsrc. apply start_flow_dropped.
  rewrite (start_dropped_src _ _ _ _ Hsrc Ep), Hd. apply N.eqb_neq in Hfl. rewrite Hfl. reflexivity.
Qed.

(* when the count of an activated flow reaches 0 during an operation, its reference instance and the
   restarted instances under it are not listening afterwards *)
Definition family_down (s s' : st) (c : uid) : Prop :=
  lst s' c = false /\
  (refshape s c -> forall ci y yi, getf s c = Some ci -> In y (i_children ci) -> getf s y = Some yi ->
     i_flow yi = i_flow ci -> i_parent yi = Some c -> lst s' y = false).

Definition ZS (X : uid -> Prop) (s s' : st) : Prop :=
  forall c, ~ X c -> refshape s c -> (0 < act s c)%Z -> act s' c = 0%Z -> family_down s s' c.

Definition noX : uid -> Prop := fun _ => False.

Lemma family_down_mono : forall s s1 s2 c, SrelT s1 s2 -> family_down s s1 c -> family_down s s2 c.
Proof.
  intros s s1 s2 c S (H1 & H2). split; [eapply lst_mono; eauto|].
  intros Hrs ci y yi Ec Hin Ey Hfl Hp. eapply lst_mono; eauto.
Qed.

Lemma noX_zinv : forall s, Zinv noX s.
Proof. intros s c i H. destruct H. Qed.

(* a segment of a call after which every reference instance outside X whose count fell to 0 is down with its family *)
Definition ZSeg (X : uid -> Prop) (s s' : st) : Prop := Seg noX s s' /\ ZS X s s'.

Lemma zseg_trans : forall X s s1 s2, ZSeg X s s1 -> ZSeg X s1 s2 -> ZSeg X s s2.
Proof.
  intros X s s1 s2 (G1 & Z1) (G2 & Z2). split; [eapply seg_trans; eauto|].
  destruct G1 as (S1 & Rm & _). destruct G2 as (S2 & _).
  intros c HX Hrs Hpos Hz. pose proof (refshape_static _ _ _ _ _ S1 Hrs) as Hrs1.
  destruct (Z.eq_dec (act s1 c) 0) as [Hz1|Hnz1].
  - eapply family_down_mono; eauto.
  - assert (Hpos1 : (0 < act s1 c)%Z).
    { assert (0 <= act s1 c)%Z by (eapply act_nonneg_stable; eauto; lia). lia. }
    destruct (Z2 c HX Hrs1 Hpos1 Hz) as (L & Fm). split; auto.
    (* a restarted instance that left the list of c in the first segment is down since then *)
    intros _ ci y yi Ec Hin Ey Hfl Hp.
    destruct (srel_fwd _ _ _ _ _ _ S1 Ec) as (ci1 & Ec1 & Hc1).
    destruct (srel_fwd _ _ _ _ _ _ S1 Ey) as (yi1 & Ey1 & Hy1).
    pose proof (irel_flow _ _ _ _ Hc1) as F1. pose proof (irel_flow _ _ _ _ Hy1) as F2.
    pose proof (irel_parent _ _ _ _ Hy1) as P2.
    destruct (in_dec N.eq_dec y (i_children ci1)) as [Hin1|Hnin1].
    + eapply Fm; eauto; congruence.
    + eapply lst_mono; [exact S2|]. apply (Rm c ci ci1 y Ec Ec1 Hin Hnin1).
Qed.

Lemma zseg_noX : forall (X : uid -> Prop) s s', ZSeg noX s s' -> ZSeg X s s'.
Proof. intros X s s' (G & Z). split; auto. intros c _. apply Z. intros []. Qed.

Lemma zseg_same_shape : forall (X : uid -> Prop) s s',
  SrelT s s' -> same_shape s s' -> (forall c, ~ X c -> act s' c = act s c) -> ZSeg X s s'.
Proof.
  intros X s s' S Hsh Hact. split; [apply same_shape_seg; auto|].
  intros c HX _ Hp Hz. rewrite (Hact c HX) in Hz. lia.
Qed.

Lemma zseg_refl : forall X s, ZSeg X s s.
Proof. intros X s. split; [apply seg_refl|]. intros c _ _ Hp Hz. lia. Qed.

Lemma zseg_act0 : forall s c, ~ refshape s c -> ZSeg noX s (modf s c (set_activated 0%Z)).
Proof.
  intros s c Hnr. split.
  - assert (S : SrelT s (modf s c (set_activated 0%Z))) by (apply modf_srel_activated0; exact I).
    unfold modf in *. destruct (getf s c) as [ci|] eqn:Ec; [|apply seg_refl].
    apply same_shape_seg; auto. eapply same_shape_setf; eauto.
  - intros c' _ Hrs Hpos Hz. destruct (N.eq_dec c c') as [<-|Hne]; [contradiction|].
    rewrite act_modf_other in Hz; auto. lia.
Qed.

(* what the count-to-zero argument asks of an epilogue: it changes no count and is an Srel step *)
Definition epi_ok (skip : fstatus -> bool) (epi : st -> res st) (f : uid) : Prop :=
  (forall s3 s' c, epi s3 = Ok s' -> act s' c = act s3 c) /\
  (forall s3 i3 s', getf s3 f = Some i3 -> skip (i_status i3) = false -> epi s3 = Ok s' -> SrelT s3 s').

Lemma epilogue_abort_ok : forall f d, epi_ok skip_abort (fun s3 => epilogue_abort s3 f d) f.
Proof.
  intros f d. split.
  - unfold epilogue_abort; intros s3 s' c H. bind_inv H.
    transitivity (act (modf s f (set_status FStopped)) c); [exact (proj2 (restart_E_act _ _ _ _ c H))|].
    rewrite act_modf_keep by auto. eapply unlink_act; eauto.
  - intros s3 i3 s'. exact (epi_abort_srel f d anyR anyA s3 i3 s' I).
Qed.

Lemma epilogue_finish_ok : forall f d, epi_ok skip_finish (fun s3 => epilogue_finish s3 f d) f.
Proof.
  intros f d. split.
  - unfold epilogue_finish; intros s3 s' c H. destruct (getf s3 f) as [i|] eqn:Ef; try discriminate.
    destruct (N.eqb (i_flow i) main_id).
    + inversion H; subst. apply act_modf_keep. auto.
    + bind_inv H. transitivity (act s c); [exact (proj2 (restart_E_act _ _ _ _ c H))|].
      rewrite (unlink_act _ _ _ c Hb). apply act_modf_keep. auto.
  - intros s3 i3 s'. exact (epi_finish_srel f d anyR anyA s3 i3 s' I).
Qed.

Section ZeroLoops.
  Variable rk : uid -> nat.
  Variable ab : st -> uid -> bool -> res st.
  Hypothesis Hab1 : respects_srel rk ab.
  Hypothesis Hab2 : respects_seg rk ab.
  Hypothesis HabZ : forall s c d s', ranked rk s -> famk s -> ab s c d = Ok s' -> ZS noX s s'.

  Lemma ab_zseg : forall s c d s', ranked rk s -> famk s -> ab s c d = Ok s' -> ZSeg noX s s'.
  Proof. intros s c d s' Hr Hf H. split; [apply (Hab2 noX _ _ _ _ Hr (noX_zinv s) H)|eauto]. Qed.

  Lemma abort_children_zs : forall l s s',
    ranked rk s -> famk s -> abort_children ab l s = Ok s' -> ZSeg noX s s'.
  Proof.
    induction l as [|c l IH]; simpl; intros s s' Hr Hf H.
    - inversion H; subst. apply zseg_refl.
    - destruct (getf s c) as [ci|]; [|eapply IH; eauto].
      destruct (is_child_activated s ci); [eapply IH; eauto|].
      bind_inv H. pose proof (ab_zseg _ _ _ _ Hr Hf Hb) as T0. pose proof (proj1 (proj1 T0)) as S0.
      exact (zseg_trans _ _ _ _ T0 (IH _ _ (srel_ranked _ _ _ _ _ S0 Hr) (srel_famk _ _ _ _ S0 Hf) H)).
  Qed.

  (* the elements of l of flow fid are restarted instances, no reference instances: a fact about parents and flow
     ids, which no step changes *)
  Lemma abort_same_zs : forall fid l s s',
    ranked rk s -> famk s ->
    (forall c ci, In c l -> getf s c = Some ci -> i_flow ci = fid -> ~ refshape s c) ->
    abort_same ab fid l s = Ok s' -> ZSeg noX s s'.
  Proof.
    induction l as [|c l IH]; simpl; intros s s' Hr Hf Hl H.
    - inversion H; subst. apply zseg_refl.
    - destruct (getf s c) as [ci|] eqn:Ec; try discriminate.
      destruct (N.eqb (i_flow ci) fid) eqn:Efl; [|eapply IH; eauto].
      apply N.eqb_eq in Efl. bind_inv H.
      pose proof (ab_zseg _ _ _ _ Hr Hf Hb) as T0. pose proof (proj1 (proj1 T0)) as S0.
      assert (Tt : ZSeg noX s0 (modf s0 c (set_activated 0%Z))).
      { apply zseg_act0. intros Hrs0.
        exact (Hl c ci (or_introl eq_refl) Ec Efl (back_refshape _ _ _ (srel_back _ _ _ _ S0) Hrs0)). }
      pose proof (zseg_trans _ _ _ _ T0 Tt) as T0t. pose proof (proj1 (proj1 T0t)) as S0t.
      refine (zseg_trans _ _ _ _ T0t (IH _ _ (srel_ranked _ _ _ _ _ S0t Hr) (srel_famk _ _ _ _ S0t Hf) _ H)).
      intros c' ci' Hin Ec' Hfc Hrs'. destruct (srel_bwd _ _ _ _ _ _ S0t Ec') as (ci0 & Ec0 & Hi).
      apply (Hl c' ci0 (or_intror Hin) Ec0); [rewrite <- (irel_flow _ _ _ _ Hi); exact Hfc|].
      exact (back_refshape _ _ _ (srel_back _ _ _ _ S0t) Hrs').
  Qed.

  Lemma deactivate_zs : forall s f d s1 b,
    ranked rk s -> famk s -> deactivate ab s f d = Ok (s1, b) -> ZSeg (eq f) s s1.
  Proof.
    intros s f d s1 b Hr Hf H.
    destruct (deactivate_ok _ _ _ _ _ _ H) as (i & isref & Ef & Href & _ & H').
    destruct isref; simpl in H'; [|inversion H'; subst; apply zseg_refl].
    destruct d; [simpl in Href|discriminate]. pose proof (is_ref_pos _ _ Href) as Hpos.
    assert (Tm : ZSeg (eq f) s (modf s f (set_activated (i_activated i - 1)%Z))).
    { rewrite (modf_some _ _ _ _ Ef). apply zseg_same_shape.
      - apply srel_set_activated; unfold anyR; auto.
      - eapply same_shape_setf; eauto.
      - intros c Hc. apply act_setf_other. auto. }
    destruct (i_activated i - 1 =? 0)%Z; [|inversion H'; subst; exact Tm].
    pose proof (proj1 (proj1 Tm)) as Sm.
    pose proof (getf_modf_same _ _ (set_activated (i_activated i - 1)%Z) _ Ef) as Efm.
    pose proof (srel_famk _ _ _ _ Sm Hf) as Hfm.
    refine (zseg_trans _ _ _ _ Tm (zseg_noX _ _ _
              (abort_same_zs (i_flow i) _ _ _ (srel_ranked _ _ _ _ _ Sm Hr) Hfm _ H'))).
    (* an entry of the flow of f in the list of f is linked to f (famk) *)
    intros c ci Hin Ec Hfl (i0 & p0 & p0i & E0 & Hp0 & Ep0 & Hflp).
    rewrite Ec in E0. inversion E0; subst i0.
    rewrite (Hfm f _ c ci Efm Hin Ec Hfl) in Hp0. inversion Hp0; subst p0.
    rewrite Efm in Ep0. inversion Ep0; subst p0i. apply Hflp. symmetry. exact Hfl.
  Qed.

  Lemma prologue_zs : forall skip s f d s3 go,
    ranked rk s -> famk s -> prologue ab skip s f d = Ok (s3, go) -> ZSeg (eq f) s s3.
  Proof.
    intros skip s f d s3 go Hr Hf H. destruct (prologue_ok _ _ _ _ _ _ _ H) as (s1 & b & Hd & H').
    pose proof (deactivate_zs _ _ _ _ _ Hr Hf Hd) as T1. pose proof (proj1 (proj1 T1)) as S1.
    destruct H' as [| |i1 s0 i2 s3 _ _ Hb _ Ha]; try exact T1.
    pose proof (abort_children_zs _ _ _ (srel_ranked _ _ _ _ _ S1 Hr) (srel_famk _ _ _ _ S1 Hf) Hb) as T2.
    pose proof (stop_actions_flows _ _ _ Ha) as Hfl.
    refine (zseg_trans _ _ _ _ T1 (zseg_trans _ _ _ _
              (zseg_noX _ _ _ T2) (zseg_same_shape _ _ _ _ _ _))).
    - eapply stop_actions_srel; eauto; intros; exact I.
    - apply same_shape_flows; auto.
    - intros c _. apply act_flows; auto.
  Qed.

  Section Epilogue.
    Variables (skip : fstatus -> bool) (epi : st -> res st) (f : uid).
    Hypothesis Hepi : epi_ok skip epi f.

    Lemma ending_zs : forall s d s', ranked rk s -> famk s -> ending ab skip epi s f d = Ok s' -> ZS (eq f) s s'.
    Proof.
      intros s d s' Hr Hf H0 c Hc Hrs Hpos Hz.
      destruct (ending_ok _ _ _ _ _ _ _ H0) as (s3 & go & Hp & H).
      destruct (prologue_zs _ _ _ _ _ _ Hr Hf Hp) as (_ & Z3).
      destruct go; [|inversion H; subst; apply Z3; auto].
      destruct (prologue_srel rk ab Hab1 anyR anyA _ _ _ _ _ _ Hr (anyR_closed s) (anyA_owns anyR s) I Hp) as (_ & Hgo).
      destruct (Hgo eq_refl) as (i3 & E3 & Hsk).
      rewrite (proj1 Hepi _ _ c H) in Hz. eapply family_down_mono; [eapply (proj2 Hepi); eauto|]. apply Z3; auto.
    Qed.

    (* the count of the instance itself changes by the deactivation decrement only *)
    Lemma ending_own_act : forall s d s' i,
      ranked rk s -> ending ab skip epi s f d = Ok s' -> getf s f = Some i ->
      exists isref, ref_deact s i d = Ok isref /\
                    act s' f = (if isref then i_activated i - 1 else i_activated i)%Z.
    Proof.
      intros s d s' i Hr H0 E. destruct (ending_ok _ _ _ _ _ _ _ H0) as (s3 & go & Hp & H).
      destruct (prologue_spec rk ab Hab1 _ _ _ _ _ _ _ Hr E Hp) as (isref & Href & _ & S & _).
      destruct (dec_self _ _ _ _ _ _ _ S (Nat.lt_irrefl _) E) as (i3 & E3 & _ & _ & _ & _ & _ & Ha & _).
      exists isref. split; auto. rewrite <- Ha, <- (act_getf _ _ _ E3).
      destruct go; [exact (proj1 Hepi _ _ f H)|inversion H; auto].
    Qed.

    Lemma ending_zs_top : forall s s', ranked rk s -> famk s -> ending ab skip epi s f false = Ok s' -> ZS noX s s'.
    Proof.
      intros s s' Hr Hf H c _ Hrs Hpos Hz.
      destruct (N.eq_dec f c) as [<-|Hne]; [|eapply ending_zs; eauto].
      exfalso. unfold act in Hpos. destruct (getf s f) as [i|] eqn:Ef; [|lia].
      destruct (ending_own_act _ _ _ i Hr H Ef) as (isref & Href & Ha).
      inversion Href; subst isref. lia.
    Qed.
  End Epilogue.
End ZeroLoops.

Lemma zs_own : forall rk n s f d s',
  ranked rk s -> abort n s f d = Ok s' -> (0 < act s f)%Z -> act s' f = 0%Z -> family_down s s' f.
Proof.
  intros rk n s f d s' Hr H Hpos Hz.
  unfold act in Hpos. destruct (getf s f) as [i|] eqn:Ef; [|lia].
  destruct n as [|n]; [discriminate|]. pose proof H as H0. rewrite abort_ending in H0.
  destruct (ending_own_act rk _ (abort_srel rk n) _ _ _ (epilogue_abort_ok f d) _ _ _ i Hr H0 Ef) as (isref & Href & Ha).
  (* the count fell to 0: this was the deactivation of a reference instance with count 1 *)
  rewrite Ha in Hz. destruct isref; [|lia].
  destruct d; [simpl in Href|discriminate]. assert (H1 : i_activated i = 1%Z) by lia.
  destruct (deactivate_last rk (S n) s f s' i Hr Ef Href H1 H) as (Hlv & _).
  split; [apply lst_lv; auto|].
  intros _ ci y yi Ec Hin Ey Hfl Hp. rewrite Ef in Ec. inversion Ec; subst ci.
  eapply (deactivate_last_children rk (S n) s f s' i Hr Ef Href H1 H); eauto.
Qed.

Theorem abort_zs : forall rk n s f d s', ranked rk s -> famk s -> abort n s f d = Ok s' -> ZS noX s s'.
Proof.
  induction n as [|n IH]; intros s f d s' Hr Hf H; [discriminate|].
  intros c _ Hrs Hpos Hz.
  destruct (N.eq_dec f c) as [<-|Hne]; [eapply zs_own; eauto|].
  rewrite abort_ending in H.
  apply (ending_zs rk _ (abort_srel rk n) (abort_good rk n) IH _ _ _ (epilogue_abort_ok f d) _ _ _ Hr Hf H); auto.
Qed.

Theorem abort_top_zs : forall rk b n s f s',
  ranked rk s -> famk s -> abort_top b n s f false = Ok s' -> ZS noX s s'.
Proof.
  intros rk b [|n] s f s' Hr Hf H; [discriminate|]. rewrite abort_top_ending in H.
  exact (ending_zs_top rk _ (abort_srel rk n) (abort_good rk n) (abort_zs rk n) _ _ _
           (epilogue_abort_ok f _) _ _ Hr Hf H).
Qed.

Theorem finish_zs : forall rk n s f s',
  ranked rk s -> famk s -> finish n s f false = Ok s' -> ZS noX s s'.
Proof.
  intros rk n s f s' Hr Hf H. rewrite finish_ending in H.
  exact (ending_zs_top rk _ (abort_srel rk n) (abort_good rk n) (abort_zs rk n) _ _ _
           (epilogue_finish_ok f false) _ _ Hr Hf H).
Qed.

Theorem arun_inv_fam : forall rel fuel l s s',
  Inv s -> famk s -> arun rel fuel l s = Ok s' -> aoks rel fuel l s -> Inv s' /\ famk s'.
Proof.
  intros rel fuel l s s' HI Hf. apply (arun_ind (fun s => Inv s /\ famk s)); auto.
  intros s1 o s2 (HI1 & Hf1) H Hok. destruct (astep_inv _ _ _ _ _ HI1 H Hok). auto.
Qed.

(* C06_activation c1, THE LAST ACTIVATOR ENDS: an instance fails / finishes, and afterwards no live instance holds
   an entry of the reference instance r any more.  Then the count of r is 0, r is not listening and
   the restarted instances under r are not listening. *)
Theorem last_activator_ends : forall rel fuel s o s' r,
  Inv s -> famk s -> (match o with AAbort _ _ | AFinish _ => True | _ => False end) ->
  astep rel fuel s o = Ok s' -> aok s o s' ->
  refshape s r -> (0 < act s r)%Z -> E s' r = 0%Z ->
  act s' r = 0%Z /\ family_down s s' r.
Proof.
  intros rel fuel s o s' r HI Hf Ho H Hok Hrs Hpos HE.
  destruct (astep_inv _ _ _ _ _ HI H Hok) as (HI' & _).
  destruct (inv_wf _ HI) as (rk & Hr).
  assert (SZ : SrelT s s' /\ ZS noX s s').
  { destruct o as [pm e|f b|f|f name|k a|f v]; simpl in *; try contradiction; split.
    - eapply (abort_top_srel rk b fuel anyR anyA); eauto using anyR_closed, anyA_owns; exact I.
    - eapply abort_top_zs; eauto.
    - eapply (finish_srel rk fuel anyR anyA); eauto using anyR_closed, anyA_owns; exact I.
    - eapply finish_zs; eauto. }
  destruct SZ as (S & Z).
  assert (Hz : act s' r = 0%Z) by (apply no_entry_no_activation; auto; eapply refshape_static; eauto).
  split; [exact Hz|]. apply (Z r); auto.
Qed.
