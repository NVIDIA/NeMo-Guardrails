(* V2/Life.v - focused model of the LIFETIME LAYER of the Colang 2 state machine
   (nemoguardrails/colang/v2_x/runtime/statemachine.py: _abort_flow, _finish_flow, the EndScope
   case of slide, the START_FLOW branch of _process_internal_events_without_default_matchers
   with _start_flow, _clean_up_state, _update_action_status_by_event + Action.process_event, and
   the end-of-slide guard of _advance_head_front).

   Definitions, and at the end three evaluated examples.  The functions are transcriptions, statement by statement, of the Python
   code; Python exceptions are explicit error results; the recursion of _abort_flow over
   child_flow_uids is fuelled and running out of fuel is the distinguished error EFuel.

   What is NOT in this model: heads and the matcher index (cleared / untouched by the
   lifetime layer), contexts, arguments (a restart carries the instance uid, the source
   instance and the `activated` marker only), _log_action_or_intents (flows with meta tags).
   The model is tied to the code at function level by harness/c06.py: every real outermost call
   of these functions is snapshotted before/after and replayed through the functions below. *)
From Coq Require Import ZArith NArith List Bool.
Import ListNotations.
Open Scope N_scope.

Definition uid := N.

Inductive fstatus := FWaiting | FStarting | FStarted | FStopping | FStopped | FFinished.
Inductive astatus := AInit | AStarting | AStarted | AStopping | AFinished.

(* is_listening_flow *)
Definition listening (x : fstatus) : bool :=
  match x with FWaiting | FStarted | FStarting => true | _ => false end.
Definition is_stopping (x : fstatus) : bool :=
  match x with FStopping => true | _ => false end.
(* the Stop guard: status == STARTING or status == STARTED *)
Definition active (x : astatus) : bool :=
  match x with AStarting | AStarted => true | _ => false end.

Record inst := mkInst {
  i_flow : N;                                   (* flow_id, abstracted; "main" is main_id *)
  i_status : fstatus;
  i_parent : option uid;                        (* parent_uid *)
  i_children : list uid;                        (* child_flow_uids (may contain duplicates) *)
  i_actions : list uid;                         (* action_uids *)
  i_scopes : list (N * (list uid * list uid));  (* scopes: name -> (flow uids, action uids) *)
  i_activated : Z;                              (* activated (reference count) *)
  i_nis : bool                                  (* new_instance_started *)
}.

Record act := mkAct { a_status : astatus; a_count : Z (* flow_scope_count *) }.

Definition main_id : N := 0.

(* what the lifetime layer emits, in chronological order *)
Inductive emit :=
| EStop (a : uid)                          (* Stop<Action>(action_uid=a) appended to outgoing_events *)
| EFailed (f : uid)                        (* FlowFailed of instance f pushed (right) on the internal queue *)
| EFinished (f : uid)                      (* FlowFinished of instance f pushed (right) *)
| ERestart (f src : uid) (activated : Z)   (* StartFlow (restart of activated instance f) pushed LEFT,
                                              source_flow_instance_uid = src, "activated" marker *)
| EStarted (f : uid).                      (* FlowStarted of the reference instance f pushed (right) when an
                                              already activated flow is activated once more *)

Record st := mkSt {
  flows : list (uid * inst);
  acts : list (uid * act);
  out : list emit
}.

Inductive err := EFuel | EKeyFlow | EKeyAction | ENotInList | ENoScope.
Inductive res (A : Type) := Ok (a : A) | Err (e : err).
Arguments Ok {A} a.
Arguments Err {A} e.

Definition bind {A B} (r : res A) (k : A -> res B) : res B :=
  match r with Ok a => k a | Err e => Err e end.

(* association maps: lookup = first binding; upd replaces the first binding, never adds *)
Fixpoint get {A} (k : N) (m : list (N * A)) : option A :=
  match m with
  | [] => None
  | (k', v) :: m' => if N.eqb k k' then Some v else get k m'
  end.

Fixpoint upd {A} (k : N) (v : A) (m : list (N * A)) : list (N * A) :=
  match m with
  | [] => []
  | (k', v') :: m' => if N.eqb k k' then (k', v) :: m' else (k', v') :: upd k v m'
  end.

Definition getf (s : st) (x : uid) : option inst := get x (flows s).
Definition geta (s : st) (a : uid) : option act := get a (acts s).
Definition setf (s : st) (x : uid) (i : inst) : st := mkSt (upd x i (flows s)) (acts s) (out s).
Definition seta (s : st) (a : uid) (c : act) : st := mkSt (flows s) (upd a c (acts s)) (out s).
Definition emit1 (s : st) (e : emit) : st := mkSt (flows s) (acts s) (out s ++ [e]).

(* field updates on the instance currently stored (Python mutates the object in place) *)
Definition modf (s : st) (x : uid) (g : inst -> inst) : st :=
  match getf s x with Some i => setf s x (g i) | None => s end.

Definition set_status (v : fstatus) (i : inst) : inst :=
  mkInst (i_flow i) v (i_parent i) (i_children i) (i_actions i) (i_scopes i) (i_activated i) (i_nis i).
Definition set_children (v : list uid) (i : inst) : inst :=
  mkInst (i_flow i) (i_status i) (i_parent i) v (i_actions i) (i_scopes i) (i_activated i) (i_nis i).
Definition set_scopes (v : list (N * (list uid * list uid))) (i : inst) : inst :=
  mkInst (i_flow i) (i_status i) (i_parent i) (i_children i) (i_actions i) v (i_activated i) (i_nis i).
Definition set_actions (v : list uid) (i : inst) : inst :=
  mkInst (i_flow i) (i_status i) (i_parent i) (i_children i) v (i_scopes i) (i_activated i) (i_nis i).
Definition set_parent (v : option uid) (i : inst) : inst :=
  mkInst (i_flow i) (i_status i) v (i_children i) (i_actions i) (i_scopes i) (i_activated i) (i_nis i).
Definition set_activated (v : Z) (i : inst) : inst :=
  mkInst (i_flow i) (i_status i) (i_parent i) (i_children i) (i_actions i) (i_scopes i) v (i_nis i).
Definition set_nis (v : bool) (i : inst) : inst :=
  mkInst (i_flow i) (i_status i) (i_parent i) (i_children i) (i_actions i) (i_scopes i) (i_activated i) v.

(* list.remove(x): first occurrence, ValueError (None) when absent *)
Fixpoint remove1 (x : uid) (l : list uid) : option (list uid) :=
  match l with
  | [] => None
  | y :: l' => if N.eqb x y then Some l'
               else match remove1 x l' with Some r => Some (y :: r) | None => None end
  end.

(* _is_reference_activated_flow: activated > 0 and parent_uid is not None and
   flow_id != state.flow_states[parent_uid].flow_id   (KeyError when the parent is gone) *)
Definition is_ref_activated (s : st) (i : inst) : res bool :=
  if (0 <? i_activated i)%Z then
    match i_parent i with
    | None => Ok false
    | Some p => match getf s p with
                | None => Err EKeyFlow
                | Some pi => Ok (negb (N.eqb (i_flow i) (i_flow pi)))
                end
    end
  else Ok false.

(* _is_child_activated_flow (guards the parent lookup) *)
Definition is_child_activated (s : st) (i : inst) : bool :=
  (0 <? i_activated i)%Z &&
  match i_parent i with
  | None => false
  | Some p => match getf s p with
              | None => false
              | Some pi => N.eqb (i_flow i) (i_flow pi)
              end
  end.

(* the guarded Stop: the three places in the source have exactly this body
     if status == STARTING or status == STARTED:
         flow_scope_count -= 1
         if flow_scope_count == 0: stop_event; status = STOPPING; _generate_umim_event *)
Definition stop_action (s : st) (a : uid) : res st :=
  match geta s a with
  | None => Err EKeyAction
  | Some c =>
    if active (a_status c) then
      let n := (a_count c - 1)%Z in
      if (n =? 0)%Z then Ok (emit1 (seta s a (mkAct AStopping n)) (EStop a))
      else Ok (seta s a (mkAct (a_status c) n))
    else Ok s
  end.

Fixpoint stop_actions (l : list uid) (s : st) : res st :=
  match l with
  | [] => Ok s
  | a :: l' => bind (stop_action s a) (stop_actions l')
  end.

(* "Remove flow uid from parents children list" *)
Definition unlink (s : st) (f : uid) : res st :=
  match getf s f with
  | None => Err EKeyFlow
  | Some i =>
    if (i_activated i =? 0)%Z then
      match i_parent i with
      | None => Ok s
      | Some p =>
        match getf s p with
        | None => Ok s
        | Some pi =>
          match remove1 f (i_children pi) with
          | None => Err ENotInList
          | Some l => Ok (setf s p (set_children l pi))
          end
        end
      end
    else Ok s
  end.

(* "Restart the flow if it is an activated flow" *)
Definition restart (s : st) (f : uid) (d : bool) : res st :=
  match getf s f with
  | None => Err EKeyFlow
  | Some i =>
    if negb d && (0 <? i_activated i)%Z && negb (i_nis i) then
      bind (match i_parent i with
            | None => Ok f
            | Some p => match getf s p with
                        | None => Err EKeyFlow
                        | Some pi => Ok (if N.eqb (i_flow pi) (i_flow i) then p else f)
                        end
            end)
           (fun src => Ok (modf (emit1 s (ERestart f src (i_activated i))) f (set_nis true)))
    else Ok s
  end.

Section Loops.
  (* the recursive call, with smaller fuel *)
  Variable ab : st -> uid -> bool -> res st.

  (* for child_flow_uid in list(child_flow_uids): child = flow_states[uid]   (KeyError)
         if child.flow_id == flow_state.flow_id: _abort_flow(child, True); child.activated = 0 *)
  Fixpoint abort_same (fid : N) (l : list uid) (s : st) : res st :=
    match l with
    | [] => Ok s
    | c :: l' =>
      match getf s c with
      | None => Err EKeyFlow
      | Some ci =>
        if N.eqb (i_flow ci) fid then
          bind (ab s c true) (fun s1 => abort_same fid l' (modf s1 c (set_activated 0%Z)))
        else abort_same fid l' s
      end
    end.

  (* for child_flow_uid in list(child_flow_uids): if uid not in flow_states: continue
         if not _is_child_activated_flow(child): _abort_flow(child, True) *)
  Fixpoint abort_children (l : list uid) (s : st) : res st :=
    match l with
    | [] => Ok s
    | c :: l' =>
      match getf s c with
      | None => abort_children l' s
      | Some ci =>
        if is_child_activated s ci then abort_children l' s
        else bind (ab s c true) (abort_children l')
      end
    end.

  (* the deactivate prologue shared by _abort_flow and _finish_flow; the bool says whether
     the caller continues (false = `return`) *)
  Definition deactivate (s : st) (f : uid) (d : bool) : res (st * bool) :=
    match getf s f with
    | None => Err EKeyFlow
    | Some i =>
      bind (if d then is_ref_activated s i else Ok false) (fun isref =>
        if isref then
          let v := (i_activated i - 1)%Z in
          let s1 := modf s f (set_activated v) in
          if (v =? 0)%Z then bind (abort_same (i_flow i) (i_children i) s1) (fun s2 => Ok (s2, true))
          else Ok (s1, false)
        else Ok (s, true))
    end.

  (* EndScope: for flow_uid in flow_uids: if uid in flow_states and is_listening: _abort_flow(child) *)
  Fixpoint scope_flows (l : list uid) (s : st) : res st :=
    match l with
    | [] => Ok s
    | c :: l' =>
      match getf s c with
      | None => scope_flows l' s
      | Some ci =>
        if listening (i_status ci) then bind (ab s c false) (scope_flows l')
        else scope_flows l' s
      end
    end.
End Loops.

(* what _abort_flow and _finish_flow have in common: the deactivate prologue, the early
   `return` for instances that are not running (`skip` is the status test, which differs), the
   loop over the children and the loop over the actions.  The bool says whether the caller
   goes on with its epilogue (false = the Python function returned). *)
Definition prologue (ab : st -> uid -> bool -> res st) (skip : fstatus -> bool)
           (s : st) (f : uid) (d : bool) : res (st * bool) :=
  bind (deactivate ab s f d) (fun r =>
    if snd r then
      let s1 := fst r in
      match getf s1 f with
      | None => Err EKeyFlow
      | Some i1 =>
        if skip (i_status i1) then Ok (s1, false)
        else
          bind (abort_children ab (i_children i1) s1) (fun s2 =>
          match getf s2 f with
          | None => Err EKeyFlow
          | Some i2 => bind (stop_actions (i_actions i2) s2) (fun s3 => Ok (s3, true))
          end)
      end
    else Ok (fst r, false)).

(* `if not is_listening_flow(flow_state) and flow_state.status != FlowStatus.STOPPING: return` *)
Definition skip_abort (x : fstatus) : bool := negb (listening x) && negb (is_stopping x).
(* `if not is_listening_flow(flow_state): return` *)
Definition skip_finish (x : fstatus) : bool := negb (listening x).

(* rest of _abort_flow: heads cleared; unlink; status STOPPED; FlowFailed; restart *)
Definition epilogue_abort (s3 : st) (f : uid) (d : bool) : res st :=
  bind (unlink s3 f) (fun s4 =>
  restart (emit1 (modf s4 f (set_status FStopped)) (EFailed f)) f d).

(* rest of _finish_flow: heads cleared; main flow: new head, WAITING, return;
   otherwise status FINISHED; unlink; FlowFinished; restart *)
Definition epilogue_finish (s3 : st) (f : uid) (d : bool) : res st :=
  match getf s3 f with
  | None => Err EKeyFlow
  | Some i =>
    if N.eqb (i_flow i) main_id then Ok (modf s3 f (set_status FWaiting))
    else
      bind (unlink (modf s3 f (set_status FFinished)) f) (fun s4 =>
      restart (emit1 s4 (EFinished f)) f d)
  end.

(* _abort_flow(state, flow_state, matching_scores, deactivate_flow) *)
Fixpoint abort (fuel : nat) (s : st) (f : uid) (d : bool) : res st :=
  match fuel with
  | O => Err EFuel
  | S n =>
    bind (prologue (abort n) skip_abort s f d) (fun r =>
      if snd r then epilogue_abort (fst r) f d else Ok (fst r))
  end.

(* _abort_flow with the optional keyword `restart_flow` (default True; a tree that has the
   keyword passes False for an activated flow that fails before it ever waited): only the
   outermost call can carry it, the recursive calls use the default; restart_flow = False
   suppresses the restart like deactivate_flow does, and nothing else. *)
Definition abort_top (r : bool) (fuel : nat) (s : st) (f : uid) (d : bool) : res st :=
  match fuel with
  | O => Err EFuel
  | S n =>
    bind (prologue (abort n) skip_abort s f d) (fun r0 =>
      if snd r0 then epilogue_abort (fst r0) f (d || negb r) else Ok (fst r0))
  end.

(* _finish_flow(state, flow_state, matching_scores, deactivate_flow); every recursive call is
   to _abort_flow *)
Definition finish (fuel : nat) (s : st) (f : uid) (d : bool) : res st :=
  bind (prologue (abort fuel) skip_finish s f d) (fun r =>
    if snd r then epilogue_finish (fst r) f d else Ok (fst r)).

Fixpoint pop_scope (name : N) (l : list (N * (list uid * list uid)))
  : option ((list uid * list uid) * list (N * (list uid * list uid))) :=
  match l with
  | [] => None
  | (k, v) :: l' =>
    if N.eqb name k then Some (v, l')
    else match pop_scope name l' with
         | Some (r, rest) => Some (r, (k, v) :: rest)
         | None => None
         end
  end.

Definition remove1_opt (x : uid) (l : list uid) : list uid :=
  match remove1 x l with Some r => r | None => l end.

(* _release_shared_action(flow_state, action_uid): the flow gives up its share of an action
   that other flows still use - the uid leaves action_uids (first occurrence) and every open
   scope of the flow *)
Definition release_shared (f a : uid) (s : st) : st :=
  modf s f (fun i =>
    set_scopes (map (fun sc : N * (list uid * list uid) =>
                       (fst sc, (fst (snd sc), filter (fun x => negb (N.eqb x a)) (snd (snd sc)))))
                    (i_scopes i))
               (set_actions (remove1_opt a (i_actions i)) i)).

(* the Stop guard of the EndScope case; `rel` = the source has the
   `else: _release_shared_action(flow_state, action_uid)` branch (read by the translator) *)
Definition scope_action (rel : bool) (f : uid) (s : st) (a : uid) : res st :=
  match geta s a with
  | None => Err EKeyAction
  | Some c =>
    if active (a_status c) then
      let n := (a_count c - 1)%Z in
      if (n =? 0)%Z then Ok (emit1 (seta s a (mkAct AStopping n)) (EStop a))
      else let s1 := seta s a (mkAct (a_status c) n) in
           Ok (if rel then release_shared f a s1 else s1)
    else Ok s
  end.

Fixpoint scope_actions (rel : bool) (f : uid) (l : list uid) (s : st) : res st :=
  match l with
  | [] => Ok s
  | a :: l' => bind (scope_action rel f s a) (scope_actions rel f l')
  end.

(* the EndScope case of slide *)
Definition end_scope (rel : bool) (fuel : nat) (s : st) (f : uid) (name : N) : res st :=
  match getf s f with
  | None => Err EKeyFlow
  | Some i =>
    match pop_scope name (i_scopes i) with
    | None => Err ENoScope
    | Some ((fl, al), rest) =>
      bind (scope_flows (abort fuel) fl (modf s f (set_scopes rest))) (scope_actions rel f al)
    end
  end.

(* Starting and activating flows: the START_FLOW branch of
   _process_internal_events_without_default_matchers as far as it concerns the hierarchy and
   `activated`, and _start_flow (the link of the new instance to its parent).

   A StartFlow event, abstracted: flow id, uid of the instance to create, sender
   (source_flow_instance_uid) and the `activated` marker (0 = absent/falsy; `activate` sends
   True = 1, a restart sends the count of the ending instance). *)
Record sfev := mkSfev { sf_flow : N; sf_uid : uid; sf_src : option uid; sf_activated : Z }.

(* _is_done_flow *)
Definition done (x : fstatus) : bool :=
  match x with FStopped | FFinished => true | _ => false end.

(* a freshly created instance: WAITING, not linked yet *)
Definition new_inst (fid : N) : inst := mkInst fid FWaiting None [] [] [] 0%Z false.

(* state.flow_states.update({uid: flow_state}) *)
Definition addf (s : st) (x : uid) (i : inst) : st :=
  match getf s x with
  | Some _ => setf s x i
  | None => mkSt (flows s ++ [(x, i)]) (acts s) (out s)
  end.

Section Start.
  (* `pm u` = the parameters of instance u are exactly those of the event
     (the comparison loop of _get_reference_activated_flow_instance) *)
  Variable pm : uid -> bool.

  (* _get_reference_activated_flow_instance: first instance of the flow, in creation order, that
     is a reference instance (activated, linked to a parent of ANOTHER flow) with these parameters *)
  Fixpoint ref_lookup (s : st) (fid : N) (l : list (uid * inst)) : option uid :=
    match l with
    | [] => None
    | (u, i) :: l' =>
      if N.eqb (i_flow i) fid then
        if (i_activated i =? 0)%Z
           || match i_parent i with
              | None => true
              | Some p => match getf s p with
                          | None => true
                          | Some pi => N.eqb (i_flow i) (i_flow pi)
                          end
              end
        then ref_lookup s fid l'
        else if pm u then Some u else ref_lookup s fid l'
      else ref_lookup s fid l'
    end.

  (* the done-source guards: the sender has ended and is of another flow (a queued start of a
     sender that ended meanwhile), or it is the ended instance of the same flow, the event is a
     restart/activation and the flow was deactivated meanwhile *)
  Definition start_dropped (s : st) (e : sfev) : bool :=
    match sf_src e with
    | None => false
    | Some p =>
      match getf s p with
      | None => false
      | Some si =>
        done (i_status si)
        && (negb (N.eqb (i_flow si) (sf_flow e))
            || (negb (sf_activated e =? 0)%Z && (i_activated si =? 0)%Z))
      end
    end.

  (* START_FLOW branch.  Result: the new state and, when a new instance was created, the
     effective sender (the event's source_flow_instance_uid is REWRITTEN to the reference instance
     for a restart), which _start_flow will use. *)
  Definition start_proc (s : st) (e : sfev) : res (st * option uid) :=
    if N.eqb (sf_flow e) main_id then Ok (s, None)
    else if start_dropped s e then Ok (s, None)
    else
      let started := if (sf_activated e =? 0)%Z then None else ref_lookup s (sf_flow e) (flows s) in
      match sf_src e with
      | None => Err EKeyFlow
      | Some p =>
        match getf s p with
        | None => Err EKeyFlow
        | Some si =>
          let child := N.eqb (sf_flow e) (i_flow si) in
          match started with
          | Some r =>
            if child then Ok (addf s (sf_uid e) (new_inst (sf_flow e)), Some r)
            else
              (* activate a flow that already has been activated: count + 1, the activator gets
                 the reference instance as one more child entry, FlowStarted is sent *)
              let s1 := modf s r (fun i => set_activated (i_activated i + 1)%Z i) in
              let s2 := modf s1 p (fun i => set_children (i_children i ++ [r]) i) in
              Ok (emit1 s2 (EStarted r), None)
          | None => Ok (addf s (sf_uid e) (new_inst (sf_flow e)), Some p)
          end
        end
      end.
End Start.

(* _start_flow(state, flow_state, event_arguments) for a flow other than main: link to the parent,
   take over the `activated` marker of the event *)
Definition start_link (s : st) (x src : uid) (a : Z) : res st :=
  match getf s x with
  | None => Err EKeyFlow
  | Some xi =>
    if N.eqb (i_flow xi) main_id then Ok s
    else
      match getf s src with
      | None => Err EKeyFlow
      | Some _ =>
        let s1 := modf s x (set_parent (Some src)) in
        let s2 := modf s1 src (fun i => set_children (i_children i ++ [x]) i) in
        Ok (modf s2 x (set_activated a))
      end
  end.

(* processing of a StartFlow event: the branch above, then the new instance (waiting at its first
   element) matches the event and _start_flow links it *)
Definition start_flow (pm : uid -> bool) (s : st) (e : sfev) : res st :=
  bind (start_proc pm s e) (fun r =>
    match snd r with
    | None => Ok (fst r)
    | Some src => start_link (fst r) (sf_uid e) src (sf_activated e)
    end).

(* a listening instance moves on (WAITING -> STARTING -> STARTED) *)
Definition advance (s : st) (f : uid) (v : fstatus) : st :=
  match getf s f with
  | Some i => if listening (i_status i) && listening v then setf s f (set_status v i) else s
  | None => s
  end.

(* _clean_up_state (runs at the start of every run_to_completion): ended instances whose last
   status change is older than 5 s (`aged`, the clock is external) and whose count is 0 are
   discarded - with `keep` (read from the source) only if they are not the parent of an instance
   that is running or activated; the discarded uids disappear from every child list and every
   open scope; the action table is rebuilt from the action lists of the remaining instances. *)
Definition memb (x : uid) (l : list uid) : bool := existsb (N.eqb x) l.

Definition needed_parents (s : st) : list uid :=
  flat_map (fun xi : uid * inst =>
              if negb (done (i_status (snd xi))) || negb (i_activated (snd xi) =? 0)%Z
              then match i_parent (snd xi) with Some p => [p] | None => [] end
              else [])
           (flows s).

Definition removable (keep : bool) (aged : uid -> bool) (s : st) (xi : uid * inst) : bool :=
  done (i_status (snd xi)) && aged (fst xi) && (i_activated (snd xi) =? 0)%Z
  && (negb keep || negb (memb (fst xi) (needed_parents s))).

Definition removed_uids (keep : bool) (aged : uid -> bool) (s : st) : list uid :=
  map fst (filter (removable keep aged s) (flows s)).

Definition prune (rem : list uid) (i : inst) : inst :=
  set_scopes (map (fun sc : N * (list uid * list uid) =>
                     (fst sc, (filter (fun x => negb (memb x rem)) (fst (snd sc)), snd (snd sc))))
                  (i_scopes i))
             (set_children (filter (fun x => negb (memb x rem)) (i_children i)) i).

Fixpoint dedup (seen l : list uid) : list uid :=
  match l with
  | [] => []
  | a :: l' => if memb a seen then dedup seen l' else a :: dedup (a :: seen) l'
  end.

Fixpoint lookup_all (m : list (uid * act)) (l : list uid) : res (list (uid * act)) :=
  match l with
  | [] => Ok []
  | a :: l' => match get a m with
               | None => Err EKeyAction
               | Some c => bind (lookup_all m l') (fun r => Ok ((a, c) :: r))
               end
  end.

Definition cleanup (keep : bool) (aged : uid -> bool) (s : st) : res st :=
  let rem := removed_uids keep aged s in
  let fl := map (fun xi : uid * inst => (fst xi, prune rem (snd xi)))
                (filter (fun xi : uid * inst => negb (memb (fst xi) rem)) (flows s)) in
  bind (lookup_all (acts s) (dedup [] (flat_map (fun xi : uid * inst => i_actions (snd xi)) fl)))
       (fun ac => Ok (mkSt fl ac (out s))).

(* _update_action_status_by_event + Action.process_event.  The harness classifies the event
   name with the same substring tests as process_event. *)
Inductive akind := KStarted | KUpdated | KFinished | KStart | KStop | KOther.

Definition process_event (k : akind) (c : act) : act :=
  match k with
  | KStarted => mkAct AStarted (a_count c)
  | KUpdated => c
  | KFinished => mkAct AFinished 0%Z
  | KStart => mkAct AStarting 1%Z
  | KStop => mkAct AStopping (a_count c)
  | KOther => c
  end.

Definition astatus_eqb (x y : astatus) : bool :=
  match x, y with
  | AInit, AInit | AStarting, AStarting | AStarted, AStarted
  | AStopping, AStopping | AFinished, AFinished => true
  | _, _ => false
  end.

(* one visit of (listening flow, action uid in its action_uids) *)
Definition visit (k : akind) (a : uid) (s : st) (a' : uid) : st :=
  if N.eqb a' a then
    match geta s a' with
    | Some c => if astatus_eqb (a_status c) AFinished then s else seta s a' (process_event k c)
    | None => s
    end
  else s.

Definition action_event (k : akind) (a : uid) (s : st) : st :=
  fold_left (fun s1 (xi : uid * inst) =>
               if listening (i_status (snd xi))
               then fold_left (visit k a) (i_actions (snd xi)) s1
               else s1)
            (flows s) s.

(* the end-of-slide decision of _advance_head_front (after `slide` returned):
     if flow_finished or all_heads_are_waiting:
         if status == STARTING: status = STARTED; push FlowStarted
              if flow_finished and activated > 0: flow_finished = False   (head INACTIVE)
   returns (new status, FlowStarted pushed?, flow_finished afterwards) *)
Definition end_of_slide (status : fstatus) (activated : Z) (finished waiting : bool)
  : fstatus * bool * bool :=
  if finished || waiting then
    match status with
    | FStarting =>
      (FStarted, true, if finished && (0 <? activated)%Z then false else finished)
    | _ => (status, false, finished)
    end
  else (status, false, finished).

(* sanity: a 3-level hierarchy main(1) -> p(2) -> c(3); action 10 owned by p, action 11
   shared by p and c (count 2), action 12 owned by c and already finished *)
Definition ex_i (fl : N) (stt : fstatus) (par : option uid) (ch al : list uid) (actv : Z) : inst :=
  mkInst fl stt par ch al [] actv false.

Definition ex_state : st :=
  mkSt [ (1, ex_i 0 FStarted None [2] [] 1%Z);
         (2, ex_i 1 FStarted (Some 1) [3] [10; 11] 0%Z);
         (3, ex_i 2 FStarted (Some 2) [] [11; 12] 0%Z) ]
       [ (10, mkAct AStarted 1%Z); (11, mkAct AStarting 2%Z); (12, mkAct AFinished 0%Z) ]
       [].

Example ex_abort_p :
  abort 3 ex_state 2 false =
  Ok (mkSt [ (1, ex_i 0 FStarted None [] [] 1%Z);
             (2, ex_i 1 FStopped (Some 1) [] [10; 11] 0%Z);
             (3, ex_i 2 FStopped (Some 2) [] [11; 12] 0%Z) ]
           [ (10, mkAct AStopping 0%Z); (11, mkAct AStopping 0%Z); (12, mkAct AFinished 0%Z) ]
           [ EFailed 3; EStop 10; EStop 11; EFailed 2 ]).
Proof. vm_compute. reflexivity. Qed.

Example ex_abort_c_only :
  abort 3 ex_state 3 false =
  Ok (mkSt [ (1, ex_i 0 FStarted None [2] [] 1%Z);
             (2, ex_i 1 FStarted (Some 1) [] [10; 11] 0%Z);
             (3, ex_i 2 FStopped (Some 2) [] [11; 12] 0%Z) ]
           [ (10, mkAct AStarted 1%Z); (11, mkAct AStarting 1%Z); (12, mkAct AFinished 0%Z) ]
           [ EFailed 3 ]).
Proof. vm_compute. reflexivity. Qed.

Example ex_fuel : abort 1 ex_state 2 false = Err EFuel.
Proof. vm_compute. reflexivity. Qed.
