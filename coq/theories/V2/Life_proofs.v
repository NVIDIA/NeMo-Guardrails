(* V2/Life_proofs.v - lemmas about the lifetime model of V2/Life.v.

   Every operation of the lifetime layer is a chain of small mutations, each of which respects
   the whole-state relation `Srel R A` (R = the instances it may touch, A = the actions): frame,
   one-way statuses and counts, Stop accounting.  _abort_flow and _finish_flow are one function
   (`ending`) up to a status test and an epilogue; its prologue is analysed once, seen from the
   instance that ends (`prologue_dec`).  That children stop (`Seg`) goes by induction on the fuel. *)
From Coq Require Import ZArith NArith List Bool Lia.
From NG Require Import V2.Life.
Import ListNotations.
Open Scope N_scope.

Lemma get_upd_same : forall A k (v : A) m,
  get k (upd k v m) = match get k m with Some _ => Some v | None => None end.
Proof.
  induction m as [|[k' v'] m IH]; simpl; auto.
  destruct (N.eqb k k') eqn:E; simpl; rewrite E; auto.
Qed.

Lemma get_upd_other : forall A k k' (v : A) m, k <> k' -> get k' (upd k v m) = get k' m.
Proof.
  induction m as [|[k0 v0] m IH]; simpl; intros Hne; auto.
  destruct (N.eqb k k0) eqn:E; simpl.
  - apply N.eqb_eq in E; subst k0.
    destruct (N.eqb k' k) eqn:E'; auto. apply N.eqb_eq in E'; subst; contradiction.
  - destruct (N.eqb k' k0); auto.
Qed.

Lemma getf_setf_same : forall s x i i0, getf s x = Some i0 -> getf (setf s x i) x = Some i.
Proof. unfold getf, setf; simpl; intros; rewrite get_upd_same, H; auto. Qed.

Lemma getf_setf_other : forall s x y i, x <> y -> getf (setf s x i) y = getf s y.
Proof. unfold getf, setf; simpl; intros; apply get_upd_other; auto. Qed.

Lemma getf_setf_none : forall s x y i, getf s y = None -> getf (setf s x i) y = None.
Proof.
  intros. destruct (N.eq_dec x y) as [->|Hne].
  - unfold getf, setf in *; simpl. rewrite get_upd_same, H; auto.
  - rewrite getf_setf_other; auto.
Qed.

Lemma getf_seta : forall s a c y, getf (seta s a c) y = getf s y.
Proof. reflexivity. Qed.
Lemma getf_emit1 : forall s e y, getf (emit1 s e) y = getf s y.
Proof. reflexivity. Qed.
Lemma geta_setf : forall s x i a, geta (setf s x i) a = geta s a.
Proof. reflexivity. Qed.
Lemma geta_emit1 : forall s e a, geta (emit1 s e) a = geta s a.
Proof. reflexivity. Qed.
Lemma geta_seta_same : forall s a c c0, geta s a = Some c0 -> geta (seta s a c) a = Some c.
Proof. unfold geta, seta; simpl; intros; rewrite get_upd_same, H; auto. Qed.
Lemma geta_seta_other : forall s a b c, a <> b -> geta (seta s a c) b = geta s b.
Proof. unfold geta, seta; simpl; intros; apply get_upd_other; auto. Qed.
Lemma out_setf : forall s x i, out (setf s x i) = out s.
Proof. reflexivity. Qed.
Lemma out_seta : forall s a c, out (seta s a c) = out s.
Proof. reflexivity. Qed.
Lemma out_emit1 : forall s e, out (emit1 s e) = out s ++ [e].
Proof. reflexivity. Qed.

Lemma modf_some : forall s x g i, getf s x = Some i -> modf s x g = setf s x (g i).
Proof. unfold modf; intros; rewrite H; auto. Qed.
Lemma modf_none : forall s x g, getf s x = None -> modf s x g = s.
Proof. unfold modf; intros; rewrite H; auto. Qed.

Lemma getf_modf : forall s x g y,
  getf (modf s x g) y = if N.eqb x y then option_map g (getf s y) else getf s y.
Proof.
  intros s x g y. unfold modf. destruct (N.eqb_spec x y) as [<-|Hne].
  - destruct (getf s x) eqn:E; simpl; [eapply getf_setf_same; eauto|auto].
  - destruct (getf s x); auto using getf_setf_other.
Qed.

Lemma getf_modf_same : forall s x g i, getf s x = Some i -> getf (modf s x g) x = Some (g i).
Proof. intros. rewrite getf_modf, N.eqb_refl, H; auto. Qed.

Lemma getf_modf_inv : forall s x g y i', getf (modf s x g) y = Some i' ->
  exists i, getf s y = Some i /\ (i' = i \/ i' = g i).
Proof.
  intros s x g y i' H. rewrite getf_modf in H.
  destruct (N.eqb x y); [destruct (getf s y) as [i|]; inversion H|]; eauto.
Qed.

Lemma geta_modf : forall s x g a, geta (modf s x g) a = geta s a.
Proof. unfold modf; intros; destruct (getf s x); reflexivity. Qed.

Lemma out_modf : forall s x g, out (modf s x g) = out s.
Proof. unfold modf; intros; destruct (getf s x); reflexivity. Qed.

Definition live (x : fstatus) : bool := listening x || is_stopping x.

Definition lst (s : st) (x : uid) : bool :=
  match getf s x with Some i => listening (i_status i) | None => false end.
Definition lv (s : st) (x : uid) : bool :=
  match getf s x with Some i => live (i_status i) | None => false end.

Lemma lst_lv : forall s x, lv s x = false -> lst s x = false.
Proof.
  unfold lv, lst, live; intros s x; destruct (getf s x); auto.
  destruct (listening (i_status i)); simpl; auto.
Qed.

Lemma remove1_in : forall x l r c, remove1 x l = Some r -> In c r -> In c l.
Proof.
  induction l as [|y l IH]; simpl; intros r c H Hin; try discriminate.
  destruct (N.eqb x y) eqn:E.
  - inversion H; subst; auto.
  - destruct (remove1 x l) eqn:E1; try discriminate. inversion H; subst.
    destruct Hin as [->|Hin]; auto. right; eapply IH; eauto.
Qed.

Lemma remove1_count_other : forall x l r c, remove1 x l = Some r -> c <> x ->
  count_occ N.eq_dec r c = count_occ N.eq_dec l c.
Proof.
  induction l as [|y l IH]; simpl; intros r c H Hne; try discriminate.
  destruct (N.eqb x y) eqn:E.
  - apply N.eqb_eq in E; subst y. inversion H; subst.
    destruct (N.eq_dec x c); auto. subst; contradiction.
  - destruct (remove1 x l) eqn:E1; try discriminate. inversion H; subst. simpl.
    destruct (N.eq_dec y c); auto.
Qed.

Lemma remove1_in_other : forall x l r c, remove1 x l = Some r -> c <> x -> In c l -> In c r.
Proof.
  intros x l r c H Hne Hin.
  apply (count_occ_In N.eq_dec). rewrite (remove1_count_other _ _ _ _ H Hne).
  apply (count_occ_In N.eq_dec); auto.
Qed.

Lemma unlink_ok : forall s f s', unlink s f = Ok s' ->
  s' = s \/ exists p pi l, getf s p = Some pi /\ remove1 f (i_children pi) = Some l /\
                          s' = setf s p (set_children l pi).
Proof.
  unfold unlink; intros s f s' H. destruct (getf s f) as [i|]; [|discriminate].
  destruct (i_activated i =? 0)%Z; [|inversion H; auto].
  destruct (i_parent i) as [p|]; [|inversion H; auto].
  destruct (getf s p) as [pi|] eqn:Ep; [|inversion H; auto].
  destruct (remove1 f (i_children pi)) as [l|] eqn:El; inversion H. right; eauto 6.
Qed.

(* number of Stop events for action a in a list of emissions *)
Fixpoint nstops (a : uid) (l : list emit) : nat :=
  match l with
  | [] => O
  | EStop b :: l' => (if N.eqb a b then 1 else 0) + nstops a l'
  | _ :: l' => nstops a l'
  end.

Lemma nstops_app : forall a l1 l2, nstops a (l1 ++ l2) = (nstops a l1 + nstops a l2)%nat.
Proof.
  induction l1 as [|e l1 IH]; simpl; intros; auto.
  destruct e; rewrite IH; auto. lia.
Qed.

(* everything except the children list *)
Definition same_but_children (i i' : inst) : Prop :=
  i_flow i' = i_flow i /\ i_status i' = i_status i /\ i_parent i' = i_parent i /\
  i_actions i' = i_actions i /\ i_scopes i' = i_scopes i /\ i_activated i' = i_activated i /\
  i_nis i' = i_nis i.

Section Rel.
  Variable R : uid -> Prop.   (* instances the operation may touch *)
  Variable A : uid -> Prop.   (* actions the operation may touch *)

  (* how the status of an instance may change *)
  Definition status_rel (x : uid) (old new : fstatus) : Prop :=
    new = old \/
    (R x /\ ((new = FStopped /\ live old = true) \/
             ((new = FFinished \/ new = FWaiting) /\ listening old = true))).

  (* how an instance may change: flow id, parent, action list, scopes never; children only lose
     instances of R; activated / new_instance_started / status only inside R *)
  Definition irel (x : uid) (i i' : inst) : Prop :=
    i_flow i' = i_flow i /\ i_parent i' = i_parent i /\ i_actions i' = i_actions i /\
    i_scopes i' = i_scopes i /\
    status_rel x (i_status i) (i_status i') /\
    (forall c, In c (i_children i') -> In c (i_children i)) /\
    (forall c, ~ R c -> count_occ N.eq_dec (i_children i') c = count_occ N.eq_dec (i_children i) c) /\
    ((i_activated i = 0%Z -> i_activated i' = 0%Z) /\
     ((0 < i_activated i')%Z -> (i_activated i' <= i_activated i)%Z) /\
     ((0 <= i_activated i)%Z -> (0 <= i_activated i')%Z)) /\
    (~ R x -> i_activated i' = i_activated i /\ i_nis i' = i_nis i /\ i_status i' = i_status i).

  (* how an action may change: only while STARTING/STARTED, only inside A, the count only
     decreases, and the only status change is to STOPPING with count 0 *)
  Definition arel (a : uid) (c c' : act) : Prop :=
    c' = c \/
    (A a /\ active (a_status c) = true /\ (a_count c' < a_count c)%Z /\
     ((a_status c' = a_status c /\ a_count c' <> 0%Z /\ (0 < a_count c -> 0 < a_count c')%Z) \/
      (a_status c' = AStopping /\ a_count c' = 0%Z))).

  Definition emit_ok (e : emit) : Prop :=
    match e with
    | EStop a => A a
    | EFailed x => R x
    | EFinished x => R x
    | ERestart x _ _ => R x
    | EStarted x => R x
    end.

  Definition ast (s : st) (a : uid) : option astatus := option_map a_status (geta s a).

  Record Srel (s s' : st) : Prop := {
    sr_flows : forall x, match getf s x, getf s' x with
                         | None, None => True
                         | Some i, Some i' => irel x i i'
                         | _, _ => False
                         end;
    sr_acts : forall a, match geta s a, geta s' a with
                        | None, None => True
                        | Some c, Some c' => arel a c c'
                        | _, _ => False
                        end;
    sr_out : exists delta, out s' = out s ++ delta /\ Forall emit_ok delta /\
               forall a, (nstops a delta = 0%nat /\ ast s' a = ast s a) \/
                         (nstops a delta = 1%nat /\ A a /\
                          (exists c, geta s a = Some c /\ active (a_status c) = true) /\
                          geta s' a = Some (mkAct AStopping 0%Z))
  }.

  Lemma status_rel_refl : forall x o, status_rel x o o.
  Proof. left; auto. Qed.

  Lemma status_rel_trans : forall x a b c, status_rel x a b -> status_rel x b c -> status_rel x a c.
  Proof.
    unfold status_rel; intros x a b c H1 H2.
    destruct H1 as [->|[HR H1]]; auto.
    destruct H2 as [->|[_ H2]]; auto.
    right; split; auto.
    destruct H1 as [[-> Hl]|[[->| ->] Hl]]; simpl in *.
    - destruct H2 as [[_ H]|[_ H]]; discriminate.
    - destruct H2 as [[_ H]|[_ H]]; discriminate.
    - destruct H2 as [[-> _]|[Hc _]].
      + left; split; auto. unfold live; rewrite Hl; auto.
      + right; auto.
  Qed.

  Lemma irel_refl : forall x i, irel x i i.
  Proof. unfold irel; intros; repeat split; auto using status_rel_refl; intros; lia. Qed.

  Lemma irel_trans : forall x i1 i2 i3, irel x i1 i2 -> irel x i2 i3 -> irel x i1 i3.
  Proof.
    unfold irel; intros x i1 i2 i3
      (F1 & P1 & A1 & S1 & T1 & C1 & K1 & (Z1 & M1 & G1) & N1) (F2 & P2 & A2 & S2 & T2 & C2 & K2 & (Z2 & M2 & G2) & N2).
    repeat split; try congruence; auto.
    - exact (status_rel_trans _ _ _ _ T1 T2).
    - intros c Hc. rewrite K2, K1; auto.
    - intros Hp. specialize (M2 Hp). assert (0 < i_activated i2)%Z by lia. specialize (M1 H). lia.
    - destruct (N1 H) as (? & ? & ?), (N2 H) as (? & ? & ?); congruence.
    - destruct (N1 H) as (? & ? & ?), (N2 H) as (? & ? & ?); congruence.
    - destruct (N1 H) as (? & ? & ?), (N2 H) as (? & ? & ?); congruence.
  Qed.

  Lemma irel_flow : forall x i i', irel x i i' -> i_flow i' = i_flow i.
  Proof. intros x i i' H. apply H. Qed.
  Lemma irel_parent : forall x i i', irel x i i' -> i_parent i' = i_parent i.
  Proof. intros x i i' H. apply H. Qed.
  Lemma irel_actions : forall x i i', irel x i i' -> i_actions i' = i_actions i.
  Proof. intros x i i' H. apply H. Qed.
  Lemma irel_scopes : forall x i i', irel x i i' -> i_scopes i' = i_scopes i.
  Proof. intros x i i' H. apply H. Qed.
  Lemma irel_status : forall x i i', irel x i i' -> status_rel x (i_status i) (i_status i').
  Proof. intros x i i' H. apply H. Qed.
  Lemma irel_children : forall x i i' c, irel x i i' -> In c (i_children i') -> In c (i_children i).
  Proof. intros x i i' c H. apply H. Qed.
  Lemma irel_count : forall x i i' c, irel x i i' -> ~ R c ->
    count_occ N.eq_dec (i_children i') c = count_occ N.eq_dec (i_children i) c.
  Proof. intros x i i' c H. apply H. Qed.
  Lemma irel_activated : forall x i i', irel x i i' ->
    (i_activated i = 0%Z -> i_activated i' = 0%Z) /\
    ((0 < i_activated i')%Z -> (i_activated i' <= i_activated i)%Z) /\
    ((0 <= i_activated i)%Z -> (0 <= i_activated i')%Z).
  Proof. intros x i i' H. apply H. Qed.
  Lemma irel_outside : forall x i i', irel x i i' -> ~ R x ->
    i_activated i' = i_activated i /\ i_nis i' = i_nis i /\ i_status i' = i_status i.
  Proof. intros x i i' H. apply H. Qed.

  Lemma arel_refl : forall a c, arel a c c.
  Proof. left; auto. Qed.

  Lemma arel_trans : forall a c1 c2 c3, arel a c1 c2 -> arel a c2 c3 -> arel a c1 c3.
  Proof.
    unfold arel; intros a c1 c2 c3 H1 H2.
    destruct H1 as [->|(HA & Hact & Hlt & Hst)]; auto.
    destruct H2 as [->|(_ & Hact2 & Hlt2 & Hst2)]; auto.
    right. destruct Hst as [(Hs & Hnz & Hpos)|[Hs _]].
    - repeat split; auto; try lia.
      destruct Hst2 as [(Hs2 & Hnz2 & Hpos2)|Hs2]; [left|right; auto].
      split; [congruence|split; [auto|lia]].
    - rewrite Hs in Hact2; discriminate.
  Qed.

  Lemma Srel_refl : forall s, Srel s s.
  Proof.
    intros s; split.
    - intros x; destruct (getf s x); auto using irel_refl.
    - intros a; destruct (geta s a); auto using arel_refl.
    - exists []; rewrite app_nil_r; repeat split; auto.
  Qed.

  Lemma Srel_trans : forall s1 s2 s3, Srel s1 s2 -> Srel s2 s3 -> Srel s1 s3.
  Proof.
    intros s1 s2 s3 [F1 A1 (d1 & O1 & E1 & N1)] [F2 A2 (d2 & O2 & E2 & N2)]; split.
    - intros x; specialize (F1 x); specialize (F2 x).
      destruct (getf s1 x), (getf s2 x), (getf s3 x); try tauto; eauto using irel_trans.
    - intros a; specialize (A1 a); specialize (A2 a).
      destruct (geta s1 a), (geta s2 a), (geta s3 a); try tauto; eauto using arel_trans.
    - exists (d1 ++ d2); split; [rewrite O2, O1, app_assoc; auto|split; [apply Forall_app; auto|]].
      intros a; rewrite nstops_app.
      destruct (N1 a) as [[Hn1 Hs1]|(Hn1 & HA & (c & Hc & Hact) & Hg1)];
        destruct (N2 a) as [[Hn2 Hs2]|(Hn2 & HA2 & (c2 & Hc2 & Hact2) & Hg2)].
      + left; split; [lia|congruence].
      + right; repeat split; auto; try lia.
        unfold ast in Hs1. rewrite Hc2 in Hs1.
        destruct (geta s1 a) as [c1|] eqn:E1'; simpl in Hs1; try discriminate.
        exists c1; split; auto. inversion Hs1; congruence.
      + right; repeat split; auto; try lia; eauto.
        specialize (A2 a). rewrite Hg1 in A2.
        unfold ast in Hs2. rewrite Hg1 in Hs2.
        destruct (geta s3 a) as [c3|]; try tauto.
        destruct A2 as [->|(_ & Hact2 & _)]; auto. discriminate.
      + rewrite Hg1 in Hc2. inversion Hc2; subst c2. discriminate.
  Qed.

  Lemma srel_fwd : forall s s' x i, Srel s s' -> getf s x = Some i ->
    exists i', getf s' x = Some i' /\ irel x i i'.
  Proof.
    intros s s' x i [F _ _] H. specialize (F x). rewrite H in F.
    destruct (getf s' x) as [i'|]; try tauto. eauto.
  Qed.

  Lemma srel_bwd : forall s s' x i', Srel s s' -> getf s' x = Some i' ->
    exists i, getf s x = Some i /\ irel x i i'.
  Proof.
    intros s s' x i' [F _ _] H. specialize (F x). rewrite H in F.
    destruct (getf s x) as [i|]; try tauto. eauto.
  Qed.

  Lemma srel_none : forall s s' x, Srel s s' -> getf s x = None -> getf s' x = None.
  Proof.
    intros s s' x [F _ _] H. specialize (F x). rewrite H in F.
    destruct (getf s' x); tauto.
  Qed.

  Lemma srel_outside : forall s s' x i, Srel s s' -> ~ R x -> getf s x = Some i ->
    exists i', getf s' x = Some i' /\ same_but_children i i' /\
      (forall c, In c (i_children i') -> In c (i_children i)) /\
      (forall c, ~ R c -> count_occ N.eq_dec (i_children i') c = count_occ N.eq_dec (i_children i) c).
  Proof.
    intros s s' x i S Hx E.
    destruct (srel_fwd _ _ _ _ S E) as (i' & E' & Hrel).
    destruct (irel_outside _ _ _ Hrel Hx) as (Av & N & St). exists i'. unfold same_but_children.
    repeat split; eauto using irel_flow, irel_parent, irel_actions, irel_scopes, irel_children, irel_count.
  Qed.

  Lemma srel_setf : forall s x i i', getf s x = Some i -> irel x i i' -> Srel s (setf s x i').
  Proof.
    intros s x i i' H Hi; split.
    - intros y. destruct (N.eq_dec x y) as [<-|Hne].
      + rewrite H, (getf_setf_same _ _ _ _ H); auto.
      + rewrite getf_setf_other; auto. destruct (getf s y); auto using irel_refl.
    - intros a. rewrite geta_setf. destruct (geta s a); auto using arel_refl.
    - exists []. rewrite out_setf, app_nil_r. repeat split; auto.
  Qed.

  Lemma srel_set_activated : forall s x i v, R x -> getf s x = Some i ->
    (v = 0 \/ (0 < i_activated i /\ v = i_activated i - 1))%Z ->
    Srel s (setf s x (set_activated v i)).
  Proof.
    intros s x i v HR H Hv. eapply srel_setf; eauto.
    unfold irel; simpl. repeat split; auto using status_rel_refl; try tauto; intros; lia.
  Qed.

  Lemma srel_unlink : forall s x s', R x -> unlink s x = Ok s' -> Srel s s'.
  Proof.
    intros s x s' HR H. destruct (unlink_ok _ _ _ H) as [->|(p & pi & l & Ep & El & ->)]; [apply Srel_refl|].
    eapply srel_setf; eauto.
    unfold irel; simpl. repeat split; auto using status_rel_refl; try (intros; lia).
    - intros c Hc; eapply remove1_in; eauto.
    - intros c Hc; eapply remove1_count_other; eauto. intros ->; contradiction.
  Qed.

  Lemma srel_emit : forall s e, emit_ok e -> (forall a, e <> EStop a) -> Srel s (emit1 s e).
  Proof.
    intros s e He Hns; split.
    - intros x; rewrite getf_emit1; destruct (getf s x); auto using irel_refl.
    - intros a; rewrite geta_emit1; destruct (geta s a); auto using arel_refl.
    - exists [e]; rewrite out_emit1; repeat split; auto.
      intros a; left; split; auto.
      destruct e; simpl; auto. exfalso; eapply Hns; eauto.
  Qed.

  Lemma srel_stop_action : forall s a s', A a -> stop_action s a = Ok s' -> Srel s s'.
  Proof.
    unfold stop_action; intros s a s' HA H.
    destruct (geta s a) as [c|] eqn:E; try discriminate.
    destruct (active (a_status c)) eqn:Eact; [|inversion H; apply Srel_refl].
    destruct (a_count c - 1 =? 0)%Z eqn:Ez; inversion H; subst; clear H.
    - apply Z.eqb_eq in Ez. split.
      + intros x; rewrite getf_emit1, getf_seta; destruct (getf s x); auto using irel_refl.
      + intros b; rewrite geta_emit1. destruct (N.eq_dec a b) as [<-|Hne].
        * rewrite E, (geta_seta_same _ _ _ _ E). right; simpl; repeat split; auto; lia.
        * rewrite geta_seta_other; auto. destruct (geta s b); auto using arel_refl.
      + exists [EStop a]; rewrite out_emit1, out_seta; repeat split; auto.
        intros b. destruct (N.eq_dec a b) as [<-|Hne].
        * right; simpl. rewrite N.eqb_refl; repeat split; auto.
          -- exists c; auto.
          -- rewrite geta_emit1, (geta_seta_same _ _ _ _ E), Ez; auto.
        * left; simpl. destruct (N.eqb b a) eqn:Eb; [apply N.eqb_eq in Eb; subst; contradiction|].
          split; auto. unfold ast. rewrite geta_emit1, geta_seta_other; auto.
    - apply Z.eqb_neq in Ez. split.
      + intros x; rewrite getf_seta; destruct (getf s x); auto using irel_refl.
      + intros b. destruct (N.eq_dec a b) as [<-|Hne].
        * rewrite E, (geta_seta_same _ _ _ _ E). right; simpl; repeat split; auto; try lia.
          left; repeat split; auto; lia.
        * rewrite geta_seta_other; auto. destruct (geta s b); auto using arel_refl.
      + exists []; rewrite out_seta, app_nil_r; repeat split; auto.
        intros b; left; split; auto. unfold ast. destruct (N.eq_dec a b) as [<-|Hne].
        * rewrite E, (geta_seta_same _ _ _ _ E); auto.
        * rewrite geta_seta_other; auto.
  Qed.

  (* R is closed under the children relation of s; A contains the actions of R *)
  Definition closed (s : st) : Prop :=
    forall x i c, R x -> getf s x = Some i -> In c (i_children i) -> R c.
  Definition owns (s : st) : Prop :=
    forall x i a, R x -> getf s x = Some i -> In a (i_actions i) -> A a.

  Lemma srel_closed : forall s s', Srel s s' -> closed s -> closed s'.
  Proof.
    intros s s' HS Hc x i' c HR H Hin.
    destruct (srel_bwd _ _ _ _ HS H) as (i & Hi & Hrel).
    eapply Hc; eauto. eapply irel_children; eauto.
  Qed.

  Lemma srel_owns : forall s s', Srel s s' -> owns s -> owns s'.
  Proof.
    intros s s' HS Hc x i' c HR H Hin.
    destruct (srel_bwd _ _ _ _ HS H) as (i & Hi & Hrel).
    eapply Hc; eauto. rewrite <- (irel_actions _ _ _ Hrel); auto.
  Qed.

  Lemma closed_modf : forall s x g, (forall i, i_children (g i) = i_children i) -> closed s -> closed (modf s x g).
  Proof.
    intros s x g Hg Hc y i' c HR E' Hin.
    destruct (getf_modf_inv _ _ _ _ _ E') as (i & E & [->| ->]); [|rewrite Hg in Hin]; eauto.
  Qed.

  Lemma owns_modf : forall s x g, (forall i, i_actions (g i) = i_actions i) -> owns s -> owns (modf s x g).
  Proof.
    intros s x g Hg Ho y i' a HR E' Hin.
    destruct (getf_modf_inv _ _ _ _ _ E') as (i & E & [->| ->]); [|rewrite Hg in Hin]; eauto.
  Qed.
End Rel.

Lemma emit_ok_weaken : forall (R A R' A' : uid -> Prop) e,
  (forall x, R x -> R' x) -> (forall a, A a -> A' a) -> emit_ok R A e -> emit_ok R' A' e.
Proof. intros R A R' A' [a|x|x|x y z|x] HR HA; simpl; auto. Qed.

Lemma Srel_weaken : forall (R A R' A' : uid -> Prop) s s',
  (forall x, R x -> R' x) -> (forall a, A a -> A' a) -> Srel R A s s' -> Srel R' A' s s'.
Proof.
  intros R A R' A' s s' HR HA [F Ac (delta & O & E & N)]. split.
  - intros x. specialize (F x). destruct (getf s x), (getf s' x); auto.
    destruct F as (F1 & P1 & A1 & S1 & T1 & C1 & K1 & Z1 & N1).
    assert (T1' : status_rel R' x (i_status i) (i_status i0))
      by (destruct T1 as [->|(Hx & T1)]; [left|right]; auto).
    exact (conj F1 (conj P1 (conj A1 (conj S1 (conj T1' (conj C1
             (conj (fun c Hc => K1 c (fun H => Hc (HR c H)))
                (conj Z1 (fun Hx => N1 (fun H => Hx (HR x H))))))))))).
  - intros a. specialize (Ac a). destruct (geta s a), (geta s' a); auto.
    destruct Ac as [->|(Ha & Ac)]; [left|right]; auto.
  - exists delta. split; [auto|split].
    + eapply Forall_impl; [|exact E]. eauto using emit_ok_weaken.
    + intros a. destruct (N a) as [?|(Hn & Ha & Hrest)]; [left|right]; auto.
Qed.

Lemma bind_ok : forall A B (r : res A) (k : A -> res B) b,
  bind r k = Ok b -> exists a, r = Ok a /\ k a = Ok b.
Proof. intros A B [a|e] k b H; simpl in H; [eauto|discriminate]. Qed.

Ltac bind_inv H :=
  let a := fresh "s" in let H1 := fresh "Hb" in
  apply bind_ok in H; destruct H as (a & H1 & H).

Definition anyA : uid -> Prop := fun _ => True.
Definition anyR : uid -> Prop := fun _ => True.
Notation SrelT := (Srel anyR anyA).

Lemma anyR_closed : forall s, closed anyR s.
Proof. unfold closed, anyR; auto. Qed.

Lemma anyA_owns : forall R s, owns R anyA s.
Proof. unfold owns, anyA; auto. Qed.

Lemma modf_srel_activated0 : forall (R A : uid -> Prop) s x, R x -> Srel R A s (modf s x (set_activated 0%Z)).
Proof.
  intros R A s x HR. unfold modf. destruct (getf s x) as [i|] eqn:E; [|apply Srel_refl].
  apply srel_set_activated; auto.
Qed.

Lemma stop_actions_srel : forall (R A : uid -> Prop) l s s',
  (forall a, In a l -> A a) -> stop_actions l s = Ok s' -> Srel R A s s'.
Proof.
  induction l as [|a l IH]; simpl; intros s s' HA H.
  - inversion H; apply Srel_refl.
  - bind_inv H. eapply Srel_trans; [eapply srel_stop_action; eauto|eapply IH; eauto].
Qed.

Lemma stop_action_flows : forall s a s', stop_action s a = Ok s' -> flows s' = flows s.
Proof.
  unfold stop_action; intros s a s' H. destruct (geta s a); try discriminate.
  destruct (active (a_status a0)); [|inversion H; auto].
  destruct (a_count a0 - 1 =? 0)%Z; inversion H; auto.
Qed.

Lemma stop_actions_flows : forall l s s', stop_actions l s = Ok s' -> flows s' = flows s.
Proof.
  induction l as [|a l IH]; simpl; intros s s' H; [inversion H; auto|].
  bind_inv H. rewrite (IH _ _ H). eapply stop_action_flows; eauto.
Qed.

Lemma arel_count_le : forall (A : uid -> Prop) a c c', arel A a c c' -> (a_count c' <= a_count c)%Z.
Proof. intros A a c c' [->|(_ & _ & Hlt & _)]; lia. Qed.

Lemma srel_acts_fwd : forall (R A : uid -> Prop) s s' a c, Srel R A s s' -> geta s a = Some c ->
  exists c', geta s' a = Some c' /\ arel A a c c'.
Proof.
  intros R A s s' a c [_ Ac _] H. specialize (Ac a). rewrite H in Ac.
  destruct (geta s' a) as [c'|]; try tauto. eauto.
Qed.

Lemma srel_count_le : forall (R A : uid -> Prop) s s' a c, Srel R A s s' -> geta s a = Some c ->
  exists c', geta s' a = Some c' /\ (a_count c' <= a_count c)%Z.
Proof.
  intros R A s s' a c S Hc. destruct (srel_acts_fwd _ _ _ _ _ _ S Hc) as (c' & Hc' & Hr).
  eauto using arel_count_le.
Qed.

Lemma stop_action_decr : forall s a s' c,
  stop_action s a = Ok s' -> geta s a = Some c -> active (a_status c) = true ->
  exists c', geta s' a = Some c' /\ a_count c' = (a_count c - 1)%Z.
Proof.
  unfold stop_action; intros s a s' c H Hc Hact. rewrite Hc, Hact in H.
  destruct (a_count c - 1 =? 0)%Z; inversion H; subst; try rewrite geta_emit1;
    rewrite (geta_seta_same _ _ _ _ Hc); eauto.
Qed.

Lemma stop_actions_decr : forall l s s', stop_actions l s = Ok s' ->
  forall a c, In a l -> geta s a = Some c -> active (a_status c) = true ->
  exists c', geta s' a = Some c' /\ (a_count c' < a_count c)%Z.
Proof.
  induction l as [|a0 l IH]; simpl; intros s s' H a c Hin Hc Hact; [tauto|].
  bind_inv H.
  assert (S1 : SrelT s0 s') by (eapply stop_actions_srel; eauto; intros; exact I).
  destruct Hin as [<-|Hin].
  - destruct (stop_action_decr _ _ _ _ Hb Hc Hact) as (c0 & Hc0 & Hn).
    destruct (srel_count_le _ _ _ _ _ _ S1 Hc0) as (c' & Hc' & Hle). exists c'; split; auto; lia.
  - assert (S0 : SrelT s s0) by (eapply srel_stop_action; eauto; exact I).
    destruct (srel_acts_fwd _ _ _ _ _ _ S0 Hc) as (c0 & Hc0 & [->|(_ & _ & Hlt & _)]); [eauto|].
    destruct (srel_count_le _ _ _ _ _ _ S1 Hc0) as (c' & Hc' & Hle). exists c'; split; auto; lia.
Qed.

(* well-foundedness of the children relation ("the hierarchy is a forest / a DAG") *)
Definition ranked (rk : uid -> nat) (s : st) : Prop :=
  forall x i c, getf s x = Some i -> In c (i_children i) -> (rk c < rk x)%nat.

Lemma srel_ranked : forall (R A : uid -> Prop) rk s s', Srel R A s s' -> ranked rk s -> ranked rk s'.
Proof.
  intros R A rk s s' HS Hr x i' c H Hin.
  destruct (srel_bwd _ _ _ _ _ _ HS H) as (i & Hi & Hrel).
  eapply Hr; eauto. eapply irel_children; eauto.
Qed.

Lemma modf_ranked : forall rk s x g,
  (forall i, i_children (g i) = i_children i) -> ranked rk s -> ranked rk (modf s x g).
Proof.
  intros rk s x g Hg Hr y i' c E' Hin.
  destruct (getf_modf_inv _ _ _ _ _ E') as (i & E & [->| ->]); [|rewrite Hg in Hin]; eauto.
Qed.

Definition below (rk : uid -> nat) (f : uid) : uid -> Prop := fun y => (rk y < rk f)%nat.

Lemma below_closed : forall rk s f, ranked rk s -> closed (below rk f) s.
Proof. unfold closed, below; intros rk s f Hr x i c Hx H Hin. specialize (Hr _ _ _ H Hin). lia. Qed.

Lemma ranked_below : forall rk s f i, ranked rk s -> getf s f = Some i -> Forall (below rk f) (i_children i).
Proof. intros rk s f i Hr E. apply Forall_forall. intros c Hin. exact (Hr _ _ _ E Hin). Qed.

(* The state the loops of the prologue start from: f, a reference instance that is being
   deactivated, has given up one activation - or nothing has happened yet.  From there on the
   prologue works strictly below f. *)
Definition dec (s : st) (f : uid) (i : inst) (isref : bool) : st :=
  if isref then modf s f (set_activated (i_activated i - 1)%Z) else s.

Lemma dec_ranked : forall rk s f i b, ranked rk s -> ranked rk (dec s f i b).
Proof. intros rk s f i [|] Hr; simpl; auto using modf_ranked. Qed.

Lemma geta_dec : forall s f i b a, geta (dec s f i b) a = geta s a.
Proof. intros s f i [|] a; simpl; auto using geta_modf. Qed.

Lemma out_dec : forall s f i b, out (dec s f i b) = out s.
Proof. intros s f i [|]; simpl; auto using out_modf. Qed.

Lemma dec_self : forall (R A : uid -> Prop) s f i b s',
  Srel R A (dec s f i b) s' -> ~ R f -> getf s f = Some i ->
  exists i', getf s' f = Some i' /\ i_flow i' = i_flow i /\ i_status i' = i_status i /\
    i_parent i' = i_parent i /\ i_actions i' = i_actions i /\ i_nis i' = i_nis i /\
    i_activated i' = (if b then i_activated i - 1 else i_activated i)%Z /\
    (forall c, In c (i_children i') -> In c (i_children i)).
Proof.
  intros R A s f i b s' S Hf E.
  assert (E0 : getf (dec s f i b) f = Some (if b then set_activated (i_activated i - 1)%Z i else i))
    by (destruct b; simpl; auto using getf_modf_same).
  destruct (srel_outside _ _ _ _ _ _ S Hf E0) as (i' & E' & (F & St & P & Ac & _ & Av & N) & C & _).
  exists i'. destruct b; simpl in *; repeat split; auto.
Qed.

(* is this call the deactivation of a reference instance? (the test at the head of `deactivate`) *)
Definition ref_deact (s : st) (i : inst) (d : bool) : res bool :=
  if d then is_ref_activated s i else Ok false.

Lemma deactivate_ok : forall ab s f d s1 b, deactivate ab s f d = Ok (s1, b) ->
  exists i isref, getf s f = Some i /\
    ref_deact s i d = Ok isref /\
    b = negb isref || (i_activated i - 1 =? 0)%Z /\
    (if isref && (i_activated i - 1 =? 0)%Z
     then abort_same ab (i_flow i) (i_children i) (dec s f i isref)
     else Ok (dec s f i isref)) = Ok s1.
Proof.
  unfold deactivate; intros ab s f d s1 b H. destruct (getf s f) as [i|]; [|discriminate].
  apply bind_ok in H. destruct H as (isref & Href & H). exists i, isref. split; [auto|split; [auto|]].
  destruct isref; simpl; [|inversion H; auto].
  destruct (i_activated i - 1 =? 0)%Z; [bind_inv H|]; inversion H; subst; auto.
Qed.

Inductive prologue_rest ab skip f s1 : bool -> st -> bool -> Prop :=
| pr_return : prologue_rest ab skip f s1 false s1 false
| pr_skip : forall i1, getf s1 f = Some i1 -> skip (i_status i1) = true ->
    prologue_rest ab skip f s1 true s1 false
| pr_go : forall i1 s2 i2 s3, getf s1 f = Some i1 -> skip (i_status i1) = false ->
    abort_children ab (i_children i1) s1 = Ok s2 -> getf s2 f = Some i2 ->
    stop_actions (i_actions i2) s2 = Ok s3 -> prologue_rest ab skip f s1 true s3 true.

Lemma prologue_ok : forall ab skip s f d s3 go, prologue ab skip s f d = Ok (s3, go) ->
  exists s1 b, deactivate ab s f d = Ok (s1, b) /\ prologue_rest ab skip f s1 b s3 go.
Proof.
  unfold prologue; intros ab skip s f d s3 go H.
  apply bind_ok in H. destruct H as ([s1 b] & Hd & H). exists s1, b. split; auto. simpl in H.
  destruct b; [|inversion H; subst; constructor].
  destruct (getf s1 f) as [i1|] eqn:E1; [|discriminate].
  destruct (skip (i_status i1)) eqn:Esk; [inversion H; subst; econstructor; eauto|].
  bind_inv H. destruct (getf s0 f) as [i2|] eqn:E2; [|discriminate]. bind_inv H. inversion H; subst.
  econstructor; eauto.
Qed.

Lemma prologue_some : forall ab skip s f d r, prologue ab skip s f d = Ok r -> exists i, getf s f = Some i.
Proof.
  intros ab skip s f d [s3 go] H. destruct (prologue_ok _ _ _ _ _ _ _ H) as (s1 & b & Hd & _).
  destruct (deactivate_ok _ _ _ _ _ _ Hd) as (i & _ & E & _). eauto.
Qed.

Lemma is_ref_pos : forall s i, is_ref_activated s i = Ok true -> (0 < i_activated i)%Z.
Proof.
  unfold is_ref_activated; intros s i H.
  destruct (0 <? i_activated i)%Z eqn:Ez; [apply Z.ltb_lt in Ez; auto|discriminate].
Qed.

Lemma srel_dec : forall (R A : uid -> Prop) s f (d : bool) i isref,
  R f -> getf s f = Some i -> ref_deact s i d = Ok isref ->
  Srel R A s (dec s f i isref).
Proof.
  intros R A s f d i [|] HR E Href; simpl; [|apply Srel_refl].
  rewrite (modf_some _ _ _ _ E). apply srel_set_activated; auto.
  destruct d; [right; eauto using is_ref_pos|discriminate].
Qed.

(* The restart an ending activated instance asks for.  Of the other instances it reads only the
   flow id of the parent, which nothing in the lifetime layer changes. *)

Definition restart_src (s : st) (i : inst) (f : uid) : uid :=
  match i_parent i with
  | None => f
  | Some p => match getf s p with
              | Some pi => if N.eqb (i_flow pi) (i_flow i) then p else f
              | None => f
              end
  end.

Definition restart_events (s : st) (i : inst) (f : uid) : list emit :=
  if (0 <? i_activated i)%Z && negb (i_nis i)
  then [ERestart f (restart_src s i f) (i_activated i)] else [].

Lemma restart_ok : forall s f d s', restart s f d = Ok s' -> exists i, getf s f = Some i /\
  s' = if negb d && (0 <? i_activated i)%Z && negb (i_nis i)
       then modf (emit1 s (ERestart f (restart_src s i f) (i_activated i))) f (set_nis true) else s.
Proof.
  unfold restart, restart_src; intros s f d s' H. destruct (getf s f) as [i|]; [|discriminate].
  exists i. split; auto.
  destruct (negb d && (0 <? i_activated i)%Z && negb (i_nis i)); [|inversion H; auto].
  apply bind_ok in H. destruct H as (src & Hsrc & H). inversion H; subst. do 3 f_equal.
  destruct (i_parent i) as [p|]; [destruct (getf s p); [|discriminate]|]; inversion Hsrc; auto.
Qed.

Definition same_ids (s s' : st) : Prop :=
  forall x, option_map i_flow (getf s' x) = option_map i_flow (getf s x).

Lemma same_ids_trans : forall s1 s2 s3, same_ids s1 s2 -> same_ids s2 s3 -> same_ids s1 s3.
Proof. intros s1 s2 s3 H1 H2 x. rewrite H2. apply H1. Qed.

Lemma srel_same_ids : forall (R A : uid -> Prop) s s', Srel R A s s' -> same_ids s s'.
Proof.
  intros R A s s' S x. pose proof (sr_flows _ _ _ _ S x) as F.
  destruct (getf s x), (getf s' x); try tauto. simpl. f_equal. exact (irel_flow _ _ _ _ F).
Qed.

Lemma same_ids_modf : forall s x g, (forall i, i_flow (g i) = i_flow i) -> same_ids s (modf s x g).
Proof.
  intros s x g Hg y. rewrite getf_modf. destruct (N.eqb x y); auto.
  destruct (getf s y); simpl; auto. rewrite Hg; auto.
Qed.

Lemma restart_events_eq : forall s s' i i' f,
  same_ids s s' -> i_flow i' = i_flow i -> i_parent i' = i_parent i ->
  i_activated i' = i_activated i -> i_nis i' = i_nis i ->
  restart_events s' i' f = restart_events s i f.
Proof.
  unfold restart_events, restart_src; intros s s' i i' f H F P Av N. rewrite F, P, Av, N.
  destruct (i_parent i) as [p|]; auto. specialize (H p).
  destruct (getf s p), (getf s' p); simpl in H; inversion H; auto.
Qed.

(* what the loops and the prologue ask of the recursive call `ab` (the call with smaller fuel) *)
Definition respects_srel (rk : uid -> nat) (ab : st -> uid -> bool -> res st) : Prop :=
  forall (R A : uid -> Prop) s c d s',
    ranked rk s -> closed R s -> owns R A s -> R c -> ab s c d = Ok s' -> Srel R A s s'.

Section Pass.
  Variable rk : uid -> nat.
  Variable ab : st -> uid -> bool -> res st.
  Hypothesis Hab : respects_srel rk ab.

  Section Loops.
  Variables R A : uid -> Prop.

  Lemma abort_same_srel : forall fid l s s',
    ranked rk s -> closed R s -> owns R A s -> Forall R l -> abort_same ab fid l s = Ok s' -> Srel R A s s'.
  Proof.
    induction l as [|c l IH]; simpl; intros s s' Hr Hc Ho Hl H.
    - inversion H; apply Srel_refl.
    - inversion Hl; subst. destruct (getf s c) as [ci|] eqn:E; try discriminate.
      destruct (N.eqb (i_flow ci) fid); [|eapply IH; eauto].
      bind_inv H.
      assert (S3 : Srel R A s (modf s0 c (set_activated 0%Z)))
        by (eapply Srel_trans; [eapply Hab; eauto|apply modf_srel_activated0; auto]).
      eapply Srel_trans; [exact S3|].
      eapply IH; eauto using srel_closed, srel_owns, srel_ranked.
  Qed.

  Lemma abort_children_srel : forall l s s',
    ranked rk s -> closed R s -> owns R A s -> Forall R l -> abort_children ab l s = Ok s' -> Srel R A s s'.
  Proof.
    induction l as [|c l IH]; simpl; intros s s' Hr Hc Ho Hl H.
    - inversion H; apply Srel_refl.
    - inversion Hl; subst. destruct (getf s c) as [ci|] eqn:E; [|eapply IH; eauto].
      destruct (is_child_activated s ci); [eapply IH; eauto|].
      bind_inv H.
      assert (S1 : Srel R A s s0) by (eapply Hab; eauto).
      eapply Srel_trans; [exact S1|].
      eapply IH; eauto using srel_closed, srel_owns, srel_ranked.
  Qed.

  Lemma scope_flows_srel : forall l s s',
    ranked rk s -> closed R s -> owns R A s -> Forall R l -> scope_flows ab l s = Ok s' -> Srel R A s s'.
  Proof.
    induction l as [|c l IH]; simpl; intros s s' Hr Hc Ho Hl H.
    - inversion H; apply Srel_refl.
    - inversion Hl; subst. destruct (getf s c) as [ci|] eqn:E; [|eapply IH; eauto].
      destruct (listening (i_status ci)); [|eapply IH; eauto].
      bind_inv H.
      assert (S1 : Srel R A s s0) by (eapply Hab; eauto).
      eapply Srel_trans; [exact S1|].
      eapply IH; eauto using srel_closed, srel_owns, srel_ranked.
  Qed.

  Lemma children_in_R : forall s f i, closed R s -> R f -> getf s f = Some i -> Forall R (i_children i).
  Proof. intros s f i Hc HR H. apply Forall_forall. intros c Hin. eapply Hc; eauto. Qed.

  Lemma dec_closed : forall s f i b, closed R s -> closed R (dec s f i b).
  Proof. intros s f i [|] Hc; simpl; auto using closed_modf. Qed.

  Lemma dec_owns : forall s f i b, owns R A s -> owns R A (dec s f i b).
  Proof. intros s f i [|] Ho; simpl; auto using owns_modf. Qed.

  Lemma deactivate_dec : forall s f d s1 b i,
    ranked rk s -> closed R s -> owns R A s -> getf s f = Some i -> Forall R (i_children i) ->
    deactivate ab s f d = Ok (s1, b) ->
    exists isref, ref_deact s i d = Ok isref /\
      b = negb isref || (i_activated i - 1 =? 0)%Z /\
      Srel R A (dec s f i isref) s1.
  Proof.
    intros s f d s1 b i Hr Hc Ho E Hl H.
    destruct (deactivate_ok _ _ _ _ _ _ H) as (i' & isref & E' & Href & Hb & H1).
    rewrite E in E'; inversion E'; subst i'. exists isref. split; [auto|split; [auto|]].
    destruct (isref && (i_activated i - 1 =? 0)%Z); [|inversion H1; apply Srel_refl].
    eapply (abort_same_srel (i_flow i) (i_children i)); eauto using dec_ranked, dec_closed, dec_owns.
  Qed.

  (* The prologue, seen from an f outside R whose children and actions are inside (R, A):
     whether it goes on to the epilogue is decided by the state before; apart from the decrement
     of `dec` everything happens inside (R, A); and if it goes on, every running action of f has
     given up a share. *)
  Lemma prologue_dec : forall skip s f d s3 go i,
    ranked rk s -> closed R s -> owns R A s -> ~ R f -> getf s f = Some i ->
    Forall R (i_children i) -> (forall a, In a (i_actions i) -> A a) ->
    prologue ab skip s f d = Ok (s3, go) ->
    exists isref,
      ref_deact s i d = Ok isref /\
      go = (negb isref || (i_activated i - 1 =? 0)%Z) && negb (skip (i_status i)) /\
      Srel R A (dec s f i isref) s3 /\
      (go = true -> forall a c, In a (i_actions i) -> geta s a = Some c -> active (a_status c) = true ->
         exists c3, geta s3 a = Some c3 /\ (a_count c3 < a_count c)%Z).
  Proof.
    intros skip s f d s3 go i Hr Hc Ho Hf E Hl Ha H.
    destruct (prologue_ok _ _ _ _ _ _ _ H) as (s1 & b & Hd & Hrest).
    destruct (deactivate_dec _ _ _ _ _ _ Hr Hc Ho E Hl Hd) as (isref & Href & Hb & S1).
    exists isref. split; [exact Href|]. rewrite <- Hb.
    destruct (dec_self _ _ _ _ _ _ _ S1 Hf E) as (i1' & E1' & _ & St1 & _ & _ & _ & _ & C1).
    destruct Hrest as [|i1 E1 Hsk|i1 s2 i2 s3 E1 Hsk Hch E2 Hsa]; simpl;
      try (rewrite E1 in E1'; inversion E1'; subst i1'; rewrite <- St1, Hsk).
    1,2: split; [|split]; auto; discriminate.
    assert (S2 : Srel R A (dec s f i isref) s2).
    { eapply Srel_trans; [exact S1|].
      eapply (abort_children_srel (i_children i1));
        eauto using srel_ranked, srel_closed, srel_owns, dec_ranked, dec_closed, dec_owns.
      rewrite Forall_forall in *. auto. }
    destruct (dec_self _ _ _ _ _ _ _ S2 Hf E) as (i2' & E2' & _ & _ & _ & Ac2 & _).
    rewrite E2 in E2'; inversion E2'; subst i2'. rewrite Ac2 in Hsa.
    assert (S3 : Srel R A s2 s3) by (eapply stop_actions_srel; eauto).
    split; [|split]; [auto|eapply Srel_trans; eauto|].
    intros _ a c Hin Hc' Hact. rewrite <- (geta_dec s f i isref) in Hc'.
    destruct (srel_acts_fwd _ _ _ _ _ _ S2 Hc') as (c0 & Hc0 & [->|(_ & _ & Hlt & _)]).
    - eapply stop_actions_decr; eauto.
    - destruct (srel_count_le _ _ _ _ _ _ S3 Hc0) as (c3 & Hc3 & Hle). exists c3; split; auto; lia.
  Qed.

  Lemma deactivate_srel : forall s f d s1 b,
    ranked rk s -> closed R s -> owns R A s -> R f -> deactivate ab s f d = Ok (s1, b) -> Srel R A s s1.
  Proof.
    intros s f d s1 b Hr Hc Ho HR H.
    destruct (deactivate_ok _ _ _ _ _ _ H) as (i & _ & E & _).
    destruct (deactivate_dec _ _ _ _ _ _ Hr Hc Ho E (children_in_R _ _ _ Hc HR E) H) as (isref & Href & _ & S).
    eapply Srel_trans; [eapply srel_dec; eauto|exact S].
  Qed.
  End Loops.

  (* the children loop does not touch f itself (f is not below f) *)
  Lemma abort_children_self : forall l s s' f i,
    ranked rk s -> Forall (below rk f) l -> abort_children ab l s = Ok s' -> getf s f = Some i ->
    exists i', getf s' f = Some i' /\ i_status i' = i_status i /\
               (forall c, In c (i_children i') -> In c (i_children i)).
  Proof.
    intros l s s' f i Hr Hl H E.
    assert (S : Srel (below rk f) anyA s s').
    { eapply abort_children_srel; eauto using below_closed, anyA_owns. }
    destruct (srel_outside _ _ _ _ _ _ S (Nat.lt_irrefl _) E)
      as (i' & E' & (_ & St & _) & C & _).
    exists i'; repeat split; auto.
  Qed.

  (* prologue_dec wants f outside the region: take the part of R below f, which is closed as well *)
  Lemma prologue_srel : forall (R A : uid -> Prop) skip s f d s3 go,
    ranked rk s -> closed R s -> owns R A s -> R f -> prologue ab skip s f d = Ok (s3, go) ->
    Srel R A s s3 /\
    (go = true -> exists i3, getf s3 f = Some i3 /\ skip (i_status i3) = false).
  Proof.
    intros R A skip s f d s3 go Hr Hc Ho HR H.
    destruct (prologue_some _ _ _ _ _ _ H) as (i & E).
    destruct (prologue_dec (fun x => R x /\ below rk f x) A skip s f d s3 go i) as (isref & Href & Hgo & S & _); auto.
    - intros x xi c (HRx & Hx) Ex Hin. split; [eapply Hc|eapply below_closed]; eauto.
    - intros x xi a (HRx & _). eauto.
    - intros (_ & Hf). exact (Nat.lt_irrefl _ Hf).
    - apply Forall_forall. intros c Hin. split; [eapply Hc|eapply Hr]; eauto.
    - eauto.
    - split.
      + eapply Srel_trans; [eapply srel_dec; eauto|]. exact (Srel_weaken _ _ _ _ _ _ (fun x Hx => proj1 Hx) (fun a Ha => Ha) S).
      + intros ->. destruct (dec_self _ _ _ _ _ _ _ S (fun Hf => Nat.lt_irrefl _ (proj2 Hf)) E) as (i3 & E3 & _ & St3 & _).
        exists i3. split; auto. rewrite St3. destruct (skip (i_status i)); auto.
        rewrite Bool.andb_false_r in Hgo. discriminate.
  Qed.

  Lemma prologue_spec : forall skip s f d s3 go i,
    ranked rk s -> getf s f = Some i -> prologue ab skip s f d = Ok (s3, go) ->
    exists isref,
      ref_deact s i d = Ok isref /\
      go = (negb isref || (i_activated i - 1 =? 0)%Z) && negb (skip (i_status i)) /\
      Srel (below rk f) anyA (dec s f i isref) s3 /\
      (go = true -> forall a c, In a (i_actions i) -> geta s a = Some c -> active (a_status c) = true ->
         exists c3, geta s3 a = Some c3 /\ (a_count c3 < a_count c)%Z).
  Proof.
    intros skip s f d s3 go i Hr E H.
    exact (prologue_dec (below rk f) anyA skip s f d s3 go i Hr (below_closed _ _ _ Hr) (anyA_owns _ s)
             (Nat.lt_irrefl _) E (ranked_below _ _ _ _ Hr E) (fun _ _ => I) H).
  Qed.

  Lemma prologue_out : forall skip s f d s3 go i,
    ranked rk s -> getf s f = Some i -> prologue ab skip s f d = Ok (s3, go) ->
    exists pre i3,
      out s3 = out s ++ pre /\ Forall (emit_ok (below rk f) anyA) pre /\
      getf s3 f = Some i3 /\ i_flow i3 = i_flow i /\
      (d = false -> restart_events s3 i3 f = restart_events s i f).
  Proof.
    intros skip s f d s3 go i Hr E H.
    destruct (prologue_spec _ _ _ _ _ _ _ Hr E H) as (isref & Href & _ & S & _).
    destruct (dec_self _ _ _ _ _ _ _ S (Nat.lt_irrefl _) E) as (i3 & E3 & F & _ & P & _ & N & Av & _).
    destruct (sr_out _ _ _ _ S) as (pre & O & Fp & _). rewrite out_dec in O.
    exists pre, i3. repeat split; auto.
    intros ->. inversion Href; subst isref. apply restart_events_eq; auto.
    eapply srel_same_ids; eauto.
  Qed.
End Pass.

Lemma restart_srel : forall (R A : uid -> Prop) s f d s', R f -> restart s f d = Ok s' -> Srel R A s s'.
Proof.
  intros R A s f d s' HR H. destruct (restart_ok _ _ _ _ H) as (i & E & ->).
  destruct (negb d && (0 <? i_activated i)%Z && negb (i_nis i)); [|apply Srel_refl].
  eapply Srel_trans.
  - apply srel_emit with (e := ERestart f (restart_src s i f) (i_activated i)); simpl; auto. discriminate.
  - unfold modf. rewrite getf_emit1, E. eapply srel_setf; [rewrite getf_emit1; exact E|].
    unfold irel; simpl. repeat split; auto using status_rel_refl; try tauto; intros; lia.
Qed.

Lemma modf_srel_status : forall (R A : uid -> Prop) s f v i, R f -> getf s f = Some i ->
  ((v = FStopped /\ live (i_status i) = true) \/
   ((v = FFinished \/ v = FWaiting) /\ listening (i_status i) = true)) ->
  Srel R A s (modf s f (set_status v)).
Proof.
  intros R A s f v i HR E Hv. rewrite (modf_some _ _ _ _ E). eapply srel_setf; eauto.
  unfold irel; simpl. repeat split; auto; try tauto; try (intros; lia).
  right; auto.
Qed.

Lemma unlink_getf_fields : forall s f s' x i, unlink s f = Ok s' -> getf s x = Some i ->
  exists i', getf s' x = Some i' /\ i_flow i' = i_flow i /\ i_activated i' = i_activated i /\
             i_nis i' = i_nis i /\ i_parent i' = i_parent i /\ i_status i' = i_status i.
Proof.
  intros s f s' x i H E. destruct (unlink_ok _ _ _ H) as [->|(p & pi & l & Ep & _ & ->)]; [eauto 10|].
  destruct (N.eq_dec p x) as [->|Hne].
  - rewrite (getf_setf_same _ _ _ _ Ep). rewrite E in Ep; inversion Ep; subst. eexists; split; eauto 10.
  - rewrite getf_setf_other; eauto 10.
Qed.

Lemma epilogue_abort_srel : forall (R A : uid -> Prop) s3 f d s' i,
  R f -> getf s3 f = Some i -> live (i_status i) = true ->
  epilogue_abort s3 f d = Ok s' -> Srel R A s3 s'.
Proof.
  unfold epilogue_abort; intros R A s3 f d s' i HR E Hl H.
  bind_inv H.
  destruct (unlink_getf_fields _ _ _ _ _ Hb E) as (i4 & E4 & _ & _ & _ & _ & Hst).
  eapply Srel_trans; [eapply srel_unlink; eauto|].
  eapply Srel_trans; [eapply modf_srel_status with (v := FStopped); eauto|].
  { left; split; auto. congruence. }
  eapply Srel_trans; [apply srel_emit with (e := EFailed f); simpl; auto; discriminate|].
  eapply restart_srel; eauto.
Qed.

Lemma epilogue_finish_srel : forall (R A : uid -> Prop) s3 f d s' i,
  R f -> getf s3 f = Some i -> listening (i_status i) = true ->
  epilogue_finish s3 f d = Ok s' -> Srel R A s3 s'.
Proof.
  unfold epilogue_finish; intros R A s3 f d s' i HR E Hl H. rewrite E in H.
  destruct (N.eqb (i_flow i) main_id).
  - inversion H; subst. eapply modf_srel_status; eauto.
  - bind_inv H.
    eapply Srel_trans; [eapply modf_srel_status with (v := FFinished); eauto|].
    eapply Srel_trans; [eapply srel_unlink; eauto|].
    eapply Srel_trans; [apply srel_emit with (e := EFinished f); simpl; auto; discriminate|].
    eapply restart_srel; eauto.
Qed.

Lemma skip_abort_live : forall x, skip_abort x = false -> live x = true.
Proof. unfold skip_abort, live; intros x; destruct (listening x), (is_stopping x); simpl; auto. Qed.
Lemma skip_abort_dead : forall x, skip_abort x = true -> live x = false.
Proof. unfold skip_abort, live; intros x; destruct (listening x), (is_stopping x); simpl; auto. Qed.
Lemma skip_finish_listening : forall x, skip_finish x = false -> listening x = true.
Proof. unfold skip_finish; intros x; destruct (listening x); simpl; auto. Qed.
Lemma live_not_skipped : forall x, live x = true -> skip_abort x = false.
Proof. unfold skip_abort, live; intros x; destruct (listening x), (is_stopping x); simpl; auto. Qed.
Lemma listening_not_skipped : forall x, listening x = true -> skip_finish x = false.
Proof. unfold skip_finish; intros x ->; auto. Qed.

(* _abort_flow (one unfolding of it, also with restart_flow=False) and _finish_flow are the same
   function up to the status test `skip` and the epilogue `epi`. *)
Definition ending (ab : st -> uid -> bool -> res st) (skip : fstatus -> bool) (epi : st -> res st)
           (s : st) (f : uid) (d : bool) : res st :=
  bind (prologue ab skip s f d) (fun r => if snd r then epi (fst r) else Ok (fst r)).

Lemma abort_ending : forall n s f d,
  abort (S n) s f d = ending (abort n) skip_abort (fun s3 => epilogue_abort s3 f d) s f d.
Proof. reflexivity. Qed.

Lemma abort_top_ending : forall r n s f d,
  abort_top r (S n) s f d = ending (abort n) skip_abort (fun s3 => epilogue_abort s3 f (d || negb r)) s f d.
Proof. reflexivity. Qed.

Lemma finish_ending : forall n s f d,
  finish n s f d = ending (abort n) skip_finish (fun s3 => epilogue_finish s3 f d) s f d.
Proof. reflexivity. Qed.

Lemma ending_ok : forall ab skip epi s f d s', ending ab skip epi s f d = Ok s' ->
  exists s3 go, prologue ab skip s f d = Ok (s3, go) /\ (if go then epi s3 else Ok s3) = Ok s'.
Proof. unfold ending; intros. apply bind_ok in H. destruct H as ([s3 go] & Hp & H). eauto. Qed.

(* once the deactivation has let the call through, it goes on as a call without deactivation *)
Lemma ending_deactivate : forall ab skip epi s f d s', ending ab skip epi s f d = Ok s' ->
  exists s1 b, deactivate ab s f d = Ok (s1, b) /\
    (if b then ending ab skip epi s1 f false else Ok s1) = Ok s'.
Proof.
  unfold ending, prologue; intros ab skip epi s f d s' H.
  apply bind_ok in H. destruct H as (r & H1 & H2).
  apply bind_ok in H1. destruct H1 as ([s1 b] & Hd & H1). exists s1, b. split; auto.
  destruct b; simpl in *; [|inversion H1; subst; exact H2].
  unfold deactivate. destruct (getf s1 f) eqn:E1; simpl; [rewrite E1, H1; exact H2|discriminate].
Qed.

(* does this call go past the deactivate prologue? *)
Definition proceeds (s : st) (f : uid) (d : bool) : bool :=
  match getf s f with
  | None => false
  | Some i =>
    if d then match is_ref_activated s i with
              | Ok true => (i_activated i =? 1)%Z
              | _ => true
              end
    else true
  end.

Lemma proceeds_eq : forall s f (d : bool) i isref,
  getf s f = Some i -> ref_deact s i d = Ok isref ->
  proceeds s f d = negb isref || (i_activated i =? 1)%Z.
Proof.
  unfold proceeds, ref_deact; intros s f d i isref E H. rewrite E.
  destruct d; [rewrite H; destruct isref; auto|inversion H; auto].
Qed.

Lemma proceeds_go : forall s f (d : bool) i isref,
  getf s f = Some i -> ref_deact s i d = Ok isref ->
  proceeds s f d = true -> negb isref || (i_activated i - 1 =? 0)%Z = true.
Proof.
  intros s f d i isref E Href Hp. rewrite (proceeds_eq _ _ _ _ _ E Href) in Hp.
  destruct isref; auto. apply Z.eqb_eq in Hp. apply Z.eqb_eq. lia.
Qed.

Section Ending.
  Variable rk : uid -> nat.
  Variable ab : st -> uid -> bool -> res st.
  Hypothesis Hab : respects_srel rk ab.
  Variable skip : fstatus -> bool.
  Variable epi : st -> res st.
  Variable f : uid.
  Hypothesis Hepi : forall (R A : uid -> Prop) s3 i3 s',
    R f -> getf s3 f = Some i3 -> skip (i_status i3) = false -> epi s3 = Ok s' -> Srel R A s3 s'.

  Lemma ending_srel : forall (R A : uid -> Prop) s d s',
    ranked rk s -> closed R s -> owns R A s -> R f -> ending ab skip epi s f d = Ok s' -> Srel R A s s'.
  Proof.
    intros R A s d s' Hr Hc Ho HR H. destruct (ending_ok _ _ _ _ _ _ _ H) as (s3 & go & Hp & He).
    destruct (prologue_srel rk ab Hab R A _ _ _ _ _ _ Hr Hc Ho HR Hp) as (S & Hgo).
    destruct go; [|inversion He; subst; auto].
    destruct (Hgo eq_refl) as (i3 & E3 & Hsk). eapply Srel_trans; eauto.
  Qed.

  Lemma ending_reaches : forall s d s' i,
    ranked rk s -> getf s f = Some i -> ending ab skip epi s f d = Ok s' ->
    proceeds s f d = true -> skip (i_status i) = false ->
    exists s3, prologue ab skip s f d = Ok (s3, true) /\ epi s3 = Ok s'.
  Proof.
    intros s d s' i Hr E H Hp Hsk. destruct (ending_ok _ _ _ _ _ _ _ H) as (s3 & go & Hpr & He).
    destruct (prologue_spec rk ab Hab _ _ _ _ _ _ _ Hr E Hpr) as (isref & Href & Hgo & _).
    rewrite (proceeds_go _ _ _ _ _ E Href Hp), Hsk in Hgo. subst go. eauto.
  Qed.

  Lemma ending_own_actions : forall s d s' i,
    ranked rk s -> getf s f = Some i -> ending ab skip epi s f d = Ok s' ->
    proceeds s f d = true -> skip (i_status i) = false ->
    forall a c, In a (i_actions i) -> geta s a = Some c -> active (a_status c) = true ->
    exists c', geta s' a = Some c' /\ (a_count c' < a_count c)%Z.
  Proof.
    intros s d s' i Hr E H Hp Hsk a c Hin Hc Hact.
    destruct (ending_reaches _ _ _ _ Hr E H Hp Hsk) as (s3 & Hpr & He).
    destruct (prologue_spec rk ab Hab _ _ _ _ _ _ _ Hr E Hpr) as (isref & _ & _ & S & Hdec).
    destruct (Hdec eq_refl a c Hin Hc Hact) as (c3 & Hc3 & Hlt).
    destruct (dec_self _ _ _ _ _ _ _ S (Nat.lt_irrefl _) E) as (i3 & E3 & _ & St3 & _).
    assert (S' : SrelT s3 s') by (apply (Hepi anyR anyA s3 i3 s' I E3); [rewrite St3|]; auto).
    destruct (srel_count_le _ _ _ _ _ _ S' Hc3) as (c' & Hc' & Hle). exists c'; split; auto; lia.
  Qed.

  (* an epilogue that appends e and then the restart: nothing emitted before concerns f *)
  Lemma ending_emits : forall e s d s' i,
    ranked rk s -> getf s f = Some i -> ending ab skip epi s f d = Ok s' ->
    proceeds s f d = true -> skip (i_status i) = false ->
    (forall s3 i3, getf s3 f = Some i3 -> i_flow i3 = i_flow i -> epi s3 = Ok s' ->
       out s' = out s3 ++ e :: (if d then [] else restart_events s3 i3 f)) ->
    exists pre, out s' = out s ++ pre ++ e :: (if d then [] else restart_events s i f) /\
                Forall (emit_ok (below rk f) anyA) pre.
  Proof.
    intros e s d s' i Hr E H Hp Hsk Hout.
    destruct (ending_reaches _ _ _ _ Hr E H Hp Hsk) as (s3 & Hpr & He).
    destruct (prologue_out rk ab Hab _ _ _ _ _ _ _ Hr E Hpr) as (pre & i3 & O3 & F3 & E3 & Hf3 & Hre).
    exists pre. split; auto. rewrite (Hout _ _ E3 Hf3 He), O3, <- app_assoc.
    destruct d; auto. rewrite Hre; auto.
  Qed.
End Ending.

Lemma epi_abort_srel : forall f d (R A : uid -> Prop) s3 i3 s',
  R f -> getf s3 f = Some i3 -> skip_abort (i_status i3) = false -> epilogue_abort s3 f d = Ok s' ->
  Srel R A s3 s'.
Proof. intros; eapply epilogue_abort_srel; eauto using skip_abort_live. Qed.

Lemma epi_finish_srel : forall f d (R A : uid -> Prop) s3 i3 s',
  R f -> getf s3 f = Some i3 -> skip_finish (i_status i3) = false -> epilogue_finish s3 f d = Ok s' ->
  Srel R A s3 s'.
Proof. intros; eapply epilogue_finish_srel; eauto using skip_finish_listening. Qed.

Theorem abort_srel : forall rk n (R A : uid -> Prop) s f d s',
  ranked rk s -> closed R s -> owns R A s -> R f -> abort n s f d = Ok s' -> Srel R A s s'.
Proof.
  induction n as [|n IH]; intros R A s f d s' Hr Hc Ho HR H; [discriminate|]. rewrite abort_ending in H.
  exact (ending_srel rk _ IH _ _ f (epi_abort_srel f d) R A s d s' Hr Hc Ho HR H).
Qed.

Theorem abort_top_srel : forall rk r n (R A : uid -> Prop) s f d s',
  ranked rk s -> closed R s -> owns R A s -> R f -> abort_top r n s f d = Ok s' -> Srel R A s s'.
Proof.
  intros rk r [|n] R A s f d s' Hr Hc Ho HR H; [discriminate|]. rewrite abort_top_ending in H.
  exact (ending_srel rk _ (abort_srel rk n) _ _ f (epi_abort_srel f _) R A s d s' Hr Hc Ho HR H).
Qed.

Theorem finish_srel : forall rk n (R A : uid -> Prop) s f d s',
  ranked rk s -> closed R s -> owns R A s -> R f -> finish n s f d = Ok s' -> Srel R A s s'.
Proof.
  intros rk n R A s f d s' Hr Hc Ho HR H. rewrite finish_ending in H.
  exact (ending_srel rk _ (abort_srel rk n) _ _ f (epi_finish_srel f d) R A s d s' Hr Hc Ho HR H).
Qed.

Lemma irel_lst : forall (R : uid -> Prop) x i i', irel R x i i' -> listening (i_status i) = false -> listening (i_status i') = false.
Proof.
  intros R x i i' Hrel H.
  destruct (irel_status _ _ _ _ Hrel) as [->|(_ & [(-> & _)|([->| ->] & Hl)])]; auto; congruence.
Qed.

Lemma irel_lv : forall (R : uid -> Prop) x i i', irel R x i i' -> live (i_status i) = false -> live (i_status i') = false.
Proof.
  intros R x i i' Hrel H.
  destruct (irel_status _ _ _ _ Hrel) as [->|(_ & [(-> & Hl)|([->| ->] & Hl)])]; auto; try congruence.
  unfold live in H. rewrite Hl in H. discriminate.
Qed.

Lemma lst_mono : forall (R A : uid -> Prop) s s' x, Srel R A s s' -> lst s x = false -> lst s' x = false.
Proof.
  unfold lst; intros R A s s' x HS H. destruct (getf s' x) as [i'|] eqn:E'; auto.
  destruct (srel_bwd _ _ _ _ _ _ HS E') as (i & E & Hrel). rewrite E in H.
  eapply irel_lst; eauto.
Qed.

Lemma lv_mono : forall (R A : uid -> Prop) s s' x, Srel R A s s' -> lv s x = false -> lv s' x = false.
Proof.
  unfold lv; intros R A s s' x HS H. destruct (getf s' x) as [i'|] eqn:E'; auto.
  destruct (srel_bwd _ _ _ _ _ _ HS E') as (i & E & Hrel). rewrite E in H.
  eapply irel_lv; eauto.
Qed.

Definition Zinv (Z : uid -> Prop) (s : st) : Prop :=
  forall c i, Z c -> getf s c = Some i -> i_activated i = 0%Z.

Lemma zinv_mono : forall (R A : uid -> Prop) Z s s', Srel R A s s' -> Zinv Z s -> Zinv Z s'.
Proof.
  intros R A Z s s' HS HZ c i' Hc E'.
  destruct (srel_bwd _ _ _ _ _ _ HS E') as (i & E & Hrel).
  apply (irel_activated _ _ _ _ Hrel). eapply HZ; eauto.
Qed.

(* an instance that disappears from a children list is not listening afterwards *)
Definition Rem (s s' : st) : Prop :=
  forall x i i' c, getf s x = Some i -> getf s' x = Some i' ->
    In c (i_children i) -> ~ In c (i_children i') -> lst s' c = false.

(* when a running instance x ends, the children it started (Z: activated = 0) are not listening *)
Definition Good (Z : uid -> Prop) (s s' : st) : Prop :=
  forall x i c, getf s x = Some i -> live (i_status i) = true -> lv s' x = false ->
    In c (i_children i) -> Z c -> lst s' c = false.

Definition Seg (Z : uid -> Prop) (s s' : st) : Prop := SrelT s s' /\ Rem s s' /\ Good Z s s'.

(* steps that keep every status and children list *)
Definition same_shape (s s' : st) : Prop :=
  forall x, match getf s x, getf s' x with
            | Some i, Some i' => i_status i' = i_status i /\ i_children i' = i_children i
            | None, None => True
            | _, _ => False
            end.

Lemma same_shape_seg : forall Z s s', SrelT s s' -> same_shape s s' -> Seg Z s s'.
Proof.
  intros Z s s' HS Hsh; split; [auto|split].
  - intros x i i' c E E' Hin Hnin. specialize (Hsh x). rewrite E, E' in Hsh.
    destruct Hsh as (_ & Hc). rewrite Hc in Hnin. contradiction.
  - intros x i c E Hl Hlv. specialize (Hsh x). rewrite E in Hsh. unfold lv in Hlv.
    destruct (getf s' x) as [i'|]; try tauto. destruct Hsh as (Hs & _). congruence.
Qed.

Lemma same_shape_refl : forall s, same_shape s s.
Proof. intros s x; destruct (getf s x); auto. Qed.

Lemma seg_refl : forall Z s, Seg Z s s.
Proof. intros; apply same_shape_seg; auto using Srel_refl, same_shape_refl. Qed.

Lemma seg_trans : forall Z s1 s2 s3, Seg Z s1 s2 -> Seg Z s2 s3 -> Seg Z s1 s3.
Proof.
  intros Z s1 s2 s3 (S1 & R1 & G1) (S2 & R2 & G2); split; [eapply Srel_trans; eauto|split].
  - intros x i i3 c E E3 Hin Hnin.
    destruct (srel_fwd _ _ _ _ _ _ S1 E) as (i2 & E2 & _).
    destruct (in_dec N.eq_dec c (i_children i2)) as [Hin2|Hnin2].
    + exact (R2 _ _ _ _ E2 E3 Hin2 Hnin).
    + exact (lst_mono _ _ _ _ _ S2 (R1 _ _ _ _ E E2 Hin Hnin2)).
  - intros x i c E Hl Hlv Hin HZ.
    destruct (srel_fwd _ _ _ _ _ _ S1 E) as (i2 & E2 & _).
    destruct (live (i_status i2)) eqn:El2.
    + destruct (in_dec N.eq_dec c (i_children i2)) as [Hin2|Hnin2].
      * exact (G2 _ _ _ E2 El2 Hlv Hin2 HZ).
      * exact (lst_mono _ _ _ _ _ S2 (R1 _ _ _ _ E E2 Hin Hnin2)).
    + apply (lst_mono _ _ _ _ _ S2), (G1 _ _ _ E Hl); auto. unfold lv; rewrite E2; auto.
Qed.

Lemma same_shape_setf : forall s x i i', getf s x = Some i ->
  i_status i' = i_status i -> i_children i' = i_children i -> same_shape s (setf s x i').
Proof.
  intros s x i i' E Hs Hc y. destruct (N.eq_dec x y) as [<-|Hne].
  - rewrite E, (getf_setf_same _ _ _ _ E); auto.
  - rewrite getf_setf_other; auto. destruct (getf s y); auto.
Qed.

Lemma same_shape_flows : forall s s', flows s' = flows s -> same_shape s s'.
Proof. intros s s' H x. unfold getf. rewrite H. destruct (get x (flows s)); auto. Qed.

Lemma zinv_not_ref : forall Z s c i, Zinv Z s -> Z c -> getf s c = Some i ->
  is_ref_activated s i = Ok false /\ is_child_activated s i = false.
Proof.
  intros Z s c i HZ Hc E. specialize (HZ _ _ Hc E).
  unfold is_ref_activated, is_child_activated. rewrite HZ. simpl; auto.
Qed.

Definition respects_seg (rk : uid -> nat) (ab : st -> uid -> bool -> res st) : Prop :=
  forall Z s c d s',
    ranked rk s -> Zinv Z s -> ab s c d = Ok s' ->
    Seg Z s s' /\ (proceeds s c d = true -> lv s' c = false).

Section Pass2.
  Variable rk : uid -> nat.
  Variable ab : st -> uid -> bool -> res st.
  Hypothesis Hab1 : respects_srel rk ab.
  Hypothesis Hab2 : respects_seg rk ab.

  Lemma modf_activated0_seg : forall Z s c, Seg Z s (modf s c (set_activated 0%Z)).
  Proof.
    intros Z s c. unfold modf. destruct (getf s c) as [i|] eqn:E; [|apply seg_refl].
    apply same_shape_seg.
    - apply srel_set_activated; unfold anyR; auto.
    - eapply same_shape_setf; eauto.
  Qed.

  Lemma abort_same_seg : forall Z fid l s s',
    ranked rk s -> Zinv Z s -> abort_same ab fid l s = Ok s' -> Seg Z s s'.
  Proof.
    induction l as [|c l IH]; simpl; intros s s' Hr HZ H.
    - inversion H; apply seg_refl.
    - destruct (getf s c) as [ci|] eqn:E; try discriminate.
      destruct (N.eqb (i_flow ci) fid); [|eapply IH; eauto].
      bind_inv H.
      destruct (Hab2 Z _ _ _ _ Hr HZ Hb) as (G1 & _).
      assert (G2 : Seg Z s (modf s0 c (set_activated 0%Z))).
      { eapply seg_trans; [exact G1|apply modf_activated0_seg]. }
      eapply seg_trans; [exact G2|].
      destruct G2 as (S2 & _).
      eapply IH; eauto using srel_ranked, zinv_mono.
  Qed.

  Lemma abort_children_seg : forall Z l s s',
    ranked rk s -> Zinv Z s -> abort_children ab l s = Ok s' ->
    Seg Z s s' /\ (forall c, In c l -> Z c -> lst s' c = false).
  Proof.
    induction l as [|c l IH]; simpl; intros s s' Hr HZ H.
    - inversion H; split; [apply seg_refl|tauto].
    - destruct (getf s c) as [ci|] eqn:E.
      + destruct (is_child_activated s ci) eqn:Eca.
        * destruct (IH _ _ Hr HZ H) as (G & Hd). split; auto.
          intros c' [<-|Hin] Hc'; auto.
          destruct (zinv_not_ref _ _ _ _ HZ Hc' E) as (_ & Hn). congruence.
        * bind_inv H.
          destruct (Hab2 Z _ _ _ _ Hr HZ Hb) as (G1 & Hp).
          assert (S1 : SrelT s s0) by apply G1.
          destruct (IH _ _ (srel_ranked _ _ _ _ _ S1 Hr) (zinv_mono _ _ _ _ _ S1 HZ) H) as (G2 & Hd).
          split; [eapply seg_trans; eauto|].
          intros c' [<-|Hin] Hc'; auto.
          destruct (zinv_not_ref _ _ _ _ HZ Hc' E) as (Hn & _).
          eapply lst_mono; [apply G2|]. apply lst_lv. apply Hp.
          rewrite (proceeds_eq _ _ true _ false E Hn). auto.
      + destruct (IH _ _ Hr HZ H) as (G & Hd). split; auto.
        intros c' [<-|Hin] Hc'; auto.
        unfold lst. destruct G as (S & _). rewrite (srel_none _ _ _ _ _ S E); auto.
  Qed.

  Lemma deactivate_seg : forall Z s f d s1 b,
    ranked rk s -> Zinv Z s -> deactivate ab s f d = Ok (s1, b) ->
    Seg Z s s1 /\ (proceeds s f d = true -> b = true).
  Proof.
    intros Z s f d s1 b Hr HZ H.
    destruct (deactivate_ok _ _ _ _ _ _ H) as (i & isref & E & Href & Hb & H1).
    assert (G1 : Seg Z s (dec s f i isref)).
    { apply same_shape_seg; [exact (srel_dec anyR anyA s f d i isref I E Href)|].
      destruct isref; simpl; [|apply same_shape_refl].
      rewrite (modf_some _ _ _ _ E). eapply same_shape_setf; eauto. }
    split; [|intros Hp; rewrite Hb; exact (proceeds_go _ _ _ _ _ E Href Hp)].
    eapply seg_trans; [exact G1|].
    destruct (isref && (i_activated i - 1 =? 0)%Z); [|inversion H1; apply seg_refl].
    eapply abort_same_seg; eauto using dec_ranked. exact (zinv_mono _ _ _ _ _ (proj1 G1) HZ).
  Qed.

  Lemma prologue_seg : forall Z skip s f d s3 go,
    ranked rk s -> Zinv Z s -> prologue ab skip s f d = Ok (s3, go) ->
    Seg Z s s3 /\
    (go = true -> exists i3, getf s3 f = Some i3 /\ skip (i_status i3) = false /\
                  forall c, In c (i_children i3) -> Z c -> lst s3 c = false) /\
    (go = false -> proceeds s f d = true ->
       exists i3, getf s3 f = Some i3 /\ skip (i_status i3) = true).
  Proof.
    intros Z skip s f d s3 go Hr HZ H.
    destruct (prologue_ok _ _ _ _ _ _ _ H) as (s1 & b & Hd & Hrest).
    destruct (deactivate_seg Z _ _ _ _ _ Hr HZ Hd) as (G1 & Hpb).
    destruct Hrest as [|i1 E1 Hsk|i1 s2 i2 s3 E1 Hsk Hch E2 Hsa].
    - split; auto. split; [discriminate|]. intros _ Hp. discriminate (Hpb Hp).
    - split; auto. split; [discriminate|]. eauto.
    - assert (Hr1 : ranked rk s1) by exact (srel_ranked _ _ _ _ _ (proj1 G1) Hr).
      destruct (abort_children_seg Z _ _ _ Hr1 (zinv_mono _ _ _ _ _ (proj1 G1) HZ) Hch) as (G2 & Hdone).
      destruct (abort_children_self rk ab Hab1 _ _ _ f i1 Hr1 (ranked_below _ _ _ _ Hr1 E1) Hch E1)
        as (i2' & E2' & Hst & Hsub).
      rewrite E2 in E2'; inversion E2'; subst i2'.
      assert (Hfl := stop_actions_flows _ _ _ Hsa).
      assert (G3 : Seg Z s2 s3).
      { apply same_shape_seg; [|apply same_shape_flows; auto].
        eapply stop_actions_srel; eauto. unfold anyA; auto. }
      split; [eapply seg_trans; [exact G1|eapply seg_trans; eauto]|].
      split; [|discriminate].
      intros _. exists i2. unfold lst, getf. rewrite Hfl. split; auto. split; [congruence|].
      intros c Hin Hc. apply Hdone; auto.
  Qed.

  Lemma ending_good : forall Z skip epi s f d s',
    ranked rk s -> Zinv Z s -> (forall x, skip x = true -> live x = false) ->
    (forall s3 i3, getf s3 f = Some i3 -> skip (i_status i3) = false ->
       (forall c, In c (i_children i3) -> Z c -> lst s3 c = false) -> epi s3 = Ok s' ->
       Seg Z s3 s' /\ lv s' f = false) ->
    ending ab skip epi s f d = Ok s' ->
    Seg Z s s' /\ (proceeds s f d = true -> lv s' f = false).
  Proof.
    intros Z skip epi s f d s' Hr HZ Hskip Hepi H.
    destruct (ending_ok _ _ _ _ _ _ _ H) as (s3 & go & Hp & He).
    destruct (prologue_seg Z _ _ _ _ _ _ Hr HZ Hp) as (G & Hgo & Hstop).
    destruct go.
    - destruct (Hgo eq_refl) as (i3 & E3 & Hsk & Hdone).
      destruct (Hepi _ _ E3 Hsk Hdone He) as (G2 & Hlv). split; auto. eapply seg_trans; eauto.
    - inversion He; subst. split; auto. intros Hpr.
      destruct (Hstop eq_refl Hpr) as (i3 & E3 & Hsk). unfold lv. rewrite E3. auto.
  Qed.
End Pass2.

Lemma restart_getf : forall s f d s' x i, restart s f d = Ok s' -> getf s x = Some i ->
  exists i', getf s' x = Some i' /\ i_status i' = i_status i /\ i_activated i' = i_activated i.
Proof.
  intros s f d s' x i H E. destruct (restart_ok _ _ _ _ H) as (fi & Ef & ->).
  destruct (negb d && (0 <? i_activated fi)%Z && negb (i_nis fi)); [|eauto].
  rewrite getf_modf, getf_emit1, E. destruct (N.eqb f x); simpl; eauto.
Qed.

Lemma epilogue_abort_fields : forall s3 f d s' i, epilogue_abort s3 f d = Ok s' -> getf s3 f = Some i ->
  exists i', getf s' f = Some i' /\ i_status i' = FStopped /\ i_activated i' = i_activated i.
Proof.
  unfold epilogue_abort; intros s3 f d s' i H E. bind_inv H.
  destruct (unlink_getf_fields _ _ _ _ _ Hb E) as (i4 & E4 & _ & Ha4 & _).
  assert (E5 : getf (emit1 (modf s f (set_status FStopped)) (EFailed f)) f = Some (set_status FStopped i4))
    by (rewrite getf_emit1; auto using getf_modf_same).
  destruct (restart_getf _ _ _ _ _ _ H E5) as (i' & E' & Hs & Ha). exists i'. simpl in *.
  repeat split; auto. congruence.
Qed.

(* an operation confined to the single instance f (R = eq f) *)
Lemma single_seg : forall (Z : uid -> Prop) s s' f i,
  Srel (eq f) anyA s s' -> getf s f = Some i ->
  lst s' f = false ->
  (forall c, In c (i_children i) -> Z c -> lst s c = false) ->
  Seg Z s s'.
Proof.
  intros Z s s' f i S E Hf Hdone.
  assert (ST : SrelT s s') by exact (Srel_weaken _ _ _ _ _ _ (fun _ _ => I) (fun _ H => H) S).
  split; [auto|split].
  - intros x xi xi' c Ex Ex' Hin Hnin.
    destruct (N.eq_dec c f) as [->|Hne]; auto.
    exfalso. apply Hnin.
    pose proof (sr_flows _ _ _ _ S x) as F. rewrite Ex, Ex' in F.
    apply (count_occ_In N.eq_dec). rewrite (irel_count _ _ _ _ _ F); [apply (count_occ_In N.eq_dec); auto|congruence].
  - intros x xi c Ex Hl Hlv Hin HZ.
    destruct (N.eq_dec f x) as [<-|Hne].
    + rewrite E in Ex; inversion Ex; subst. exact (lst_mono _ _ _ _ _ ST (Hdone _ Hin HZ)).
    + exfalso. destruct (srel_outside _ _ _ _ _ _ S Hne Ex) as (xi' & Ex' & (_ & Hs & _) & _).
      unfold lv in Hlv. rewrite Ex', Hs in Hlv. congruence.
Qed.

Lemma epilogue_abort_seg : forall (Z : uid -> Prop) f d s' s3 i3,
  getf s3 f = Some i3 -> skip_abort (i_status i3) = false ->
  (forall c, In c (i_children i3) -> Z c -> lst s3 c = false) ->
  epilogue_abort s3 f d = Ok s' -> Seg Z s3 s' /\ lv s' f = false.
Proof.
  intros Z f d s' s3 i3 E Hsk Hdone H.
  destruct (epilogue_abort_fields _ _ _ _ _ H E) as (i' & E' & Hs & _).
  assert (Hlv : lv s' f = false) by (unfold lv; rewrite E', Hs; auto).
  split; auto.
  apply (single_seg Z s3 s' f i3); auto using lst_lv.
  exact (epi_abort_srel f d _ _ _ _ _ eq_refl E Hsk H).
Qed.

Theorem abort_good : forall rk n (Z : uid -> Prop) s f d s',
  ranked rk s -> Zinv Z s -> abort n s f d = Ok s' ->
  Seg Z s s' /\ (proceeds s f d = true -> lv s' f = false).
Proof.
  induction n as [|n IH]; intros Z s f d s' Hr HZ H; [discriminate|]. rewrite abort_ending in H.
  exact (ending_good rk _ (abort_srel rk n) IH Z _ _ s f d s' Hr HZ skip_abort_dead
           (epilogue_abort_seg Z f d s') H).
Qed.

(* activated = 0 in state s: "started", not activated *)
Definition act0 (s : st) (c : uid) : Prop := forall i, getf s c = Some i -> i_activated i = 0%Z.

(* the flows f started, transitively, through instances that are running *)
Inductive started_by (s : st) (f : uid) : uid -> Prop :=
| sb_child : forall i c, getf s f = Some i -> In c (i_children i) -> act0 s c -> started_by s f c
| sb_trans : forall c ci d, started_by s f c -> getf s c = Some ci -> listening (i_status ci) = true ->
    In d (i_children ci) -> act0 s d -> started_by s f d.

Lemma act0_zinv : forall s, Zinv (act0 s) s.
Proof. unfold Zinv, act0; intros; auto. Qed.

Lemma listening_ended : forall (R : uid -> Prop) x i i', irel R x i i' ->
  listening (i_status i) = true -> listening (i_status i') = false -> live (i_status i') = false.
Proof.
  intros R x i i' Hrel Hl Hl'.
  destruct (irel_status _ _ _ _ Hrel) as [Hs|(_ & [(Hs & _)|([Hs|Hs] & _)])]; rewrite Hs in *; auto; congruence.
Qed.

(* Good hands the stop down a chain of started flows: the links are listening before and, being
   in the chain, not listening after - so they ended *)
Lemma started_chain : forall s s' f,
  Seg (act0 s) s s' ->
  (forall i c, getf s f = Some i -> In c (i_children i) -> act0 s c -> lst s' c = false) ->
  forall x, started_by s f x -> lst s' x = false.
Proof.
  intros s s' f (S & _ & G) H1 x Hx. induction Hx as [i c E Hin Hz|c ci d Hc IH E Hl Hin Hz].
  - exact (H1 _ _ E Hin Hz).
  - apply (G c ci d E); auto.
    + unfold live; rewrite Hl; auto.
    + destruct (srel_fwd _ _ _ _ _ _ S E) as (ci' & E' & Hrel).
      unfold lst in IH. unfold lv. rewrite E' in *. exact (listening_ended _ _ _ _ Hrel Hl IH).
Qed.

Lemma seg_children_stop : forall s s' f,
  Seg (act0 s) s s' -> lv s f = true -> lv s' f = false ->
  forall x, started_by s f x -> lst s' x = false.
Proof.
  intros s s' f G Hl He. apply started_chain; auto.
  intros i c E Hin Hz. unfold lv in Hl. rewrite E in Hl. exact (proj2 (proj2 G) _ _ _ E Hl He Hin Hz).
Qed.

(* after _abort_flow of a running instance f, no flow started by f (transitively) is listening *)
Theorem abort_children_stop : forall rk n s f d s',
  ranked rk s -> abort n s f d = Ok s' -> proceeds s f d = true -> lv s f = true ->
  lv s' f = false /\ forall x, started_by s f x -> lst s' x = false.
Proof.
  intros rk n s f d s' Hr H Hp Hl.
  destruct (abort_good rk n (act0 s) _ _ _ _ Hr (act0_zinv s) H) as (G & He).
  exact (conj (He Hp) (seg_children_stop _ _ _ G Hl (He Hp))).
Qed.

Theorem abort_top_children_stop : forall rk r n s f d s',
  ranked rk s -> abort_top r n s f d = Ok s' -> proceeds s f d = true -> lv s f = true ->
  lv s' f = false /\ forall x, started_by s f x -> lst s' x = false.
Proof.
  intros rk r [|n] s f d s' Hr H Hp Hl; [discriminate|]. rewrite abort_top_ending in H.
  destruct (ending_good rk _ (abort_srel rk n) (abort_good rk n) (act0 s) _ _ s f d s' Hr
              (act0_zinv s) skip_abort_dead (epilogue_abort_seg _ f _ s') H) as (G & He).
  exact (conj (He Hp) (seg_children_stop _ _ _ G Hl (He Hp))).
Qed.

(* ... and the same after _finish_flow: the prologue has stopped the children, the epilogue only
   ends f *)
Theorem finish_children_stop : forall rk n s f d s',
  ranked rk s -> finish n s f d = Ok s' -> proceeds s f d = true -> lst s f = true ->
  forall x, started_by s f x -> lst s' x = false.
Proof.
  intros rk n s f d s' Hr H Hp Hl. rewrite finish_ending in H.
  unfold lst in Hl. destruct (getf s f) as [i|] eqn:E; [|discriminate].
  destruct (ending_reaches rk _ (abort_srel rk n) _ _ f s d s' i Hr E H Hp) as (s3 & Hpr & He).
  { exact (listening_not_skipped _ Hl). }
  destruct (prologue_seg rk (abort n) (abort_srel rk n) (abort_good rk n) (act0 s) _ _ _ _ _ _ Hr (act0_zinv s) Hpr)
    as (G & Hgo & _).
  destruct (Hgo eq_refl) as (i3 & E3 & Hsk & Hdone).
  intros x Hx. apply (lst_mono _ _ _ _ _ (epi_finish_srel f d anyR anyA _ _ _ I E3 Hsk He)).
  revert x Hx. apply started_chain; auto.
  intros i0 c E0 Hin Hz. rewrite E in E0; inversion E0; subst i0.
  destruct (in_dec N.eq_dec c (i_children i3)) as [Hin3|Hnin3]; auto.
  exact (proj1 (proj2 G) _ _ _ _ E E3 Hin Hnin3).
Qed.

(* the subtree of f: everything reachable through children lists *)
Inductive reach (s : st) (f : uid) : uid -> Prop :=
| reach_self : reach s f f
| reach_child : forall x i c, reach s f x -> getf s x = Some i -> In c (i_children i) -> reach s f c.

Definition owned (s : st) (f : uid) (a : uid) : Prop :=
  exists x i, reach s f x /\ getf s x = Some i /\ In a (i_actions i).

Lemma reach_closed : forall s f, closed (reach s f) s.
Proof. intros s f x i c Hx E Hin. eapply reach_child; eauto. Qed.

Lemma reach_owns : forall s f, owns (reach s f) (owned s f) s.
Proof. intros s f x i a Hx E Hin. exists x, i; auto. Qed.

(* whole-state frame: what an operation confined to (R, A) leaves alone *)
Definition frame (R A : uid -> Prop) (s s' : st) : Prop :=
  (forall x, ~ R x ->
     match getf s x, getf s' x with
     | None, None => True
     | Some i, Some i' =>
         same_but_children i i' /\
         (forall c, In c (i_children i') -> In c (i_children i)) /\
         (forall c, ~ R c -> count_occ N.eq_dec (i_children i') c = count_occ N.eq_dec (i_children i) c)
     | _, _ => False
     end) /\
  (forall x, getf s x = None -> getf s' x = None) /\
  (forall a, ~ A a -> geta s' a = geta s a) /\
  (forall a, geta s a = None -> geta s' a = None) /\
  (exists delta, out s' = out s ++ delta /\ Forall (emit_ok R A) delta).

Lemma srel_frame : forall (R A : uid -> Prop) s s', Srel R A s s' -> frame R A s s'.
Proof.
  intros R A s s' S. repeat split.
  - intros x Hx. destruct (getf s x) as [i|] eqn:E.
    + destruct (srel_outside _ _ _ _ _ _ S Hx E) as (i' & -> & H). exact H.
    + rewrite (srel_none _ _ _ _ _ S E). exact I.
  - intros x; eapply srel_none; eauto.
  - intros a Ha. pose proof (sr_acts _ _ _ _ S a) as Ac.
    destruct (geta s a) as [c|], (geta s' a) as [c'|]; try tauto.
    destruct Ac as [->|(HA & _)]; tauto.
  - intros a Ha. pose proof (sr_acts _ _ _ _ S a) as Ac. rewrite Ha in Ac. destruct (geta s' a); tauto.
  - destruct (sr_out _ _ _ _ S) as (delta & O & E & _). eauto.
Qed.

Theorem abort_frame : forall rk n s f d s',
  ranked rk s -> abort n s f d = Ok s' -> frame (reach s f) (owned s f) s s'.
Proof.
  intros. apply srel_frame. eapply abort_srel; eauto using reach_closed, reach_owns, reach_self.
Qed.

Theorem finish_frame : forall rk n s f d s',
  ranked rk s -> finish n s f d = Ok s' -> frame (reach s f) (owned s f) s s'.
Proof.
  intros. apply srel_frame. eapply finish_srel; eauto using reach_closed, reach_owns, reach_self.
Qed.

(* what the Stop events emitted by an operation say about the actions *)
Definition stops_spec (A : uid -> Prop) (s s' : st) : Prop :=
  exists delta, out s' = out s ++ delta /\
    forall a,
      (nstops a delta <= 1)%nat /\
      (nstops a delta = 1%nat <->
         (exists c, geta s a = Some c /\ active (a_status c) = true) /\
         geta s' a = Some (mkAct AStopping 0%Z)) /\
      (nstops a delta = 1%nat -> A a) /\
      (nstops a delta = 0%nat -> ast s' a = ast s a).

Lemma srel_stops : forall (R A : uid -> Prop) s s', Srel R A s s' -> stops_spec A s s'.
Proof.
  intros R A s s' [_ _ (delta & O & _ & N)]. exists delta; split; auto.
  intros a. destruct (N a) as [(Hn & Hs)|(Hn & HA & (c & Hc & Hact) & Hg)].
  - rewrite Hn. repeat split; auto; try discriminate.
    intros ((c & Hc & Hact) & Hg). exfalso. unfold ast in Hs. rewrite Hc, Hg in Hs. simpl in Hs.
    inversion Hs as [Hs']. rewrite <- Hs' in Hact. discriminate.
  - rewrite Hn. repeat split; auto; try discriminate; eauto.
Qed.

Lemma unlink_out : forall s f s', unlink s f = Ok s' -> out s' = out s.
Proof.
  intros s f s' H. destruct (unlink_ok _ _ _ H) as [->|(p & pi & l & _ & _ & ->)]; reflexivity.
Qed.

Lemma unlink_same_ids : forall s f s', unlink s f = Ok s' -> same_ids s s'.
Proof. intros s f s' H. exact (srel_same_ids _ _ _ _ (srel_unlink anyR anyA _ _ _ I H)). Qed.

Lemma restart_out : forall s f d s' i, restart s f d = Ok s' -> getf s f = Some i ->
  out s' = out s ++ (if d then [] else restart_events s i f).
Proof.
  intros s f d s' i H E. destruct (restart_ok _ _ _ _ H) as (i' & E' & ->).
  rewrite E in E'; inversion E'; subst i'. unfold restart_events.
  destruct d; simpl; [auto using app_nil_r|].
  destruct ((0 <? i_activated i)%Z && negb (i_nis i)); [|auto using app_nil_r].
  rewrite out_modf, out_emit1. auto.
Qed.

Lemma epilogue_abort_out : forall s3 f d s' i3, epilogue_abort s3 f d = Ok s' -> getf s3 f = Some i3 ->
  out s' = out s3 ++ EFailed f :: (if d then [] else restart_events s3 i3 f).
Proof.
  unfold epilogue_abort; intros s3 f d s' i3 H E. bind_inv H.
  destruct (unlink_getf_fields _ _ _ _ _ Hb E) as (i4 & E4 & F4 & Av4 & N4 & P4 & _).
  rewrite (restart_out _ _ _ _ (set_status FStopped i4) H) by (rewrite getf_emit1; auto using getf_modf_same).
  rewrite out_emit1, out_modf, (unlink_out _ _ _ Hb), <- app_assoc. simpl. do 2 f_equal.
  destruct d; auto. apply restart_events_eq; auto.
  exact (same_ids_trans _ _ _ (unlink_same_ids _ _ _ Hb) (same_ids_modf s f (set_status FStopped) (fun _ => eq_refl))).
Qed.

Lemma epilogue_finish_out : forall s3 f d s' i3,
  epilogue_finish s3 f d = Ok s' -> getf s3 f = Some i3 -> i_flow i3 <> main_id ->
  out s' = out s3 ++ EFinished f :: (if d then [] else restart_events s3 i3 f).
Proof.
  unfold epilogue_finish; intros s3 f d s' i3 H E Hm. rewrite E in H.
  destruct (N.eqb_spec (i_flow i3) main_id); [contradiction|]. bind_inv H.
  destruct (unlink_getf_fields _ _ _ _ _ Hb (getf_modf_same _ _ (set_status FFinished) _ E))
    as (i5 & E5 & F5 & Av5 & N5 & P5 & _).
  rewrite (restart_out _ _ _ _ i5 H) by (rewrite getf_emit1; auto).
  rewrite out_emit1, (unlink_out _ _ _ Hb), out_modf, <- app_assoc. simpl. do 2 f_equal.
  destruct d; auto. apply restart_events_eq; auto.
  exact (same_ids_trans _ _ _ (same_ids_modf s3 f (set_status FFinished) (fun _ => eq_refl)) (unlink_same_ids _ _ _ Hb)).
Qed.

Lemma below_no_restart : forall rk (A : uid -> Prop) f pre src v,
  Forall (emit_ok (below rk f) A) pre -> ~ In (ERestart f src v) pre.
Proof.
  intros rk A f pre src v F Hin. rewrite Forall_forall in F.
  exact (Nat.lt_irrefl _ (F _ Hin)).
Qed.

(* what an ending instance emits last: its FlowFailed, then - unless it is being deactivated -
   the restart if it is activated and has not yet started its next instance; nothing before
   that mentions f itself *)
Theorem abort_emits : forall rk n s f d s' i,
  ranked rk s -> abort n s f d = Ok s' -> proceeds s f d = true -> getf s f = Some i ->
  live (i_status i) = true ->
  exists pre, out s' = out s ++ pre ++ EFailed f :: (if d then [] else restart_events s i f) /\
              Forall (emit_ok (below rk f) anyA) pre.
Proof.
  intros rk [|n] s f d s' i Hr H Hp E Hl; [discriminate|]. rewrite abort_ending in H.
  apply (ending_emits rk _ (abort_srel rk n) _ _ f (EFailed f) s d s' i Hr E H Hp (live_not_skipped _ Hl)).
  intros s3 i3 E3 _ He. exact (epilogue_abort_out _ _ _ _ _ He E3).
Qed.

(* _finish_flow of a running non-main instance: FlowFinished, then the restart *)
Theorem finish_emits : forall rk n s f d s' i,
  ranked rk s -> finish n s f d = Ok s' -> proceeds s f d = true -> getf s f = Some i ->
  listening (i_status i) = true -> i_flow i <> main_id ->
  exists pre, out s' = out s ++ pre ++ EFinished f :: (if d then [] else restart_events s i f) /\
              Forall (emit_ok (below rk f) anyA) pre.
Proof.
  intros rk n s f d s' i Hr H Hp E Hl Hmain. rewrite finish_ending in H.
  apply (ending_emits rk _ (abort_srel rk n) _ _ f (EFinished f) s d s' i Hr E H Hp (listening_not_skipped _ Hl)).
  intros s3 i3 E3 Hf3 He. apply (epilogue_finish_out _ _ _ _ _ He E3). congruence.
Qed.

(* the main flow restarts in place: WAITING again, nothing emitted for it *)
Theorem finish_main : forall rk n s f d s' i,
  ranked rk s -> finish n s f d = Ok s' -> proceeds s f d = true -> getf s f = Some i ->
  listening (i_status i) = true -> i_flow i = main_id ->
  (exists i', getf s' f = Some i' /\ i_status i' = FWaiting) /\
  exists pre, out s' = out s ++ pre /\ Forall (emit_ok (below rk f) anyA) pre.
Proof.
  intros rk n s f d s' i Hr H Hp E Hl Hmain. rewrite finish_ending in H.
  destruct (ending_reaches rk _ (abort_srel rk n) _ _ f s d s' i Hr E H Hp) as (s3 & Hpr & He).
  { exact (listening_not_skipped _ Hl). }
  destruct (prologue_out rk (abort n) (abort_srel rk n) _ _ _ _ _ _ _ Hr E Hpr) as (pre & i3 & O3 & F3 & E3 & Hf3 & _).
  unfold epilogue_finish in He. rewrite E3, Hf3, Hmain, N.eqb_refl in He. inversion He; subst.
  split.
  - rewrite (getf_modf_same _ _ _ _ E3). eauto.
  - exists pre. rewrite out_modf. auto.
Qed.
