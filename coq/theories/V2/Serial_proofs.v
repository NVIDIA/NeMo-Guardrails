(* C11 - proofs about V2/Serial.v: totality of the encoder on supported acyclic graphs and the
   round trip decode (encode g) ~ g up to an isomorphism that preserves sharing. *)
From Coq Require Import ZArith List String Bool Lia.
From NG Require Import V2.Serial.
Import ListNotations.
Open Scope string_scope.
Open Scope Z_scope.

Lemma lookup_in {A} (l : list (Z * A)) i x : lookup l i = Some x -> In (i, x) l.
Proof.
  induction l as [|[k y] r IH]; simpl; [discriminate|].
  destruct (k =? i) eqn:E; intro H.
  - apply Z.eqb_eq in E. inversion H. subst. now left.
  - right. now apply IH.
Qed.

(* induction along a successful traversal *)
Lemma map_st_ind {S A B} (f : S -> A -> option (B * S)) (P : list A -> S -> list B -> S -> Prop) :
  (forall s, P [] s [] s) ->
  (forall x r s y s1 ys s2, f s x = Some (y, s1) -> map_st f s1 r = Some (ys, s2) -> P r s1 ys s2 ->
                            P (x :: r) s (y :: ys) s2) ->
  forall l s ys s', map_st f s l = Some (ys, s') -> P l s ys s'.
Proof.
  intros H0 H1. induction l as [|x r IH]; simpl; intros s ys s' H.
  - inversion H. apply H0.
  - destruct (f s x) as [[y s1]|] eqn:E; [|discriminate].
    destruct (map_st f s1 r) as [[ys' s2]|] eqn:E2; [|discriminate].
    inversion H. subst. eauto.
Qed.

Lemma map_st_length {S A B} (f : S -> A -> option (B * S)) l : forall s ys s',
  map_st f s l = Some (ys, s') -> List.length ys = List.length l.
Proof.
  revert l. refine (map_st_ind _ _ _ _); simpl; congruence.
Qed.

Lemma map_st_pres {S A B} (P : S -> Prop) (f : S -> A -> option (B * S)) :
  (forall s x y s', f s x = Some (y, s') -> P s -> P s') ->
  forall l s ys s', map_st f s l = Some (ys, s') -> P s -> P s'.
Proof. intro Hf. refine (map_st_ind _ _ _ _); eauto. Qed.

Lemma map_st_total {S A B} (f : S -> A -> option (B * S)) l :
  (forall x, In x l -> forall s, exists y s', f s x = Some (y, s')) ->
  forall s, exists ys s', map_st f s l = Some (ys, s').
Proof.
  induction l as [|x r IH]; intros H s; simpl; [eauto|].
  destruct (H x (or_introl eq_refl) s) as (y & s1 & ->).
  destruct (IH (fun z Hz => H z (or_intror Hz)) s1) as (ys & s2 & ->). eauto.
Qed.

Lemma memz_true i l : memz i l = true <-> In i l.
Proof.
  induction l as [|x r IH]; simpl; [split; [discriminate|tauto]|].
  destruct (x =? i) eqn:E.
  - apply Z.eqb_eq in E. subst. split; auto.
  - apply Z.eqb_neq in E. rewrite IH. split; [auto|]. intros [H|H]; [congruence|auto].
Qed.

Lemma memz_cons k i l : memz k (i :: l) = true <-> k = i \/ memz k l = true.
Proof. rewrite !memz_true. simpl. split; intros [H|H]; auto. Qed.

Lemma combine_fst {A B} (a : list A) (b : list B) : List.length a = List.length b -> map fst (combine a b) = a.
Proof.
  revert b. induction a as [|x a IH]; intros [|y b]; simpl; try discriminate; auto.
  intro H. f_equal. apply IH. lia.
Qed.

Lemma combine_snd {A B} (a : list A) (b : list B) : List.length a = List.length b -> map snd (combine a b) = b.
Proof.
  revert b. induction a as [|x a IH]; intros [|y b]; simpl; try discriminate; auto.
  intro H. f_equal. apply IH. lia.
Qed.

Lemma Forall2_len {A B} (R : A -> B -> Prop) l l' : Forall2 R l l' -> List.length l = List.length l'.
Proof. induction 1; simpl; auto. Qed.

Lemma Forall2_impl {A B} (R R' : A -> B -> Prop) l l' :
  (forall a b, R a b -> R' a b) -> Forall2 R l l' -> Forall2 R' l l'.
Proof. intros H. induction 1; constructor; auto. Qed.

Lemma jget_app_l k a b v : jget k a = Some v -> jget k (a ++ b) = Some v.
Proof.
  induction a as [|[k' x] r IH]; simpl; [discriminate|].
  destruct (String.eqb k' k); auto.
Qed.

Lemma jget_app_r k a b : jget k a = None -> jget k (a ++ b) = jget k b.
Proof.
  induction a as [|[k' x] r IH]; simpl; auto.
  destruct (String.eqb k' k); [discriminate|auto].
Qed.

Fixpoint edepth (e : etree) : nat :=
  match e with
  | EL l | EN _ _ l => S (fold_right (fun x a => Nat.max (edepth x) a) O l)
  | _ => 1%nat
  end.

Lemma count_refs_nonneg e i : 0 <= count_refs e i.
Proof.
  revert e. fix IH 1. intros [p|l|k|k hh l|j]; simpl; try lia.
  - induction l as [|x r IHl]; simpl; [lia|]. specialize (IH x). lia.
  - destruct (k =? i); lia.
  - induction l as [|x r IHl]; simpl; [lia|]. specialize (IH x). lia.
Qed.

Definition covered (cnt : id -> Z) (e : etree) : Prop := forall i, 0 < count_refs e i -> 0 < cnt i.

Lemma covered_cons cnt x r : covered cnt (EL (x :: r)) -> covered cnt x /\ covered cnt (EL r).
Proof.
  intro H. split; intros i Hi; apply H;
    change (count_refs (EL (x :: r)) i) with (count_refs x i + count_refs (EL r) i).
  - pose proof (count_refs_nonneg (EL r) i). lia.
  - pose proof (count_refs_nonneg x i). lia.
Qed.

(* the heads written as {"__type": ..} and registered in refs; the tag *)
Definition rendered (hh : head) : Prop :=
  match hh with HList | HPartial _ | HOther _ => False | _ => True end.

Definition tag_of (hh : head) : string :=
  match hh with
  | HTuple => "tuple" | HSet => "set" | HDeque => "deque" | HDict _ => "dict" | HData cls _ => cls
  | HAction _ => "Action" | HEnum _ _ => "enum" | HSpecType _ => "SpecType" | HDatetime _ => "datetime"
  | HRailsConfig _ => "RailsConfig" | HRegex _ _ => "re.Pattern" | _ => ""
  end.

Lemma render_head_type fl hh js : rendered hh -> jget "__type" (render_head fl hh js) = Some (JStr (tag_of hh)).
Proof.
  destruct hh; try contradiction; try reflexivity. intros _. simpl. destruct (fx_keys fl && _); reflexivity.
Qed.

Lemma render_head_id fl hh js : jget "__id" (render_head fl hh js) = None.
Proof. destruct hh; try reflexivity. simpl. destruct (fx_keys fl && _); reflexivity. Qed.

Lemma jget_marks_id cnt i : jget "__id" (marks cnt i) = if 0 <? cnt i then Some (JInt i) else None.
Proof. unfold marks. destruct (0 <? cnt i); reflexivity. Qed.

(* the marks are invisible under every other key *)
Lemma jget_app_marks cnt i k kvs :
  String.eqb "__ref_count" k = false -> String.eqb "__id" k = false -> jget k (kvs ++ marks cnt i) = jget k kvs.
Proof.
  intros H1 H2. destruct (jget k kvs) eqn:E; [now apply jget_app_l|]. rewrite jget_app_r by exact E.
  unfold marks. destruct (0 <? cnt i); [|reflexivity]. cbn [jget]. now rewrite H1, H2.
Qed.

(* parse_head consults the class table at the tag only; with the answer built into the table, the
   class test is decided by evaluation and needs no rewriting inside the body of parse_head *)
Lemma parse_head_cf fl C t kvs o : class_fields C t = o ->
  parse_head fl C t kvs
  = parse_head fl {| class_fields := fun _ => o; enum_member := enum_member C; spectype_value := spectype_value C |} t kvs.
Proof. intros <-. reflexivity. Qed.

(* parse_head reads the object through "__class", "value" and "items" only *)
Lemma parse_head_marks fl C t kvs cnt i : parse_head fl C t (kvs ++ marks cnt i) = parse_head fl C t kvs.
Proof. unfold parse_head. now rewrite !jget_app_marks by reflexivity. Qed.

Lemma unpair_pair_up ks : forall js,
  forallb is_json_key ks = true -> List.length ks = List.length js -> unpair (pair_up ks js) = Some (ks, js).
Proof.
  induction ks as [|k ks IH]; intros [|j js] Hk Hl; simpl in *; try discriminate; auto.
  apply andb_true_iff in Hk as [Hk1 Hk2].
  rewrite IH by (auto; lia). destruct k; simpl in *; try discriminate; reflexivity.
Qed.

Lemma str_keys_back ks : forall js,
  forallb is_str_key ks = true -> List.length ks = List.length js ->
  map (fun kv : string * json => KS (fst kv)) (combine (map key_str ks) js) = ks.
Proof.
  induction ks as [|k ks IH]; intros [|j js] Hk Hl; simpl in *; try discriminate; auto.
  apply andb_true_iff in Hk as [Hk1 Hk2]. rewrite IH by (auto; lia).
  destruct k; simpl in *; try discriminate; reflexivity.
Qed.

(* decode_from_dict on a tagged object that is not a "ref" *)
Lemma dec_node fl C f st kvs t hd' kjs vs st1 :
  jget "__type" kvs = Some (JStr t) -> String.eqb t "ref" = false ->
  parse_head fl C t kvs = Some (hd', kjs) ->
  map_st (dec fl C f) st kjs = Some (vs, st1) ->
  dec fl C (S f) st (JObj kvs)
  = Some (VO (nxt st1),
          let st2 := {| dh := (nxt st1, mk hd' vs) :: dh st1; nxt := nxt st1 + 1; drefs := drefs st1 |} in
          match jget "__id" kvs with Some (JInt old) => add_ref old (VO (nxt st1)) st2 | _ => st2 end).
Proof. intros H1 H2 H3 H4. simpl. rewrite H1, H2, H3, H4. reflexivity. Qed.

Lemma reserved_tag_false t : reserved_tag t = false ->
  String.eqb t "ref" = false /\ String.eqb t "enum" = false /\ String.eqb t "RailsConfig" = false /\
  String.eqb t "SpecType" = false /\ String.eqb t "Action" = false.
Proof.
  unfold reserved_tag. cbn [existsb]. intro H. repeat (apply orb_false_iff in H as [? H]). auto.
Qed.

(* scalars are encoded as themselves *)
Definition prim_kids (l : list val) (js : list json) : Prop :=
  Forall2 (fun k j => forall p, k = VP p -> j = json_of_prim p) l js.

(* the two shapes head_ok asks of the children: none; the seven values of Action.to_dict() *)
Lemma prim_kids_nil kds js : match kds with [] => true | _ => false end = true -> prim_kids kds js -> js = [].
Proof. destruct kds; [|discriminate]. intros _ H. now inversion H. Qed.

Lemma prim_kids_action (P : string -> bool) kds js :
  match kds with [_; _; _; VP (PStr m); _; _; _] => P m | _ => false end = true -> prim_kids kds js ->
  exists m j0 j1 j2 j4 j5 j6, js = [j0; j1; j2; JStr m; j4; j5; j6] /\ P m = true.
Proof.
  destruct kds as [|k0 [|k1 [|k2 [|[[| | | |m]|] [|k4 [|k5 [|k6 [|]]]]]]]]; try discriminate. intros H Hp.
  pose proof (Forall2_len _ _ _ Hp) as Hlen.
  destruct js as [|j0 [|j1 [|j2 [|j3 [|j4 [|j5 [|j6 [|]]]]]]]]; try discriminate.
  exists m, j0, j1, j2, j4, j5, j6. split; [|exact H].
  inversion Hp as [|? ? ? ? _ Hp0]. inversion Hp0 as [|? ? ? ? _ Hp1]. inversion Hp1 as [|? ? ? ? _ Hp2].
  inversion Hp2 as [|? ? ? ? P3 _]. now rewrite (P3 _ eq_refl).
Qed.

(* the decoder tests `d_type in name_to_class` before the tags below: no class bears such a name *)
Definition late_tags_free (C : classes) : Prop :=
  forall t, In t ["datetime"; "deque"; "tuple"; "re.Pattern"; "dict"; "set"] -> class_fields C t = None.

Section Roundtrip.
  Variable fl : flags.
  Variable C : classes.
  Variable h : heap.
  Variable rk : id -> nat.

  Hypothesis Hact : fx_action fl = true.
  Hypothesis Hlate : late_tags_free C.
  Hypothesis Hnodes : forallb (fun kn => node_ok fl C h (snd kn)) h = true.
  Hypothesis Hacyc : acyclic h rk.

  Lemma node_ok_of i n : lookup h i = Some n -> node_ok fl C h n = true.
  Proof.
    intro H. apply lookup_in in H. rewrite forallb_forall in Hnodes. exact (Hnodes (i, n) H).
  Qed.

  Lemma head_ok_of i n : lookup h i = Some n -> head_ok fl C n = true.
  Proof. intro H. apply node_ok_of in H. now apply andb_true_iff in H. Qed.

  Lemma tkids_closed i n : lookup h i = Some n -> forall v, In v (tkids n) -> val_closed h v = true.
  Proof.
    intros H v Hv. apply node_ok_of in H. unfold node_ok in H. apply andb_true_iff in H as [_ H].
    rewrite forallb_forall in H. auto.
  Qed.

  Lemma tkids_rank i n : lookup h i = Some n -> forall v, In v (tkids n) -> (rank_of rk v <= rk i)%nat.
  Proof. intros H [p|j] Hv; simpl; [lia|]. exact (Hacyc i n H j Hv). Qed.

  (* the ways `enc` succeeds; under Hact the raw json.dumps branch of an Action is not among them *)
  Inductive enc_step (n : nat) (seen : list id) : val -> etree -> list id -> Prop :=
  | es_prim p : enc_step n seen (VP p) (EP p) seen
  | es_ref i : memz i seen = true -> enc_step n seen (VO i) (ER i) seen
  | es_partial i nd fn : memz i seen = false -> lookup h i = Some nd -> hd nd = HPartial fn ->
      enc_step n seen (VO i) (EP PNone) seen
  | es_list i nd es s2 : memz i seen = false -> lookup h i = Some nd -> hd nd = HList -> tkids nd = kids nd ->
      map_st (enc fl n h) seen (kids nd) = Some (es, s2) -> enc_step n seen (VO i) (EL es) s2
  | es_node i nd es s2 : memz i seen = false -> lookup h i = Some nd -> rendered (hd nd) -> tkids nd = kids nd ->
      map_st (enc fl n h) seen (kids nd) = Some (es, s2) -> enc_step n seen (VO i) (EN i (hd nd) es) (i :: s2).

  Lemma enc_inv n seen v e s' : enc fl (S n) h seen v = Some (e, s') -> enc_step n seen v e s'.
  Proof.
    destruct v as [p|i]; simpl; intro H; [inversion H; constructor|].
    destruct (memz i seen) eqn:Hm; [inversion H; subst; now constructor|].
    destruct (lookup h i) as [nd|] eqn:Hl; [|discriminate]. rewrite Hact in H.
    assert (Gen : rendered (hd nd) ->
                  match map_st (enc fl n h) seen (kids nd) with
                  | Some (es, s2) => Some (EN i (hd nd) es, i :: s2)
                  | None => None
                  end = Some (e, s') -> enc_step n seen (VO i) e s').
    { intros Hr G. destruct (map_st (enc fl n h) seen (kids nd)) as [[es s2]|] eqn:Hs; [|discriminate].
      inversion G. apply es_node; auto. unfold tkids. destruct (hd nd); auto; contradiction. }
    destruct nd as [hh ks]. cbn [hd kids] in *.
    (* nine heads take the generic branch outright; left: list, dict, partial, regex, other *)
    destruct hh as [ | | | |dks| | | | | | |fn| | ]; try (apply Gen; [exact I|exact H]).
    - (* list *) destruct (map_st (enc fl n h) seen ks) as [[es s2]|] eqn:Hs; [|discriminate].
      inversion H; subst. eapply es_list; eauto.
    - (* dict *) destruct (dict_keys_ok fl dks); [apply Gen; [exact I|exact H]|discriminate].
    - (* partial *) inversion H; subst. eapply es_partial; eauto. reflexivity.
    - (* regex *) destruct (fx_regex fl); [apply Gen; [exact I|exact H]|discriminate].
    - (* other *) discriminate.
  Qed.

  Lemma enc_total : forall n seen v,
    val_closed h v = true -> (rank_of rk v < n)%nat -> exists e s', enc fl n h seen v = Some (e, s').
  Proof.
    induction n as [|n IH]; intros seen v Hc Hr; [lia|].
    destruct v as [p|i]; simpl; [eauto|].
    destruct (memz i seen); [eauto|].
    simpl in Hc. destruct (lookup h i) as [nd|] eqn:Hl; [|discriminate].
    assert (Hk : exists es s', map_st (enc fl n h) seen (tkids nd) = Some (es, s')).
    { apply map_st_total. intros v Hv seen'. apply IH; [exact (tkids_closed i nd Hl v Hv)|].
      pose proof (tkids_rank i nd Hl v Hv). simpl in Hr. lia. }
    pose proof (head_ok_of i nd Hl) as Hh. unfold head_ok in Hh. unfold tkids in Hk. rewrite Hact.
    (* `other` is excluded by head_ok; list and the nine generic heads succeed as soon as the children
       do; left: dict, partial, regex *)
    destruct (hd nd) as [ | | | |ks| | | | | | |fn| | ]; try discriminate;
      try (destruct Hk as (es & s' & ->); now eexists _, _).
    - (* dict *) unfold dict_keys_ok. do 2 (apply andb_true_iff in Hh as [Hh _]). rewrite Hh.
      destruct Hk as (es & s' & ->). now eexists _, _.
    - (* partial *) now eexists _, _.
    - (* regex *) apply andb_true_iff in Hh as [-> _]. destruct Hk as (es & s' & ->). now eexists _, _.
  Qed.

  Lemma enc_kids_depth n :
    (forall seen v e s', enc fl n h seen v = Some (e, s') -> (edepth e <= n)%nat) ->
    forall l seen es s', map_st (enc fl n h) seen l = Some (es, s') ->
    (fold_right (fun x a => Nat.max (edepth x) a) O es <= n)%nat.
  Proof.
    intro IH. refine (map_st_ind _ _ _ _); simpl; [lia|]. intros x r s y s1 ys s2 E _ Hr. apply IH in E. lia.
  Qed.

  Lemma enc_depth : forall n seen v e s', enc fl n h seen v = Some (e, s') -> (edepth e <= n)%nat.
  Proof.
    induction n as [|n IH]; intros seen v e s' H; [discriminate|].
    destruct (enc_inv _ _ _ _ _ H) as [p|i Hm|i nd fn Hm Hl Hhd|i nd es s2 Hm Hl Hhd Htk Hs|i nd es s2 Hm Hl Hhd Htk Hs];
      simpl; apply le_n_S.
    1-3: apply Nat.le_0_l.
    all: exact (enc_kids_depth n IH _ _ _ _ Hs).
  Qed.

  (* which ids the encoder registers: the old ones and descendants of v *)
  Definition seen_spec (n : nat) : Prop :=
    forall seen v e s', enc fl n h seen v = Some (e, s') ->
    forall k, memz k s' = true -> memz k seen = true \/ (S (rk k) <= rank_of rk v)%nat.

  Lemma enc_kids_seen n : seen_spec n ->
    forall l seen es s', map_st (enc fl n h) seen l = Some (es, s') ->
    forall b, (forall x, In x l -> (rank_of rk x <= b)%nat) ->
    forall k, memz k s' = true -> memz k seen = true \/ (rk k < b)%nat.
  Proof.
    intro IH. refine (map_st_ind _ _ _ _); [auto|].
    intros x r s y s1 ys s2 E _ Hr b Hb k Hk.
    destruct (Hr b (fun z Hz => Hb z (or_intror Hz)) k Hk) as [H1|H1]; [|now right].
    destruct (IH _ _ _ _ E k H1) as [H2|H2]; [now left|right]. specialize (Hb x (or_introl eq_refl)). lia.
  Qed.

  (* the children of an object register old ids and ids of lower rank: never the object itself *)
  Lemma enc_obj_seen n i nd seen es s2 : seen_spec n -> lookup h i = Some nd -> tkids nd = kids nd ->
    map_st (enc fl n h) seen (kids nd) = Some (es, s2) ->
    forall k, memz k s2 = true -> memz k seen = true \/ (rk k < rk i)%nat.
  Proof.
    intros IH Hl Htk Hs. apply (enc_kids_seen n IH _ _ _ _ Hs). rewrite <- Htk. exact (tkids_rank i nd Hl).
  Qed.

  Lemma enc_seen : forall n, seen_spec n.
  Proof.
    induction n as [|n IH]; intros seen v e s' H k Hk; [discriminate|].
    destruct (enc_inv _ _ _ _ _ H) as [p|i Hm|i nd fn Hm Hl Hhd|i nd es s2 Hm Hl Hhd Htk Hs|i nd es s2 Hm Hl Hhd Htk Hs];
      simpl.
    1-3: now left.
    - destruct (enc_obj_seen n i nd _ _ _ IH Hl Htk Hs k Hk); [auto|right; lia].
    - apply memz_cons in Hk as [->|Hk]; [auto|].
      destruct (enc_obj_seen n i nd _ _ _ IH Hl Htk Hs k Hk); [auto|right; lia].
  Qed.

  Lemma enc_mono : forall n seen v e s', enc fl n h seen v = Some (e, s') ->
    forall k, memz k seen = true -> memz k s' = true.
  Proof.
    induction n as [|n IH]; intros seen v e s' H k Hk; [discriminate|].
    assert (G : forall l s es s2, map_st (enc fl n h) s l = Some (es, s2) -> memz k s = true -> memz k s2 = true).
    { apply map_st_pres. intros s x y s1 E. exact (IH _ _ _ _ E k). }
    destruct (enc_inv _ _ _ _ _ H) as [p|i Hm|i nd fn Hm Hl Hhd|i nd es s2 Hm Hl Hhd Htk Hs|i nd es s2 Hm Hl Hhd Htk Hs].
    1-3: exact Hk.
    - exact (G _ _ _ _ Hs Hk).
    - apply memz_cons. right. exact (G _ _ _ _ Hs Hk).
  Qed.

  Lemma enc_prim n seen p e s' : enc fl n h seen (VP p) = Some (e, s') -> e = EP p.
  Proof. destruct n; simpl; [discriminate|]. intro H. now inversion H. Qed.

  Lemma enc_kids_prim n cnt : forall l seen es s', map_st (enc fl n h) seen l = Some (es, s') ->
    prim_kids l (map (render fl cnt) es).
  Proof.
    refine (map_st_ind _ _ _ _); [constructor|]. intros x r s y s1 ys s2 E _ Hr. constructor; [|exact Hr].
    intros p ->. apply enc_prim in E. now subst.
  Qed.

  Lemma tag_not_ref nd : head_ok fl C nd = true -> rendered (hd nd) -> String.eqb (tag_of (hd nd)) "ref" = false.
  Proof.
    unfold head_ok. destruct (hd nd); try contradiction; try reflexivity. intros Hok _.
    apply andb_true_iff in Hok as [Hok _]. apply andb_true_iff in Hok as [Hok _].
    now apply negb_true_iff, reserved_tag_false in Hok.
  Qed.

  (* the decoder's branch selection inverts the encoder's rendering.  class_fields and the tests on a
     variable tag are rewritten before `simpl`: simplifying the branches not taken first is slow to check *)
  Lemma parse_render nd js : head_ok fl C nd = true -> rendered (hd nd) -> prim_kids (kids nd) js ->
    parse_head fl C (tag_of (hd nd)) (render_head fl (hd nd) js) = Some (hd nd, js).
  Proof.
    intros Hok Hh Hp. pose proof (Forall2_len _ _ _ Hp) as Hlen. unfold head_ok in Hok.
    destruct nd as [hh kds]. cbn [hd kids] in *.
    destruct hh as [ | | | |ks|cls fs|fs|cls mem|sv|iso|tok|fn|pat fg|ty]; try contradiction; cbn [tag_of].
    - (* tuple *) now rewrite (parse_head_cf fl C "tuple" _ None) by (apply Hlate; simpl; auto 8).
    - (* set *) rewrite (parse_head_cf fl C "set" _ None) by (apply Hlate; simpl; auto 8).
      unfold parse_head. simpl. now rewrite andb_false_r.
    - (* deque *) now rewrite (parse_head_cf fl C "deque" _ None) by (apply Hlate; simpl; auto 8).
    - (* dict *)
      apply andb_true_iff in Hok as [Hok Hl]. apply andb_true_iff in Hok as [Hj Hs]. apply Nat.eqb_eq in Hl.
      rewrite (parse_head_cf fl C "dict" _ None) by (apply Hlate; simpl; auto 8).
      unfold render_head. destruct (fx_keys fl && negb (forallb is_str_key ks)) eqn:Hb;
        unfold parse_head; simpl; rewrite andb_false_r.
      + apply andb_true_iff in Hb as [-> _]. now rewrite unpair_pair_up by (auto; lia).
      + assert (Hall : forallb is_str_key ks = true).
        { destruct (fx_keys fl); simpl in *; [now apply negb_false_iff in Hb|exact Hs]. }
        rewrite str_keys_back, combine_snd by (rewrite ?map_length; auto; lia).
        destruct (fx_keys fl); reflexivity.
    - (* dataclass *)
      apply andb_true_iff in Hok as [Hok Hl]. apply andb_true_iff in Hok as [Hr Hc]. apply Nat.eqb_eq in Hl.
      apply negb_true_iff, reserved_tag_false in Hr as (_ & H1 & H2 & H3 & H4).
      destruct (class_fields C cls) as [fs'|] eqn:Hcf; [|discriminate].
      destruct (list_eq_dec string_dec fs fs'); [subst fs'|discriminate].
      rewrite (parse_head_cf fl C cls _ _ Hcf). unfold parse_head. rewrite H1, H2, H3, H4. simpl.
      rewrite combine_fst, combine_snd by lia.
      destruct (list_eq_dec string_dec fs fs); [reflexivity|congruence].
    - (* Action *)
      apply andb_true_iff in Hok as [Hok Hk]. apply andb_true_iff in Hok as [_ Hf].
      destruct (list_eq_dec string_dec fs action_fields); [subst fs|discriminate].
      destruct (prim_kids_action _ _ _ Hk Hp) as (m & j0 & j1 & j2 & j4 & j5 & j6 & -> & Hm).
      unfold parse_head. simpl. now rewrite Hm.
    - (* enum *)
      apply andb_true_iff in Hok as [Hm Hk]. rewrite (prim_kids_nil _ _ Hk Hp). unfold parse_head. simpl. now rewrite Hm.
    - (* SpecType *)
      apply andb_true_iff in Hok as [Hm Hk]. rewrite (prim_kids_nil _ _ Hk Hp). unfold parse_head. simpl. now rewrite Hm.
    - (* datetime *)
      rewrite (prim_kids_nil _ _ Hok Hp). now rewrite (parse_head_cf fl C "datetime" _ None) by (apply Hlate; simpl; auto 8).
    - (* RailsConfig *)
      now rewrite (prim_kids_nil _ _ Hok Hp).
    - (* regex *)
      apply andb_true_iff in Hok as [Hm Hk]. rewrite (prim_kids_nil _ _ Hk Hp).
      rewrite (parse_head_cf fl C "re.Pattern" _ None) by (apply Hlate; simpl; auto 8).
      unfold parse_head. simpl. now rewrite Hm.
  Qed.

  Variable cnt : id -> Z.

  (* decode_from_dict on what the encoder wrote for a registered object *)
  Lemma dec_render f st nd js i vs st1 :
    head_ok fl C nd = true -> rendered (hd nd) -> prim_kids (kids nd) js ->
    map_st (dec fl C f) st js = Some (vs, st1) ->
    dec fl C (S f) st (JObj (render_head fl (hd nd) js ++ marks cnt i))
    = Some (VO (nxt st1),
            {| dh := (nxt st1, mk (hd nd) vs) :: dh st1; nxt := nxt st1 + 1;
               drefs := if 0 <? cnt i then (i, VO (nxt st1)) :: drefs st1 else drefs st1 |}).
  Proof.
    intros Hok Hh Hp Hd.
    rewrite (dec_node fl C f st _ (tag_of (hd nd)) (hd nd) js vs st1); auto.
    - rewrite jget_app_r, jget_marks_id by apply render_head_id. destruct (0 <? cnt i); reflexivity.
    - apply jget_app_l, render_head_type, Hh.
    - now apply tag_not_ref.
    - rewrite parse_head_marks. now apply parse_render.
  Qed.

  Lemma vrel_mono er M M' v v' : incl M M' -> vrel er h M v v' -> vrel er h M' v v'.
  Proof. intros Hi Hv. destruct Hv; [constructor|constructor; auto|econstructor; eauto]. Qed.

  Lemma node_rel_mono er M M' n n' : incl M M' -> node_rel er h M n n' -> node_rel er h M' n n'.
  Proof.
    intros Hi [H1 H2]. split; [exact H1|]. eapply Forall2_impl; [|exact H2]. intros; eapply vrel_mono; eauto.
  Qed.

  (* the ids the encoder has registered: the objects paired in M that are no lists *)
  Definition regs (M : rel) : list id := map fst (filter (fun p => negb (is_list h (fst p))) M).

  Lemma regs_in M i : memz i (regs M) = true <-> exists i', In (i, i') M /\ is_list h i = false.
  Proof.
    rewrite memz_true. unfold regs. rewrite in_map_iff. split.
    - intros ([a a'] & <- & H). apply filter_In in H as [H1 H2]. exists a'. split; [exact H1|now apply negb_true_iff].
    - intros (i' & H1 & H2). exists (i, i'). split; [reflexivity|]. apply filter_In. split; [exact H1|]. simpl. now rewrite H2.
  Qed.

  (* the invariant of the simultaneous traversal of the heap by `enc` and of its output by `dec` *)
  Record Inv (seen : list id) (M : rel) (st : dstate) : Prop := {
    inv_node : forall i i', In (i, i') M ->
               exists n n', lookup h i = Some n /\ lookup (dh st) i' = Some n' /\ node_rel true h M n n';
    inv_lt : forall i i', In (i, i') M -> i' < nxt st;
    inv_reg : seen = regs M;
    inv_refs : forall i i', In (i, i') M -> is_list h i = false -> 0 < cnt i ->
               lookup (drefs st) i = Some (VO i');
    inv_inj : forall i1 i2 i', In (i1, i') M -> In (i2, i') M -> i1 = i2;
    inv_fun : forall i i1 i2, In (i, i1) M -> In (i, i2) M -> is_list h i = false -> i1 = i2
  }.

  (* adding the pair of a freshly allocated object keeps the invariant: the node is allocated; unless
     it is a list, it is registered in `seen`, and in refs iff marked *)
  Lemma inv_alloc seen M st1 i nd vs :
    Inv seen M st1 -> lookup h i = Some nd -> Forall2 (vrel true h M) (kids nd) vs ->
    (is_list h i = false -> memz i seen = false) ->
    Inv (if is_list h i then seen else i :: seen) ((i, nxt st1) :: M)
        {| dh := (nxt st1, mk (hd nd) vs) :: dh st1; nxt := nxt st1 + 1;
           drefs := if is_list h i then drefs st1
                    else if 0 <? cnt i then (i, VO (nxt st1)) :: drefs st1 else drefs st1 |}.
  Proof.
    intros [Hn Hlt -> Hr Hi Hf] Hl Hk Hns.
    assert (Hinc : incl M ((i, nxt st1) :: M)) by (intros x Hx; now right).
    assert (Hnotin : is_list h i = false -> forall x, ~ In (i, x) M).
    { intros Hlf x Hx. assert (memz i (regs M) = true) by (apply regs_in; eauto). rewrite (Hns Hlf) in H. discriminate. }
    constructor; cbn [dh nxt drefs].
    - intros a a' [Ha|Ha].
      + inversion Ha; subst a a'. exists nd, (mk (hd nd) vs). simpl. rewrite Z.eqb_refl.
        repeat split; auto. simpl. eapply Forall2_impl; [|exact Hk]. intros; eapply vrel_mono; eauto.
      + destruct (Hn a a' Ha) as (n & n' & H1 & H2 & H3). exists n, n'. simpl.
        specialize (Hlt a a' Ha). destruct (nxt st1 =? a') eqn:E; [apply Z.eqb_eq in E; lia|].
        split; [auto|split; [auto|eapply node_rel_mono; eauto]].
    - intros a a' [Ha|Ha]; [inversion Ha; lia|]. specialize (Hlt a a' Ha). lia.
    - unfold regs. simpl. destruct (is_list h i); reflexivity.
    - intros a a' [Ha|Ha] Hal Hc.
      + inversion Ha; subst a a'. rewrite Hal. apply Z.ltb_lt in Hc. rewrite Hc. simpl. now rewrite Z.eqb_refl.
      + specialize (Hr a a' Ha Hal Hc). destruct (is_list h i) eqn:Hlist; [exact Hr|].
        destruct (0 <? cnt i); [|exact Hr]. simpl.
        destruct (i =? a) eqn:E; [|exact Hr]. apply Z.eqb_eq in E. subst a.
        exfalso. eapply Hnotin; eauto.
    - intros a1 a2 a' [H1|H1] [H2|H2].
      + inversion H1; inversion H2; congruence.
      + inversion H1; subst. specialize (Hlt _ _ H2). lia.
      + inversion H2; subst. specialize (Hlt _ _ H1). lia.
      + eapply Hi; eauto.
    - intros a a1 a2 [H1|H1] [H2|H2] Hal.
      + inversion H1; inversion H2; congruence.
      + inversion H1; subst a a1. exfalso. eapply Hnotin; eauto.
      + inversion H2; subst a a2. exfalso. eapply Hnotin; eauto.
      + eapply Hf; eauto.
  Qed.

  (* decoding what `enc` produced for v from a state that satisfies the invariant *)
  Definition dec_goal (seen' : list id) (v : val) (e : etree) (M : rel) (st : dstate) (f : nat) : Prop :=
    exists v' M' st', dec fl C f st (render fl cnt e) = Some (v', st') /\
                      Inv seen' M' st' /\ incl M M' /\ vrel true h M' v v'.

  Definition step_goal (n : nat) : Prop :=
    forall seen v e seen', enc fl n h seen v = Some (e, seen') ->
    forall M st, Inv seen M st -> covered cnt e ->
    forall f, (n <= f)%nat -> dec_goal seen' v e M st f.

  Lemma kids_dec n : step_goal n ->
    forall l seen es seen', map_st (enc fl n h) seen l = Some (es, seen') ->
    forall M st, Inv seen M st -> covered cnt (EL es) ->
    forall f, (n <= f)%nat ->
    exists vs M' st', map_st (dec fl C f) st (map (render fl cnt) es) = Some (vs, st') /\
                      Inv seen' M' st' /\ incl M M' /\ Forall2 (vrel true h M') l vs.
  Proof.
    intro IH. refine (map_st_ind _ _ _ _).
    - intros s M st HI _ f _. exists [], M, st. auto using incl_refl.
    - intros x r s e s1 es s2 E _ IHr M st HI Hc f Hf. apply covered_cons in Hc as [Hc1 Hc2].
      destruct (IH _ _ _ _ E M st HI Hc1 f Hf) as (v' & M1 & st1 & D1 & I1 & Inc1 & V1).
      destruct (IHr M1 st1 I1 Hc2 f Hf) as (vs & M2 & st2 & D2 & I2 & Inc2 & V2).
      exists (v' :: vs), M2, st2. simpl. rewrite D1, D2.
      split; [reflexivity|split; [assumption|split]].
      + eapply incl_tran; eauto.
      + constructor; auto. eapply vrel_mono; eauto.
  Qed.

  Lemma is_list_spec i nd : lookup h i = Some nd -> is_list h i = match hd nd with HList => true | _ => false end.
  Proof. intro H. unfold is_list. rewrite H. destruct nd as [[] ?]; reflexivity. Qed.

  Lemma stay_goal seen v e M st f v' :
    dec fl C f st (render fl cnt e) = Some (v', st) -> Inv seen M st -> vrel true h M v v' -> dec_goal seen v e M st f.
  Proof. intros D I V. exists v', M, st. auto using incl_refl. Qed.

  Lemma alloc_goal seen' i e M M1 st st1 st' f :
    dec fl C f st (render fl cnt e) = Some (VO (nxt st1), st') -> Inv seen' ((i, nxt st1) :: M1) st' -> incl M M1 ->
    dec_goal seen' (VO i) e M st f.
  Proof.
    intros D I Inc. exists (VO (nxt st1)), ((i, nxt st1) :: M1), st'.
    split; [exact D|]. split; [exact I|]. split; [now apply incl_tl|]. constructor. now left.
  Qed.

  Lemma enc_dec : forall n, step_goal n.
  Proof.
    induction n as [|n IH]; intros seen v e seen' H M st HI Hc f Hf; [discriminate|].
    destruct f as [|f]; [lia|]. assert (Hf' : (n <= f)%nat) by lia.
    destruct (enc_inv _ _ _ _ _ H) as [p|i Hm|i nd fn Hm Hl Hhd|i nd es s2 Hm Hl Hhd Htk Hs|i nd es s2 Hm Hl Hhd Htk Hs].
    - apply (stay_goal _ _ _ _ _ _ (VP p)); [destruct p; reflexivity|exact HI|constructor].
    - rewrite (inv_reg _ _ _ HI) in Hm. apply regs_in in Hm as (i' & Hin & Hnl).
      assert (Hci : 0 < cnt i) by (apply Hc; simpl; rewrite Z.eqb_refl; lia).
      apply (stay_goal _ _ _ _ _ _ (VO i')); [|exact HI|now constructor].
      simpl. now rewrite (inv_refs _ _ _ HI i i' Hin Hnl Hci).
    - (* partial: encoded as None *)
      apply (stay_goal _ _ _ _ _ _ (VP PNone)); [reflexivity|exact HI|eapply vr_erased; eauto].
    - (* list *)
      destruct (kids_dec n IH _ _ _ _ Hs M st HI Hc f Hf') as (vs & M1 & st1 & D1 & I1 & Inc1 & V1).
      pose proof (inv_alloc s2 M1 st1 i nd vs I1 Hl V1) as I. rewrite (is_list_spec i nd Hl), Hhd in I.
      eapply alloc_goal; [simpl; rewrite D1; reflexivity|apply I; discriminate|exact Inc1].
    - (* registered object: i is not its own descendant *)
      assert (Hs2 : memz i s2 = false).
      { destruct (memz i s2) eqn:Hi2; [|reflexivity].
        destruct (enc_obj_seen n i nd _ _ _ (enc_seen n) Hl Htk Hs i Hi2); [congruence|lia]. }
      assert (Hnl : is_list h i = false).
      { rewrite (is_list_spec i nd Hl). destruct (hd nd); try reflexivity; destruct Hhd. }
      destruct (kids_dec n IH _ _ _ _ Hs M st HI Hc f Hf') as (vs & M1 & st1 & D1 & I1 & Inc1 & V1).
      pose proof (inv_alloc s2 M1 st1 i nd vs I1 Hl V1) as I. rewrite Hnl in I.
      eapply alloc_goal; [|exact (I (fun _ => Hs2))|exact Inc1].
      exact (dec_render f st nd _ i vs st1 (head_ok_of i nd Hl) Hhd (enc_kids_prim n cnt _ _ _ _ Hs) D1).
  Qed.

End Roundtrip.

Lemma supported_nodes fl C h r : supported fl C h r = true ->
  forallb (fun kn => node_ok fl C h (snd kn)) h = true /\ val_closed h r = true.
Proof. unfold supported. intro H. now apply andb_true_iff in H. Qed.

(* the encoder succeeds on every supported graph whose depth is below the recursion limit *)
Theorem encode_total fl C h r rk limit :
  fx_action fl = true -> supported fl C h r = true -> acyclic h rk -> (rank_of rk r < limit)%nat ->
  exists j, encode fl limit h r = Some j.
Proof.
  intros Ha Hs Hac Hr. apply supported_nodes in Hs as [Hn Hc].
  destruct (enc_total fl C h rk Ha Hn Hac limit [] r Hc Hr) as (e & s' & He).
  unfold encode. rewrite He. eauto.
Qed.

(* ... and decoding its output yields an isomorphic graph (callbacks erased) that preserves
   sharing; the decoder state is exposed for the composition with the callback pass *)
Theorem roundtrip_graph_st fl C h r rk limit :
  fx_action fl = true -> late_tags_free C ->
  supported fl C h r = true -> acyclic h rk -> (rank_of rk r < limit)%nat ->
  exists j r' M st',
    encode fl limit h r = Some j /\ dec fl C limit st0 j = Some (r', st') /\
    bisim true h r (dh st') r' M /\ sharing_preserved h M /\
    (forall i i', In (i, i') M -> i' < nxt st').
Proof.
  intros Ha Hl Hs Hac Hr. apply supported_nodes in Hs as [Hn Hc].
  destruct (enc_total fl C h rk Ha Hn Hac limit [] r Hc Hr) as (e & s' & He).
  assert (I0 : Inv h (count_refs e) [] [] st0).
  { constructor; simpl; try reflexivity; intros; contradiction. }
  destruct (enc_dec fl C h rk Ha Hl Hn Hac (count_refs e) limit [] r e s' He [] st0 I0
                    (fun i Hi => Hi) limit (le_n _)) as (v' & M & st' & D & I1 & _ & V).
  exists (render fl (count_refs e) e), v', M, st'.
  unfold encode. rewrite He. repeat split; auto.
  - exact (inv_node _ _ _ _ _ I1).
  - exact (inv_inj _ _ _ _ _ I1).
  - exact (inv_fun _ _ _ _ _ I1).
  - exact (inv_lt _ _ _ _ _ I1).
Qed.

Theorem roundtrip_graph fl C h r rk limit :
  fx_action fl = true -> late_tags_free C ->
  supported fl C h r = true -> acyclic h rk -> (rank_of rk r < limit)%nat ->
  exists j h' r' M,
    encode fl limit h r = Some j /\ decode fl C limit j = Some (h', r') /\
    bisim true h r h' r' M /\ sharing_preserved h M.
Proof.
  intros Ha Hl Hs Hac Hr.
  destruct (roundtrip_graph_st fl C h r rk limit Ha Hl Hs Hac Hr) as (j & r' & M & st' & He & Hd & Hb & Hsp & _).
  exists j, (dh st'), r', M. unfold decode. now rewrite Hd.
Qed.
