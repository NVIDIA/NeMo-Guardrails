(* C11 - json_to_state o state_to_json on State-shaped graphs: the round trip of the object
   graph composed with the re-creation of the head callbacks (state_roundtrip); soundness of the
   decidable hypothesis `state_hyps` and the theorem under that hypothesis (state_roundtrip_b). *)
From Coq Require Import ZArith List String Bool Lia.
From NG Require Import V2.Serial V2.Serial_proofs V2.Callbacks_proofs.
Import ListNotations.
Open Scope string_scope.
Open Scope Z_scope.

(* the decoder only allocates fresh identities *)

Definition fresh_ok (st : dstate) : Prop := below (dh st) (nxt st).

Lemma alloc_fresh n st : fresh_ok st -> fresh_ok (snd (alloc n st)).
Proof.
  unfold fresh_ok, below, alloc. simpl. intros H i nd. destruct (nxt st =? i) eqn:E.
  - apply Z.eqb_eq in E. intros _. lia.
  - intro Hl. specialize (H i nd Hl). lia.
Qed.

Lemma dec_fresh fl C : forall f st j v st', fresh_ok st -> dec fl C f st j = Some (v, st') -> fresh_ok st'.
Proof.
  induction f as [|f IH]; intros st j v st' Hp H; [discriminate|].
  assert (Hm : forall l st0 vs st1, fresh_ok st0 -> map_st (dec fl C f) st0 l = Some (vs, st1) -> fresh_ok st1).
  { intros l st0 vs st1 Hp0 E. revert E Hp0. apply (map_st_pres fresh_ok). intros s x y s' E Hs. exact (IH _ _ _ _ Hs E). }
  destruct j as [| b | z | x | s | l | kvs]; simpl in H; try (inversion H; now subst).
  - destruct (map_st (dec fl C f) st l) as [[vs st1]|] eqn:E; [|discriminate].
    inversion H; subst. apply (alloc_fresh (mk HList vs)). eapply Hm; eauto.
  - destruct (jget "__type" kvs) as [[| | | | t | |]|]; try discriminate.
    + destruct (String.eqb t "ref").
      * destruct (jget "__id" kvs) as [[| | i | | | |]|]; try discriminate.
        destruct (lookup (drefs st) i); [|discriminate]. inversion H; now subst.
      * destruct (parse_head fl C t kvs) as [[hd' kjs]|]; [|discriminate].
        destruct (map_st (dec fl C f) st kjs) as [[vs st1]|] eqn:E; [|discriminate].
        pose proof (Hm _ _ _ _ Hp E) as H1. pose proof (alloc_fresh (mk hd' vs) st1 H1) as H2.
        simpl in H. inversion H; subst.
        destruct (jget "__id" kvs) as [[| | old | | | |]|]; exact H2.
    + destruct (map_st (dec fl C f) st (map snd kvs)) as [[vs st1]|] eqn:E; [|discriminate].
      inversion H; subst. apply (alloc_fresh (mk _ vs)). eapply Hm; eauto.
Qed.

Lemma st0_fresh : fresh_ok st0.
Proof. intros i nd H. discriminate. Qed.

(* Forall2, position by position *)
Definition nth_rel {A B} (R : A -> B -> Prop) (l : list A) (l' : list B) (k : nat) : Prop :=
  match nth_error l k, nth_error l' k with
  | Some x, Some y => R x y
  | None, None => True
  | _, _ => False
  end.

Lemma Forall2_nth_rel {A B} (R : A -> B -> Prop) l l' : Forall2 R l l' <-> forall k, nth_rel R l l' k.
Proof.
  split.
  - induction 1 as [|a b l l' Hab _ IH]; intros [|k]; unfold nth_rel; simpl; auto. apply IH.
  - revert l'. induction l as [|a l IH]; intros [|b l'] H; try (exact (H O) || destruct (H O)); constructor.
    + exact (H O).
    + apply IH. intro k. exact (H (S k)).
Qed.

Lemma Forall2_nth {A B} (R : A -> B -> Prop) l l' : Forall2 R l l' ->
  forall k x, nth_error l k = Some x -> exists y, nth_error l' k = Some y /\ R x y.
Proof.
  intros H k x Hx. apply Forall2_nth_rel with (k := k) in H. unfold nth_rel in H. rewrite Hx in H.
  destruct (nth_error l' k) as [y|]; [eauto|contradiction].
Qed.

Lemma Forall2_in_l {A B} (R : A -> B -> Prop) l l' a : Forall2 R l l' -> In a l -> exists b, In b l' /\ R a b.
Proof.
  induction 1 as [|x y l l' Hxy _ IH]; intros Hin; [contradiction|].
  destruct Hin as [<-|Hin]; [exists y; split; [now left|auto]|].
  destruct (IH Hin) as (b & Hb & Hr). exists b. split; [now right|auto].
Qed.

Lemma Forall2_in_r {A B} (R : A -> B -> Prop) l l' b : Forall2 R l l' -> In b l' -> exists a, In a l /\ R a b.
Proof.
  induction 1 as [|x y l l' Hxy _ IH]; intros Hin; [contradiction|].
  destruct Hin as [<-|Hin]; [exists x; split; [now left|auto]|].
  destruct (IH Hin) as (a & Ha & Hr). exists a. split; [now right|auto].
Qed.

Lemma index_of_lt s : forall l n, index_of s l = Some n -> (n < List.length l)%nat.
Proof.
  induction l as [|x r IH]; intros n H; simpl in *; [discriminate|].
  destruct (String.eqb x s); [inversion H; lia|].
  destruct (index_of s r) as [m|]; [|discriminate]. inversion H. specialize (IH m eq_refl). lia.
Qed.

(* isomorphism that also relates callbacks: a functools.partial corresponds to a partial of the
   same function whose bound arguments correspond *)

Inductive vrel2 (h h2 : heap) (M : rel) : val -> val -> Prop :=
| v2_prim p : vrel2 h h2 M (VP p) (VP p)
| v2_obj i i' : In (i, i') M -> vrel2 h h2 M (VO i) (VO i')
| v2_cb j j' fn ks ks' :
    lookup h j = Some (mk (HPartial fn) ks) -> lookup h2 j' = Some (mk (HPartial fn) ks') ->
    Forall2 (vrel false h M) ks ks' -> vrel2 h h2 M (VO j) (VO j').

Record bisim2 (h : heap) (r : val) (h2 : heap) (r2 : val) (M : rel) : Prop := {
  b2_root : vrel2 h h2 M r r2;
  b2_step : forall i i', In (i, i') M ->
            exists n n', lookup h i = Some n /\ lookup h2 i' = Some n' /\ hd n = hd n' /\
                         Forall2 (vrel2 h h2 M) (kids n) (kids n')
}.

Definition is_partial (h : heap) (j : id) : Prop := exists fn ks, lookup h j = Some (mk (HPartial fn) ks).

Lemma vrel2_of_vrel h h2 M v v' :
  vrel true h M v v' -> (forall j, v = VO j -> ~ is_partial h j) -> vrel2 h h2 M v v'.
Proof.
  intros [p|i i' Hin|i [hn ks] fn _ Hl Hp] Hnp; [constructor|now constructor|].
  simpl in Hp. subst hn. destruct (Hnp i eq_refl). now exists fn, ks.
Qed.

(* reading a graph through a relation that keeps scalars and sends every object other than a
   callback to an object with the same head and related children: the relation of either round
   trip is one *)

Definition obj_sim (h h' : heap) (VR : val -> val -> Prop) : Prop :=
  (forall p v', VR (VP p) v' -> v' = VP p) /\
  (forall i v' nd, VR (VO i) v' -> lookup h i = Some nd -> (forall fn, hd nd <> HPartial fn) ->
     exists i' kk', v' = VO i' /\ lookup h' i' = Some (mk (hd nd) kk') /\ Forall2 VR (kids nd) kk').

Lemma bisim_sim h r h' r' M : bisim true h r h' r' M -> obj_sim h h' (vrel true h M).
Proof.
  intros [_ Bs]. split; [intros p v' H; now inversion H|]. intros i v' nd Hv Hl Hnp.
  inversion Hv as [|j j' Hin|j n fn _ Hl2 Hp]; subst.
  - destruct (Bs _ _ Hin) as (n & [hn' kk'] & H1 & H2 & H3 & H4). rewrite Hl in H1. inversion H1; subst n.
    simpl in H3. subst hn'. eauto.
  - rewrite Hl in Hl2. inversion Hl2; subst n. destruct (Hnp fn Hp).
Qed.

Lemma bisim2_sim h r h2 r2 M : bisim2 h r h2 r2 M -> obj_sim h h2 (vrel2 h h2 M).
Proof.
  intros [_ Bs]. split; [intros p v' H; now inversion H|]. intros i v' nd Hv Hl Hnp.
  inversion Hv as [|j j' Hin|j j' fn ks ks' Hl1 Hl2 _]; subst.
  - destruct (Bs _ _ Hin) as (n & [hn' kk'] & H1 & H2 & H3 & H4). rewrite Hl in H1. inversion H1; subst n.
    simpl in H3. subst hn'. eauto.
  - rewrite Hl in Hl1. inversion Hl1; subst nd. destruct (Hnp fn eq_refl).
Qed.

Definition pairrel (VR : val -> val -> Prop) (a b : val * val) : Prop :=
  VR (fst a) (fst b) /\ VR (snd a) (snd b).

(* the shape of every reader of an object: `field`, `dict_values`, and those of the abstraction *)
Definition read {A} (h : heap) (v : val) (g : node -> option A) : option A :=
  match v with VO i => match lookup h i with Some nd => g nd | None => None end | VP _ => None end.

Section Transfer.
  Variables (h h' : heap) (VR : val -> val -> Prop).
  Hypothesis Hsim : obj_sim h h' VR.

  (* a reader that rejects callbacks and whose result on a node transfers to any node with the same
     head and related children *)
  Lemma read_tr {A B} (g : node -> option A) (g' : node -> option B) (R : A -> B -> Prop) :
    (forall fn kk, g (mk (HPartial fn) kk) = None) ->
    (forall hn kk kk' x, Forall2 VR kk kk' -> g (mk hn kk) = Some x -> exists x', g' (mk hn kk') = Some x' /\ R x x') ->
    forall v v' x, VR v v' -> read h v g = Some x -> exists x', read h' v' g' = Some x' /\ R x x'.
  Proof.
    intros Hp Hg v v' x Hv H. destruct v as [|i]; [discriminate|]. simpl in H.
    destruct (lookup h i) as [[hn kk]|] eqn:El; [|discriminate].
    destruct (proj2 Hsim _ _ _ Hv El) as (i' & kk' & -> & Hl' & HF).
    - intros fn E. simpl in E. subst hn. now rewrite Hp in H.
    - simpl in *. rewrite Hl'. eauto.
  Qed.

  (* ... in particular one that reads the head only *)
  Lemma read_head_tr {A} (g : node -> option A) :
    (forall fn kk, g (mk (HPartial fn) kk) = None) -> (forall hn kk kk', g (mk hn kk) = g (mk hn kk')) ->
    forall v v' x, VR v v' -> read h v g = Some x -> read h' v' g = Some x.
  Proof.
    intros Hp Hg v v' x Hv H. destruct (read_tr g g eq Hp) with (3 := H) (v' := v') as (x' & H' & <-); auto.
    intros hn kk kk' y _ E. rewrite (Hg hn kk kk') in E. eauto.
  Qed.

  Lemma field_tr v v' f x : VR v v' -> field h v f = Some x -> exists x', field h' v' f = Some x' /\ VR x x'.
  Proof.
    unfold field. apply (read_tr _ _ VR); [reflexivity|]. intros [] kk kk' y HF E; try discriminate.
    destruct (index_of f fs) as [k|]; [|discriminate]. eapply Forall2_nth; eauto.
  Qed.

  Lemma dict_values_tr v v' vs : VR v v' -> dict_values h v = Some vs ->
    exists vs', dict_values h' v' = Some vs' /\ Forall2 VR vs vs'.
  Proof.
    unfold dict_values. apply (read_tr _ _ (Forall2 VR)); [reflexivity|].
    intros [] kk kk' y HF [= <-]. eauto.
  Qed.

  Lemma collect_flows_tr : forall fss fss' W, Forall2 VR fss fss' ->
    collect_flows h fss = Some W -> exists W', collect_flows h' fss' = Some W' /\ Forall2 (pairrel VR) W W'.
  Proof.
    intros fss fss' W HF. revert W. induction HF as [|fs fs' r r' Hfs _ IH]; intros W H; simpl in *.
    - inversion H. exists []. split; [reflexivity|constructor].
    - destruct (field h fs "heads") as [hv|] eqn:E1; [|discriminate].
      destruct (dict_values h hv) as [heads|] eqn:E2; [|discriminate].
      destruct (collect_flows h r) as [rest|] eqn:E3; [|discriminate].
      inversion H; subst W.
      destruct (field_tr _ _ _ _ Hfs E1) as (hv' & F1 & V1).
      destruct (dict_values_tr _ _ _ V1 E2) as (heads' & F2 & V2).
      destruct (IH rest eq_refl) as (rest' & F3 & V3).
      rewrite F1, F2, F3. eexists. split; [reflexivity|]. apply Forall2_app; [|exact V3].
      clear -V2 Hfs. induction V2; simpl; constructor; auto. split; auto.
  Qed.

  Lemma collect_heads_tr v v' W : VR v v' -> collect_heads h v = Some W ->
    exists W', collect_heads h' v' = Some W' /\ Forall2 (pairrel VR) W W'.
  Proof.
    intros Hv H. unfold collect_heads in *.
    destruct (field h v "flow_states") as [fv|] eqn:E1; [|discriminate].
    destruct (dict_values h fv) as [fss|] eqn:E2; [|discriminate].
    destruct (field_tr _ _ _ _ Hv E1) as (fv' & F1 & V1).
    destruct (dict_values_tr _ _ _ V1 E2) as (fss' & F2 & V2).
    rewrite F1, F2. eapply collect_flows_tr; eauto.
  Qed.
End Transfer.

(* every flow state of the work list has a "heads" attribute: it is no callback *)
Lemma collect_heads_fs h v W fs hv : collect_heads h v = Some W -> In (fs, hv) W -> field h fs "heads" <> None.
Proof.
  unfold collect_heads. destruct (field h v "flow_states") as [fv|]; [|discriminate].
  destruct (dict_values h fv) as [fss|]; [|discriminate]. revert W.
  induction fss as [|f r IH]; intros W HW Hin; simpl in HW.
  - inversion HW; subst. contradiction.
  - destruct (field h f "heads") as [hv0|] eqn:E; [|discriminate].
    destruct (dict_values h hv0) as [heads|]; [|discriminate].
    destruct (collect_flows h r) as [rest|]; [|discriminate]. inversion HW; subst W.
    apply in_app_or in Hin as [Hin|Hin]; [|eapply IH; eauto].
    apply in_map_iff in Hin as (x0 & Heq & _). inversion Heq; subst f. now rewrite E.
Qed.

(* the callbacks of a live State s with heads W0 are canonical: both callback attributes of every
   head are partial(_flow_head_changed, state, its flow state) ... *)
Definition canonical_cbs (h : heap) (s : id) (W0 : list (val * val)) : Prop :=
  forall fs x, In (fs, VO x) W0 -> exists c fds ks p q a b, head_cbs h (VO s) fs x c fds ks p q a b.

(* ... and no other object refers to a functools.partial *)
Definition cbs_in_heads (h : heap) (W0 : list (val * val)) : Prop :=
  forall i n k j, lookup h i = Some n -> nth_error (kids n) k = Some (VO j) -> is_partial h j ->
    exists fs c fds ks p q, In (fs, VO i) W0 /\ n = mk (HData c fds) ks /\
                            index_of pos_f fds = Some p /\ index_of stat_f fds = Some q /\ (k = p \/ k = q).

(* every head of the restored state carries callbacks bound to the restored State and to its own
   restored FlowState *)
Definition heads_restored (h : heap) (M : rel) (W0 : list (val * val)) (h2 : heap) (s' : id) : Prop :=
  forall fs x x', In (fs, VO x) W0 -> In (x, x') M ->
    exists fs' c fds ks p q a b,
      vrel true h M fs fs' /\ lookup h2 x' = Some (mk (HData c fds) ks) /\
      index_of pos_f fds = Some p /\ index_of stat_f fds = Some q /\
      nth_error ks p = Some (VO a) /\ nth_error ks q = Some (VO b) /\ a <> b /\
      lookup h2 a = Some (partial_node (VO s') fs') /\ lookup h2 b = Some (partial_node (VO s') fs').

Section Restore.
  Variables (h h1 h2 : heap) (M : rel) (s s' n0 : id) (W0 W' : list (val * val)).

  Hypothesis Hb : bisim true h (VO s) h1 (VO s') M.
  Hypothesis Hsp : sharing_preserved h M.
  Hypothesis Hlt : forall i i', In (i, i') M -> i' < n0.
  Hypothesis HW : collect_heads h (VO s) = Some W0.
  Hypothesis HF : Forall2 (pairrel (vrel true h M)) W0 W'.
  Hypothesis Hredo : redone h1 n0 (VO s') W' h2.
  Hypothesis Hcb : canonical_cbs h s W0.
  Hypothesis Honly : cbs_in_heads h W0.

  (* heads of the original and of the decoded state correspond *)
  Lemma head_l fs x x' : In (fs, VO x) W0 -> In (x, x') M -> exists fs', In (fs', VO x') W' /\ vrel true h M fs fs'.
  Proof.
    intros Hin HM. destruct (Forall2_in_l _ _ _ _ HF Hin) as ([fs' hv'] & Hin' & [Hv1 Hv2]). simpl in *.
    destruct (Hcb fs x Hin) as (c & fds & ks & p & q & a & b & D). pose proof (hc_node D) as Hlx.
    inversion Hv2 as [|i i2' Hin2|i n fn _ Hl Hp]; subst; [|rewrite Hlx in Hl; inversion Hl; subst; discriminate].
    assert (i2' = x') by (apply (sp_fun _ _ Hsp x i2' x' Hin2 HM); unfold is_list; now rewrite Hlx). subst i2'.
    exists fs'. auto.
  Qed.

  Lemma head_r fs' x' : In (fs', VO x') W' -> exists fs x, In (fs, VO x) W0 /\ In (x, x') M /\ vrel true h M fs fs'.
  Proof.
    intros Hin'. destruct (Forall2_in_r _ _ _ _ HF Hin') as ([fs hv] & Hin & [Hv1 Hv2]). simpl in *.
    inversion Hv2 as [|i i2' Hin2|]; subst. exists fs, i. auto.
  Qed.

  Lemma fs_obj fs hv fs' : In (fs, hv) W0 -> vrel true h M fs fs' -> vrel false h M fs fs'.
  Proof.
    intros Hin Hv. inversion Hv as [pp|i i' Hi|i [hn ks] fn _ Hl Hp]; subst; [constructor|now constructor|].
    destruct (collect_heads_fs _ _ _ _ _ HW Hin). simpl in *. subst hn. now rewrite Hl.
  Qed.

  Lemma root_in : In (s, s') M.
  Proof. pose proof (bs_root _ _ _ _ _ _ Hb) as H. now inversion H. Qed.

  (* a reference to a callback sits at a callback attribute of a head, nowhere else *)
  Lemma kid_no_cb i n k j : lookup h i = Some n -> nth_error (kids n) k = Some (VO j) ->
    (forall fs c fds ks p q, In (fs, VO i) W0 -> n = mk (HData c fds) ks -> index_of pos_f fds = Some p ->
                             index_of stat_f fds = Some q -> k <> p /\ k <> q) -> ~ is_partial h j.
  Proof.
    intros Hl Hk Hno Hpar.
    destruct (Honly i n k j Hl Hk Hpar) as (fs & c & fds & ks & p & q & Hin & Hn & Hp & Hq & Hor).
    destruct (Hno fs c fds ks p q Hin Hn Hp Hq). tauto.
  Qed.

  Lemma restore_step i i' : In (i, i') M ->
    exists n n', lookup h i = Some n /\ lookup h2 i' = Some n' /\ hd n = hd n' /\
                 Forall2 (vrel2 h h2 M) (kids n) (kids n').
  Proof.
    intro Hin. destruct Hredo as [Hheads Hframe].
    destruct (bs_step _ _ _ _ _ _ Hb _ _ Hin) as (n & n' & Hn & Hn' & Hhd & Hkids).
    destruct (in_dec val_eq_dec (VO i') (map snd W')) as [Hhead|Hnohead].
    - (* a head: its two callback attributes were reassigned *)
      apply in_map_iff in Hhead as ([fs' hv'] & Heq & Hin'). simpl in Heq. subst hv'.
      destruct (head_r fs' i' Hin') as (fs & x & Hin0 & HM & Hv).
      assert (x = i) by exact (sp_inj _ _ Hsp x i i' HM Hin). subst x.
      destruct (Hcb fs i Hin0) as (c & fds & ks & p & q & a & b & D).
      destruct (Hheads fs' i' Hin') as (c2 & fds2 & ks0 & ks2 & p2 & q2 & a2 & b2 & D2).
      pose proof (hr_cbs D2) as D2'.
      (* both descriptions are of the pair i ~ i': same class, same fields, same positions *)
      rewrite (hc_node D) in Hn. inversion Hn; subst n. rewrite (hr_before D2) in Hn'. inversion Hn'; subst n'.
      simpl in Hhd, Hkids. inversion Hhd; subst c2 fds2.
      assert (p2 = p) by (pose proof (hc_pos D); pose proof (hc_pos D2'); congruence).
      assert (q2 = q) by (pose proof (hc_stat D); pose proof (hc_stat D2'); congruence). subst p2 q2.
      exists (mk (HData c fds) ks), (mk (HData c fds) ks2).
      split; [exact (hc_node D)|]. split; [exact (hc_node D2')|]. split; [reflexivity|].
      assert (Hfsrel : Forall2 (vrel false h M) [VO s; fs] [VO s'; fs']).
      { constructor; [apply vr_obj, root_in|]. constructor; [|constructor]. exact (fs_obj fs (VO i) fs' Hin0 Hv). }
      apply Forall2_nth_rel. intro k. pose proof (proj1 (Forall2_nth_rel _ _ _) Hkids k) as Hk. unfold nth_rel in *.
      simpl kids. destruct (Nat.eq_dec k p) as [->|Hkp].
      { rewrite (hc_a D), (hc_a D2'). exact (v2_cb _ _ _ _ _ _ _ _ (hc_cb_a D) (hc_cb_a D2') Hfsrel). }
      destruct (Nat.eq_dec k q) as [->|Hkq].
      { rewrite (hc_b D), (hc_b D2'). exact (v2_cb _ _ _ _ _ _ _ _ (hc_cb_b D) (hc_cb_b D2') Hfsrel). }
      rewrite (hr_rest D2 Hkp Hkq).
      destruct (nth_error ks k) as [v|] eqn:Ek, (nth_error ks0 k) as [y|]; auto.
      apply vrel2_of_vrel; [exact Hk|]. intros j ->. apply (kid_no_cb i _ k j (hc_node D) Ek).
      intros fs3 c3 fds3 ks3 p3 q3 _ Heq3 Hp3 Hq3. inversion Heq3; subst.
      pose proof (hc_pos D). pose proof (hc_stat D). split; congruence.
    - (* not a head: untouched by the callback pass, and only heads refer to callbacks *)
      assert (Hsame : lookup h2 i' = lookup h1 i').
      { apply Hframe; [exact (Hlt _ _ Hin)|]. intros fs' Hin'. apply Hnohead. apply in_map_iff. now exists (fs', VO i'). }
      exists n, n'. rewrite Hsame. split; [exact Hn|]. split; [exact Hn'|]. split; [exact Hhd|].
      apply Forall2_nth_rel. intro k. pose proof (proj1 (Forall2_nth_rel _ _ _) Hkids k) as Hk. unfold nth_rel in *.
      destruct (nth_error (kids n) k) as [v|] eqn:Ek, (nth_error (kids n') k) as [y|]; auto.
      apply vrel2_of_vrel; [exact Hk|]. intros j ->. apply (kid_no_cb i n k j Hn Ek).
      intros fs c fds ks p q Hin0 _ _ _. destruct (head_l fs i i' Hin0 Hin) as (fs' & Hin' & _).
      destruct Hnohead. apply in_map_iff. now exists (fs', VO i').
  Qed.

  Theorem restore_bisim2 : bisim2 h (VO s) h2 (VO s') M.
  Proof. split; [apply v2_obj, root_in|exact restore_step]. Qed.

  Lemma restored_heads : heads_restored h M W0 h2 s'.
  Proof.
    intros fs x x' Hin HM. destruct (head_l fs x x' Hin HM) as (fs' & Hin' & Hv).
    destruct (proj1 Hredo fs' x' Hin') as (c & fds & ks0 & ks & p & q & a & b & D).
    exists fs', c, fds, ks, p, q, a, b. destruct (hr_cbs D). pose proof (hr_ab D). repeat split; assumption.
  Qed.
End Restore.

Lemma heads_ok_tr h h' M W W' :
  (forall i i', In (i, i') M -> exists n n', lookup h i = Some n /\ lookup h' i' = Some n' /\ node_rel true h M n n') ->
  (forall i1 i2 i', In (i1, i') M -> In (i2, i') M -> i1 = i2) ->
  heads_ok h W -> Forall2 (pairrel (vrel true h M)) W W' -> heads_ok h' W'.
Proof.
  intros Bstep Sinj Hk. revert W'.
  induction Hk as [|fs x W nd c fds ks p q Hl Hc Hn Hk IH]; intros W' HF; inversion HF as [|a b l l' Hab HF']; subst.
  - constructor.
  - destruct b as [fs' hv']. destruct Hab as [_ Hv]. simpl in Hv.
    destruct Hc as (-> & Hp & Hq & Hpq & Hlp & Hlq).
    inversion Hv as [|i i' Hin|i n fn _ Hl2 Hp2]; subst.
    + destruct (Bstep _ _ Hin) as (n & [hn' ks'] & H1 & H2 & H3 & H4). rewrite Hl in H1. inversion H1; subst n.
      simpl in H3, H4. subst hn'. pose proof (Forall2_len _ _ _ H4) as Hlen.
      econstructor; [exact H2| |  |apply IH; exact HF'].
      * repeat split; eauto; lia.
      * intros fs'' Hin2. destruct (Forall2_in_r _ _ _ _ HF' Hin2) as ([fs2 hv2] & Hin3 & [_ Hv2]). simpl in Hv2.
        inversion Hv2 as [|i2 i2' Hin4|]; subst. rewrite (Sinj _ _ _ Hin4 Hin) in Hin3. exact (Hn fs2 Hin3).
    + rewrite Hl in Hl2. inversion Hl2; subst n. simpl in Hp2. discriminate.
Qed.

Section StateRoundtrip.
  Variables (fl : flags) (C : classes) (h : heap) (rk : id -> nat) (limit : nat) (s : id).
  Variable W0 : list (val * val).

  Hypothesis Hact : fx_action fl = true.
  Hypothesis Hlate : late_tags_free C.
  Hypothesis Hsup : supported fl C h (VO s) = true.
  Hypothesis Hacyc : acyclic h rk.
  Hypothesis Hrank : (rank_of rk (VO s) < limit)%nat.
  (* State shape: state.flow_states[*].heads[*] exist; the heads are distinct FlowHead-like objects *)
  Hypothesis HW : collect_heads h (VO s) = Some W0.
  Hypothesis Hok : heads_ok h W0.
  Hypothesis Hcb : canonical_cbs h s W0.
  Hypothesis Honly : cbs_in_heads h W0.

  Theorem state_roundtrip :
    exists j h2 s' M,
      encode fl limit h (VO s) = Some j /\
      json_to_state fl C limit j = Some (h2, VO s') /\
      bisim2 h (VO s) h2 (VO s') M /\ sharing_preserved h M /\ heads_restored h M W0 h2 s'.
  Proof.
    destruct (roundtrip_graph_st fl C h (VO s) rk limit Hact Hlate Hsup Hacyc Hrank)
      as (j & r' & M & st' & Henc & Hdec & Hb & Hsp & Hlt).
    pose proof (dec_fresh fl C _ _ _ _ _ st0_fresh Hdec) as Hfresh.
    (* the root is a State object, restored as an object *)
    assert (Hroot : exists s', r' = VO s').
    { pose proof (bs_root _ _ _ _ _ _ Hb) as Hr. inversion Hr as [|i i' _|i [hn ks] fn _ Hl Hp]; subst; [eauto|].
      unfold collect_heads, field in HW. rewrite Hl in HW. simpl in Hp. subst hn. discriminate. }
    destruct Hroot as [s' ->].
    destruct (collect_heads_tr h (dh st') _ (bisim_sim _ _ _ _ _ Hb) _ _ _ (bs_root _ _ _ _ _ _ Hb) HW) as (W' & HW' & HF).
    pose proof (heads_ok_tr h (dh st') M W0 W' (bs_step _ _ _ _ _ _ Hb) (sp_inj _ _ Hsp) Hok HF) as Hok'.
    destruct (redo_callbacks_redone (dh st') (nxt st') (VO s') W' HW' Hfresh Hok') as (h2 & n2 & Hredo & _ & Hred).
    exists j, h2, s', M. split; [exact Henc|]. split; [unfold json_to_state; now rewrite Hdec, Hredo|].
    split; [exact (restore_bisim2 h (dh st') h2 M s s' (nxt st') W0 W' Hb Hsp Hlt HW HF Hred Hcb Honly)|].
    split; [exact Hsp|]. exact (restored_heads h (dh st') h2 M s s' (nxt st') W0 W' Hsp HF Hred Hcb).
  Qed.
End StateRoundtrip.

(* the shape hypotheses as ONE decidable predicate (evaluated on real states by the harness) *)

Lemma val_eqb_true a b : val_eqb a b = true -> a = b.
Proof. unfold val_eqb. destruct (val_eq_dec a b); [auto|discriminate]. Qed.

Lemma cb_idx_spec h hv x c fds ks p q : cb_idx h hv = Some (x, c, fds, ks, p, q) ->
  hv = VO x /\ lookup h x = Some (mk (HData c fds) ks) /\ cb_node (mk (HData c fds) ks) c fds ks p q.
Proof.
  unfold cb_idx. destruct hv as [|y]; [discriminate|]. destruct (lookup h y) as [[[] kk]|] eqn:El; try discriminate.
  destruct (index_of pos_f fs) as [p0|] eqn:Ep; [|discriminate].
  destruct (index_of stat_f fs) as [q0|] eqn:Eq; [|discriminate].
  destruct (negb (p0 =? q0)%nat && (p0 <? List.length kk)%nat && (q0 <? List.length kk)%nat) eqn:E; [|discriminate].
  intro H. inversion H; subst. apply andb_true_iff in E as [E E3]. apply andb_true_iff in E as [E1 E2].
  apply negb_true_iff in E1. apply Nat.eqb_neq in E1. apply Nat.ltb_lt in E2, E3.
  repeat split; auto.
Qed.

Lemma heads_okb_sound h : forall W, heads_okb h W = true -> heads_ok h W.
Proof.
  induction W as [|[fs hv] r IH]; simpl; intro H; [constructor|].
  destruct (cb_idx h hv) as [[[[[[x c] fds] ks] p] q]|] eqn:E; [|discriminate].
  apply andb_true_iff in H as [H1 H2]. destruct (cb_idx_spec _ _ _ _ _ _ _ _ E) as (-> & Hl & Hc).
  econstructor; eauto. intros fs' Hin. apply negb_true_iff in H1.
  assert (existsb (fun fh : val * val => val_eqb (snd fh) (VO x)) r = true).
  { apply existsb_exists. exists (fs', VO x). split; [exact Hin|]. simpl. unfold val_eqb.
    destruct (val_eq_dec (VO x) (VO x)); congruence. }
  congruence.
Qed.

Lemma is_cb_node_spec h st fs v : is_cb_node h st fs v = true ->
  exists a, v = VO a /\ lookup h a = Some (partial_node st fs).
Proof.
  unfold is_cb_node. destruct v as [|a]; [discriminate|]. destruct (lookup h a) as [[[] kk]|] eqn:El; try discriminate.
  destruct kk as [|v1 [|v2 [|]]]; try discriminate. intro H.
  apply andb_true_iff in H as [H H3]. apply andb_true_iff in H as [H1 H2].
  apply String.eqb_eq in H1. apply val_eqb_true in H2, H3. subst. exists a. split; [reflexivity|exact El].
Qed.

Lemma cb_okb_sound h s W : cb_okb h s W = true -> canonical_cbs h s W.
Proof.
  intros H fs x Hin. unfold cb_okb in H. rewrite forallb_forall in H. specialize (H _ Hin). cbn [fst snd] in H.
  destruct (cb_idx h (VO x)) as [[[[[[x0 c] fds] ks] p] q]|] eqn:E; [|discriminate].
  destruct (cb_idx_spec _ _ _ _ _ _ _ _ E) as (Hx & Hl & (_ & Hp & Hq & _)). assert (x0 = x) by congruence. subst x0.
  destruct (nth_error ks p) as [va|] eqn:Ea; [|discriminate]. destruct (nth_error ks q) as [vb|] eqn:Eb; [|discriminate].
  apply andb_true_iff in H as [Ha Hb].
  apply is_cb_node_spec in Ha as (a & -> & Hla). apply is_cb_node_spec in Hb as (b & -> & Hlb).
  exists c, fds, ks, p, q, a, b. split; assumption.
Qed.

Lemma kids_only_nth h W i j : is_partialb h j = true -> forall l k0 k,
  kids_only h W i k0 l = true -> nth_error l k = Some (VO j) -> head_pos_ok h W i (k0 + k) = true.
Proof.
  intro Hj. induction l as [|v r IHl]; intros k0 k Hc Hn; [destruct k; discriminate|].
  simpl in Hc. apply andb_true_iff in Hc as [Hc1 Hc2]. destruct k as [|k]; simpl in Hn.
  - inversion Hn; subst v. rewrite Hj in Hc1. now rewrite Nat.add_0_r.
  - rewrite Nat.add_succ_r. exact (IHl (S k0) k Hc2 Hn).
Qed.

Lemma onlyb_sound h W : onlyb h W = true -> cbs_in_heads h W.
Proof.
  intros H i n k j Hl Hk (fn & kk & Hj).
  unfold onlyb in H. rewrite forallb_forall in H. specialize (H (i, n) (lookup_in _ _ _ Hl)). simpl in H.
  assert (G : head_pos_ok h W i k = true).
  { apply (kids_only_nth h W i j) with (l := kids n) (k0 := O); auto. unfold is_partialb. now rewrite Hj. }
  unfold head_pos_ok in G. apply andb_true_iff in G as [G1 G2].
  apply existsb_exists in G1 as ([fs hv] & Hin & Heq). simpl in Heq. apply val_eqb_true in Heq. subst hv.
  destruct (cb_idx h (VO i)) as [[[[[[x0 c] fds] ks] p] q]|] eqn:E; [|discriminate].
  destruct (cb_idx_spec _ _ _ _ _ _ _ _ E) as (Hx & Hl2 & (_ & Hp & Hq & _)).
  assert (x0 = i) by congruence. subst x0.
  rewrite Hl in Hl2. inversion Hl2; subst n.
  exists fs, c, fds, ks, p, q. repeat split; auto.
  apply orb_true_iff in G2 as [G2|G2]; apply Nat.eqb_eq in G2; auto.
Qed.

Lemma state_hyps_sound h s : state_hyps h s = true ->
  exists W0, collect_heads h (VO s) = Some W0 /\ heads_ok h W0 /\ canonical_cbs h s W0 /\ cbs_in_heads h W0.
Proof.
  unfold state_hyps. destruct (collect_heads h (VO s)) as [W|]; [|discriminate]. intro H.
  apply andb_true_iff in H as [H H3]. apply andb_true_iff in H as [H1 H2].
  exists W. auto using heads_okb_sound, cb_okb_sound, onlyb_sound.
Qed.

(* the composed theorem with the decidable hypothesis *)
Theorem state_roundtrip_b fl C h rk limit s :
  fx_action fl = true -> late_tags_free C ->
  supported fl C h (VO s) = true -> acyclic h rk -> (rank_of rk (VO s) < limit)%nat ->
  state_hyps h s = true ->
  exists j h2 s' M W0,
    encode fl limit h (VO s) = Some j /\
    json_to_state fl C limit j = Some (h2, VO s') /\
    bisim2 h (VO s) h2 (VO s') M /\ sharing_preserved h M /\
    collect_heads h (VO s) = Some W0 /\ heads_restored h M W0 h2 s'.
Proof.
  intros Ha Hl Hs Hac Hr Hh. destruct (state_hyps_sound h s Hh) as (W0 & HW & Hok & Hcb & Honly).
  destruct (state_roundtrip fl C h rk limit s W0 Ha Hl Hs Hac Hr HW Hok Hcb Honly) as (j & h2 & s' & M & H1 & H2 & H3 & H4 & H5).
  exists j, h2, s', M, W0. auto 6.
Qed.
