(* C11 - the second half of json_to_state: re-creation of the head callbacks.
   After the pass every head of every flow state of state.flow_states has both callback
   attributes bound to a fresh partial(_flow_head_changed, state, <its flow state>); nothing else
   of the decoded heap changes. *)
From Coq Require Import ZArith List String Bool Lia.
From NG Require Import V2.Serial.
Import ListNotations.
Open Scope string_scope.
Open Scope Z_scope.

Lemma lookup_heap_set (h : heap) i nd j :
  lookup (heap_set h i nd) j
  = if j =? i then match lookup h i with Some _ => Some nd | None => None end else lookup h j.
Proof.
  induction h as [|[k x] r IH]; simpl; [now destruct (j =? i)|].
  destruct (Z.eqb_spec k i) as [->|Eki]; simpl.
  - destruct (Z.eqb_spec j i) as [Eji|Eji]; [now rewrite Eji, Z.eqb_refl|]. now rewrite (proj2 (Z.eqb_neq i j)) by auto.
  - destruct (Z.eqb_spec k j) as [Ekj|Ekj]; [now rewrite (proj2 (Z.eqb_neq j i)) by congruence|exact IH].
Qed.

Lemma nth_set_nth_same {A} (l : list A) n x : (n < List.length l)%nat -> nth_error (set_nth n x l) n = Some x.
Proof.
  revert n. induction l as [|y r IH]; intros [|n] H; simpl in *; try lia; auto. apply IH. lia.
Qed.

Lemma nth_set_nth_other {A} (l : list A) n m x : n <> m -> nth_error (set_nth n x l) m = nth_error l m.
Proof.
  revert n m. induction l as [|y r IH]; intros [|n] [|m] H; simpl; auto; try congruence.
Qed.

Lemma set_nth_length {A} (l : list A) n x : List.length (set_nth n x l) = List.length l.
Proof. revert n. induction l as [|y r IH]; intros [|n]; simpl; auto. Qed.

(* a FlowHead-like node: a dataclass instance with the two callback attributes *)
Definition cb_node (nd : node) (c : string) (fl : list string) (ks : list val) (p q : nat) : Prop :=
  nd = mk (HData c fl) ks /\ index_of pos_f fl = Some p /\ index_of stat_f fl = Some q /\ p <> q /\
  (p < List.length ks)%nat /\ (q < List.length ks)%nat.

Definition below (h : heap) (n : id) : Prop := forall i nd, lookup h i = Some nd -> i < n.

Definition partial_node (state fs : val) : node := mk (HPartial cb_name) [state; fs].

(* one assignment of json_to_state: setattr(head, f, partial(..)), the partial allocated at n *)
Lemma assign_spec h n x c fl ks f p P :
  below h n -> lookup h x = Some (mk (HData c fl) ks) -> index_of f fl = Some p ->
  exists h', set_field ((n, P) :: h) (VO x) f (VO n) = Some h' /\
    lookup h' n = Some P /\ lookup h' x = Some (mk (HData c fl) (set_nth p (VO n) ks)) /\
    (forall j, j <> x -> j <> n -> lookup h' j = lookup h j) /\ below h' (n + 1).
Proof.
  intros Hb Hx Hp. pose proof (Hb _ _ Hx) as Hxn.
  assert (E : (n =? x) = false) by (apply Z.eqb_neq; lia).
  unfold set_field. simpl lookup. rewrite E, Hx, Hp. eexists. split; [reflexivity|].
  assert (L : forall j, lookup (heap_set ((n, P) :: h) x (mk (HData c fl) (set_nth p (VO n) ks))) j
                        = if j =? x then Some (mk (HData c fl) (set_nth p (VO n) ks)) else lookup ((n, P) :: h) j).
  { intro j. rewrite lookup_heap_set. simpl. now rewrite E, Hx. }
  repeat split.
  - rewrite L, E. simpl. now rewrite Z.eqb_refl.
  - now rewrite L, Z.eqb_refl.
  - intros j J1 J2. rewrite L. apply Z.eqb_neq in J1. rewrite J1. simpl.
    destruct (n =? j) eqn:E'; [apply Z.eqb_eq in E'; lia|reflexivity].
  - intros j ndj Hj. rewrite L in Hj. destruct (j =? x) eqn:Ej; [apply Z.eqb_eq in Ej; lia|].
    simpl in Hj. destruct (n =? j) eqn:E'; [apply Z.eqb_eq in E'; lia|]. specialize (Hb _ _ Hj). lia.
Qed.

Lemma redo_head_step state fs h n x nd c fl ks p q :
  below h n -> lookup h x = Some nd -> cb_node nd c fl ks p q ->
  exists h4,
    redo_head state fs (Some (h, n)) (VO x) = Some (h4, n + 2) /\
    lookup h4 n = Some (partial_node state fs) /\ lookup h4 (n + 1) = Some (partial_node state fs) /\
    lookup h4 x = Some (mk (HData c fl) (set_nth q (VO (n + 1)) (set_nth p (VO n) ks))) /\
    (forall j, j <> x -> j <> n -> j <> n + 1 -> lookup h4 j = lookup h j) /\
    below h4 (n + 2).
Proof.
  intros Hb Hx (-> & Hp & Hq & _). pose proof (Hb _ _ Hx) as Hxn.
  destruct (assign_spec h n x c fl ks pos_f p (partial_node state fs) Hb Hx Hp) as (h2 & S1 & N1 & X1 & F1 & B1).
  destruct (assign_spec h2 (n + 1) x c fl _ stat_f q (partial_node state fs) B1 X1 Hq) as (h4 & S2 & N2 & X2 & F2 & B2).
  exists h4. unfold redo_head. fold pos_f stat_f. change (mk (HPartial cb_name) [state; fs]) with (partial_node state fs).
  rewrite S1. cbv beta iota zeta. unfold id in *. rewrite S2. replace (n + 2) with (n + 1 + 1) by lia.
  repeat split; auto.
  - rewrite F2 by lia. exact N1.
  - intros j J1 J2 J3. rewrite F2, F1 by auto. reflexivity.
Qed.

(* the work list: heads are distinct objects of the heap with the two attributes *)
Inductive heads_ok (h : heap) : list (val * val) -> Prop :=
| ho_nil : heads_ok h []
| ho_cons fs x W nd c fl ks p q :
    lookup h x = Some nd -> cb_node nd c fl ks p q -> (forall fs', ~ In (fs', VO x) W) ->
    heads_ok h W -> heads_ok h ((fs, VO x) :: W).

Lemma heads_ok_frame h h' W :
  (forall fs x, In (fs, VO x) W -> lookup h' x = lookup h x) -> heads_ok h W -> heads_ok h' W.
Proof.
  intros Hf Hk. induction Hk as [|fs x W nd c fl ks p q Hl Hc Hn Hk IH]; [constructor|].
  econstructor; eauto.
  - rewrite (Hf fs x (or_introl eq_refl)). exact Hl.
  - apply IH. intros fs' x' Hin. apply (Hf fs' x'). now right.
Qed.

Lemma heads_ok_below h n W : below h n -> heads_ok h W -> forall fs x, In (fs, VO x) W -> x < n.
Proof.
  intros Hb Hk. induction Hk as [|? ? ? ? ? ? ? ? ? Hl _ _ _ IH]; intros fs' x' Hin; [contradiction|].
  destruct Hin as [Hin|Hin]; [inversion Hin; subst; exact (Hb _ _ Hl)|eauto].
Qed.

Set Implicit Arguments.

(* the head x (class c, fields fl, attribute values ks) carries canonical callbacks: its two callback
   attributes, at positions p and q, are the partials a and b of (state, fs) *)
Record head_cbs (h : heap) (state fs : val) (x : id) (c : string) (fl : list string) (ks : list val)
       (p q : nat) (a b : id) : Prop := {
  hc_node : lookup h x = Some (mk (HData c fl) ks);
  hc_pos : index_of pos_f fl = Some p;
  hc_stat : index_of stat_f fl = Some q;
  hc_a : nth_error ks p = Some (VO a);
  hc_b : nth_error ks q = Some (VO b);
  hc_cb_a : lookup h a = Some (partial_node state fs);
  hc_cb_b : lookup h b = Some (partial_node state fs)
}.

(* what the pass leaves of a head x of a heap h below n: in h' the head carries two fresh distinct
   callbacks, its other attributes are those it had (ks0) *)
Record head_redone (h h' : heap) (n : id) (state fs : val) (x : id) (c : string) (fl : list string)
       (ks0 ks : list val) (p q : nat) (a b : id) : Prop := {
  hr_before : lookup h x = Some (mk (HData c fl) ks0);
  hr_cbs : head_cbs h' state fs x c fl ks p q a b;
  hr_ab : a <> b;
  hr_na : n <= a;
  hr_nb : n <= b;
  hr_rest : forall m, m <> p -> m <> q -> nth_error ks m = nth_error ks0 m
}.

Unset Implicit Arguments.

(* what the pass over W leaves of a heap h below n: every visited head is redone, every other object
   of h is unchanged *)
Definition redone (h : heap) (n : id) (state : val) (W : list (val * val)) (h' : heap) : Prop :=
  (forall fs x, In (fs, VO x) W -> exists c fl ks0 ks p q a b, head_redone h h' n state fs x c fl ks0 ks p q a b) /\
  (forall j, j < n -> (forall fs, ~ In (fs, VO j) W) -> lookup h' j = lookup h j).

Theorem redo_fold_spec state : forall W h n,
  below h n -> heads_ok h W ->
  exists h' n',
    fold_left (fun acc fh => redo_head state (fst fh) acc (snd fh)) W (Some (h, n)) = Some (h', n') /\
    n' = n + 2 * Z.of_nat (List.length W) /\ below h' n' /\
    redone h n state W h'.
Proof.
  induction W as [|[fs hv] W IH]; intros h n Hb Hk.
  - exists h, n. simpl. repeat split; auto; try lia. contradiction.
  - inversion Hk as [|fs0 x W0 nd c fl ks p q Hl Hc Hn Hk']; subst.
    destruct (redo_head_step state fs h n x nd c fl ks p q Hb Hl Hc) as (h4 & R & P1 & P2 & Px & Fr & Hb4).
    pose proof (Hb _ _ Hl) as Hxn. pose proof (heads_ok_below h n W Hb Hk') as HWn.
    assert (Hk4 : heads_ok h4 W).
    { eapply heads_ok_frame; [|exact Hk']. intros fs' x' Hin. specialize (HWn _ _ Hin).
      apply Fr; try lia. intro; subst. exact (Hn fs' Hin). }
    destruct (IH h4 (n + 2) Hb4 Hk4) as (h' & n' & F & Hn' & Hb' & Hheads & Hfr).
    assert (Hnew : forall j, n <= j -> forall fs', ~ In (fs', VO j) W).
    { intros j Hj fs' Hin. specialize (HWn _ _ Hin). lia. }
    exists h', n'. cbn [fold_left fst snd]. rewrite R. split; [exact F|].
    split; [rewrite Hn'; simpl List.length; lia|]. split; [exact Hb'|]. split.
    + intros fs1 x1 [Hin|Hin].
      * (* the head of this step: untouched by the rest of the pass *)
        inversion Hin; subst fs1 x1. destruct Hc as (-> & Hp & Hq & Hpq & Hlp & Hlq).
        exists c, fl, ks, (set_nth q (VO (n + 1)) (set_nth p (VO n) ks)), p, q, n, (n + 1).
        split; [exact Hl| |lia|lia|lia|].
        -- split.
           ++ rewrite Hfr by (auto; lia). exact Px.
           ++ exact Hp.
           ++ exact Hq.
           ++ rewrite nth_set_nth_other by auto. apply nth_set_nth_same. exact Hlp.
           ++ apply nth_set_nth_same. rewrite set_nth_length. exact Hlq.
           ++ rewrite Hfr by (try apply Hnew; lia). exact P1.
           ++ rewrite Hfr by (try apply Hnew; lia). exact P2.
        -- intros m M1 M2. rewrite !nth_set_nth_other by auto. reflexivity.
      * (* a later head: untouched by this step *)
        destruct (Hheads fs1 x1 Hin) as (c1 & fl1 & ks0 & ks1 & p1 & q1 & a & b & D).
        exists c1, fl1, ks0, ks1, p1, q1, a, b.
        assert (Hx1 : x1 <> x) by (intro; subst; exact (Hn fs1 Hin)). specialize (HWn _ _ Hin).
        pose proof (hr_before D) as H1. rewrite Fr in H1 by lia.
        pose proof (hr_na D). pose proof (hr_nb D).
        split; [exact H1|exact (hr_cbs D)|exact (hr_ab D)|lia|lia|exact (hr_rest D)].
    + intros j Hj Hnot. rewrite Hfr.
      * apply Fr; try lia. intro; subst. apply (Hnot fs). now left.
      * lia.
      * intros fs' Hin. apply (Hnot fs'). now right.
Qed.

(* json_to_state's second half on a decoded heap: the work list is read from the decoded
   state (state.flow_states.items() x flow_state.heads.items()) *)
Corollary redo_callbacks_redone h n state W :
  collect_heads h state = Some W -> below h n -> heads_ok h W ->
  exists h' n', redo_callbacks h n state = Some (h', n') /\ below h' n' /\ redone h n state W h'.
Proof.
  intros Hc Hb Hk. unfold redo_callbacks. rewrite Hc.
  destruct (redo_fold_spec state W h n Hb Hk) as (h' & n' & F & _ & Hb' & H1).
  exists h', n'. auto.
Qed.

(* the same with `redone` written out *)
Corollary redo_callbacks_spec h n state W :
  collect_heads h state = Some W -> below h n -> heads_ok h W ->
  exists h' n',
    redo_callbacks h n state = Some (h', n') /\ below h' n' /\
    (forall fs x, In (fs, VO x) W ->
       exists c fl ks0 ks p q a b,
         lookup h x = Some (mk (HData c fl) ks0) /\ lookup h' x = Some (mk (HData c fl) ks) /\
         index_of pos_f fl = Some p /\ index_of stat_f fl = Some q /\
         nth_error ks p = Some (VO a) /\ nth_error ks q = Some (VO b) /\ a <> b /\ n <= a /\ n <= b /\
         lookup h' a = Some (partial_node state fs) /\ lookup h' b = Some (partial_node state fs) /\
         (forall m, m <> p -> m <> q -> nth_error ks m = nth_error ks0 m)) /\
    (forall j, j < n -> (forall fs, ~ In (fs, VO j) W) -> lookup h' j = lookup h j).
Proof.
  intros Hc Hb Hk. destruct (redo_callbacks_redone h n state W Hc Hb Hk) as (h' & n' & R & Hb' & Hh & Hf).
  exists h', n'. split; [exact R|]. split; [exact Hb'|]. split; [|exact Hf].
  intros fs x Hin. destruct (Hh fs x Hin) as (c & fl & ks0 & ks & p & q & a & b & [? [] ? ? ? ?]).
  exists c, fl, ks0, ks, p, q, a, b. repeat split; assumption.
Qed.

(* the hypotheses are inhabited: a state with two flow states, three heads *)
Definition head_fields : list string :=
  ["uid"; "position_changed_callback"; "status_changed_callback"; "_position"].
Definition ex_cb_heap : heap :=
  [ (0, mk (HData "State" ["flow_states"]) [VO 1]);
    (1, mk (HDict [KS "a"; KS "b"]) [VO 2; VO 3]);
    (2, mk (HData "FlowState" ["uid"; "heads"]) [VP (PStr "a"); VO 4]);
    (3, mk (HData "FlowState" ["uid"; "heads"]) [VP (PStr "b"); VO 5]);
    (4, mk (HDict [KS "h1"; KS "h2"]) [VO 6; VO 7]);
    (5, mk (HDict [KS "h3"]) [VO 8]);
    (6, mk (HData "FlowHead" head_fields) [VP (PStr "h1"); VP PNone; VP PNone; VP (PInt 3)]);
    (7, mk (HData "FlowHead" head_fields) [VP (PStr "h2"); VP PNone; VP PNone; VP (PInt 0)]);
    (8, mk (HData "FlowHead" head_fields) [VP (PStr "h3"); VP PNone; VP PNone; VP (PInt 1)]) ].

Example ex_cb_collect :
  collect_heads ex_cb_heap (VO 0) = Some [(VO 2, VO 6); (VO 2, VO 7); (VO 3, VO 8)].
Proof. vm_compute. reflexivity. Qed.

Example ex_cb_redo :
  match redo_callbacks ex_cb_heap 9 (VO 0) with
  | Some (h', n') =>
    (n' =? 15) &&
    match lookup h' 8, lookup h' 13 with
    | Some (mk _ [_; VO a; VO b; VP (PInt 1)]), Some (mk (HPartial _) [VO 0; VO 3]) => (a =? 13) && (b =? 14)
    | _, _ => false
    end
  | None => false
  end = true.
Proof. vm_compute. reflexivity. Qed.
