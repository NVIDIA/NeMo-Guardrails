(* C12 (Colang 2.x) - soundness of the closedness checker of Closed.v with respect to the
   head-token semantics of ClosedAst.v. *)
From Coq Require Import List String Bool Arith Lia.
From NG Require Import V2.ClosedAst V2.Closed.
Import ListNotations.
Open Scope string_scope.
Open Scope list_scope.

Lemma jump_to_some es l sc ct k : lbl es l = Some k -> jump_to es l sc ct = Some (S k, sc, ct).
Proof. intros H. unfold jump_to. now rewrite H. Qed.

Lemma jump_to_none es l sc ct : lbl es l = None -> jump_to es l sc ct = None.
Proof. intros H. unfold jump_to. now rewrite H. Qed.

(* stated on the outcome itself, so that each case is decided by computing step_fn *)
Definition covers (o : outcome) (c' : config) : Prop :=
  match o with Next cs => In c' cs | Fail _ => True end.
Definition failed (o : outcome) : Prop := match o with Next _ => False | Fail _ => True end.

(* a fork covers the head behind each of its labels, or is detected as failing if one is missing *)
Lemma fork_targets_spec es ls sc ct l : In l ls ->
  match lbl es l with
  | Some k => covers (fork_targets es ls sc ct) (S k, sc, ct)
  | None => failed (fork_targets es ls sc ct)
  end.
Proof.
  induction ls as [|a r IH]; intros Hin; [contradiction|]. cbn [fork_targets]. unfold jump_to.
  destruct Hin as [->|Hin].
  - destruct (lbl es l) as [k|]; [|exact I]. destruct (fork_targets es r sc ct); [now left|exact I].
  - specialize (IH Hin). destruct (lbl es a) as [j|]; [|destruct (lbl es l); exact I].
    destruct (lbl es l), (fork_targets es r sc ct); try exact I; [now right|contradiction].
Qed.

Lemma step_in_next es c c' : step es c c' -> covers (step_fn es c) c'.
Proof.
  intros Hs. destruct Hs as
    [p sc ct e Hn Hseq | p sc ct l c k Hn Hl | p sc ct l Hn | p sc ct u ls l k Hn Hin Hl
    | p sc ct l Hn | p sc ct l Hn | p sc ct l k Hn Hl | p sc ct l k Hn Hl
    | p sc ct n Hn Hm | p sc ct n Hn Hm | p sc ct l k Hn Hl | p sc ct Hn | p sc ct l k Hn Hl];
    unfold step_fn; rewrite Hn; try rewrite (jump_to_some _ _ _ _ _ Hl); try rewrite Hm;
    try (now left).
  (* with the element, the looked-up label and the scope test rewritten, step_fn has computed to a
     list headed by c' for nine rules; the other four: *)
  - (* S_seq *) destruct e as [| | | | | | | | | | | | | |]; try discriminate Hseq; try (now left).
    destruct ct as [|l ct']; [now left|]. destruct (jump_to es l sc (l :: ct')); [now left|exact I].
  - (* S_goto_skip *) destruct (jump_to es l sc ct); [right; now left|exact I].
  - (* S_fork *) generalize (fork_targets_spec es ls sc ct l Hin). rewrite Hl. exact (fun H => H).
  - (* S_block_failed *) right; now left.
Qed.

Lemma fails_detected es c x : fails es c x -> failed (step_fn es c).
Proof.
  intros Hf. destruct Hf as
    [p sc ct l c Hn Hl | p sc ct u ls l Hn Hin Hl | p sc ct l Hn Hl | p sc ct l Hn Hl
    | p sc ct l Hn Hl | p sc ct l Hn Hl | p sc ct Hn | p sc ct Hn | p sc Hn | p sc ct n Hn Hm | p sc ct n Hn Hm
    | p sc ct Hn Hsc | p sc ct w Hn]; unfold step_fn; rewrite Hn;
    try rewrite (jump_to_none _ _ _ _ Hl); try rewrite Hm; try exact I.
  - (* F_fork *) generalize (fork_targets_spec es ls sc ct l Hin). rewrite Hl. exact (fun H => H).
  - (* F_left_open *) destruct sc; [contradiction|exact I].
Qed.

Lemma list_eqb_true a b : list_eqb a b = true -> a = b.
Proof. unfold list_eqb. destruct (list_eq_dec string_dec a b); [auto|discriminate]. Qed.

Lemma config_eqb_true a b : config_eqb a b = true -> a = b.
Proof.
  destruct a as [[p sc] ct], b as [[q sd] cu]. unfold config_eqb.
  rewrite !andb_true_iff. intros [[Hp Hs] Hc].
  apply Nat.eqb_eq in Hp. apply list_eqb_true in Hs. apply list_eqb_true in Hc. now subst.
Qed.

Lemma memc_in c l : memc c l = true -> In c l.
Proof.
  unfold memc. rewrite existsb_exists. intros [x [Hin He]].
  apply config_eqb_true in He. now subst.
Qed.

Definition closed_set (es : list elem) (V : list config) : Prop :=
  forall v, In v V -> exists cs, step_fn es v = Next cs /\ incl cs V.

Lemma explore_sound es fuel : forall todo visited,
  explore fuel es todo visited = VOk ->
  (forall v, In v visited -> exists cs, step_fn es v = Next cs /\
                                        forall c', In c' cs -> In c' visited \/ In c' todo) ->
  exists V, incl visited V /\ incl todo V /\ closed_set es V.
Proof.
  induction fuel as [|f IH]; intros todo visited Hex Hinv; [discriminate|].
  simpl in Hex. destruct todo as [|c rest].
  - exists visited. split; [apply incl_refl|]. split; [intros x []|].
    intros v Hv. destruct (Hinv v Hv) as [cs [Hs Hc]]. exists cs. split; [exact Hs|].
    intros c' Hc'. destruct (Hc c' Hc') as [H|[]]. exact H.
  - destruct (memc c visited) eqn:Hm.
    + apply memc_in in Hm.
      destruct (IH rest visited Hex) as [V [HvV [HrV Hcl]]].
      * intros v Hv. destruct (Hinv v Hv) as [cs [Hs Hc]]. exists cs. split; [exact Hs|].
        intros c' Hc'. destruct (Hc c' Hc') as [H|[->|H]]; auto.
      * exists V. split; [exact HvV|]. split; [|exact Hcl].
        intros x [<-|Hx]; auto.
    + destruct (step_fn es c) as [cs|x] eqn:Hs; [|discriminate].
      destruct (IH (cs ++ rest) (c :: visited) Hex) as [V [HvV [HrV Hcl]]].
      * intros v [<-|Hv].
        -- exists cs. split; [exact Hs|]. intros c' Hc'. right. apply in_or_app. now left.
        -- destruct (Hinv v Hv) as [cs' [Hs' Hc]]. exists cs'. split; [exact Hs'|].
           intros c' Hc'. destruct (Hc c' Hc') as [H|[->|H]].
           ++ left; now right.
           ++ left; now left.
           ++ right. apply in_or_app. now right.
      * exists V. split; [intros x Hx; apply HvV; now right|]. split; [|exact Hcl].
        intros x [<-|Hx]; [apply HvV; now left|]. apply HrV. apply in_or_app. now right.
Qed.

Lemma scopes_okb_closed_set es :
  scopes_okb es = true -> exists V, In init V /\ closed_set es V.
Proof.
  unfold scopes_okb, scope_verdict. intros H.
  destruct (explore (fuel_for es) es [init] []) eqn:He; try discriminate.
  destruct (explore_sound es _ _ _ He) as [V [_ [Hi Hcl]]].
  - intros v [].
  - exists V. split; [apply Hi; now left|exact Hcl].
Qed.

Lemma reach_in_closed es V :
  In init V -> closed_set es V -> forall c, reach es c -> In c V.
Proof.
  intros Hi Hcl c Hr. induction Hr as [|c c' Hr IH Hs]; [exact Hi|].
  destruct (Hcl c IH) as [cs [Hf Hincl]]. apply Hincl.
  pose proof (step_in_next es c c' Hs) as H. rewrite Hf in H. exact H.
Qed.

(* dynamic: along every path from the flow start nothing fails *)
Theorem scopes_okb_sound es :
  scopes_okb es = true -> forall c, reach es c -> forall x, ~ fails es c x.
Proof.
  intros H c Hr x Hf. destruct (scopes_okb_closed_set es H) as [V [Hi Hcl]].
  pose proof (reach_in_closed es V Hi Hcl c Hr) as Hin.
  destruct (Hcl c Hin) as [cs [Hs _]]. pose proof (fails_detected es c x Hf) as H'.
  rewrite Hs in H'. exact H'.
Qed.

Lemma lbl_from_spec l es : forall i k,
  lbl_from l es i = Some k -> i <= k /\ nth_error es (k - i) = Some (ELabel l).
Proof.
  induction es as [|e r IH]; intros i k H; [discriminate|]. simpl in H.
  destruct (lbl_from l r (S i)) as [k'|] eqn:Hr.
  - injection H as <-. destruct (IH _ _ Hr) as [Hle Hn]. split; [lia|].
    replace (k' - i) with (S (k' - S i)) by lia. exact Hn.
  - destruct e; try discriminate. destruct (String.eqb n l) eqn:He; [|discriminate].
    injection H as <-. apply String.eqb_eq in He. subst. split; [lia|].
    now rewrite Nat.sub_diag.
Qed.

Lemma lbl_spec es l k : lbl es l = Some k -> k < List.length es /\ nth_error es k = Some (ELabel l).
Proof.
  unfold lbl. intros H. destruct (lbl_from_spec l es 0 k H) as [_ Hn].
  rewrite Nat.sub_0_r in Hn. split; [|exact Hn].
  apply nth_error_Some. now rewrite Hn.
Qed.

Lemma labels_okb_lbl es :
  labels_okb es = true -> forall e l, In e es -> In l (elem_labels e) -> exists k, lbl es l = Some k.
Proof.
  unfold labels_okb. rewrite forallb_forall. intros H e l He Hin.
  specialize (H e He). rewrite forallb_forall in H.
  specialize (H l Hin). unfold definedb in H.
  destruct (lbl es l) as [k|]; [eauto|discriminate].
Qed.

(* static: every label any element refers to is the name of a Label element of this flow *)
Theorem labels_okb_sound es :
  labels_okb es = true ->
  forall i e l, nth_error es i = Some e -> In l (elem_labels e) ->
                exists k, k < List.length es /\ nth_error es k = Some (ELabel l).
Proof.
  intros H i e l Hn Hin.
  destruct (labels_okb_lbl es H e l (nth_error_In _ _ Hn) Hin) as [k Hl].
  exists k. now apply lbl_spec.
Qed.

Theorem no_compositeb_sound es :
  no_compositeb es = true -> forall i w, nth_error es i <> Some (EComposite w).
Proof.
  unfold no_compositeb. rewrite forallb_forall. intros H i w Hn.
  specialize (H _ (nth_error_In _ _ Hn)). discriminate.
Qed.

Theorem merges_okb_sound es :
  merges_okb es = true ->
  forall i u, nth_error es i = Some (EMerge u) -> exists ls, In (EFork u ls) es.
Proof.
  unfold merges_okb. rewrite forallb_forall. intros H i u Hn.
  specialize (H _ (nth_error_In _ _ Hn)). simpl in H. unfold has_fork in H.
  rewrite existsb_exists in H. destruct H as [e [Hin He]].
  destruct e; try discriminate. apply String.eqb_eq in He. subst. eauto.
Qed.

Theorem loop_exits_okb_sound es :
  loop_exits_okb es = true ->
  forall i, nth_error es i <> Some (EBreak None) /\ nth_error es i <> Some (EContinue None).
Proof.
  unfold loop_exits_okb. rewrite forallb_forall. intros H i.
  split; intros Hn; specialize (H _ (nth_error_In _ _ Hn)); discriminate.
Qed.

(* the statement of C12 for Colang 2.x, per flow, for a flow the checker accepts *)
Definition closed_v2 (es : list elem) : Prop :=
  (* along every path of a head from the flow start: no label lookup fails, no scope is
     re-opened or unknown, no failure-handler underflow, no composite element is met, and
     the flow end is reached only with every opened scope closed again *)
  (forall c, reach es c -> forall x, ~ fails es c x) /\
  (* every jump / fork / failure-handler / loop-exit label, reachable or not, is a position
     inside the same flow *)
  (forall i e l, nth_error es i = Some e -> In l (elem_labels e) ->
                 exists k, k < List.length es /\ nth_error es k = Some (ELabel l)) /\
  (* only primitives remain *)
  (forall i w, nth_error es i <> Some (EComposite w)) /\
  (* every MergeHeads belongs to a ForkHead of this flow *)
  (forall i u, nth_error es i = Some (EMerge u) -> exists ls, In (EFork u ls) es) /\
  (* every loop exit / loop head jump (reachable or not) names its target *)
  (forall i, nth_error es i <> Some (EBreak None) /\ nth_error es i <> Some (EContinue None)).

Theorem closedb_sound es : closedb es = true -> closed_v2 es.
Proof.
  unfold closedb. rewrite !andb_true_iff. intros [[[[Hl Hc] Hm] Hx] Hs].
  split; [now apply scopes_okb_sound|]. split; [now apply labels_okb_sound|].
  split; [now apply no_compositeb_sound|]. split; [now apply merges_okb_sound|].
  now apply loop_exits_okb_sound.
Qed.

(* a flow on which no reachable head fails: a reachable end of the flow has no open scope; hence
   every BeginScope executed on a path is followed, before that path reaches the flow end, by its
   EndScope (nofail_begin_then_end) *)
Definition nofail (es : list elem) : Prop := forall c, reach es c -> forall x, ~ fails es c x.

Lemma nofail_end_no_open_scope es :
  nofail es -> forall p sc ct, reach es (p, sc, ct) -> List.length es <= p -> sc = [].
Proof.
  intros Hdyn p sc ct Hr Hp. destruct sc as [|s sc']; [reflexivity|]. exfalso.
  apply (Hdyn _ Hr (XScopeLeftOpen (s :: sc'))). apply F_left_open; [|discriminate].
  now apply nth_error_None.
Qed.

Corollary closed_end_no_open_scope es :
  closedb es = true -> forall p sc ct, reach es (p, sc, ct) -> List.length es <= p -> sc = [].
Proof. intros H. apply nofail_end_no_open_scope. exact (proj1 (closedb_sound es H)). Qed.

(* a scope name leaves the head's scope list only by executing its EndScope *)
Lemma step_scope_kept es c c' n :
  step es c c' -> mem n (snd (fst c)) = true -> mem n (snd (fst c')) = false ->
  nth_error es (fst (fst c)) = Some (EEnd n).
Proof.
  intros Hs. destruct Hs as [| | | | | | | |p sc ct m Hn Hm|p sc ct m Hn Hm| | | ];
    cbn [fst snd]; intros Hin Hout; try congruence.
  - simpl in Hout. rewrite Hin, orb_true_r in Hout. discriminate.
  - destruct (String.eqb n m) eqn:He.
    + apply String.eqb_eq in He. now subst.
    + exfalso. unfold mem, remove_s in *. rewrite existsb_exists in Hin.
      destruct Hin as [x [Hx Hxe]]. apply String.eqb_eq in Hxe. subst x.
      assert (existsb (String.eqb n) (filter (fun x => negb (String.eqb m x)) sc) = true) as Hc.
      { rewrite existsb_exists. exists n. split; [|apply String.eqb_refl].
        apply filter_In. split; [exact Hx|]. rewrite String.eqb_sym, He. reflexivity. }
      congruence.
Qed.

Inductive path (es : list elem) : config -> list config -> config -> Prop :=
| path_nil c : path es c [] c
| path_cons c c' mid c'' : step es c c' -> path es c' mid c'' -> path es c (c :: mid) c''.

Lemma begin_step es c c1 n :
  step es c c1 -> nth_error es (fst (fst c)) = Some (EBegin n) ->
  c1 = (S (fst (fst c)), n :: snd (fst c), snd c).
Proof.
  intros Hs. destruct Hs as [p sc ct e He Hseq| | | | | | | | | | | | ]; cbn [fst snd]; intros Hn;
    try congruence.
  rewrite Hn in He. injection He as <-. discriminate Hseq.
Qed.

(* "every BeginScope is followed on every path to the flow end by its EndScope" *)
Lemma nofail_begin_then_end es :
  nofail es ->
  forall p sc ct n c1 mid pe sce cte,
    reach es (p, sc, ct) -> nth_error es p = Some (EBegin n) ->
    step es (p, sc, ct) c1 -> path es c1 mid (pe, sce, cte) -> List.length es <= pe ->
    exists q scq ctq, In (q, scq, ctq) mid /\ nth_error es q = Some (EEnd n).
Proof.
  intros H p sc ct n c1 mid pe sce cte Hr Hn Hs Hp Hend.
  assert (Hr1 : reach es c1) by (eapply reach_step; eauto).
  assert (Hin1 : mem n (snd (fst c1)) = true).
  { rewrite (begin_step es _ c1 n Hs Hn). simpl. now rewrite String.eqb_refl. }
  clear Hs Hn Hr p sc ct.
  remember (pe, sce, cte) as ce eqn:Hce.
  revert Hr1 Hin1. induction Hp as [c|c c' mid' c'' Hs Hp IH]; intros Hr1 Hin1.
  - subst c. simpl in Hin1.
    rewrite (nofail_end_no_open_scope es H _ _ _ Hr1 Hend) in Hin1. discriminate.
  - destruct c as [[pc scc] ctc]. destruct c' as [[pc' scc'] ctc']. simpl in Hin1.
    destruct (mem n scc') eqn:Hm'.
    + destruct (IH Hce) as [q [scq [ctq [Hq Hqe]]]].
      * eapply reach_step; eauto.
      * exact Hm'.
      * exists q, scq, ctq. split; [now right|exact Hqe].
    + exists pc, scc, ctc. split; [now left|].
      exact (step_scope_kept es _ _ n Hs Hin1 Hm').
Qed.

Theorem closed_begin_then_end es :
  closedb es = true ->
  forall p sc ct n c1 mid pe sce cte,
    reach es (p, sc, ct) -> nth_error es p = Some (EBegin n) ->
    step es (p, sc, ct) c1 -> path es c1 mid (pe, sce, cte) -> List.length es <= pe ->
    exists q scq ctq, In (q, scq, ctq) mid /\ nth_error es q = Some (EEnd n).
Proof. intros H. apply nofail_begin_then_end. exact (proj1 (closedb_sound es H)). Qed.

(* the hypotheses are inhabited: the repaired `when .. else` inside a loop is accepted, so all
   of the above holds for it; the unrepaired one is rejected (regression documentation) *)
Example closed_v2_when_else_fixed : closed_v2 (when_else true).
Proof. apply closedb_sound. vm_compute. reflexivity. Qed.

(* step_fn is exact: it produces only real steps (so the checker does not over-approximate) *)
Definition only_steps (es : list elem) (c : config) (o : outcome) : Prop :=
  match o with Next cs => forall c', In c' cs -> step es c c' | Fail _ => True end.

Lemma fork_targets_exact es p u sc ct ls0 : nth_error es p = Some (EFork u ls0) ->
  forall ls, incl ls ls0 -> only_steps es (p, sc, ct) (fork_targets es ls sc ct).
Proof.
  intros Hn. induction ls as [|a r IH]; intros Hi; [intros c' []|]. cbn [fork_targets]. unfold jump_to.
  destruct (lbl es a) as [k|] eqn:Hl; [|exact I].
  specialize (IH (fun x Hx => Hi x (or_intror Hx))).
  destruct (fork_targets es r sc ct); [|exact I].
  intros c' [<-|Hin]; [|exact (IH c' Hin)]. exact (S_fork es p sc ct u ls0 a k Hn (Hi a (or_introl eq_refl)) Hl).
Qed.

Lemma step_fn_exact es c : only_steps es c (step_fn es c).
Proof.
  destruct c as [[p sc] ct]. unfold step_fn, jump_to.
  destruct (nth_error es p) as [e|] eqn:Hn; [|destruct sc; [intros c' []|exact I]].
  destruct e as [n|l c|u ls|u| |[l|]|[l|]|[l|]|n|n| | | |cl|w]; try exact I;
    try (destruct (lbl es l) as [k|] eqn:Hl; [|exact I]);
    try (destruct (mem n sc) eqn:Hm; try exact I);
    try (intros c' [<-|[]]; eauto using step).
  (* a failing outcome asks for nothing; where the label is found and the scope test passes, an
     element with a single successor is the rule of its kind; left: *)
  - (* EGoto *) intros c' [<-|Hin]; [eauto using step|]. destruct c; [|contradiction Hin].
    destruct Hin as [<-|[]]. eauto using step.
  - (* EFork *) exact (fork_targets_exact es p u sc ct ls Hn ls (incl_refl ls)).
  - (* ECatch None *) destruct ct as [|l ct']; [exact I|]. intros c' [<-|[]]. eauto using step.
  - (* EAbort *) destruct ct as [|l ct']; [intros c' []|]. destruct (lbl es l) as [k|] eqn:Hl; [|exact I].
    intros c' [<-|[]]. eauto using step.
  - (* EBlock *) destruct ct as [|l ct']; [intros c' [<-|[]]; eauto using step|].
    destruct (lbl es l) as [k|] eqn:Hl; [|exact I]. intros c' [<-|[<-|[]]]; eauto using step.
Qed.

Lemma next_is_step es c cs c' : step_fn es c = Next cs -> In c' cs -> step es c c'.
Proof. intros H. pose proof (step_fn_exact es c) as E. rewrite H in E. exact (E c'). Qed.

(* a concrete path, validated by computation *)
Fixpoint walk (es : list elem) (c : config) (p : list config) : bool :=
  match p with
  | [] => true
  | c' :: r => match step_fn es c with
               | Next cs => memc c' cs && walk es c' r
               | Fail _ => false
               end
  end.

Fixpoint final (c : config) (p : list config) : config :=
  match p with [] => c | c' :: r => final c' r end.

Lemma walk_reach es : forall p c, reach es c -> walk es c p = true -> reach es (final c p).
Proof.
  induction p as [|c' r IH]; intros c Hr Hw; [exact Hr|].
  simpl in Hw. destruct (step_fn es c) as [cs|] eqn:Hs; [|discriminate].
  apply andb_true_iff in Hw. destruct Hw as [Hm Hw]. apply memc_in in Hm.
  simpl. apply IH; [|exact Hw].
  eapply reach_step; [exact Hr|eapply next_is_step; eauto].
Qed.

(* F8: the unrepaired expansion of `when .. else` inside a loop re-opens its scope on the second
   iteration after an else-iteration - exactly the runtime error
   "Scope with name .. already opened in this head!" *)
Theorem when_else_unfixed_refuted :
  exists c, reach (when_else false) c /\ fails (when_else false) c (XScopeReopened "s").
Proof.
  exists (2, ["s"], []). split.
  - apply (walk_reach (when_else false)
      [(1,[],[]); (2,[],[]); (3,["s"],[]); (5,["s"],[]); (6,["s"],["fail_a"]); (8,["s"],["fail_a"]);
       (17,["s"],["fail_a"]); (18,["s"],["fail_a"]); (19,["s"],[]); (21,["s"],[]); (22,["s"],[]);
       (24,["s"],[]); (25,["s"],[]); (26,["s"],[]); (1,["s"],[]); (2,["s"],[])] init (reach_init _)).
    vm_compute. reflexivity.
  - eapply F_begin; reflexivity.
Qed.
