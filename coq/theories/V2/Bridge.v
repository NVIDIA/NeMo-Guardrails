(* C11 - bridge between the two models: the abstraction of a State object graph (V2/Serial.v)
   to the abstract interpreter state of V2/Cleanup.v, and its invariance under the
   bisimulation of the round-trip theorem.  Consequence: cleaning up a restored state and
   cleaning up the live state give the same abstract state. *)
From Coq Require Import ZArith List String Bool.
From NG Require Import V2.Serial V2.Serial_proofs V2.State_proofs V2.Cleanup V2.BridgeDef.
Import ListNotations.
Open Scope string_scope.
Open Scope Z_scope.

Section AlphaInv.
  Variable ts : string -> Z.
  Local Notation datetime_of := (BridgeDef.datetime_of ts).
  Local Notation inst_abs := (BridgeDef.inst_abs ts).
  Local Notation flow_entry := (BridgeDef.flow_entry ts).
  Local Notation alpha := (BridgeDef.alpha ts).

  (* invariance under any relation through which a graph can be read (State_proofs.obj_sim): the
     relation of the graph round trip (vrel true) and the one of the State round trip (vrel2,
     callbacks related to callbacks) *)
  Variables (h h' : heap).
  Variable VR : val -> val -> Prop.
  Hypothesis Hsim : obj_sim h h' VR.

  Lemma prim_tr {A} (g : val -> option A) :
    (forall i, g (VO i) = None) -> forall v v' x, VR v v' -> g v = Some x -> g v' = Some x.
  Proof.
    intros Hg v v' x Hv Hx. destruct v as [p|i]; [|rewrite Hg in Hx; discriminate].
    apply (proj1 Hsim) in Hv. now subst.
  Qed.

  Lemma get_str_tr v v' x : VR v v' -> get_str v = Some x -> get_str v' = Some x.
  Proof. apply prim_tr. reflexivity. Qed.
  Lemma get_opt_str_tr v v' x : VR v v' -> get_opt_str v = Some x -> get_opt_str v' = Some x.
  Proof. apply prim_tr. reflexivity. Qed.
  Lemma get_int_tr v v' x : VR v v' -> get_int v = Some x -> get_int v' = Some x.
  Proof. apply prim_tr. reflexivity. Qed.

  Lemma map_opt_tr {A B} (f f' : A -> option B) (R : A -> A -> Prop) :
    (forall a a' y, R a a' -> f a = Some y -> f' a' = Some y) ->
    forall l l' ys, Forall2 R l l' -> map_opt f l = Some ys -> map_opt f' l' = Some ys.
  Proof.
    intros Hf l l' ys HF. revert ys. induction HF as [|a a' l l' Ha _ IH]; intros ys H; simpl in *; [exact H|].
    destruct (f a) as [y|] eqn:E; [|discriminate]. destruct (map_opt f l) as [ys'|] eqn:E2; [|discriminate].
    rewrite (Hf _ _ _ Ha E), (IH _ eq_refl). exact H.
  Qed.

  Lemma list_vals_tr v v' ks : VR v v' -> list_vals h v = Some ks -> exists ks', list_vals h' v' = Some ks' /\ Forall2 VR ks ks'.
  Proof.
    unfold list_vals. apply (read_tr h h' VR Hsim _ _ (Forall2 VR)); [reflexivity|].
    intros [] kk kk' y HF [= <-]. eauto.
  Qed.

  Lemma tuple_vals_tr v v' ks : VR v v' -> tuple_vals h v = Some ks -> exists ks', tuple_vals h' v' = Some ks' /\ Forall2 VR ks ks'.
  Proof.
    unfold tuple_vals. apply (read_tr h h' VR Hsim _ _ (Forall2 VR)); [reflexivity|].
    intros [] kk kk' y HF [= <-]. eauto.
  Qed.

  Lemma enum_member_tr v v' m : VR v v' -> enum_member h v = Some m -> enum_member h' v' = Some m.
  Proof.
    unfold enum_member. apply (read_head_tr h h' VR Hsim); [reflexivity|].
    now intros [].
  Qed.

  Lemma datetime_of_tr v v' z : VR v v' -> datetime_of h v = Some z -> datetime_of h' v' = Some z.
  Proof.
    unfold datetime_of. apply (read_head_tr h h' VR Hsim); [reflexivity|].
    now intros [].
  Qed.

  Definition KVR (a b : string * val) : Prop := fst a = fst b /\ VR (snd a) (snd b).

  Lemma combine_kvr ss : forall vs vs', Forall2 VR vs vs' -> Forall2 KVR (combine ss vs) (combine ss vs').
  Proof.
    induction ss as [|s r IH]; intros vs vs' HF; simpl; [constructor|].
    inversion HF; subst; [constructor|]. constructor; [split; auto|apply IH; assumption].
  Qed.

  Lemma dict_items_tr v v' its : VR v v' -> dict_items h v = Some its ->
    exists its', dict_items h' v' = Some its' /\ Forall2 KVR its its'.
  Proof.
    unfold dict_items. apply (read_tr h h' VR Hsim _ _ (Forall2 KVR)); [reflexivity|].
    intros [] kk kk' y HF E; try discriminate.
    destruct (map_opt key_str_only ks) as [ss|]; [|discriminate]. injection E as <-. eexists. split; [reflexivity|]. now apply combine_kvr.
  Qed.

  (* a list of scalars *)
  Lemma prim_list_tr {A} (g : val -> option A) v v' l :
    (forall i, g (VO i) = None) -> VR v v' ->
    obind (list_vals h v) (map_opt g) = Some l -> obind (list_vals h' v') (map_opt g) = Some l.
  Proof.
    intros Hg Hv H. destruct (list_vals h v) as [ks|] eqn:E; [|discriminate]. simpl in H.
    destruct (list_vals_tr _ _ _ Hv E) as (ks' & -> & HF). simpl.
    exact (map_opt_tr g g VR (prim_tr g Hg) _ _ _ HF H).
  Qed.

  Lemma str_list_tr v v' l : VR v v' -> str_list h v = Some l -> str_list h' v' = Some l.
  Proof. now apply prim_list_tr. Qed.

  Lemma num_list_tr v v' l : VR v v' -> num_list h v = Some l -> num_list h' v' = Some l.
  Proof. now apply prim_list_tr. Qed.

  (* obind (field ..) g transfers when g does *)
  Lemma field_then_tr {A} (g g' : val -> option A) v v' f y :
    (forall x x' z, VR x x' -> g x = Some z -> g' x' = Some z) ->
    VR v v' -> obind (field h v f) g = Some y -> obind (field h' v' f) g' = Some y.
  Proof.
    intros Hg Hv H. destruct (field h v f) as [x|] eqn:E; [|discriminate]. simpl in H.
    destruct (field_tr h h' VR Hsim _ _ _ _ Hv E) as (x' & -> & Hx). simpl. eauto.
  Qed.

  Lemma head_abs_tr a a' y : KVR a a' -> head_abs h a = Some y -> head_abs h' a' = Some y.
  Proof.
    intros [Hk Hv] H. unfold head_abs in *.
    destruct (field h (snd a) "matching_scores") as [ms|] eqn:E; [|discriminate]. simpl in H.
    destruct (field_tr h h' VR Hsim _ _ _ _ Hv E) as (ms' & -> & Hms). simpl.
    destruct (num_list h ms) as [sc|] eqn:E2; [|discriminate]. simpl in H.
    rewrite (num_list_tr _ _ _ Hms E2). simpl. now rewrite <- Hk.
  Qed.

  Lemma scope_abs_tr a a' y : KVR a a' -> scope_abs h a = Some y -> scope_abs h' a' = Some y.
  Proof.
    intros [Hk Hv] H. unfold scope_abs in *.
    destruct (tuple_vals h (snd a)) as [tv|] eqn:E; [|discriminate]. simpl in H.
    destruct (tuple_vals_tr _ _ _ Hv E) as (tv' & -> & HF). simpl.
    destruct tv as [|fl [|al [|]]]; try discriminate.
    inversion HF as [|? fl' ? r' Hfl HF2]; subst. inversion HF2 as [|? al' ? r'' _ HF3]; subst. inversion HF3; subst.
    destruct (str_list h fl) as [l|] eqn:E2; [|discriminate]. simpl in H.
    rewrite (str_list_tr _ _ _ Hfl E2). simpl. now rewrite <- Hk.
  Qed.

  (* a dict attribute, read entry by entry *)
  Lemma field_items_tr {B} (g g' : string * val -> option B) v v' f ys :
    (forall a a' y, KVR a a' -> g a = Some y -> g' a' = Some y) -> VR v v' ->
    obind (obind (field h v f) (dict_items h)) (map_opt g) = Some ys ->
    obind (obind (field h' v' f) (dict_items h')) (map_opt g') = Some ys.
  Proof.
    intros Hg Hv H. destruct (field h v f) as [x|] eqn:Ef; [|discriminate]. simpl in H.
    destruct (field_tr h h' VR Hsim _ _ _ _ Hv Ef) as (x' & -> & Hx). simpl.
    destruct (dict_items h x) as [its|] eqn:E; [|discriminate]. simpl in H.
    destruct (dict_items_tr _ _ _ Hx E) as (its' & -> & HF). simpl. eapply map_opt_tr; eauto.
  Qed.

  (* one step of a chain of binds *)
  Lemma obind_tr {A B} (a a' : option A) (k k' : A -> option B) y :
    (forall x, a = Some x -> a' = Some x) -> (forall x, k x = Some y -> k' x = Some y) ->
    obind a k = Some y -> obind a' k' = Some y.
  Proof. intros Ha Hk H. destruct a as [x|]; [|discriminate]. rewrite (Ha x eq_refl). now apply Hk. Qed.

  (* `tr` holds the transfer lemma of each component reader.  inst_abs is a chain of nine binds, each
     `obind (field h v f) g` (field_then_tr) or `obind (obind (field h v f) (dict_items h)) (map_opt g)`
     (field_items_tr); what the database supplies is the transfer of g: flow_id get_str_tr, _status
     enum_member_tr, status_updated datetime_of_tr, activated get_int_tr, parent_uid get_opt_str_tr,
     child_flow_uids and action_uids str_list_tr, heads head_abs_tr, scopes scope_abs_tr *)
  #[local] Hint Resolve get_str_tr get_opt_str_tr get_int_tr enum_member_tr datetime_of_tr str_list_tr
               head_abs_tr scope_abs_tr : tr.

  Lemma inst_abs_tr v v' i : VR v v' -> inst_abs h v = Some i -> inst_abs h' v' = Some i.
  Proof.
    intro Hv. unfold inst_abs.
    repeat (apply obind_tr; [intro; (eapply field_then_tr || eapply field_items_tr); eauto with tr|intro]). auto.
  Qed.

  Lemma flow_entry_tr a a' y : KVR a a' -> flow_entry h a = Some y -> flow_entry h' a' = Some y.
  Proof.
    intros [Hk Hv] H. unfold flow_entry in *. destruct (inst_abs h (snd a)) as [i|] eqn:E; [|discriminate]. simpl in H.
    rewrite (inst_abs_tr _ _ _ Hv E). simpl. now rewrite <- Hk.
  Qed.

  Lemma by_flow_entry_tr a a' y : KVR a a' -> by_flow_entry h a = Some y -> by_flow_entry h' a' = Some y.
  Proof.
    intros [Hk Hv] H. unfold by_flow_entry in *. destruct (list_vals h (snd a)) as [l|] eqn:E; [|discriminate]. simpl in H.
    destruct (list_vals_tr _ _ _ Hv E) as (l' & -> & HF). simpl.
    destruct (map_opt (fun f => obind (field h f "uid") get_str) l) as [us|] eqn:E2; [|discriminate]. simpl in H.
    rewrite (map_opt_tr (fun f => obind (field h f "uid") get_str) (fun f => obind (field h' f "uid") get_str) VR
               (fun x x' z Hx Hz => field_then_tr get_str get_str x x' "uid" z get_str_tr Hx Hz) _ _ _ HF E2).
    simpl. now rewrite <- Hk.
  Qed.

  (* flow_states through flow_entry_tr, flow_id_states through by_flow_entry_tr; `actions` keeps its keys *)
  #[local] Hint Resolve flow_entry_tr by_flow_entry_tr : tr.

  Theorem alpha_invariant r r' a : VR r r' -> alpha h r = Some a -> alpha h' r' = Some a.
  Proof.
    intro Hv. unfold alpha.
    do 2 (apply obind_tr; [intro; eapply field_items_tr; eauto with tr|intro]). intro H.
    destruct (field h r "actions") as [d|] eqn:Ef; [|discriminate]. simpl in H.
    destruct (field_tr h h' VR Hsim _ _ _ _ Hv Ef) as (d' & -> & Hd). simpl.
    destruct (dict_items h d) as [ai|] eqn:E; [|discriminate].
    destruct (dict_items_tr _ _ _ Hd E) as (ai' & -> & HF). simpl in *.
    inversion H; subst a. do 2 f_equal.
    clear -HF. induction HF as [|p q l l' [Hk _] _ IH]; simpl; [reflexivity|]. now rewrite Hk, IH.
  Qed.
End AlphaInv.

(* the abstract interpreter state read off a State object is the same before and after
   save/restore; hence the clean-up of the restored state = the clean-up of the live state *)
Theorem alpha_restored ts fl C h rk limit s a :
  fx_action fl = true -> late_tags_free C ->
  supported fl C h (VO s) = true -> acyclic h rk -> (rank_of rk (VO s) < limit)%nat ->
  state_hyps h s = true ->
  alpha ts h (VO s) = Some a ->
  exists j h2 s',
    encode fl limit h (VO s) = Some j /\ json_to_state fl C limit j = Some (h2, VO s') /\
    alpha ts h2 (VO s') = Some a /\
    forall c now, option_map (cleanup c now) (alpha ts h2 (VO s')) = option_map (cleanup c now) (alpha ts h (VO s)).
Proof.
  intros Ha Hl Hs Hac Hr Hh Hal.
  destruct (state_roundtrip_b fl C h rk limit s Ha Hl Hs Hac Hr Hh) as (j & h2 & s' & M & W0 & He & Hj & Hb & _).
  assert (Hal2 : alpha ts h2 (VO s') = Some a).
  { exact (alpha_invariant ts h h2 _ (bisim2_sim _ _ _ _ _ Hb) _ _ _ (b2_root _ _ _ _ _ Hb) Hal). }
  exists j, h2, s'. split; [exact He|]. split; [exact Hj|]. split; [exact Hal2|].
  intros c now. now rewrite Hal2, Hal.
Qed.

(* the same for the plain graph round trip (decode_from_dict o encode_to_dict) *)
Theorem alpha_decoded ts fl C h rk limit r a :
  fx_action fl = true -> late_tags_free C ->
  supported fl C h r = true -> acyclic h rk -> (rank_of rk r < limit)%nat ->
  alpha ts h r = Some a ->
  exists j h' r', encode fl limit h r = Some j /\ decode fl C limit j = Some (h', r') /\ alpha ts h' r' = Some a.
Proof.
  intros Ha Hl Hs Hac Hr Hal.
  destruct (roundtrip_graph fl C h r rk limit Ha Hl Hs Hac Hr) as (j & h' & r' & M & He & Hd & Hb & _).
  exists j, h', r'. split; [exact He|]. split; [exact Hd|].
  exact (alpha_invariant ts h h' _ (bisim_sim _ _ _ _ _ Hb) _ _ _ (bs_root _ _ _ _ _ _ Hb) Hal).
Qed.
