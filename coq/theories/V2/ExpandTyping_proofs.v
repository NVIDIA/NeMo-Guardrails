(* C12 (Colang 2.x) - every modelled expansion is typed (Typed.v) under the declarations of
   ExpandTyping.v; hence, by soundness of the typing and the static lemmas of Expand_proofs.v,
   every expansion of a well-formed source of the fragment is closed: closed_v2 (expand ss). *)
From Coq Require Import List String Bool Arith.
From NG Require Import V2.ClosedAst V2.Closed V2.Closed_proofs V2.Typed V2.Typed_proofs
                       V2.Expand V2.Expand_proofs V2.ExpandTyping.
Import ListNotations.
Open Scope string_scope.
Open Scope list_scope.
Open Scope nat_scope.

Lemma uname_app_inj : forall a b s t, uname a ^^ s = uname b ^^ t -> a = b /\ s = t.
Proof.
  induction a as [|a IH]; intros [|b] s t H; cbn in H.
  - injection H as ->. auto.
  - discriminate.
  - discriminate.
  - injection H as H. destruct (IH _ _ _ H) as [-> ->]. auto.
Qed.

Lemma enc_inj : forall p q, enc p = enc q -> p = q.
Proof.
  induction p as [|n r IH]; intros [|m r'] H; cbn in H.
  - reflexivity.
  - destruct m; discriminate.
  - destruct n; discriminate.
  - destruct (uname_app_inj _ _ _ _ H) as [-> H']. f_equal. now apply IH.
Qed.

Lemma Gam_fun l s1 s2 : Gam l s1 -> Gam l s2 -> s1 = s2.
Proof.
  intros [p [-> H1]] [q [Hq H2]]. apply enc_inj in Hq. subst q. congruence.
Qed.

Lemma state_of_nm p a b c : state_of (p ++ [a; b; c]) = st_of p a b c.
Proof. unfold state_of. rewrite rev_app_distr. cbn. now rewrite rev_involutive. Qed.

Lemma Gam_nm p a b c st : st_of p a b c = Some st -> Gam (nm p a b c) st.
Proof. intros H. exists (p ++ [a; b; c]). split; [reflexivity|]. now rewrite state_of_nm. Qed.

Lemma mem_single n : mem n [n] = true.
Proof. unfold mem. cbn. now rewrite String.eqb_refl. Qed.
Lemma remove_single n : remove_s n [n] = [].
Proof. unfold remove_s. cbn. now rewrite String.eqb_refl. Qed.

Notation ty := (typed Gam).
Notation S0 := (Some (([] : list string), ([] : list string))).

Ltac gam := first [ eassumption | apply Gam_nm; reflexivity ].

(* a concrete element list is typed by running `pass`: a conjunction of trivial conditions and
   declarations of labels (closed by gam), ending in the equation of the exit state *)
Ltac by_pass ds :=
  apply (pass_typed Gam) with ds; cbn [pass live_ok live_out fst snd tl app];
  rewrite ?mem_single, ?remove_single;
  repeat (apply conj; [first [exact I | reflexivity | gam]|]); reflexivity.

Lemma label_at_boundary c l : boundary c -> Gam l ([], []) -> ty c [ELabel l] S0.
Proof. intros [->| ->] Hg; by_pass [(@nil string, @nil string)]. Qed.

(* `goto l1 ; l2:` behind a block: whatever falls out of the block jumps to l1, l2 starts afresh *)
Lemma goto_label c l1 l2 st : boundary c -> Gam l1 ([], []) -> Gam l2 st ->
  ty c [EGoto l1 false; ELabel l2] (Some st).
Proof. intros [->| ->] H1 H2; by_pass [st]. Qed.

Lemma from_boundary c es c1 :
  boundary c -> ty S0 es c1 -> boundary c1 -> exists c', boundary c' /\ ty c es c'.
Proof.
  intros [->| ->] H Hb; [|eauto].
  destruct (typed_dead Gam _ _ _ H) as [c' [H1 [->| ->]]]; eauto. exists None. split; [now left|exact H1].
Qed.

Definition Pty (s : stmt) : Prop :=
  forall cb p, cb_ok cb -> wf_loops (is_some cb) s = true ->
               exists c', boundary c' /\ ty S0 (xstmt cb p s) c'.

Lemma xlist_ty ss : Forall Pty ss ->
  forall cb p t i c, cb_ok cb -> wf_list (is_some cb) ss = true -> boundary c ->
                     exists c', boundary c' /\ ty c (xlist cb p t i ss) c'.
Proof.
  induction 1 as [|s r Hs Hr IH]; intros cb p t i c Hcb Hw Hc.
  - exists c. split; [exact Hc|constructor].
  - cbn [xlist wf_list] in *. apply andb_true_iff in Hw. destruct Hw as [H1 H2].
    destruct (Hs cb (p ++ [t; i]) Hcb H1) as [c1 [Hb1 Ht1]].
    destruct (from_boundary c _ _ Hc Ht1 Hb1) as [c1' [Hb1' Ht1']].
    destruct (IH cb p t (S i) c1' Hcb H2 Hb1') as [c2 [Hb2 Ht2]].
    exists c2. split; [exact Hb2|]. eapply typed_app; eauto.
Qed.

Lemma start_atom_ty st a : handler_ok st -> ty (Some st) (start_atom a) (Some st).
Proof. unfold handler_ok. intros H. destruct a; cbn [start_atom]; by_pass (@nil state). Qed.

Lemma starts_ty st g : handler_ok st -> ty (Some st) (starts g) (Some st).
Proof.
  intros H. unfold starts. induction g as [|a r IH]; [constructor|].
  cbn [flat_map]. eapply typed_app; [apply start_atom_ty; exact H|exact IH].
Qed.

Lemma x_activate_ty n : ty S0 (x_activate n) S0.
Proof.
  induction n as [|n IH]; [constructor|]. cbn [x_activate].
  eapply typed_app; [by_pass (@nil state)|exact IH].
Qed.

Lemma ctx_of_app p t i :
  ctx_of (p ++ [t; i]) =
  if t =? 6 then Some ([], [or_F false p])
  else if t =? 7 then Some ([or_S true p], [or_F true p])
  else if t =? 8 then Some ([], [])
  else if t =? 9 then Some ([wn_S p], [cs_F p i]) else None.
Proof. unfold ctx_of. rewrite rev_app_distr. cbn. now rewrite rev_involutive. Qed.

Lemma Gam_gr q b c sc ct :
  ctx_of q = Some (sc, ct) -> (c =? 1) || (c =? 2) || (c =? 3) = true ->
  Gam (nm q 14 b c) (sc, gr_F q :: ct).
Proof. intros H Hc. apply Gam_nm. unfold st_of. cbn. rewrite Hc, H. reflexivity. Qed.

Lemma group_body_ty N F st gs :
  (forall g, In g gs -> Gam g st) -> Gam F st -> Gam N st -> (exists ct, snd st = F :: ct) ->
  ty None (group_body N gs) None.
Proof.
  intros Hg HF HN [ct Hst]. destruct st as [sc ct0]. cbn in Hst. subst ct0.
  unfold group_body. induction gs as [|g r IH]; [constructor|].
  cbn [flat_map]. assert (Gam g (sc, F :: ct)) by (apply Hg; now left).
  eapply typed_app; [by_pass [(sc, F :: ct)]|apply IH; intros; apply Hg; now right].
Qed.

Lemma and_group_ty q n sc ct :
  ctx_of q = Some (sc, ct) -> handler_ok (sc, ct) ->
  ty (Some (sc, ct)) (and_group q n) (Some (sc, ct)).
Proof.
  intros Hq Hh. unfold and_group. cbv zeta.
  assert (HF : Gam (gr_F q) (sc, gr_F q :: ct)) by (apply Gam_gr; auto).
  assert (HN : Gam (gr_N q) (sc, gr_F q :: ct)) by (apply Gam_gr; auto).
  assert (Hg : forall g, In g (group_labels q n) -> Gam g (sc, gr_F q :: ct)).
  { unfold group_labels. intros g Hin. apply in_map_iff in Hin. destruct Hin as [i [<- _]].
    apply Gam_gr; auto. }
  revert Hg. generalize (group_labels q n) as gs. intros gs Hg.
  unfold handler_ok in Hh. cbn [snd] in Hh.
  eapply typed_app; [by_pass (@nil state)|]. eapply typed_app.
  - apply (group_body_ty (gr_N q) (gr_F q) (sc, gr_F q :: ct) gs Hg HF HN). eexists; reflexivity.
  - by_pass [(sc, gr_F q :: ct); (sc, gr_F q :: ct)].
Qed.

Lemma match_all_ty p tag i k st :
  ctx_of (p ++ [tag; i]) = Some st -> handler_ok st ->
  ty (Some st) (match_all p tag i k) (Some st).
Proof.
  intros Hc Hh. unfold match_all. destruct (k <=? 1)%nat.
  - exact (typed_one _ _ _ _ (tr_live Gam st EBlock Hh)).
  - destruct st as [sc ct]. now apply and_group_ty.
Qed.

Definition or_inner (sc : bool) (p : spath) : state :=
  ((if sc then [or_S true p] else []), [or_F sc p]).

Lemma Gam_or sc p b c : (c =? 1) || (c =? 2) || (c =? 3) = true -> Gam (nm p (or_a sc) b c) (or_inner sc p).
Proof. intros Hc. apply Gam_nm. unfold st_of, or_inner. destruct sc; cbn; rewrite Hc; reflexivity. Qed.

Lemma or_inner_handler sc p : handler_ok (or_inner sc p).
Proof. unfold handler_ok, or_inner. cbn. apply (Gam_or sc p 0 1). reflexivity. Qed.

Lemma or_branches_ty sc p bodies : forall i,
  (forall b, In b bodies -> ty (Some (or_inner sc p)) b (Some (or_inner sc p))) ->
  ty None (or_branches sc p i bodies) None.
Proof.
  induction bodies as [|b r IH]; intros i Hb; [constructor|].
  cbn [or_branches].
  eapply typed_cons; [apply T_label_dead; apply (Gam_or sc p i 3); reflexivity|].
  eapply typed_app; [apply Hb; now left|].
  eapply typed_cons; [eapply T_goto; apply (Gam_or sc p 0 2); reflexivity|]. cbn iota.
  apply IH. intros; apply Hb; now right.
Qed.

Lemma or_struct_ty sc p bodies :
  (forall b, In b bodies -> ty (Some (or_inner sc p)) b (Some (or_inner sc p))) ->
  ty S0 (or_struct sc p bodies) S0.
Proof.
  intros Hb. unfold or_struct.
  pose proof (Gam_or sc p 0 1 eq_refl) as HF. pose proof (Gam_or sc p 0 2 eq_refl) as HN.
  assert (HG : forall l, In l (map (or_G sc p) (seq 0 (List.length bodies))) -> Gam l (or_inner sc p)).
  { intros l Hl. apply in_map_iff in Hl. destruct Hl as [i [<- _]]. apply (Gam_or sc p i 3). reflexivity. }
  pose proof (or_branches_ty sc p bodies 0 Hb) as HB. revert HB HG.
  generalize (or_branches sc p 0 bodies) as BR.
  generalize (map (or_G sc p) (seq 0 (List.length bodies))) as gls. intros gls BR HB HG.
  unfold or_tail, or_inner in *. destruct sc.
  - apply typed_app with (c1 := Some ([or_S true p], [])); [by_pass (@nil state)|].
    apply typed_app with (c1 := None); [by_pass (@nil state)|].
    apply typed_app with (c1 := None); [exact HB|].
    by_pass [([or_S true p], [or_F true p]); ([or_S true p], [or_F true p])].
  - apply typed_app with (c1 := S0); [constructor|].
    apply typed_app with (c1 := None); [by_pass (@nil state)|].
    apply typed_app with (c1 := None); [exact HB|].
    by_pass [(@nil string, [or_F false p]); (@nil string, [or_F false p])].
Qed.

Lemma x_match_ty p ks : ty S0 (x_match p ks) S0.
Proof.
  unfold x_match.
  assert (H : ty S0 (or_struct false p (mapi_from (fun i k => match_all p 6 i k) 0 ks)) S0).
  { apply or_struct_ty. intros b Hb. destruct (mapi_from_in _ _ _ _ Hb) as [j [k ->]].
    apply match_all_ty; [rewrite ctx_of_app; reflexivity|apply (or_inner_handler false)]. }
  destruct ks as [|k [|k2 r]]; [exact H| |exact H].
  apply match_all_ty; [rewrite ctx_of_app; reflexivity|exact I].
Qed.

Lemma x_start_ty p gs : ty S0 (x_start p gs) S0.
Proof.
  unfold x_start.
  assert (H : ty S0 (or_struct false p (map starts gs)) S0).
  { apply or_struct_ty. intros b Hb. apply in_map_iff in Hb. destruct Hb as [g [<- _]].
    apply starts_ty. apply or_inner_handler. }
  destruct gs as [|g [|g2 r]]; [exact H| |exact H]. apply starts_ty. exact I.
Qed.

Lemma x_await_ty p gs : ty S0 (x_await p gs) S0.
Proof.
  unfold x_await.
  assert (H : ty S0 (or_struct true p (mapi_from (fun i g => starts g ++ match_all p 7 i (List.length g)) 0 gs)) S0).
  { apply or_struct_ty. intros b Hb. destruct (mapi_from_in _ _ _ _ Hb) as [j [g ->]].
    eapply typed_app; [apply starts_ty; apply or_inner_handler|].
    apply match_all_ty; [rewrite ctx_of_app; reflexivity|apply (or_inner_handler true)]. }
  destruct gs as [|g [|g2 r]]; [exact H| |exact H].
  eapply typed_app; [apply starts_ty; exact I|].
  apply match_all_ty; [rewrite ctx_of_app; reflexivity|exact I].
Qed.

Lemma when_case_ty p i tr body c1 :
  ty S0 body c1 -> boundary c1 -> ty None (when_case p i tr body) None.
Proof.
  intros Hb Hc. unfold when_case.
  assert (HF : Gam (cs_F p i) ([wn_S p], [cs_F p i])) by gam.
  assert (HG : forall l, In l [cs_G p i] -> Gam l ([wn_S p], [cs_F p i])) by (intros l [<-|[]]; gam).
  apply typed_app with (c1 := Some ([wn_S p], [cs_F p i]));
    [by_pass [([wn_S p], @nil string); ([wn_S p], [cs_F p i])]|].
  apply typed_app with (c1 := Some ([wn_S p], [cs_F p i])).
  { eapply typed_app.
    - unfold case_pre. induction tr as [|m r IH]; [constructor|]. cbn [flat_map].
      eapply typed_app; [|exact IH]. destruct m; [constructor|apply start_atom_ty; exact HF|apply start_atom_ty; exact HF].
    - apply match_all_ty; [rewrite ctx_of_app; reflexivity|exact HF]. }
  apply typed_app with (c1 := S0); [by_pass [([wn_S p], [cs_F p i])]|].
  apply typed_app with (c1 := c1); [exact Hb|].
  destruct Hc as [->| ->]; by_pass [([wn_S p], [cs_F p i])].
Qed.

Lemma xcases_ty cb p cs : Forall (fun c => Forall Pty (snd c)) cs -> cb_ok cb ->
  forall i, wf_cases (is_some cb) cs = true -> ty None (xcases cb p i cs) None.
Proof.
  intros H Hcb. induction H as [|[tr c] r Hc Hr IH]; intros i Hw; [constructor|]. cbn [snd] in Hc.
  rewrite xcases_cons. rewrite wf_cases_cons in Hw. apply andb_true_iff in Hw. destruct Hw as [H1 H2].
  destruct (xlist_ty c Hc cb (p ++ [4; i]) 5 0 S0 Hcb H1) as [c1 [Hb1 Ht1]]; [now right|].
  eapply typed_app; [eapply when_case_ty; eauto|apply IH; exact H2].
Qed.

Lemma when_tail_ty p els c1 :
  (forall el, els = Some el -> ty S0 el c1 /\ boundary c1) ->
  ty None (when_tail p els) S0.
Proof.
  intros He. unfold when_tail.
  apply typed_app with (c1 := S0); [by_pass [([wn_S p], @nil string)]|]. destruct els as [el|].
  - destruct (He el eq_refl) as [Ht Hb].
    eapply typed_app; [eapply typed_app; [by_pass [(@nil string, @nil string)]|exact Ht]|].
    apply label_at_boundary; [exact Hb|gam].
  - by_pass [(@nil string, @nil string)].
Qed.

Lemma cs_I_gam p n l : In l (map (cs_I p) (seq 0 n)) -> Gam l ([wn_S p], []).
Proof. rewrite in_map_iff. intros [i [<- _]]. gam. Qed.

Lemma xstmt_ty : forall s, Pty s.
Proof.
  apply stmt_ind'; unfold Pty.
  - intros cb p _ _. exists S0. split; [now right|]. cbn. by_pass (@nil state).
  - intros cb p _ _. exists S0. split; [now right|]. cbn. by_pass (@nil state).
  - intros [[a b]|] p Hcb Hw; [|discriminate Hw]. destruct Hcb as [Ha Hb]. exists None. split; [now left|]. cbn. by_pass (@nil state).
  - intros [[a b]|] p Hcb Hw; [|discriminate Hw]. destruct Hcb as [Ha Hb]. exists None. split; [now left|]. cbn. by_pass (@nil state).
  - intros cb p _ _. exists None. split; [now left|]. cbn. by_pass (@nil state).
  - intros cb p _ _. exists None. split; [now left|]. cbn. by_pass (@nil state).
  - (* if *) intros th el Hth Hel cb p Hcb Hw. rewrite wf_if in Hw. apply andb_true_iff in Hw.
    destruct Hw as [H1 H2]. rewrite xstmt_if.
    destruct (xlist_ty th Hth cb p 0 0 S0 Hcb H1) as [c1 [Hb1 Ht1]]; [now right|].
    exists S0. split; [now right|]. destruct el as [|e0 el0].
    + apply typed_live; [gam|]. eapply typed_app; [exact Ht1|]. apply label_at_boundary; [exact Hb1|gam].
    + destruct (xlist_ty (e0 :: el0) Hel cb p 1 0 S0 Hcb H2) as [c2 [Hb2 Ht2]]; [now right|].
      apply typed_live; [gam|]. eapply typed_app; [exact Ht1|]. eapply typed_app.
      * apply goto_label; [exact Hb1| |]; gam.
      * eapply typed_app; [exact Ht2|]. apply label_at_boundary; [exact Hb2|gam].
  - (* while *) intros body Hb cb p Hcb Hw. rewrite wf_while in Hw. rewrite xstmt_while.
    assert (Hcb' : cb_ok (Some (wh_B p, wh_D p))) by (split; gam).
    destruct (xlist_ty body Hb (Some (wh_B p, wh_D p)) p 2 0 S0 Hcb' Hw) as [c1 [Hb1 Ht1]]; [now right|].
    exists S0. split; [now right|]. destruct Hcb' as [HB HD].
    apply typed_live; [exact HB|]. apply typed_live; [exact HD|].
    eapply typed_app; [exact Ht1|]. apply goto_label; assumption.
  - intros ks cb p _ _. exists S0. split; [now right|]. apply x_match_ty.
  - intros gs cb p _ _. exists S0. split; [now right|]. apply x_start_ty.
  - intros gs cb p _ _. exists S0. split; [now right|]. apply x_await_ty.
  - intros n cb p _ _. exists S0. split; [now right|]. apply x_activate_ty.
  - (* when *) intros cases els Hc He cb p Hcb Hw. rewrite wf_when in Hw. apply andb_true_iff in Hw.
    destruct Hw as [H1 H2]. rewrite xstmt_when. exists S0. split; [now right|].
    apply typed_live; [reflexivity|]. apply typed_live; [exact (cs_I_gam p _)|].
    eapply typed_app; [apply xcases_ty; eauto|].
    destruct els as [el|].
    + destruct (xlist_ty el (He el eq_refl) cb p 3 0 S0 Hcb H2) as [c1 [Hb1 Ht1]]; [now right|].
      apply (when_tail_ty p (Some (xlist cb p 3 0 el)) c1). intros el' [= <-]. auto.
    + apply (when_tail_ty p None None). intros el' [=].
Qed.

Theorem expand_typed ss :
  wf_list false ss = true -> exists c, boundary c /\ ty S0 (expand ss) c.
Proof.
  intros Hw. unfold expand.
  destruct (xlist_ty ss (proj2 (Forall_forall _ _) (fun s _ => xstmt_ty s)) None [] 0 0 S0 I Hw) as [c [Hb Ht]];
    [now right|].
  exists c. split; [exact Hb|]. apply typed_live; [exact I|exact Ht].
Qed.

Theorem expand_closed ss : wf_list false ss = true -> closed_v2 (expand ss).
Proof.
  intros Hw. destruct (expand_static_closed ss) as [Hl [Hc Hm]].
  destruct (expand_typed ss Hw) as [c [Hb Ht]].
  split; [|split; [|split; [|split]]].
  - apply (typed_sound Gam Gam_fun (expand ss) c Ht); [|exact Hl].
    destruct Hb as [->| ->]; cbn; auto.
  - now apply labels_okb_sound.
  - now apply no_compositeb_sound.
  - now apply merges_okb_sound.
  - apply loop_exits_okb_sound. now apply expand_loop_exits.
Qed.
