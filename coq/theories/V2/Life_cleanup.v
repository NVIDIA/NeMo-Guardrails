(* V2/Life_cleanup.v - _clean_up_state keeps the invariants of the activation theorem, PROVIDED it
   never discards the parent of an instance that is running or still activated (`keep`, read
   from the source by the translator): `cleanup_inv`, `cleanup_famk`, and for runs with the clean-up
   among the operations `brun_inv_fam`.  Without the proviso a witness state loses the parent of an
   activated instance and the next end of an activator fails (`cleanup_unguarded_witness`). *)
From Coq Require Import ZArith NArith List Bool Lia.
From NG Require Import V2.Life V2.Life_proofs V2.Life_count V2.Life_activation.
Import ListNotations.
Open Scope N_scope.

Lemma memb_in : forall x l, memb x l = true <-> In x l.
Proof.
  unfold memb; intros x l. rewrite existsb_exists. split.
  - intros (y & Hin & Hy). apply N.eqb_eq in Hy. subst; auto.
  - intros Hin. exists x; split; auto. apply N.eqb_refl.
Qed.

Lemma get_filter_map : forall (g : inst -> inst) rem l y,
  get y (map (fun xi : uid * inst => (fst xi, g (snd xi)))
             (filter (fun xi : uid * inst => negb (memb (fst xi) rem)) l))
  = if memb y rem then None else option_map g (get y l).
Proof.
  induction l as [|[k v] l IH]; simpl; intros y.
  - destruct (memb y rem); auto.
  - destruct (memb k rem) eqn:Ek; simpl; rewrite IH; destruct (N.eqb y k) eqn:Eyk; auto;
      apply N.eqb_eq in Eyk; subst; rewrite Ek; auto.
Qed.

Section Cleanup.
  Variable aged : uid -> bool.
  Variable s s' : st.
  Hypothesis Hcl : cleanup true aged s = Ok s'.
  Hypothesis HI : Inv s.

  Let rem := removed_uids true aged s.

  Lemma cl_flows : flows s' = map (fun xi : uid * inst => (fst xi, prune rem (snd xi)))
                                  (filter (fun xi : uid * inst => negb (memb (fst xi) rem)) (flows s)).
  Proof. unfold cleanup in Hcl. apply bind_ok in Hcl. destruct Hcl as (ac & _ & H). inversion H; subst. reflexivity. Qed.

  Lemma cl_getf : forall y, getf s' y = if memb y rem then None else option_map (prune rem) (getf s y).
  Proof. intros y. unfold getf. rewrite cl_flows. apply get_filter_map. Qed.

  (* what is discarded: ended, count 0, not the parent of a running or activated instance *)
  Lemma rem_spec : forall u, memb u rem = true ->
    exists i, getf s u = Some i /\ done (i_status i) = true /\ i_activated i = 0%Z /\
              memb u (needed_parents s) = false.
  Proof.
    intros u Hu. apply memb_in in Hu. unfold rem, removed_uids in Hu.
    apply in_map_iff in Hu. destruct Hu as ([u' i] & Hfst & Hin). simpl in Hfst; subst u'.
    apply filter_In in Hin. destruct Hin as (Hin & Hrm).
    unfold removable in Hrm. simpl in Hrm.
    apply andb_prop in Hrm. destruct Hrm as (Hrm & Hk). apply andb_prop in Hrm. destruct Hrm as (Hrm & Ha).
    apply andb_prop in Hrm. destruct Hrm as (Hd & _).
    exists i. repeat split; auto.
    - apply nodup_in_get; auto. apply (inv_nodup _ HI).
    - apply Z.eqb_eq; auto.
    - simpl in Hk. destruct (memb u (needed_parents s)); auto.
  Qed.

  Lemma needed_spec : forall x i p, getf s x = Some i -> i_parent i = Some p -> needs_parent i ->
    memb p (needed_parents s) = true.
  Proof.
    intros x i p Ex Hp Hnd. apply memb_in. unfold needed_parents. apply in_flat_map.
    exists (x, i). split; [apply get_in; exact Ex|]. simpl.
    assert (Hc : negb (done (i_status i)) || negb (i_activated i =? 0)%Z = true).
    { destruct Hnd as [Hl|Ha].
      - destruct (i_status i); simpl in *; auto; discriminate.
      - apply orb_true_iff. right. destruct (i_activated i =? 0)%Z eqn:Ez; auto. apply Z.eqb_eq in Ez. contradiction. }
    rewrite Hc, Hp. simpl; auto.
  Qed.

  Lemma cl_kept : forall y i', getf s' y = Some i' ->
    memb y rem = false /\ exists i, getf s y = Some i /\ i' = prune rem i.
  Proof.
    intros y i' H. rewrite cl_getf in H. destruct (memb y rem); try discriminate. split; auto.
    destruct (getf s y) as [i|]; simpl in H; inversion H; eauto.
  Qed.

  Lemma cl_stays : forall y, getf s y <> None -> memb y rem = false -> getf s' y <> None.
  Proof. intros y H Hm. rewrite cl_getf, Hm. destruct (getf s y); [discriminate|contradiction]. Qed.

  Lemma prune_children_in : forall i c, In c (i_children (prune rem i)) -> In c (i_children i) /\ memb c rem = false.
  Proof.
    intros i c H. simpl in H. apply filter_In in H. destruct H as (H1 & H2).
    split; auto. destruct (memb c rem); auto; discriminate.
  Qed.

  Lemma occ_filter_kept : forall r l, memb r rem = false ->
    occ r (filter (fun x => negb (memb x rem)) l) = occ r l.
  Proof.
    intros r l Hr. unfold occ. f_equal. induction l as [|y l IH]; simpl; auto.
    destruct (memb y rem) eqn:Ey; simpl.
    - destruct (N.eq_dec y r) as [->|Hne]; [congruence|auto].
    - destruct (N.eq_dec y r); auto.
  Qed.

  Lemma cl_E : forall r, memb r rem = false -> E s' r = E s r.
  Proof.
    intros r Hr. unfold E. rewrite cl_flows.
    assert (H : forall k i, In (k, i) (flows s) -> memb k rem = true -> live (i_status i) = false).
    { intros k i Hin Hk. destruct (rem_spec _ Hk) as (i0 & Ei0 & Hd & _).
      pose proof (nodup_in_get _ _ _ _ (inv_nodup _ HI) Hin) as Hg. unfold getf in Ei0. rewrite Hg in Ei0.
      inversion Ei0; subst. destruct (i_status i0); simpl in *; auto; discriminate. }
    revert H. generalize (flows s). induction l as [|[k i] l IH]; simpl; intros H; auto.
    destruct (memb k rem) eqn:Ek; simpl.
    - rewrite IH; [|intros; eapply H; eauto]. unfold contrib. rewrite (H k i (or_introl eq_refl) Ek). lia.
    - rewrite IH; [|intros; eapply H; eauto]. f_equal.
      unfold contrib; simpl. destruct (live (i_status i)); auto. apply occ_filter_kept; auto.
  Qed.

  Lemma cl_act : forall r, memb r rem = false -> act s' r = act s r.
  Proof. intros r Hr. unfold act. rewrite cl_getf, Hr. destruct (getf s r); auto. Qed.

  Lemma cl_back : Back s s'.
  Proof.
    intros y i' Ey'. destruct (cl_kept _ _ Ey') as (_ & i & Ey & ->). exists i. repeat split; auto.
    intros c Hin. apply (prune_children_in _ _ Hin).
  Qed.

  (* the keys that are kept, in their order *)
  Lemma cl_keys : keys s' = filter (fun u => negb (memb u rem)) (keys s).
  Proof.
    unfold keys. rewrite cl_flows, map_map. simpl.
    induction (flows s) as [|[k i] l IH]; simpl; auto. destruct (memb k rem); simpl; congruence.
  Qed.

  Theorem cleanup_inv : Inv s'.
  Proof.
    destruct HI as [Hn Hc Hp Hi (rk & Hr)]. split.
    - unfold nodupk. rewrite cl_keys. apply NoDup_filter. exact Hn.
    - intros y i' c Ey' Hin. destruct (cl_kept _ _ Ey') as (_ & i & Ey & ->).
      destruct (prune_children_in _ _ Hin) as (Hin0 & Hcm). apply cl_stays; [eapply Hc; eauto|exact Hcm].
    - intros y i' p Ey' Hpar Hnd. destruct (cl_kept _ _ Ey') as (_ & i & Ey & ->). simpl in Hpar.
      assert (Hnd0 : needs_parent i) by exact Hnd.
      pose proof (needed_spec _ _ _ Ey Hpar Hnd0) as Hneed.
      apply cl_stays; [eapply Hp; eauto|].
      destruct (memb p rem) eqn:Em; auto. destruct (rem_spec _ Em) as (_ & _ & _ & _ & Hx). congruence.
    - intros r Hrs' Hnz.
      assert (Hrm : memb r rem = false) by (destruct Hrs' as (i' & _ & _ & Ei' & _); apply (cl_kept _ _ Ei')).
      rewrite (cl_act _ Hrm) in *. rewrite (cl_E _ Hrm). apply Hi; auto. exact (back_refshape _ _ _ cl_back Hrs').
    - exists rk. exact (back_ranked _ _ _ cl_back Hr).
  Qed.

  Theorem cleanup_famk : famk s -> famk s'.
  Proof. exact (back_famk _ _ cl_back). Qed.

  Theorem cleanup_discards : forall u i, getf s u = Some i -> getf s' u = None ->
    done (i_status i) = true /\ i_activated i = 0%Z /\
    (forall x xi, getf s x = Some xi -> i_parent xi = Some u -> needs_parent xi -> False).
  Proof.
    intros u i Eu Hn. rewrite cl_getf in Hn. destruct (memb u rem) eqn:Em; [|rewrite Eu in Hn; discriminate].
    destruct (rem_spec _ Em) as (i0 & Ei0 & Hd & Ha & Hneed). rewrite Eu in Ei0. inversion Ei0; subst i0.
    repeat split; auto. intros x xi Ex Hp Hnd. rewrite (needed_spec _ _ _ Ex Hp Hnd) in Hneed. discriminate.
  Qed.
End Cleanup.

(* runs that also contain the clean-up of old instances (at the start of every run_to_completion) *)
Inductive bop :=
| BOp (o : aop)
| BClean (aged : uid -> bool).

Definition bstep (keep rel : bool) (fuel : nat) (s : st) (o : bop) : res st :=
  match o with
  | BOp o => astep rel fuel s o
  | BClean aged => cleanup keep aged s
  end.

Fixpoint brun (keep rel : bool) (fuel : nat) (l : list bop) (s : st) : res st :=
  match l with
  | [] => Ok s
  | o :: l' => bind (bstep keep rel fuel s o) (brun keep rel fuel l')
  end.

Fixpoint boks (keep rel : bool) (fuel : nat) (l : list bop) (s : st) : Prop :=
  match l with
  | [] => True
  | o :: l' => forall s1, bstep keep rel fuel s o = Ok s1 ->
                 (match o with BOp o => aok s o s1 | BClean _ => True end) /\ boks keep rel fuel l' s1
  end.

Theorem brun_inv_fam : forall rel fuel l s s',
  Inv s -> famk s -> brun true rel fuel l s = Ok s' -> boks true rel fuel l s -> Inv s' /\ famk s'.
Proof.
  induction l as [|o l IH]; simpl; intros s s' HI Hf H Hok.
  - inversion H; subst; auto.
  - bind_inv H. destruct (Hok _ Hb) as (Ho & Hrest).
    assert (K : keeps s s0); [|destruct K; apply (IH s0 s'); auto].
    destruct o as [o|aged]; simpl in *; [eapply astep_inv; eauto|].
    split; [eapply cleanup_inv; eauto|eapply cleanup_famk; eauto].
Qed.

(* WITHOUT the side condition the clean-up discards the parent of a still activated reference
   instance: the invariant (parents of activated instances exist) is lost and the next end of an
   activator raises KeyError in _is_reference_activated_flow *)
Definition cleanup_state : st :=
  mkSt [ (1, mkInst 0 FStarted None [3] [] [] 1%Z false);
         (2, mkInst 1 FFinished (Some 1) [5] [] [] 0%Z false);     (* first activator, ended *)
         (3, mkInst 2 FStarted (Some 1) [5] [] [] 0%Z false);      (* second activator, running *)
         (5, mkInst 3 FStarted (Some 2) [] [] [] 1%Z false) ]      (* reference instance, count 1 *)
       [] [].

Definition cleanup_unguarded_loses_link : Prop :=
  exists s s1, cleanup false (fun _ => true) s = Ok s1 /\ getf s1 2 = None /\
               (exists i, getf s1 5 = Some i /\ i_parent i = Some 2 /\ i_activated i = 1%Z) /\
               finish 4 s1 3 false = Err EKeyFlow.

Theorem cleanup_unguarded_witness : cleanup_unguarded_loses_link.
Proof.
  exists cleanup_state. eexists. split; [vm_compute; reflexivity|].
  split; [reflexivity|]. split; [eexists; vm_compute; repeat split|]. vm_compute. reflexivity.
Qed.

Example cleanup_guarded_keeps_link :
  exists s1, cleanup true (fun _ => true) cleanup_state = Ok s1 /\ getf s1 2 <> None /\
             exists s2, finish 4 s1 3 false = Ok s2 /\ lst s2 5 = false /\ act s2 5 = 0%Z.
Proof.
  eexists. split; [vm_compute; reflexivity|]. split; [vm_compute; discriminate|].
  eexists. split; [vm_compute; reflexivity|]. vm_compute. auto.
Qed.
