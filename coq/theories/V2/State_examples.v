(* C11 - a State-shaped graph built from the field lists of the CURRENT source (class table of
   Gen/C11Consts.v) that inhabits the hypotheses of the composed round-trip theorem. *)
From Coq Require Import ZArith List String Bool Lia.
From NG Require Import Gen.C11Consts V2.Serial V2.SerialRun V2.Serial_examples.
Import ListNotations.
Open Scope string_scope.
Open Scope Z_scope.

Definition obj (cls : string) (asg : list (string * val)) : node :=
  match class_fields classes_now cls with
  | Some fs => mk (HData cls fs) (map (fun f => match slookup asg f with Some v => v | None => VP PNone end) fs)
  | None => mk (HOther cls) []
  end.

Definition cbp (fs : id) : node := mk (HPartial cb_name) [VO 0; VO fs].

Definition h_st : heap :=
  [ (0, obj "State" [("flow_states", VO 1); ("flow_configs", VO 20); ("actions", VO 21); ("internal_events", VO 22);
                     ("main_flow_state", VO 2); ("context", VO 20); ("outgoing_events", VO 23); ("last_events", VO 23);
                     ("context_updates", VO 20); ("flow_id_states", VO 24); ("event_matching_heads", VO 25);
                     ("event_matching_heads_reverse_map", VO 20)]);
    (1, mk (HDict [KS "m"; KS "a"]) [VO 2; VO 3]);
    (2, obj "FlowState" [("uid", VP (PStr "m")); ("flow_id", VP (PStr "main")); ("hierarchy_position", VP (PStr "0"));
                         ("heads", VO 4); ("scopes", VO 20); ("head_fork_uids", VO 20); ("action_uids", VO 26);
                         ("context", VO 6); ("priority", VP (PFloat 1)); ("arguments", VO 20); ("child_flow_uids", VO 27);
                         ("_status", VO 9); ("status_updated", VO 28); ("activated", VP (PInt 0));
                         ("new_instance_started", VP (PBool false)); ("_event_name_map", VO 20)]);
    (3, obj "FlowState" [("uid", VP (PStr "a")); ("flow_id", VP (PStr "a")); ("hierarchy_position", VP (PStr "0.1"));
                         ("heads", VO 10); ("scopes", VO 20); ("head_fork_uids", VO 20); ("action_uids", VO 26);
                         ("context", VO 11); ("priority", VP (PFloat 1)); ("arguments", VO 20); ("parent_uid", VP (PStr "m"));
                         ("child_flow_uids", VO 23); ("_status", VO 9); ("status_updated", VO 28); ("activated", VP (PInt 1));
                         ("new_instance_started", VP (PBool false)); ("_event_name_map", VO 20)]);
    (4, mk (HDict [KS "h1"]) [VO 12]);
    (5, mk (HAction action_fields)
           [VP (PStr "u"); VP (PStr "MyAction"); VP (PStr "m"); VP (PStr "STARTED"); VO 20; VO 29; VP (PInt 2)]);
    (6, mk (HDict [KS "act"; KS "s"; KS "r"; KI 1]) [VO 5; VO 7; VO 8; VP (PStr "x")]);
    (7, mk HSet [VP (PStr "a"); VP (PStr "b")]);
    (8, mk (HRegex "a." 32) []);
    (9, mk (HEnum "FlowStatus" "STARTED") []);
    (10, mk (HDict [KS "h2"; KS "h3"]) [VO 13; VO 14]);
    (11, mk (HDict [KS "act"; KS "parent"]) [VO 5; VP (PStr "m")]);
    (12, obj "FlowHead" [("uid", VP (PStr "h1")); ("flow_state_uid", VP (PStr "m")); ("matching_scores", VO 23);
                         ("scope_uids", VO 23); ("child_head_uids", VO 23); ("catch_pattern_failure_label", VO 23);
                         ("position_changed_callback", VO 30); ("status_changed_callback", VO 31);
                         ("_position", VP (PInt 3)); ("_status", VO 19)]);
    (13, obj "FlowHead" [("uid", VP (PStr "h2")); ("flow_state_uid", VP (PStr "a")); ("matching_scores", VO 23);
                         ("scope_uids", VO 23); ("child_head_uids", VO 23); ("catch_pattern_failure_label", VO 23);
                         ("position_changed_callback", VO 32); ("status_changed_callback", VO 33);
                         ("_position", VP (PInt 1)); ("_status", VO 19)]);
    (14, obj "FlowHead" [("uid", VP (PStr "h3")); ("flow_state_uid", VP (PStr "a")); ("matching_scores", VO 23);
                         ("scope_uids", VO 23); ("child_head_uids", VO 23); ("catch_pattern_failure_label", VO 23);
                         ("position_changed_callback", VO 34); ("status_changed_callback", VO 35);
                         ("_position", VP (PInt 2)); ("_status", VO 19)]);
    (19, mk (HEnum "FlowHeadStatus" "ACTIVE") []);
    (20, mk (HDict []) []);
    (21, mk (HDict [KS "u"]) [VO 5]);
    (22, mk HDeque []);
    (23, mk HList []);
    (24, mk (HDict [KS "main"; KS "a"]) [VO 36; VO 37]);
    (25, mk (HDict [KS "E"]) [VO 38]);
    (26, mk HList [VP (PStr "u")]);
    (27, mk HList [VP (PStr "a")]);
    (28, mk (HDatetime "2026-01-01T00:00:00") []);
    (29, mk (HDict [KS "tags"]) [VO 7]);
    (30, cbp 2); (31, cbp 2); (32, cbp 3); (33, cbp 3); (34, cbp 3); (35, cbp 3);
    (36, mk HList [VO 2]); (37, mk HList [VO 3]);
    (38, mk HList [VO 39]); (39, mk HTuple [VP (PStr "a"); VP (PStr "h2")]) ].

Definition rk_st : id -> nat :=
  rank_tbl [(0, 9%nat); (1, 8%nat); (24, 8%nat); (36, 7%nat); (37, 7%nat); (2, 6%nat); (3, 6%nat); (4, 3%nat); (10, 3%nat);
            (6, 5%nat); (11, 5%nat); (21, 5%nat); (5, 4%nat); (29, 3%nat); (12, 2%nat); (13, 2%nat); (14, 2%nat);
            (25, 3%nat); (38, 2%nat); (39, 1%nat); (26, 1%nat); (27, 1%nat)].

Example st_supported : supported flags_fixed classes_now h_st (VO 0) = true.
Proof. vm_compute. reflexivity. Qed.

Example st_acyclic : acyclic h_st rk_st.
Proof. apply acyclicb_sound. vm_compute. reflexivity. Qed.

Example st_rank : (rank_of rk_st (VO 0%Z) < 50)%nat.
Proof. vm_compute. lia. Qed.

Example st_hyps : state_hyps h_st 0 = true.
Proof. vm_compute. reflexivity. Qed.

(* and the model really restores it: three heads, six fresh callbacks *)
Example st_restored :
  match encode flags_fixed 50 h_st (VO 0) with
  | Some j => match json_to_state flags_fixed classes_now 50 j with
              | Some (h2, VO s') => state_hyps h2 s'
              | _ => false
              end
  | None => false
  end = true.
Proof. vm_compute. reflexivity. Qed.

(* (T) the State / FlowState / FlowHead classes of the current source have the attributes the
   callback pass navigates *)
Lemma state_shape_in_source :
  (exists fs, class_fields classes_now "State" = Some fs /\ index_of "flow_states" fs <> None) /\
  (exists fs, class_fields classes_now "FlowState" = Some fs /\ index_of "heads" fs <> None) /\
  (exists fs, class_fields classes_now "FlowHead" = Some fs /\ index_of pos_f fs <> None /\ index_of stat_f fs <> None).
Proof.
  split; [|split]; eexists; (split; [vm_compute; reflexivity|]); vm_compute; repeat split; discriminate.
Qed.
