(* V2/Life_scope.v - the EndScope case (what it stops, its frame, the release of shared actions);
   sequences of lifetime operations (at most one Stop per action, ever); the Stop statement of
   one _abort_flow / _finish_flow call (`stop_once_statement`); deactivation of a reference
   instance (not the last / the last activator) and the end-of-slide guard; _abort_flow with
   restart_flow=False.

   The accounting of actions and Stop events only looks at the `acts` and `out` components;
   `Orel A` is `Srel` on states whose flows are erased, which makes the lemmas of
   Life_proofs.v reusable for scope_actions (= stop_actions + the release of shared actions,
   which only touches flows). *)
From Coq Require Import ZArith NArith List Bool Lia.
From NG Require Import V2.Life V2.Life_proofs.
Import ListNotations.
Open Scope N_scope.

Definition wf (s : st) (fl : list (uid * inst)) : st := mkSt fl (acts s) (out s).
Definition erase (s : st) : st := wf s [].

Definition Orel (A : uid -> Prop) (s s' : st) : Prop := Srel anyR A (erase s) (erase s').

Lemma orel_refl : forall A s, Orel A s s.
Proof. intros; apply Srel_refl. Qed.

Lemma orel_trans : forall A s1 s2 s3, Orel A s1 s2 -> Orel A s2 s3 -> Orel A s1 s3.
Proof. unfold Orel; intros; eapply Srel_trans; eauto. Qed.

Lemma srel_orel : forall (R A : uid -> Prop) s s', Srel R A s s' -> Orel A s s'.
Proof.
  intros R A s s' [_ Ac (delta & O & E & N)]. split.
  - intros x. simpl. exact I.
  - exact Ac.
  - exists delta. simpl. repeat split; auto.
    eapply Forall_impl; [|exact E]. intros e. apply emit_ok_weaken; unfold anyR; auto.
Qed.

Lemma orel_stops : forall A s s', Orel A s s' -> stops_spec A s s'.
Proof. intros A s s' H. apply (srel_stops _ _ _ _ H). Qed.

Lemma orel_acts_fwd : forall A s s' a c, Orel A s s' -> geta s a = Some c ->
  exists c', geta s' a = Some c' /\ arel A a c c'.
Proof. intros A s s' a c H Hc. apply (srel_acts_fwd _ _ _ _ _ _ H Hc). Qed.

Lemma orel_acts : forall A s s' a, Orel A s s' ->
  match geta s a, geta s' a with
  | None, None => True
  | Some c, Some c' => arel A a c c'
  | _, _ => False
  end.
Proof. intros A s s' a O. exact (sr_acts _ _ _ _ O a). Qed.

Lemma erase_modf : forall s f g, erase (modf s f g) = erase s.
Proof. unfold modf; intros; destruct (getf s f); reflexivity. Qed.

Lemma scope_action_ok : forall rel f s a s', scope_action rel f s a = Ok s' ->
  exists c, geta s a = Some c /\
    s' = if active (a_status c) then
           if (a_count c - 1 =? 0)%Z then emit1 (seta s a (mkAct AStopping (a_count c - 1)%Z)) (EStop a)
           else (if rel then release_shared f a else fun t => t) (seta s a (mkAct (a_status c) (a_count c - 1)%Z))
         else s.
Proof.
  unfold scope_action; intros rel f s a s' H. destruct (geta s a) as [c|]; [|discriminate].
  exists c. split; auto.
  destruct (active (a_status c)); [|inversion H; auto].
  destruct (a_count c - 1 =? 0)%Z; [|destruct rel]; inversion H; auto.
Qed.

(* scope_action = stop_action, as far as actions and output are concerned *)
Lemma scope_action_erase : forall rel f s a s', scope_action rel f s a = Ok s' ->
  stop_action (erase s) a = Ok (erase s').
Proof.
  intros rel f s a s' H. destruct (scope_action_ok _ _ _ _ _ H) as (c & Ec & ->).
  unfold stop_action. change (geta (erase s) a) with (geta s a). rewrite Ec.
  destruct (active (a_status c)); auto.
  destruct (a_count c - 1 =? 0)%Z; auto.
  destruct rel; auto. unfold release_shared. rewrite erase_modf. auto.
Qed.

Lemma scope_actions_erase : forall rel f l s s', scope_actions rel f l s = Ok s' ->
  stop_actions l (erase s) = Ok (erase s').
Proof.
  induction l as [|a l IH]; simpl; intros s s' H; [inversion H; auto|].
  bind_inv H. rewrite (scope_action_erase _ _ _ _ _ Hb). simpl. eauto.
Qed.

Lemma scope_actions_orel : forall (A : uid -> Prop) rel f l s s',
  (forall a, In a l -> A a) -> scope_actions rel f l s = Ok s' -> Orel A s s'.
Proof.
  intros A rel f l s s' HA H. apply scope_actions_erase in H.
  eapply stop_actions_srel; eauto.
Qed.

(* what scope_actions does to the flows: only f, only its action list and scopes *)
Definition only_lists (i i' : inst) : Prop :=
  i_flow i' = i_flow i /\ i_status i' = i_status i /\ i_parent i' = i_parent i /\
  i_children i' = i_children i /\ i_activated i' = i_activated i /\ i_nis i' = i_nis i.

Lemma only_lists_refl : forall i, only_lists i i.
Proof. unfold only_lists; intros; repeat split; auto. Qed.

Lemma only_lists_trans : forall i1 i2 i3, only_lists i1 i2 -> only_lists i2 i3 -> only_lists i1 i3.
Proof. unfold only_lists; intros i1 i2 i3 (?&?&?&?&?&?) (?&?&?&?&?&?); repeat split; congruence. Qed.

Definition flows_but_lists (f : uid) (s s' : st) : Prop :=
  forall x, match getf s x, getf s' x with
            | None, None => True
            | Some i, Some i' => only_lists i i' /\ (x <> f -> i' = i)
            | _, _ => False
            end.

Lemma fbl_refl : forall f s, flows_but_lists f s s.
Proof. intros f s x; destruct (getf s x); auto using only_lists_refl. Qed.

Lemma fbl_trans : forall f s1 s2 s3, flows_but_lists f s1 s2 -> flows_but_lists f s2 s3 -> flows_but_lists f s1 s3.
Proof.
  intros f s1 s2 s3 H1 H2 x. specialize (H1 x). specialize (H2 x).
  destruct (getf s1 x), (getf s2 x), (getf s3 x); try tauto.
  destruct H1 as (O1 & N1), H2 as (O2 & N2). split; eauto using only_lists_trans.
  intros Hx. rewrite (N2 Hx), (N1 Hx); auto.
Qed.

Lemma fbl_modf : forall f s g, (forall i, only_lists i (g i)) -> flows_but_lists f s (modf s f g).
Proof.
  intros f s g Hg x. unfold modf. destruct (getf s f) as [fi|] eqn:Ef; [|apply fbl_refl].
  destruct (N.eq_dec f x) as [<-|Hne].
  - rewrite Ef, (getf_setf_same _ _ _ _ Ef). split; auto. tauto.
  - rewrite getf_setf_other; auto. destruct (getf s x); auto using only_lists_refl.
Qed.

Lemma fbl_same_flows : forall f s s', flows s' = flows s -> flows_but_lists f s s'.
Proof.
  intros f s s' H x. unfold getf. rewrite H. destruct (get x (flows s)); auto using only_lists_refl.
Qed.

Lemma scope_action_fbl : forall rel f s a s', scope_action rel f s a = Ok s' -> flows_but_lists f s s'.
Proof.
  intros rel f s a s' H. destruct (scope_action_ok _ _ _ _ _ H) as (c & Ec & ->).
  destruct (active (a_status c)); [|apply fbl_refl].
  destruct (a_count c - 1 =? 0)%Z; [apply fbl_same_flows; auto|].
  destruct rel; [|apply fbl_same_flows; auto].
  eapply fbl_trans; [apply (fbl_same_flows f s (seta s a (mkAct (a_status c) (a_count c - 1)%Z))); auto|].
  unfold release_shared. apply fbl_modf.
  intros i. unfold only_lists; simpl; repeat split; auto.
Qed.

Lemma scope_actions_fbl : forall rel f l s s', scope_actions rel f l s = Ok s' -> flows_but_lists f s s'.
Proof.
  induction l as [|a l IH]; simpl; intros s s' H; [inversion H; apply fbl_refl|].
  bind_inv H. eapply fbl_trans; [eapply scope_action_fbl; eauto|eauto].
Qed.

Lemma fbl_lst : forall f s s' x, flows_but_lists f s s' -> lst s' x = lst s x.
Proof.
  intros f s s' x H. specialize (H x). unfold lst.
  destruct (getf s x), (getf s' x); try tauto. destruct H as ((_ & Hs & _) & _). rewrite Hs; auto.
Qed.

Lemma fbl_ranked : forall rk f s s', flows_but_lists f s s' -> ranked rk s -> ranked rk s'.
Proof.
  intros rk f s s' H Hr x i' c E' Hin. specialize (H x). rewrite E' in H.
  destruct (getf s x) as [i|] eqn:E; try tauto. destruct H as ((_ & _ & _ & Hc & _) & _).
  eapply Hr; eauto. rewrite <- Hc; auto.
Qed.

Lemma scope_flows_seg : forall rk n Z l s s',
  ranked rk s -> Zinv Z s -> scope_flows (abort n) l s = Ok s' ->
  Seg Z s s' /\ (forall c, In c l -> lst s' c = false).
Proof.
  induction l as [|c l IH]; simpl; intros s s' Hr HZ H.
  - inversion H; split; [apply seg_refl|tauto].
  - destruct (getf s c) as [ci|] eqn:E.
    + destruct (listening (i_status ci)) eqn:El.
      * bind_inv H.
        destruct (abort_good rk n Z _ _ _ _ Hr HZ Hb) as (G1 & Hp).
        assert (S1 : Srel anyR anyA s s0) by apply G1.
        destruct (IH _ _ (srel_ranked _ _ _ _ _ S1 Hr) (zinv_mono _ _ _ _ _ S1 HZ) H) as (G2 & Hd).
        split; [eapply seg_trans; eauto|].
        intros c' [<-|Hin]; auto.
        eapply lst_mono; [apply G2|]. apply lst_lv. apply Hp.
        rewrite (proceeds_eq _ _ false _ false E eq_refl). auto.
      * destruct (IH _ _ Hr HZ H) as (G & Hd). split; auto.
        intros c' [<-|Hin]; auto.
        eapply lst_mono; [apply G|]. unfold lst. rewrite E. auto.
    + destruct (IH _ _ Hr HZ H) as (G & Hd). split; auto.
      intros c' [<-|Hin]; auto.
      unfold lst. destruct G as (S & _). rewrite (srel_none _ _ _ _ _ S E); auto.
Qed.

(* the subtrees of the flows registered in the scope *)
Definition scope_region (s : st) (fl : list uid) : uid -> Prop :=
  fun x => exists c, In c fl /\ reach s c x.
Definition scope_actions_region (s : st) (fl al : list uid) : uid -> Prop :=
  fun a => In a al \/ exists c, In c fl /\ owned s c a.

Lemma scope_region_closed : forall s fl, closed (scope_region s fl) s.
Proof. intros s fl x i c (c0 & Hin & Hr) E Hc. exists c0; split; auto. eapply reach_child; eauto. Qed.

Lemma scope_region_owns : forall s fl al, owns (scope_region s fl) (scope_actions_region s fl al) s.
Proof. intros s fl al x i a (c0 & Hin & Hr) E Ha. right. exists c0; split; auto. exists x, i; auto. Qed.

Lemma end_scope_ok : forall rel n s f name s', end_scope rel n s f name = Ok s' ->
  exists i fl al rest s0, getf s f = Some i /\ pop_scope name (i_scopes i) = Some ((fl, al), rest) /\
    scope_flows (abort n) fl (modf s f (set_scopes rest)) = Ok s0 /\ scope_actions rel f al s0 = Ok s'.
Proof.
  unfold end_scope; intros rel n s f name s' H. destruct (getf s f) as [i|]; [|discriminate].
  destruct (pop_scope name (i_scopes i)) as [[[fl al] rest]|] eqn:Hpop; [|discriminate].
  bind_inv H. exists i, fl, al, rest, s0. auto.
Qed.

(* popping the scope leaves children and action lists alone, so regions of s serve for it *)
Lemma scope_flows_pop : forall rk n (R A : uid -> Prop) s f rest fl s0,
  ranked rk s -> closed R s -> owns R A s -> Forall R fl ->
  scope_flows (abort n) fl (modf s f (set_scopes rest)) = Ok s0 ->
  ranked rk (modf s f (set_scopes rest)) /\ Srel R A (modf s f (set_scopes rest)) s0.
Proof.
  intros rk n R A s f rest fl s0 Hr Hc Ho Hfl H.
  assert (Hrp : ranked rk (modf s f (set_scopes rest))) by (apply modf_ranked; auto).
  split; auto.
  eapply (scope_flows_srel rk (abort n) (abort_srel rk n) R A fl); eauto using closed_modf, owns_modf.
Qed.

(* EndScope(name) in flow f, with or without the release of shared actions:
   (1) every flow registered in the scope is not listening afterwards;
   (2) Stop accounting: per action at most one Stop, exactly for the actions that were
       STARTING/STARTED and end up STOPPING with count 0, and only for actions of the scope or
       of the stopped flows;
   (3) every unfinished action registered in the scope gives up one share;
   (4) whole-state frame: instances outside the subtrees of the scope's flows keep everything
       (children lists lose only stopped instances) - f itself keeps status, children,
       activated; actions outside the scope and those subtrees are unchanged. *)
Theorem end_scope_spec : forall rk rel n s f name s' i fl al rest,
  ranked rk s -> getf s f = Some i -> pop_scope name (i_scopes i) = Some ((fl, al), rest) ->
  end_scope rel n s f name = Ok s' ->
  (forall c, In c fl -> lst s' c = false) /\
  stops_spec (scope_actions_region s fl al) s s' /\
  (forall a c, In a al -> geta s a = Some c -> active (a_status c) = true ->
     exists c', geta s' a = Some c' /\ (a_count c' < a_count c)%Z) /\
  (forall a, ~ scope_actions_region s fl al a -> geta s' a = geta s a) /\
  (forall x, ~ scope_region s fl x ->
     match getf s x, getf s' x with
     | None, None => True
     | Some xi, Some xi' =>
         i_flow xi' = i_flow xi /\ i_status xi' = i_status xi /\ i_parent xi' = i_parent xi /\
         i_activated xi' = i_activated xi /\ i_nis xi' = i_nis xi /\
         (forall c, In c (i_children xi') -> In c (i_children xi)) /\
         (forall c, ~ scope_region s fl c ->
            count_occ N.eq_dec (i_children xi') c = count_occ N.eq_dec (i_children xi) c) /\
         (x <> f -> i_actions xi' = i_actions xi /\ i_scopes xi' = i_scopes xi)
     | _, _ => False
     end).
Proof.
  intros rk rel n s f name s' i fl al rest Hr E Hpop H.
  destruct (end_scope_ok _ _ _ _ _ _ H) as (i' & fl' & al' & rest' & s0 & E' & Hpop' & Hb & Ha).
  rewrite E in E'. inversion E'; subst i'. rewrite Hpop in Hpop'. inversion Hpop'; subst fl' al' rest'.
  set (sp := modf s f (set_scopes rest)) in *.
  set (R := scope_region s fl). set (A := scope_actions_region s fl al).
  destruct (scope_flows_pop rk n R A s f rest fl s0 Hr (scope_region_closed s fl) (scope_region_owns s fl al))
    as (Hrp & S1); auto.
  { apply Forall_forall. intros c Hin. exists c; split; auto. apply reach_self. }
  destruct (scope_flows_seg rk n (act0 sp) _ _ _ Hrp (act0_zinv sp) Hb) as (_ & Hdone).
  assert (O2 : Orel A s0 s') by (eapply scope_actions_orel; eauto; intros a Hin; left; auto).
  pose proof (scope_actions_fbl _ _ _ _ _ Ha) as F2.
  assert (O : Orel A s s').
  { eapply orel_trans; [|eapply orel_trans; [eapply srel_orel; exact S1|exact O2]].
    unfold Orel, sp. rewrite erase_modf. apply Srel_refl. }
  repeat match goal with |- _ /\ _ => split end.
  - intros c Hin. rewrite (fbl_lst _ _ _ _ F2). auto.
  - exact (orel_stops _ _ _ O).
  - intros a c Hin Hc Hact. rewrite <- (geta_modf s f (set_scopes rest)) in Hc.
    destruct (srel_acts_fwd _ _ _ _ _ _ S1 Hc) as (c0 & Hc0 & [->|(_ & _ & Hlt & _)]).
    + exact (stop_actions_decr _ _ _ (scope_actions_erase _ _ _ _ _ Ha) a c Hin Hc0 Hact).
    + destruct (srel_count_le _ _ _ _ _ _ O2 Hc0) as (c' & Hc' & Hle). exists c'; split; auto; lia.
  - exact (proj1 (proj2 (proj2 (srel_frame _ _ _ _ O)))).
  - intros x Hx. specialize (F2 x).
    assert (P := fbl_modf f s (set_scopes rest) (fun i => conj eq_refl (conj eq_refl (conj eq_refl
                   (conj eq_refl (conj eq_refl eq_refl))))) x). fold sp in P.
    destruct (getf s x) as [xi|], (getf sp x) as [xp|] eqn:Ep; try tauto.
    + destruct (srel_outside _ _ _ _ _ _ S1 Hx Ep)
        as (x0 & E0 & (F1f & F1st & F1p & F1a & F1s & F1act & F1nis) & F1c & F1k).
      rewrite E0 in F2. destruct (getf s' x) as [xi'|]; [|tauto].
      destruct P as ((Pf & Ps & Pp & Pc & Pa & Pn) & Pne), F2 as ((Ff & Fs & Fp & Fc & Fa & Fn) & Fne).
      repeat match goal with |- _ /\ _ => split end; try congruence.
      * intros c Hc. rewrite Fc in Hc. rewrite <- Pc. auto.
      * intros c Hc. rewrite Fc, <- Pc. auto.
      * intros Hxf. rewrite (Fne Hxf). rewrite (Pne Hxf) in *. split; congruence.
    + rewrite (srel_none _ _ _ _ _ S1 Ep) in F2. exact F2.
Qed.

Inductive lop :=
| LAbort (f : uid) (d : bool)
| LFinish (f : uid) (d : bool)
| LEndScope (f : uid) (name : N)
| LEvent (k : akind) (a : uid).

Definition lstep (rel : bool) (fuel : nat) (s : st) (o : lop) : res st :=
  match o with
  | LAbort f d => abort fuel s f d
  | LFinish f d => finish fuel s f d
  | LEndScope f name => end_scope rel fuel s f name
  | LEvent k a => Ok (action_event k a s)
  end.

Fixpoint lrun (rel : bool) (fuel : nat) (l : list lop) (s : st) : res st :=
  match l with
  | [] => Ok s
  | o :: l' => bind (lstep rel fuel s o) (lrun rel fuel l')
  end.

(* a Start event for an action that already exists is not part of the lifetime layer (an action
   is started once, when it is created) *)
Definition allowed (o : lop) : Prop :=
  match o with LEvent KStart _ => False | _ => True end.

(* once an action has been sent a Stop its count is <= 0, so no later decrement reaches 0 *)
Definition StopInv (s : st) : Prop :=
  forall a, (nstops a (out s) <= 1)%nat /\
            (nstops a (out s) = 1%nat -> forall c, geta s a = Some c -> (a_count c <= 0)%Z).

Lemma orel_stopinv : forall A s s', Orel A s s' -> StopInv s -> StopInv s'.
Proof.
  intros A s s' O J a.
  destruct (orel_stops _ _ _ O) as (delta & Od & Hd).
  destruct (Hd a) as (H1 & H2 & _ & H4). destruct (J a) as (J1 & J2).
  rewrite Od, nstops_app.
  destruct (nstops a delta) as [|[|k]] eqn:En; try lia.
  - rewrite Nat.add_0_r. split; auto.
    intros Hn c' Hc'.
    pose proof (orel_acts _ _ _ a O) as Ac.
    rewrite Hc' in Ac. destruct (geta s a) as [c|] eqn:Hc; try tauto.
    pose proof (arel_count_le _ _ _ _ Ac). specialize (J2 Hn c eq_refl). lia.
  - destruct H2 as (H2 & _). destruct (H2 eq_refl) as ((c & Hc & Hact) & Hg).
    assert (Hz : nstops a (out s) = 0%nat).
    { destruct (nstops a (out s)) as [|[|k]] eqn:Es; auto; try lia.
      exfalso. specialize (J2 eq_refl c Hc).
      pose proof (orel_acts _ _ _ a O) as Ac.
      rewrite Hc, Hg in Ac. destruct Ac as [Heq|(_ & _ & Hlt & _)].
      - rewrite <- Heq in Hact. discriminate.
      - simpl in Hlt. lia. }
    rewrite Hz. split; [lia|].
    intros _ c' Hc'. rewrite Hg in Hc'. inversion Hc'; subst. simpl. lia.
Qed.

(* action events: flows and output unchanged; an invariant P of the counts that process_event
   respects is kept *)
Definition ev_rel (P : act -> Prop) (s s' : st) : Prop :=
  flows s' = flows s /\ out s' = out s /\
  (forall b, geta s b = None -> geta s' b = None) /\
  (forall b c, geta s b = Some c -> exists c', geta s' b = Some c' /\ (P c -> P c')).

Lemma ev_rel_refl : forall P s, ev_rel P s s.
Proof. intros P s. repeat split; eauto. Qed.

Lemma ev_rel_trans : forall P s1 s2 s3, ev_rel P s1 s2 -> ev_rel P s2 s3 -> ev_rel P s1 s3.
Proof.
  intros P s1 s2 s3 (F1 & O1 & N1 & G1) (F2 & O2 & N2 & G2). repeat split; try congruence; auto.
  intros b c Hc. destruct (G1 b c Hc) as (c1 & Hc1 & P1). destruct (G2 b c1 Hc1) as (c2 & Hc2 & P2). eauto.
Qed.

Lemma fold_left_ev_rel : forall P (X : Type) (g : st -> X -> st) l s,
  (forall s x, ev_rel P s (g s x)) -> ev_rel P s (fold_left g l s).
Proof.
  intros P X g l. induction l as [|x l IH]; simpl; intros s Hg; [apply ev_rel_refl|].
  eapply ev_rel_trans; [apply Hg|apply IH; auto].
Qed.

Lemma visit_spec : forall (P : act -> Prop) k a s a',
  (forall c, P c -> P (process_event k c)) -> ev_rel P s (visit k a s a').
Proof.
  intros P k a s a' HP. unfold visit.
  destruct (N.eqb a' a); [|apply ev_rel_refl].
  destruct (geta s a') as [c0|] eqn:E0; [|apply ev_rel_refl].
  destruct (astatus_eqb (a_status c0) AFinished); [apply ev_rel_refl|].
  repeat split; auto.
  - intros b Hb. destruct (N.eq_dec a' b) as [<-|Hne]; [congruence|]. rewrite geta_seta_other; auto.
  - intros b c Hc. destruct (N.eq_dec a' b) as [<-|Hne].
    + rewrite (geta_seta_same _ _ _ _ E0). rewrite E0 in Hc; inversion Hc; subst. eauto.
    + rewrite geta_seta_other; eauto.
Qed.

Lemma action_event_spec : forall (P : act -> Prop) k a s,
  (forall c, P c -> P (process_event k c)) ->
  flows (action_event k a s) = flows s /\ out (action_event k a s) = out s /\
  (forall b, geta s b = None -> geta (action_event k a s) b = None) /\
  (forall b c, geta s b = Some c -> exists c', geta (action_event k a s) b = Some c' /\ (P c -> P c')).
Proof.
  intros P k a s HP. apply (fold_left_ev_rel P). intros s1 xi.
  destruct (listening (i_status (snd xi))); [|apply ev_rel_refl].
  apply fold_left_ev_rel. intros; apply visit_spec; auto.
Qed.

Lemma flows_ranked : forall rk s s', flows s' = flows s -> ranked rk s -> ranked rk s'.
Proof. intros rk s s' H Hr x i c E. unfold getf in E. rewrite H in E. eapply Hr; eauto. Qed.

Lemma end_scope_orel_ranked : forall rk rel n s f name s',
  ranked rk s -> end_scope rel n s f name = Ok s' -> Orel anyA s s' /\ ranked rk s'.
Proof.
  intros rk rel n s f name s' Hr H.
  destruct (end_scope_ok _ _ _ _ _ _ H) as (i & fl & al & rest & s0 & E & Hpop & Hb & Ha).
  destruct (scope_flows_pop rk n anyR anyA s f rest fl s0 Hr (anyR_closed s) (anyA_owns _ s)) as (Hrp & S1); auto.
  { apply Forall_forall; intros; exact I. }
  split.
  - eapply orel_trans; [|eapply orel_trans; [eapply srel_orel; exact S1|]].
    + unfold Orel. rewrite erase_modf. apply Srel_refl.
    + eapply scope_actions_orel; eauto. intros; exact I.
  - eapply fbl_ranked; [eapply scope_actions_fbl; eauto|]. eapply srel_ranked; eauto.
Qed.

Lemma lstep_orel : forall rk rel fuel s o s', ranked rk s -> lstep rel fuel s o = Ok s' ->
  match o with
  | LEvent k a => s' = action_event k a s
  | _ => Orel anyA s s' /\ ranked rk s'
  end.
Proof.
  intros rk rel fuel s o s' Hr H. destruct o as [f d|f d|f name|k a]; simpl in H.
  - assert (S : SrelT s s') by (eapply abort_srel; eauto using anyR_closed, anyA_owns; exact I).
    eauto using srel_orel, srel_ranked.
  - assert (S : SrelT s s') by (eapply finish_srel; eauto using anyR_closed, anyA_owns; exact I).
    eauto using srel_orel, srel_ranked.
  - eapply end_scope_orel_ranked; eauto.
  - inversion H; auto.
Qed.

Lemma lstep_inv : forall rk rel fuel s o s',
  ranked rk s -> allowed o -> lstep rel fuel s o = Ok s' -> StopInv s -> StopInv s' /\ ranked rk s'.
Proof.
  intros rk rel fuel s o s' Hr Ha H J. pose proof (lstep_orel _ _ _ _ _ _ Hr H) as L.
  destruct o as [f d|f d|f name|k a]; try (destruct L as (O & Hr'); eauto using orel_stopinv).
  subst s'.
  destruct (action_event_spec (fun c => (a_count c <= 0)%Z) k a s) as (F & O & Nn & G).
  { intros c Hc. destruct k; simpl in *; auto; try lia; try contradiction. }
  split; [|eapply flows_ranked; eauto].
  intros b. rewrite O. destruct (J b) as (J1 & J2). split; auto.
  intros Hn c' Hc'. destruct (geta s b) as [c|] eqn:Hc.
  - destruct (G b c Hc) as (c'' & Hc'' & HP). rewrite Hc' in Hc''. inversion Hc''; subst. apply HP. eauto.
  - rewrite (Nn b Hc) in Hc'. discriminate.
Qed.

(* over any sequence of the modelled operations no action is ever sent a second Stop *)
Theorem trace_stop_once : forall rk rel fuel ops s s',
  ranked rk s -> Forall allowed ops -> lrun rel fuel ops s = Ok s' -> StopInv s -> StopInv s'.
Proof.
  intros rk rel fuel ops. induction ops as [|o ops IH]; simpl; intros s s' Hr Ha H J.
  - inversion H; subst; auto.
  - inversion Ha; subst. bind_inv H.
    destruct (lstep_inv _ _ _ _ _ _ Hr H2 Hb J) as (J0 & Hr0). eauto.
Qed.

Lemma StopInv_nil : forall s, out s = [] -> StopInv s.
Proof. intros s H a. rewrite H. simpl. split; [lia|discriminate]. Qed.

(* ... and every Stop is emitted for an action that is STARTING or STARTED at that moment *)
Theorem step_stop_only_active : forall rk rel fuel s o s',
  ranked rk s -> lstep rel fuel s o = Ok s' ->
  exists delta, out s' = out s ++ delta /\
    forall a, (nstops a delta >= 1)%nat ->
      (exists c, geta s a = Some c /\ active (a_status c) = true) /\
      geta s' a = Some (mkAct AStopping 0%Z).
Proof.
  intros rk rel fuel s o s' Hr H. pose proof (lstep_orel _ _ _ _ _ _ Hr H) as L.
  assert (O : Orel anyA s s' \/ out s' = out s).
  { destruct o as [f d|f d|f name|k a]; try (left; exact (proj1 L)).
    right. subst s'. exact (proj1 (proj2 (action_event_spec (fun _ => True) k a s (fun _ _ => I)))). }
  destruct O as [O|O].
  - destruct (orel_stops _ _ _ O) as (delta & Od & Hd). exists delta; split; auto.
    intros a Hn. destruct (Hd a) as (H1 & H2 & _). apply H2. lia.
  - exists []. rewrite app_nil_r. split; auto. simpl. intros a Hn. lia.
Qed.

(* an activator ends while others remain: the count is decremented, nothing else happens *)
Theorem deactivate_not_last : forall n s f i,
  getf s f = Some i -> is_ref_activated s i = Ok true -> i_activated i <> 1%Z ->
  abort (S n) s f true = Ok (modf s f (set_activated (i_activated i - 1)%Z)) /\
  finish n s f true = Ok (modf s f (set_activated (i_activated i - 1)%Z)).
Proof.
  intros n s f i E Href Hne. simpl. unfold finish, prologue, deactivate. rewrite E, Href. simpl.
  destruct (i_activated i - 1 =? 0)%Z eqn:Ez; [apply Z.eqb_eq in Ez; lia|]. simpl. auto.
Qed.

(* the last activator ends: the count reaches 0 and the instance is not running afterwards *)
Theorem deactivate_last : forall rk n s f s' i,
  ranked rk s -> getf s f = Some i -> is_ref_activated s i = Ok true -> i_activated i = 1%Z ->
  abort n s f true = Ok s' ->
  lv s' f = false /\ exists i', getf s' f = Some i' /\ i_activated i' = 0%Z.
Proof.
  intros rk n s f s' i Hr E Href Hone H.
  assert (Hp : proceeds s f true = true) by (rewrite (proceeds_eq _ _ true _ true E Href), Hone; auto).
  split; [exact (proj2 (abort_good rk n (act0 s) _ _ _ _ Hr (act0_zinv s) H) Hp)|].
  destruct n as [|n]; [discriminate|]. rewrite abort_ending in H.
  destruct (ending_ok _ _ _ _ _ _ _ H) as (s3 & go & Hpr & He).
  destruct (prologue_spec rk (abort n) (abort_srel rk n) _ _ _ _ _ _ _ Hr E Hpr) as (isref & Hi & _ & S & _).
  unfold ref_deact in Hi. rewrite Href in Hi. inversion Hi; subst isref.
  destruct (dec_self _ _ _ _ _ _ _ S (Nat.lt_irrefl _) E) as (i3 & E3 & _ & _ & _ & _ & _ & Av & _).
  rewrite Hone in Av. simpl in Av.
  destruct go; [|inversion He; subst; eauto].
  destruct (epilogue_abort_fields _ _ _ _ _ He E3) as (i' & E' & _ & Ha'). exists i'; split; auto. congruence.
Qed.

(* the end-of-slide guard: an activated flow that reaches its end without ever having waited
   (status STARTING) is marked STARTED and is NOT finished - it runs once and stays activated;
   every other flow that reaches its end is finished *)
Theorem end_of_slide_activated : forall activated waiting,
  (0 < activated)%Z -> end_of_slide FStarting activated true waiting = (FStarted, true, false).
Proof. intros a w H. unfold end_of_slide. simpl. apply Z.ltb_lt in H. rewrite H. auto. Qed.

Theorem end_of_slide_finishes : forall status activated waiting,
  (status <> FStarting \/ (activated <= 0)%Z) ->
  snd (end_of_slide status activated true waiting) = true.
Proof.
  intros st a w H. unfold end_of_slide. simpl.
  destruct st; simpl; auto. destruct H as [H|H]; [congruence|].
  destruct (0 <? a)%Z eqn:E; auto. apply Z.ltb_lt in E. lia.
Qed.

(* The release of shared actions at a scope end (rel = true): afterwards the flow no longer
   holds the action, so neither an outer scope end nor the end of the flow can give up the
   same share a second time *)

Definition held (s : st) (f a : uid) : Prop :=
  exists i, getf s f = Some i /\
    (In a (i_actions i) \/ exists sc, In sc (i_scopes i) /\ In a (snd (snd sc))).

Definition nodup_actions (s : st) (f : uid) : Prop :=
  forall i, getf s f = Some i -> NoDup (i_actions i).

Lemma remove1_nodup : forall x l r, remove1 x l = Some r -> NoDup l -> NoDup r /\ ~ In x r.
Proof.
  induction l as [|y l IH]; simpl; intros r H Hn; try discriminate.
  inversion Hn; subst.
  destruct (N.eqb x y) eqn:E.
  - apply N.eqb_eq in E; subst. inversion H; subst. auto.
  - destruct (remove1 x l) as [r'|] eqn:E1; try discriminate. inversion H; subst.
    destruct (IH _ eq_refl H3) as (Hn' & Hx). split.
    + constructor; auto. intros Hin. apply H2. eapply remove1_in; eauto.
    + intros [->|Hin]; [rewrite N.eqb_refl in E; discriminate|auto].
Qed.

Lemma remove1_none_notin : forall x l, remove1 x l = None -> ~ In x l.
Proof.
  induction l as [|y l IH]; simpl; intros H; auto.
  destruct (N.eqb x y) eqn:E; try discriminate.
  destruct (remove1 x l) eqn:E1; try discriminate.
  intros [->|Hin]; [rewrite N.eqb_refl in E; discriminate|apply IH; auto].
Qed.

Lemma remove1_opt_spec : forall x l, NoDup l ->
  NoDup (remove1_opt x l) /\ ~ In x (remove1_opt x l) /\ (forall y, In y (remove1_opt x l) -> In y l).
Proof.
  intros x l Hn. unfold remove1_opt. destruct (remove1 x l) as [r|] eqn:E.
  - destruct (remove1_nodup _ _ _ E Hn). repeat split; auto. intros y Hy. eapply remove1_in; eauto.
  - repeat split; auto. apply remove1_none_notin; auto.
Qed.

Lemma release_self : forall f a s i', getf (release_shared f a s) f = Some i' ->
  exists i, getf s f = Some i /\ i_actions i' = remove1_opt a (i_actions i) /\
    forall b, (exists sc, In sc (i_scopes i') /\ In b (snd (snd sc))) ->
      b <> a /\ exists sc, In sc (i_scopes i) /\ In b (snd (snd sc)).
Proof.
  unfold release_shared; intros f a s i' E'. rewrite getf_modf, N.eqb_refl in E'.
  destruct (getf s f) as [i|]; inversion E'; subst i'. exists i. split; [auto|split; [auto|]].
  intros b (sc & Hsc & Hin). apply in_map_iff in Hsc. destruct Hsc as (sc0 & <- & Hsc0).
  apply filter_In in Hin. simpl in Hin.
  split; [intros ->; rewrite N.eqb_refl in Hin; destruct Hin; discriminate|exists sc0; tauto].
Qed.

Lemma release_not_held : forall f a s, nodup_actions s f -> ~ held (release_shared f a s) f a.
Proof.
  intros f a s Hn (i' & E' & Hh). destruct (release_self _ _ _ _ E') as (i & E & Ha & Hs).
  destruct (remove1_opt_spec a (i_actions i) (Hn _ E)) as (_ & Hx & _). rewrite Ha in Hh.
  destruct Hh as [Hh|Hh]; [contradiction|]. exact (proj1 (Hs a Hh) eq_refl).
Qed.

Lemma release_held_mono : forall f a b s, held (release_shared f b s) f a -> held s f a.
Proof.
  intros f a b s (i' & E' & Hh). destruct (release_self _ _ _ _ E') as (i & E & Ha & Hs).
  exists i; split; auto. rewrite Ha in Hh. destruct Hh as [Hh|Hh]; [left|right; apply Hs; auto].
  unfold remove1_opt in Hh. destruct (remove1 b (i_actions i)) eqn:Er; eauto using remove1_in.
Qed.

Lemma release_nodup : forall f b s, nodup_actions s f -> nodup_actions (release_shared f b s) f.
Proof.
  intros f b s Hn i' E'. destruct (release_self _ _ _ _ E') as (i & E & Ha & _).
  rewrite Ha. apply (remove1_opt_spec b (i_actions i) (Hn _ E)).
Qed.

Lemma held_same_flows : forall s s' f a, flows s' = flows s -> held s' f a -> held s f a.
Proof. intros s s' f a H (i & E & Hh). exists i; split; auto. unfold getf in *. rewrite <- H; auto. Qed.

Lemma nodup_same_flows : forall s s' f, flows s' = flows s -> nodup_actions s f -> nodup_actions s' f.
Proof. intros s s' f H Hn i E. apply Hn. unfold getf in *. rewrite <- H; auto. Qed.

Lemma scope_action_held : forall f s b s' a, scope_action true f s b = Ok s' ->
  nodup_actions s f ->
  nodup_actions s' f /\ (held s' f a -> held s f a) /\
  (forall c c', geta s b = Some c -> active (a_status c) = true -> geta s' b = Some c' ->
     active (a_status c') = true -> ~ held s' f b).
Proof.
  intros f s b s' a H Hn. destruct (scope_action_ok _ _ _ _ _ H) as (c & Ec & ->).
  destruct (active (a_status c)) eqn:Eact.
  2:{ repeat split; auto. intros c0 c' Hc0 Hact0. rewrite Ec in Hc0. inversion Hc0; subst. congruence. }
  destruct (a_count c - 1 =? 0)%Z eqn:Ez.
  - repeat split.
    + eapply nodup_same_flows; eauto; reflexivity.
    + apply held_same_flows; reflexivity.
    + intros c0 c' _ _ Hc' Hact'. rewrite geta_emit1, (geta_seta_same _ _ _ _ Ec) in Hc'.
      inversion Hc'; subst. discriminate.
  - set (s1 := seta s b (mkAct (a_status c) (a_count c - 1)%Z)).
    assert (Hn1 : nodup_actions s1 f) by (eapply nodup_same_flows; eauto; reflexivity).
    repeat split.
    + apply release_nodup; auto.
    + intros Hh. apply release_held_mono in Hh. eapply held_same_flows; eauto; reflexivity.
    + intros _ _ _ _ _ _. apply release_not_held; auto.
Qed.

Lemma scope_actions_held : forall f a l s s',
  scope_actions true f l s = Ok s' -> nodup_actions s f -> held s' f a -> held s f a.
Proof.
  induction l as [|b l IH]; simpl; intros s s' H Hn Hh; [inversion H; subst; auto|].
  bind_inv H. destruct (scope_action_held _ _ _ _ a Hb Hn) as (Hn0 & Hm & _). eauto.
Qed.

Lemma scope_actions_release : forall f l s s',
  scope_actions true f l s = Ok s' -> nodup_actions s f ->
  forall a c c', In a l -> geta s a = Some c -> active (a_status c) = true ->
    geta s' a = Some c' -> active (a_status c') = true -> ~ held s' f a.
Proof.
  induction l as [|b l IH]; simpl; intros s s' H Hn a c c' Hin Hc Hact Hc' Hact'; [tauto|].
  bind_inv H.
  destruct (scope_action_held _ _ _ _ a Hb Hn) as (Hn0 & _ & Hrel).
  assert (O1 : Orel anyA s0 s') by (eapply scope_actions_orel; eauto; intros; exact I).
  assert (O0 : Orel anyA s s0) by exact (srel_stop_action _ _ _ _ _ I (scope_action_erase _ _ _ _ _ Hb)).
  destruct (orel_acts_fwd _ _ _ _ _ O0 Hc) as (c0 & Hc0 & Hr0).
  assert (Hact0 : active (a_status c0) = true).
  { destruct (orel_acts_fwd _ _ _ _ _ O1 Hc0) as (c'' & Hc'' & Hr1).
    rewrite Hc' in Hc''. inversion Hc''; subst c''.
    destruct Hr1 as [->|(_ & H1 & _)]; auto. }
  destruct (in_dec N.eq_dec a l) as [Hin'|Hnin]; [eapply IH; eauto|].
  destruct Hin as [<-|Hin]; [|contradiction].
  intros Hh. apply (Hrel c c0 Hc Hact Hc0 Hact0). eapply scope_actions_held; eauto.
Qed.

(* EndScope with the release: a shared action of the scope that is still running afterwards
   is no longer held by f (not in action_uids, in none of its open scopes) *)
Theorem end_scope_releases : forall rk n s f name s' i fl al rest,
  ranked rk s -> getf s f = Some i -> NoDup (i_actions i) ->
  pop_scope name (i_scopes i) = Some ((fl, al), rest) ->
  end_scope true n s f name = Ok s' ->
  forall a c', In a al -> geta s' a = Some c' -> active (a_status c') = true -> ~ held s' f a.
Proof.
  intros rk n s f name s' i fl al rest Hr E Hnd Hpop H a c' Hin Hc' Hact'.
  destruct (end_scope_ok _ _ _ _ _ _ H) as (i' & fl' & al' & rest' & s0 & E' & Hpop' & Hb & Ha).
  rewrite E in E'. inversion E'; subst i'. rewrite Hpop in Hpop'. inversion Hpop'; subst fl' al' rest'.
  destruct (scope_flows_pop rk n anyR anyA s f rest fl s0 Hr (anyR_closed s) (anyA_owns _ s)) as (_ & S1); auto.
  { apply Forall_forall; intros; exact I. }
  assert (Hn0 : nodup_actions s0 f).
  { intros i0 E0. destruct (srel_bwd _ _ _ _ _ _ S1 E0) as (ip & Ep & Hrel).
    rewrite (getf_modf_same _ _ _ _ E) in Ep. inversion Ep; subst. rewrite (irel_actions _ _ _ _ Hrel). auto. }
  assert (O2 : Orel anyA s0 s') by (eapply scope_actions_orel; eauto; intros; exact I).
  pose proof (orel_acts _ _ _ a O2) as Ac.
  rewrite Hc' in Ac. destruct (geta s0 a) as [c0|] eqn:Hc0; [|tauto].
  assert (Hact0 : active (a_status c0) = true) by (destruct Ac as [->|(_ & H1 & _)]; auto).
  exact (scope_actions_release _ _ _ _ Ha Hn0 a c0 c' Hin Hc0 Hact0 Hc' Hact').
Qed.

(* an unfinished action whose count is 1 and that gives up a share is stopped *)
Lemma last_share_stopped : forall (A : uid -> Prop) a c c',
  arel A a c c' -> a_count c = 1%Z -> (a_count c' < a_count c)%Z -> c' = mkAct AStopping 0%Z.
Proof.
  intros A a c c' [->|(_ & _ & _ & [(_ & _ & Hpos)|(Hs & Hz)])] H1 Hlt; try lia.
  destruct c'; simpl in *; subst; auto.
Qed.

(* the whole statement about Stop events of one _abort_flow / _finish_flow call *)
Definition stop_once_statement (run : st -> uid -> bool -> res st) (needs : fstatus -> bool) : Prop :=
  forall rk s f d s', ranked rk s -> run s f d = Ok s' ->
    exists delta, out s' = out s ++ delta /\
      (* at most one Stop per action; exactly for the actions that were STARTING/STARTED and are
         STOPPING with count 0 afterwards; only for actions owned inside the subtree of f *)
      (forall a, (nstops a delta <= 1)%nat /\
                 (nstops a delta = 1%nat <->
                    (exists c, geta s a = Some c /\ active (a_status c) = true) /\
                    geta s' a = Some (mkAct AStopping 0%Z)) /\
                 (nstops a delta = 1%nat -> owned s f a) /\
                 (nstops a delta = 0%nat -> ast s' a = ast s a)) /\
      (* every unfinished action of the ending instance gives up one share; if it was the last
         share (count 1) the action gets its Stop; if other flows still share it (count stays
         positive) it gets none *)
      (forall i, getf s f = Some i -> proceeds s f d = true -> needs (i_status i) = true ->
         forall a c, In a (i_actions i) -> geta s a = Some c -> active (a_status c) = true ->
           exists c', geta s' a = Some c' /\ (a_count c' < a_count c)%Z /\
                      (a_count c = 1%Z -> nstops a delta = 1%nat) /\
                      ((0 < a_count c')%Z -> nstops a delta = 0%nat /\ a_status c' = a_status c)).

Lemma stop_once_generic : forall (run : st -> uid -> bool -> res st) (needs : fstatus -> bool),
  (forall rk s f d s', ranked rk s -> run s f d = Ok s' -> Srel (reach s f) (owned s f) s s') ->
  (forall rk s f d s' i, ranked rk s -> run s f d = Ok s' -> proceeds s f d = true -> getf s f = Some i ->
     needs (i_status i) = true ->
     forall a c, In a (i_actions i) -> geta s a = Some c -> active (a_status c) = true ->
     exists c', geta s' a = Some c' /\ (a_count c' < a_count c)%Z) ->
  stop_once_statement run needs.
Proof.
  intros run needs Hsrel Hown rk s f d s' Hr H.
  pose proof (Hsrel _ _ _ _ _ Hr H) as S.
  destruct (srel_stops _ _ _ _ S) as (delta & Od & Hd).
  exists delta; split; auto. split; [exact Hd|].
  intros i E Hp Hn a c Hin Hc Hact.
  destruct (Hown _ _ _ _ _ _ Hr H Hp E Hn a c Hin Hc Hact) as (c' & Hc' & Hlt).
  destruct (srel_acts_fwd _ _ _ _ _ _ S Hc) as (c'' & Hc'' & Hrel).
  rewrite Hc' in Hc''. inversion Hc''; subst c''.
  destruct (Hd a) as (Hle & (Hfw & Hbw) & _).
  exists c'. split; [exact Hc'|]. split; [exact Hlt|]. split.
  - intros Hone. apply Hbw. split; eauto.
    rewrite Hc'. f_equal. exact (last_share_stopped _ _ _ _ Hrel Hone Hlt).
  - intros Hpos. split.
    + destruct (nstops a delta) as [|[|k]]; auto; try lia.
      destruct (Hfw eq_refl) as (_ & Hg). rewrite Hg in Hc'. inversion Hc'; subst. simpl in Hpos. lia.
    + destruct Hrel as [->|(_ & _ & _ & [(Hs & _)|(_ & Hz)])]; auto. lia.
Qed.

Theorem abort_stop_once : forall n, stop_once_statement (abort n) live.
Proof.
  intros [|n]; [intros rk s f d s' _ H; discriminate|]. apply stop_once_generic.
  - intros. eapply abort_srel; eauto using reach_closed, reach_owns, reach_self.
  - intros rk s f d s' i Hr H Hp E Hl. rewrite abort_ending in H.
    exact (ending_own_actions rk _ (abort_srel rk n) _ _ f (epi_abort_srel f d) s d s' i Hr E H Hp
             (live_not_skipped _ Hl)).
Qed.

Theorem finish_stop_once : forall n, stop_once_statement (finish n) listening.
Proof.
  intros n. apply stop_once_generic.
  - intros. eapply finish_srel; eauto using reach_closed, reach_owns, reach_self.
  - intros rk s f d s' i Hr H Hp E Hl. rewrite finish_ending in H.
    exact (ending_own_actions rk _ (abort_srel rk n) _ _ f (epi_finish_srel f d) s d s' i Hr E H Hp
             (listening_not_skipped _ Hl)).
Qed.

(* the last activator ends: the restarted instances (children of the reference instance f with
   the same flow id) are stopped as well *)
Definition restarted_child (s : st) (f : uid) (fid : N) (c : uid) : Prop :=
  exists ci fi, getf s c = Some ci /\ i_flow ci = fid /\ i_parent ci = Some f /\
                getf s f = Some fi /\ i_flow fi = fid.

Lemma restarted_child_stable : forall (R A : uid -> Prop) s t f fid c,
  Srel R A s t -> restarted_child s f fid c -> restarted_child t f fid c.
Proof.
  intros R A s t f fid c S (ci & fi & Ec & Hfl & Hp & Ef & Hff).
  destruct (srel_fwd _ _ _ _ _ _ S Ec) as (ci' & Ec' & Hc).
  destruct (srel_fwd _ _ _ _ _ _ S Ef) as (fi' & Ef' & Hf).
  exists ci', fi'. rewrite (irel_flow _ _ _ _ Hc), (irel_parent _ _ _ _ Hc), (irel_flow _ _ _ _ Hf). auto.
Qed.

Lemma restarted_child_proceeds : forall s f fid c, restarted_child s f fid c -> proceeds s c true = true.
Proof.
  intros s f fid c (ci & fi & Ec & Hfl & Hp & Ef & Hff).
  assert (Hn : is_ref_activated s ci = Ok false).
  { unfold is_ref_activated. rewrite Hp, Ef, Hfl, Hff, N.eqb_refl. destruct (0 <? i_activated ci)%Z; auto. }
  rewrite (proceeds_eq _ _ true _ false Ec Hn). auto.
Qed.

Section SameDone.
  Variable rk : uid -> nat.
  Variable ab : st -> uid -> bool -> res st.
  Hypothesis Hab2 : respects_seg rk ab.

  Lemma abort_same_done : forall f fid l s s',
    ranked rk s -> abort_same ab fid l s = Ok s' ->
    Srel anyR anyA s s' /\
    forall c, In c l -> restarted_child s f fid c -> lst s' c = false.
  Proof.
    induction l as [|c0 l IH]; simpl; intros s s' Hr H.
    - inversion H; subst. split; [apply Srel_refl|tauto].
    - destruct (getf s c0) as [c0i|] eqn:E0; try discriminate.
      destruct (N.eqb (i_flow c0i) fid) eqn:Efid.
      + bind_inv H.
        destruct (Hab2 (fun _ => False) _ _ _ _ Hr (fun _ _ F => False_ind _ F) Hb) as ((S1 & _) & Hp).
        assert (S2 : SrelT s0 (modf s0 c0 (set_activated 0%Z))) by (apply modf_srel_activated0; exact I).
        assert (S12 : SrelT s (modf s0 c0 (set_activated 0%Z))) by (eapply Srel_trans; eauto).
        destruct (IH _ _ (srel_ranked _ _ _ _ _ S12 Hr) H) as (S3 & Hd).
        split; [eapply Srel_trans; eauto|].
        intros c [<-|Hin] Hrc.
        * eapply lst_mono; [exact S3|]. eapply lst_mono; [exact S2|].
          apply lst_lv. apply Hp. eapply restarted_child_proceeds; eauto.
        * apply Hd; auto. eapply restarted_child_stable; eauto.
      + destruct (IH _ _ Hr H) as (S3 & Hd). split; auto.
        intros c [<-|Hin] Hrc; auto.
        destruct Hrc as (ci & fi & Ec & Hfl & _). rewrite E0 in Ec. inversion Ec; subst.
        rewrite N.eqb_refl in Efid. discriminate.
  Qed.
End SameDone.

Theorem deactivate_last_children : forall rk n s f s' i,
  ranked rk s -> getf s f = Some i -> is_ref_activated s i = Ok true -> i_activated i = 1%Z ->
  abort n s f true = Ok s' ->
  forall c ci, In c (i_children i) -> getf s c = Some ci -> i_flow ci = i_flow i ->
    i_parent ci = Some f -> lst s' c = false.
Proof.
  intros rk [|n] s f s' i Hr E Href Hone H c ci Hin Ec Hfl Hpar; [discriminate|].
  rewrite abort_ending in H. destruct (ending_deactivate _ _ _ _ _ _ _ H) as (s1 & b & Hd & Hrest).
  assert (S1 : SrelT s1 s').
  { destruct b; [|inversion Hrest; apply Srel_refl].
    eapply (ending_srel rk (abort n) (abort_srel rk n) _ _ f (epi_abort_srel f true));
      eauto using anyR_closed, anyA_owns; [|exact I].
    eapply srel_ranked; [|exact Hr].
    eapply (deactivate_srel rk (abort n) (abort_srel rk n) anyR anyA); eauto using anyR_closed, anyA_owns; exact I. }
  destruct (deactivate_ok _ _ _ _ _ _ Hd) as (i' & isref & E' & Hi & _ & Hb).
  rewrite E in E'; inversion E'; subst i'. unfold ref_deact in Hi. rewrite Href in Hi; inversion Hi; subst isref.
  simpl in Hb. rewrite Hone in Hb. simpl in Hb.
  assert (Sm : SrelT s (modf s f (set_activated 0%Z))) by (apply modf_srel_activated0; exact I).
  destruct (abort_same_done rk (abort n) (abort_good rk n) f (i_flow i) (i_children i) _ s1
              (srel_ranked _ _ _ _ _ Sm Hr) Hb) as (_ & Hdone).
  apply (lst_mono _ _ _ _ _ S1), Hdone; auto.
  apply (restarted_child_stable _ _ _ _ _ _ _ Sm). exists ci, i. repeat split; auto.
Qed.

(* _abort_flow(..., restart_flow=False): everything except the restart is as for _abort_flow *)

Lemma abort_top_true : forall n s f d, abort_top true n s f d = abort n s f d.
Proof.
  destruct n as [|n]; simpl; auto. intros s f d.
  destruct (prologue (abort n) skip_abort s f d) as [[s3 go]|e]; simpl; auto.
  rewrite Bool.orb_false_r. auto.
Qed.

(* ... and it never emits a restart of f *)
Theorem abort_top_no_restart : forall rk n s f d s',
  ranked rk s -> abort_top false n s f d = Ok s' ->
  exists delta, out s' = out s ++ delta /\ forall src v, ~ In (ERestart f src v) delta.
Proof.
  intros rk [|n] s f d s' Hr H; [discriminate|].
  rewrite abort_top_ending in H. destruct (ending_ok _ _ _ _ _ _ _ H) as (s3 & go & Hpr & He).
  destruct (prologue_some _ _ _ _ _ _ Hpr) as (i & E).
  destruct (prologue_out rk (abort n) (abort_srel rk n) _ _ _ _ _ _ _ Hr E Hpr) as (pre & i3 & O3 & F3 & E3 & _).
  destruct go.
  - exists (pre ++ [EFailed f]). rewrite (epilogue_abort_out _ _ _ _ _ He E3), O3, Bool.orb_true_r, app_assoc.
    split; auto. intros src v Hin. apply in_app_or in Hin.
    destruct Hin as [Hin|[Hin|[]]]; [exact (below_no_restart _ _ _ _ _ _ F3 Hin)|discriminate].
  - inversion He; subst. exists pre. eauto using below_no_restart.
Qed.
