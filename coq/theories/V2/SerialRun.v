(* C11 - executable instance of V2/Serial.v for the correspondence (X1):
   the flags and the class table are the ones read from the CURRENT source (Gen/C11Consts.v). *)
From Coq Require Import ZArith List String Bool.
From NG Require Import Gen.C11Consts V2.Serial.
Import ListNotations.
Open Scope string_scope.
Open Scope Z_scope.

Definition flags_now : flags :=
  {| fx_regex := fx_regex_src; fx_keys := fx_keys_src; fx_action := fx_action_src |}.
Definition flags_fixed : flags := {| fx_regex := true; fx_keys := true; fx_action := true |}.
Definition flags_orig : flags := {| fx_regex := false; fx_keys := false; fx_action := false |}.

Fixpoint slookup {A} (l : list (string * A)) (k : string) : option A :=
  match l with [] => None | (k', x) :: r => if String.eqb k' k then Some x else slookup r k end.

Definition mem_str (s : string) (l : list string) : bool := existsb (String.eqb s) l.

Definition classes_of (ct et : list (string * list string)) (sv : list string) : classes :=
  {| class_fields := slookup ct;
     enum_member := fun c m => match slookup et c with Some ms => mem_str m ms | None => false end;
     spectype_value := fun v => mem_str v sv |}.

Definition classes_now : classes := classes_of class_table enum_table spectype_values.

Definition prim_eqb (a b : prim) : bool :=
  match a, b with
  | PNone, PNone => true | PBool x, PBool y => Bool.eqb x y | PInt x, PInt y => x =? y
  | PFloat x, PFloat y => x =? y | PStr x, PStr y => String.eqb x y | _, _ => false
  end.

Definition key_eqb (a b : key) : bool :=
  match a, b with
  | KS x, KS y => String.eqb x y | KI x, KI y => x =? y | KB x, KB y => Bool.eqb x y | KN, KN => true
  | KF x, KF y => x =? y | KObj, KObj => true | _, _ => false
  end.

Fixpoint list_eqb {A} (e : A -> A -> bool) (a b : list A) : bool :=
  match a, b with [], [] => true | x :: a', y :: b' => e x y && list_eqb e a' b' | _, _ => false end.

Definition head_eqb (a b : head) : bool :=
  match a, b with
  | HList, HList | HTuple, HTuple | HSet, HSet | HDeque, HDeque => true
  | HDict x, HDict y => list_eqb key_eqb x y
  | HData c f, HData c' f' => String.eqb c c' && list_eqb String.eqb f f'
  | HAction f, HAction f' => list_eqb String.eqb f f'
  | HEnum c m, HEnum c' m' => String.eqb c c' && String.eqb m m'
  | HSpecType v, HSpecType v' => String.eqb v v'
  | HDatetime v, HDatetime v' => String.eqb v v'
  | HRailsConfig t, HRailsConfig t' => t =? t'
  | HPartial f, HPartial f' => String.eqb f f'
  | HRegex p f, HRegex p' f' => String.eqb p p' && (f =? f')
  | HOther t, HOther t' => String.eqb t t'
  | _, _ => false
  end.

Fixpoint json_eqb (a b : json) {struct a} : bool :=
  match a, b with
  | JNull, JNull => true
  | JBool x, JBool y => Bool.eqb x y
  | JInt x, JInt y => x =? y
  | JFloat x, JFloat y => x =? y
  | JStr x, JStr y => String.eqb x y
  | JArr x, JArr y =>
    (fix go (x y : list json) : bool :=
       match x, y with [], [] => true | p :: x', q :: y' => json_eqb p q && go x' y' | _, _ => false end) x y
  | JObj x, JObj y =>
    (fix go (x : list (string * json)) (y : list (string * json)) : bool :=
       match x, y with
       | [], [] => true
       | (k, p) :: x', (k', q) :: y' => String.eqb k k' && json_eqb p q && go x' y'
       | _, _ => false
       end) x y
  | _, _ => false
  end.

Fixpoint ctree_eqb (a b : ctree) {struct a} : bool :=
  match a, b with
  | CP p, CP q => prim_eqb p q
  | CBack n, CBack m => n =? m
  | CDangling, CDangling => true
  | CNew n h l, CNew m h' l' =>
    (n =? m) && head_eqb h h' &&
    (fix go (x y : list ctree) : bool :=
       match x, y with [], [] => true | p :: x', q :: y' => ctree_eqb p q && go x' y' | _, _ => false end) l l'
  | _, _ => false
  end.

Definition opt_eqb {A} (e : A -> A -> bool) (a b : option A) : bool :=
  match a, b with None, None => true | Some x, Some y => e x y | _, _ => false end.

(* the correspondence check.
   A case = (heap, root, mode, real JSON with ids renumbered (None = the real encoder raised),
             canonical form of the real decoded graph (None = the real decoder raised)).
   mode 0: encode_to_dict / decode_from_dict ; mode 1: state_to_json / json_to_state. *)
Definition LIMIT : nat := 150.
Definition CFUEL : nat := 400.

Definition model_decode (mode : Z) (j : json) : option (heap * val) :=
  if mode =? 0 then decode flags_now classes_now LIMIT j else json_to_state flags_now classes_now LIMIT j.

Definition case := (heap * val * Z * option json * option ctree)%type.

Definition check_enc (c : case) : bool :=
  let '(h, r, mode, cj, cd) := c in opt_eqb json_eqb (encode flags_now LIMIT h r) cj.

Definition check_dec (c : case) : bool :=
  let '(h, r, mode, cj, cd) := c in
  match cj with
  | None => true
  | Some j => opt_eqb ctree_eqb (canon_of CFUEL (model_decode mode j)) cd
  end.

(* model round trip on its own output (independent of the real JSON) *)
Definition check_rt (c : case) : bool :=
  let '(h, r, mode, cj, cd) := c in
  match encode flags_now LIMIT h r with
  | None => match cj with None => true | Some _ => false end
  | Some j => opt_eqb ctree_eqb (canon_of CFUEL (model_decode mode j)) cd
  end.

Definition check_case (c : case) : bool := check_enc c && check_dec c && check_rt c.

(* the decidable hypothesis of C11_state_roundtrip on a real state, before and after the model's
   own save/restore *)
Definition check_hyps (c : case) : bool :=
  let '(h, r, mode, cj, cd) := c in
  match r with
  | VO s =>
    state_hyps h s &&
    match encode flags_now LIMIT h r with
    | Some j => match json_to_state flags_now classes_now LIMIT j with
                | Some (h2, VO s') => state_hyps h2 s'
                | _ => false
                end
    | None => false
    end
  | _ => false
  end.

(* what the model answers, for replay files *)
Definition show_case (c : case) :=
  let '(h, r, mode, cj, cd) := c in
  (encode flags_now LIMIT h r,
   match cj with Some j => canon_of CFUEL (model_decode mode j) | None => None end).

Definition ex_heap : heap :=
  [ (0, mk (HData "Event" ["name"; "arguments"; "matching_scores"]) [VP (PStr "E"); VO 1; VO 2]);
    (1, mk (HDict [KS "a"; KS "b"]) [VO 3; VO 3]);
    (2, mk HList [VP (PFloat 7)]);
    (3, mk HSet [VP (PInt 1); VP (PStr "x")]) ].

Example ex_encode :
  encode flags_fixed 10 ex_heap (VO 0)
  = Some (JObj [("__type", JStr "Event");
                ("value", JObj [("name", JStr "E");
                                ("arguments", JObj [("__type", JStr "dict");
                                                    ("value", JObj [("a", JObj [("__type", JStr "set"); ("value", JArr [JInt 1; JStr "x"]);
                                                                                ("__ref_count", JInt 1); ("__id", JInt 3)]);
                                                                    ("b", JObj [("__type", JStr "ref"); ("__id", JInt 3)])])]);
                                ("matching_scores", JArr [JFloat 7])])]).
Proof. vm_compute. reflexivity. Qed.
