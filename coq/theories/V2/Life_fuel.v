(* V2/Life_fuel.v - running out of fuel is excluded by the well-foundedness of the children
   relation: with fuel above the rank of f, abort and finish never return EFuel (for the scope
   end only the loop over its flows is covered, `scope_flows_nofuel`). *)
From Coq Require Import ZArith NArith List Bool Lia.
From NG Require Import V2.Life V2.Life_proofs.
Import ListNotations.
Open Scope N_scope.

Lemma bind_nofuel : forall A B (r : res A) (k : A -> res B),
  r <> Err EFuel -> (forall a, r = Ok a -> k a <> Err EFuel) -> bind r k <> Err EFuel.
Proof. intros A B [a|e] k Hr Hk; simpl; [exact (Hk a eq_refl)|].
  intros H; apply Hr; inversion H; auto.
Qed.

Lemma stop_action_nofuel : forall s a, stop_action s a <> Err EFuel.
Proof.
  unfold stop_action; intros s a. destruct (geta s a); try discriminate.
  destruct (active (a_status a0)); try discriminate. destruct (a_count a0 - 1 =? 0)%Z; discriminate.
Qed.

Lemma stop_actions_nofuel : forall l s, stop_actions l s <> Err EFuel.
Proof.
  induction l as [|a l IH]; simpl; intros s; [discriminate|].
  apply bind_nofuel; auto using stop_action_nofuel.
Qed.

Lemma unlink_nofuel : forall s f, unlink s f <> Err EFuel.
Proof.
  unfold unlink; intros s f. destruct (getf s f); try discriminate.
  destruct (i_activated i =? 0)%Z; try discriminate. destruct (i_parent i); try discriminate.
  destruct (getf s u); try discriminate. destruct (remove1 f (i_children i0)); discriminate.
Qed.

Lemma restart_nofuel : forall s f d, restart s f d <> Err EFuel.
Proof.
  unfold restart; intros s f d. destruct (getf s f); try discriminate.
  destruct (negb d && (0 <? i_activated i)%Z && negb (i_nis i)); try discriminate.
  destruct (i_parent i); simpl; try discriminate. destruct (getf s u); simpl; discriminate.
Qed.

Lemma is_ref_activated_nofuel : forall s i, is_ref_activated s i <> Err EFuel.
Proof.
  unfold is_ref_activated; intros s i. destruct (0 <? i_activated i)%Z; try discriminate.
  destruct (i_parent i); try discriminate. destruct (getf s u); discriminate.
Qed.

Lemma epilogue_abort_nofuel : forall s f d, epilogue_abort s f d <> Err EFuel.
Proof. unfold epilogue_abort; intros. apply bind_nofuel; auto using unlink_nofuel, restart_nofuel. Qed.

Lemma epilogue_finish_nofuel : forall s f d, epilogue_finish s f d <> Err EFuel.
Proof.
  unfold epilogue_finish; intros s f d. destruct (getf s f); try discriminate.
  destruct (N.eqb (i_flow i) main_id); try discriminate.
  apply bind_nofuel; auto using unlink_nofuel, restart_nofuel.
Qed.

Section Fuel.
  Variable rk : uid -> nat.
  Variable m : nat.
  Variable ab : st -> uid -> bool -> res st.
  Hypothesis Hab1 : forall (R A : uid -> Prop) s c d s',
    ranked rk s -> closed R s -> owns R A s -> R c -> ab s c d = Ok s' -> Srel R A s s'.
  Hypothesis Habf : forall s c d, ranked rk s -> (rk c < m)%nat -> ab s c d <> Err EFuel.

  Lemma ab_ranked : forall s c d s', ranked rk s -> ab s c d = Ok s' -> ranked rk s'.
  Proof.
    intros s c d s' Hr H. eapply srel_ranked; [|exact Hr].
    exact (Hab1 anyR anyA _ _ _ _ Hr (anyR_closed s) (anyA_owns _ s) I H).
  Qed.

  Lemma abort_same_nofuel : forall fid l s,
    ranked rk s -> Forall (fun c => (rk c < m)%nat) l -> abort_same ab fid l s <> Err EFuel.
  Proof.
    induction l as [|c l IH]; simpl; intros s Hr Hl; [discriminate|].
    inversion Hl; subst. destruct (getf s c) as [ci|]; [|discriminate].
    destruct (N.eqb (i_flow ci) fid); auto.
    apply bind_nofuel; auto. intros s0 H0. apply IH; auto.
    apply modf_ranked; eauto using ab_ranked.
  Qed.

  Lemma abort_children_nofuel : forall l s,
    ranked rk s -> Forall (fun c => (rk c < m)%nat) l -> abort_children ab l s <> Err EFuel.
  Proof.
    induction l as [|c l IH]; simpl; intros s Hr Hl; [discriminate|].
    inversion Hl; subst. destruct (getf s c) as [ci|]; auto.
    destruct (is_child_activated s ci); auto.
    apply bind_nofuel; eauto using ab_ranked.
  Qed.

  Lemma scope_flows_nofuel : forall l s,
    ranked rk s -> Forall (fun c => (rk c < m)%nat) l -> scope_flows ab l s <> Err EFuel.
  Proof.
    induction l as [|c l IH]; simpl; intros s Hr Hl; [discriminate|].
    inversion Hl; subst. destruct (getf s c) as [ci|]; auto.
    destruct (listening (i_status ci)); auto.
    apply bind_nofuel; eauto using ab_ranked.
  Qed.

  Lemma children_fuel : forall s f i, ranked rk s -> (rk f <= m)%nat -> getf s f = Some i ->
    Forall (fun c => (rk c < m)%nat) (i_children i).
  Proof. intros s f i Hr Hf E. apply Forall_forall. intros c Hin. specialize (Hr _ _ _ E Hin). lia. Qed.

  Lemma deactivate_nofuel : forall s f d,
    ranked rk s -> (rk f <= m)%nat -> deactivate ab s f d <> Err EFuel.
  Proof.
    unfold deactivate; intros s f d Hr Hf. destruct (getf s f) as [i|] eqn:E; [|discriminate].
    apply bind_nofuel; [destruct d; [apply is_ref_activated_nofuel|discriminate]|].
    intros [|] _; [|discriminate]. simpl.
    destruct (i_activated i - 1 =? 0)%Z; [|discriminate].
    apply bind_nofuel; [|discriminate].
    apply abort_same_nofuel; eauto using children_fuel. apply modf_ranked; auto.
  Qed.

  Lemma prologue_nofuel : forall skip s f d,
    ranked rk s -> (rk f <= m)%nat -> prologue ab skip s f d <> Err EFuel.
  Proof.
    unfold prologue; intros skip s f d Hr Hf.
    apply bind_nofuel; [apply deactivate_nofuel; auto|]. intros [s1 b] Hd. simpl.
    destruct b; [|discriminate].
    assert (Hr1 : ranked rk s1).
    { eapply srel_ranked; [|exact Hr].
      exact (deactivate_srel rk ab Hab1 anyR anyA _ _ _ _ _ Hr (anyR_closed s) (anyA_owns _ s) I Hd). }
    destruct (getf s1 f) as [i1|] eqn:E1; [|discriminate].
    destruct (skip (i_status i1)); [discriminate|].
    apply bind_nofuel; [apply abort_children_nofuel; eauto using children_fuel|].
    intros s2 _. destruct (getf s2 f); [|discriminate].
    apply bind_nofuel; [apply stop_actions_nofuel|discriminate].
  Qed.
End Fuel.

Theorem abort_nofuel : forall rk n s f d,
  ranked rk s -> (rk f < n)%nat -> abort n s f d <> Err EFuel.
Proof.
  induction n as [|n IH]; simpl; intros s f d Hr Hf; [lia|].
  apply bind_nofuel; [apply (prologue_nofuel rk n (abort n) (abort_srel rk n)); auto; lia|].
  intros [s3 [|]] _; simpl; [apply epilogue_abort_nofuel|discriminate].
Qed.

Theorem finish_nofuel : forall rk n s f d,
  ranked rk s -> (rk f <= n)%nat -> finish n s f d <> Err EFuel.
Proof.
  unfold finish; intros rk n s f d Hr Hf.
  apply bind_nofuel; [apply (prologue_nofuel rk n (abort n) (abort_srel rk n)); auto|].
  - intros. apply (abort_nofuel rk); auto.
  - intros [s3 [|]] _; simpl; [apply epilogue_finish_nofuel|discriminate].
Qed.
