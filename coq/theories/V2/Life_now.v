(* V2/Life_now.v - the EndScope and clean-up models instantiated with what the translator read from
   the CURRENT source (Gen/LifeConsts.v): `scope_release_shared` = the EndScope case makes the flow
   give up its share of an action that other flows still use; `cleanup_keeps_needed_parents` = the
   clean-up keeps the parent of a running or activated instance.  `source_shape` and `cleanup_shape`
   are proof obligations: they fail to check on a tree without the release / the side condition. *)
From Coq Require Import ZArith NArith List Bool.
From NG Require Import Gen.LifeConsts V2.Life V2.Life_proofs V2.Life_scope V2.Life_activation V2.Life_cleanup.
Import ListNotations.
Open Scope N_scope.

Definition end_scope_now : nat -> st -> uid -> N -> res st := end_scope scope_release_shared.

Lemma source_shape : stop_guards_checked = true /\ scope_release_shared = true.
Proof. split; reflexivity. Qed.

Lemma cleanup_shape : cleanup_keeps_needed_parents = true.
Proof. reflexivity. Qed.

(* runs of the modelled operations incl. the clean-up AS IN THE CURRENT SOURCE keep the invariants *)
Theorem brun_now_inv : forall rel fuel l s s',
  Inv s -> famk s -> brun cleanup_keeps_needed_parents rel fuel l s = Ok s' ->
  boks cleanup_keeps_needed_parents rel fuel l s -> Inv s' /\ famk s'.
Proof. rewrite cleanup_shape. exact brun_inv_fam. Qed.

Definition scope_end_statement : Prop :=
  forall rk n s f name s' i fl al rest,
    ranked rk s -> getf s f = Some i -> pop_scope name (i_scopes i) = Some ((fl, al), rest) ->
    end_scope_now n s f name = Ok s' ->
    (* the flows registered in the scope are stopped *)
    (forall c, In c fl -> lst s' c = false) /\
    (* Stop accounting, only for actions of the scope or of the stopped flows *)
    stops_spec (scope_actions_region s fl al) s s' /\
    (* every unfinished action of the scope gives up one share *)
    (forall a c, In a al -> geta s a = Some c -> active (a_status c) = true ->
       exists c', geta s' a = Some c' /\ (a_count c' < a_count c)%Z) /\
    (* and a shared one that keeps running is no longer held by f: no second release *)
    (NoDup (i_actions i) ->
     forall a c', In a al -> geta s' a = Some c' -> active (a_status c') = true -> ~ held s' f a) /\
    (* frame *)
    (forall a, ~ scope_actions_region s fl al a -> geta s' a = geta s a) /\
    (forall x, ~ scope_region s fl x ->
       match getf s x, getf s' x with
       | None, None => True
       | Some xi, Some xi' =>
           i_flow xi' = i_flow xi /\ i_status xi' = i_status xi /\ i_parent xi' = i_parent xi /\
           i_activated xi' = i_activated xi /\ i_nis xi' = i_nis xi /\
           (forall c, In c (i_children xi') -> In c (i_children xi)) /\
           (forall c, ~ scope_region s fl c ->
              count_occ N.eq_dec (i_children xi') c = count_occ N.eq_dec (i_children xi) c) /\
           (x <> f -> i_actions xi' = i_actions xi /\ i_scopes xi' = i_scopes xi)
       | _, _ => False
       end).

Theorem scope_end_now : scope_end_statement.
Proof.
  unfold scope_end_statement, end_scope_now. destruct source_shape as (_ & ->).
  intros rk n s f name s' i fl al rest Hr E Hpop H.
  destruct (end_scope_spec rk true n s f name s' i fl al rest Hr E Hpop H) as (H1 & H2 & H3 & H4 & H5).
  repeat match goal with |- _ /\ _ => split end; auto.
  intros Hnd. eapply end_scope_releases; eauto.
Qed.
