(* C12 (Colang 2.x) - the closedness checker `closedb`.
     labels_okb      every Goto / ForkHead / CatchPatternFailure / Break / Continue label is
                     defined by a Label element of the same flow (anywhere, reachable or not)
     no_compositeb   no composite element left
     merges_okb      every MergeHeads names the fork uid of a ForkHead of the same flow
     loop_exits_okb  no Break / Continue is left without the label of its loop
     explore         exhaustive exploration of the head-token semantics of ClosedAst.v from the
                     flow start (worklist + visited set, fuelled; running out of fuel = false):
                     no label lookup fails, no scope is re-opened or unknown, the failure
                     handler stack never underflows, and the flow end is only reached with
                     every scope closed.
   Also here: closed_diag (which part failed, for replay files); explore_ix / closedb_ix, the
   variant of the exploration that is evaluated inside Coq, with the proof that it agrees with
   explore; the `when .. else` shape of F8 as a test vector.  Soundness of closedb is proved in
   Closed_proofs.v. *)
From Coq Require Import List String Bool Arith.
From NG Require Import V2.ClosedAst.
Import ListNotations.
Open Scope string_scope.

Inductive outcome := Next (cs : list config) | Fail (x : err).

Definition jump_to (es : list elem) (l : string) (sc ct : list string) : option config :=
  match lbl es l with Some k => Some (S k, sc, ct) | None => None end.

Fixpoint fork_targets (es : list elem) (ls : list string) (sc ct : list string) : outcome :=
  match ls with
  | [] => Next []
  | l :: r => match jump_to es l sc ct with
              | None => Fail (XLabel l)
              | Some c => match fork_targets es r sc ct with
                          | Next cs => Next (c :: cs)
                          | Fail x => Fail x
                          end
              end
  end.

Definition step_fn (es : list elem) (c : config) : outcome :=
  let '(p, sc, ct) := c in
  let next := (S p, sc, ct) in
  match nth_error es p with
  | None => match sc with [] => Next [] | _ => Fail (XScopeLeftOpen sc) end
  | Some e =>
    match e with
    | ELabel _ | EMerge _ | EWait | EPlain _ => Next [next]
    | EBreak None | EContinue None => Fail XNoLoopTarget
    | EGoto l c => match jump_to es l sc ct with
                   | None => Fail (XLabel l)
                   | Some t => Next (t :: if c then [next] else [])
                   end
    | EFork _ ls => fork_targets es ls sc ct
    | ECatch (Some l) => Next [(S p, sc, l :: ct)]
    | ECatch None => match ct with [] => Fail XCatchEmpty | _ :: ct' => Next [(S p, sc, ct')] end
    | EBreak (Some l) | EContinue (Some l) =>
        match jump_to es l sc ct with None => Fail (XLabel l) | Some t => Next [t] end
    | EBegin n => if mem n sc then Fail (XScopeReopened n) else Next [(S p, n :: sc, ct)]
    | EEnd n => if mem n sc then Next [(S p, remove_s n sc, ct)] else Fail (XScopeUnknown n)
    | EAbort => match ct with
                | [] => Next []
                | l :: _ => match jump_to es l sc ct with None => Fail (XLabel l) | Some t => Next [t] end
                end
    | EReturn => Next [(List.length es, sc, ct)]
    | EBlock => match ct with
                | [] => Next [next]
                | l :: _ => match jump_to es l sc ct with
                            | None => Fail (XLabel l)
                            | Some t => Next [next; t]
                            end
                end
    | EComposite w => Fail (XComposite w)
    end
  end.

Definition list_eqb := fun (a b : list string) => if list_eq_dec string_dec a b then true else false.
Definition config_eqb (a b : config) : bool :=
  let '(p, sc, ct) := a in let '(q, sd, cu) := b in
  Nat.eqb p q && list_eqb sc sd && list_eqb ct cu.
Definition memc (c : config) (l : list config) : bool := existsb (config_eqb c) l.

Inductive verdict := VOk | VFuel | VErr (c : config) (x : err).

Fixpoint explore (fuel : nat) (es : list elem) (todo visited : list config) : verdict :=
  match fuel with
  | O => VFuel
  | S f =>
    match todo with
    | [] => VOk
    | c :: rest =>
      if memc c visited then explore f es rest visited
      else match step_fn es c with
           | Fail x => VErr c x
           | Next cs => explore f es (cs ++ rest) (c :: visited)
           end
    end
  end.

Definition fuel_for (es : list elem) : nat := 64 * (List.length es + 2).

Definition scope_verdict (es : list elem) : verdict := explore (fuel_for es) es [init] [].
Definition scopes_okb (es : list elem) : bool :=
  match scope_verdict es with VOk => true | _ => false end.

Definition definedb (es : list elem) (l : string) : bool :=
  match lbl es l with Some _ => true | None => false end.

Definition elem_labels (e : elem) : list string :=
  match e with
  | EGoto l _ => [l]
  | EFork _ ls => ls
  | ECatch (Some l) | EBreak (Some l) | EContinue (Some l) => [l]
  | _ => []
  end.

Definition labels_okb (es : list elem) : bool :=
  forallb (fun e => forallb (definedb es) (elem_labels e)) es.

Definition no_compositeb (es : list elem) : bool :=
  forallb (fun e => match e with EComposite _ => false | _ => true end) es.

Definition has_fork (es : list elem) (u : string) : bool :=
  existsb (fun e => match e with EFork v _ => String.eqb u v | _ => false end) es.

Definition merges_okb (es : list elem) : bool :=
  forallb (fun e => match e with EMerge u => has_fork es u | _ => true end) es.

(* every Break / Continue carries the label of its loop (reachable or not) *)
Definition loop_exits_okb (es : list elem) : bool :=
  forallb (fun e => match e with EBreak None | EContinue None => false | _ => true end) es.

Definition closedb (es : list elem) : bool :=
  labels_okb es && no_compositeb es && merges_okb es && loop_exits_okb es && scopes_okb es.

(* diagnosis for replay files *)
Inductive diag := DClosed | DLabels | DComposite | DMerge | DLoopExit | DScope (v : verdict).
Definition closed_diag (es : list elem) : diag :=
  if negb (labels_okb es) then DLabels
  else if negb (no_compositeb es) then DComposite
  else if negb (merges_okb es) then DMerge
  else if negb (loop_exits_okb es) then DLoopExit
  else match scope_verdict es with VOk => DClosed | v => DScope v end.

(* The same exploration, cheap to evaluate inside the kernel.  `explore` scans `visited` with
   config_eqb: a unary Nat.eqb per entry, and list_eq_dec string_dec (which builds its proofs) on
   the names.  explore_ix keeps the visited states in a table indexed by position and compares
   names with String.eqb; it returns what explore returns (closedb_ix_eq). *)
Fixpoint seqb (a b : list string) : bool :=
  match a, b with
  | [], [] => true
  | x :: a', y :: b' => String.eqb x y && seqb a' b'
  | _, _ => false
  end.

Definition hstate := (list string * list string)%type.
Definition state_eqb (a b : hstate) : bool := seqb (fst a) (fst b) && seqb (snd a) (snd b).

Fixpoint mem_ix (p : nat) (st : hstate) (t : list (list hstate)) {struct t} : bool :=
  match t, p with
  | [], _ => false
  | row :: _, O => existsb (state_eqb st) row
  | _ :: t', S p' => mem_ix p' st t'
  end.

Fixpoint add_ix (p : nat) (st : hstate) (t : list (list hstate)) : list (list hstate) :=
  match t, p with
  | [], O => [[st]]
  | [], S p' => [] :: add_ix p' st []
  | row :: t', O => (st :: row) :: t'
  | row :: t', S p' => row :: add_ix p' st t'
  end.

Fixpoint explore_ix (fuel : nat) (es : list elem) (todo : list config) (t : list (list hstate)) : verdict :=
  match fuel with
  | O => VFuel
  | S f =>
    match todo with
    | [] => VOk
    | (p, sc, ct) :: rest =>
      if mem_ix p (sc, ct) t then explore_ix f es rest t
      else match step_fn es (p, sc, ct) with
           | Fail x => VErr (p, sc, ct) x
           | Next cs => explore_ix f es (cs ++ rest) (add_ix p (sc, ct) t)
           end
    end
  end.

Definition closedb_ix (es : list elem) : bool :=
  labels_okb es && no_compositeb es && merges_okb es && loop_exits_okb es &&
  match explore_ix (fuel_for es) es [init] [] with VOk => true | _ => false end.

Lemma seqb_eq a : forall b, seqb a b = list_eqb a b.
Proof.
  unfold list_eqb. induction a as [|x a IH]; intros [|y b]; try reflexivity.
  cbn [seqb]. rewrite IH.
  destruct (list_eq_dec string_dec (x :: a) (y :: b)), (String.eqb_spec x y), (list_eq_dec string_dec a b);
    cbn; congruence.
Qed.

Lemma config_eqb_ix p sc ct q sd cu :
  config_eqb (p, sc, ct) (q, sd, cu) = Nat.eqb p q && state_eqb (sc, ct) (sd, cu).
Proof. unfold config_eqb, state_eqb. cbn [fst snd]. now rewrite !seqb_eq, andb_assoc. Qed.

Lemma mem_add_ix st st' q : forall t p,
  mem_ix p st (add_ix q st' t) = Nat.eqb p q && state_eqb st st' || mem_ix p st t.
Proof.
  induction q as [|q IH]; intros [|row t] [|p]; cbn; rewrite ?IH; reflexivity.
Qed.

Lemma explore_ix_eq es fuel : forall todo visited t,
  (forall p sc ct, memc (p, sc, ct) visited = mem_ix p (sc, ct) t) ->
  explore_ix fuel es todo t = explore fuel es todo visited.
Proof.
  induction fuel as [|f IH]; intros todo visited t H; [reflexivity|].
  cbn [explore_ix explore]. destruct todo as [|[[p sc] ct] rest]; [reflexivity|].
  rewrite <- H. destruct (memc (p, sc, ct) visited); [apply IH, H|].
  destruct (step_fn es (p, sc, ct)); [apply IH|reflexivity].
  intros q sd cu. cbn [memc existsb]. now rewrite mem_add_ix, config_eqb_ix, <- H.
Qed.

Lemma closedb_ix_eq es : closedb_ix es = closedb es.
Proof.
  unfold closedb_ix, closedb, scopes_okb, scope_verdict.
  now rewrite (explore_ix_eq es _ [init] [] []).
Qed.

(* ---- sanity: the shape _expand_when_stmt_element emits for `when E / else` (one case) ---- *)
Definition when_else (fixed : bool) : list elem :=
  [ ELabel "begin"; EGoto "end" true;
    EBegin "s"; EFork "c" ["init_a"];
    ELabel "init_a"; ECatch (Some "fail_a"); EFork "g" ["grp_a0"];
    ELabel "grp_a0"; EBlock; EGoto "case_a" false;
    ELabel "case_a"; EMerge "c"; ECatch None; EEnd "s"; EPlain "SpecOp"; EGoto "when_end" false;
    ELabel "fail_a"; EWait; ECatch None; EGoto "else" false;
    ELabel "else"; EWait ] ++ (if fixed then [EEnd "s"] else []) ++
  [ EGoto "else_stmt" false; ELabel "else_stmt"; EPlain "SpecOp";
    ELabel "when_end"; EGoto "begin" false; ELabel "end" ].

Example when_else_in_loop_unfixed : closedb (when_else false) = false.
Proof. vm_compute. reflexivity. Qed.
Example when_else_in_loop_unfixed_diag :
  exists c, closed_diag (when_else false) = DScope (VErr c (XScopeLeftOpen ["s"])).
Proof. eexists. vm_compute. reflexivity. Qed.
Example when_else_in_loop_fixed : closedb (when_else true) = true.
Proof. vm_compute. reflexivity. Qed.
