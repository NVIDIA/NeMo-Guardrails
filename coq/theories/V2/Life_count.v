(* V2/Life_count.v - the reference count of activated flows.

   E s r  = number of child-list entries of LIVE instances (listening or stopping) that refer to r.
   For a reference instance r (activated, linked to a parent of another flow) that is still
   activated after an operation, `activated r - E r` is unchanged by _abort_flow / _finish_flow
   (except for the one explicit decrement of a top-level deactivation of r itself): every
   instance that ends gives back exactly its own entries. *)
From Coq Require Import ZArith NArith List Bool Lia.
From NG Require Import V2.Life V2.Life_proofs.
Import ListNotations.
Open Scope N_scope.

Definition occ (c : uid) (l : list uid) : Z := Z.of_nat (count_occ N.eq_dec l c).

Definition contrib (c : uid) (i : inst) : Z :=
  if live (i_status i) then occ c (i_children i) else 0%Z.

Fixpoint Esum (c : uid) (l : list (uid * inst)) : Z :=
  match l with
  | [] => 0%Z
  | (_, i) :: l' => (contrib c i + Esum c l')%Z
  end.

Definition E (s : st) (c : uid) : Z := Esum c (flows s).

Definition act (s : st) (c : uid) : Z :=
  match getf s c with Some i => i_activated i | None => 0%Z end.

Lemma occ_nonneg : forall c l, (0 <= occ c l)%Z.
Proof. intros; unfold occ; apply Nat2Z.is_nonneg. Qed.

Lemma occ_app : forall c l1 l2, occ c (l1 ++ l2) = (occ c l1 + occ c l2)%Z.
Proof. intros; unfold occ. rewrite count_occ_app, Nat2Z.inj_add. reflexivity. Qed.

Lemma occ_cons : forall c x l, occ c (x :: l) = ((if N.eqb x c then 1 else 0) + occ c l)%Z.
Proof.
  intros; unfold occ; simpl. destruct (N.eq_dec x c) as [->|Hne].
  - rewrite N.eqb_refl. generalize (count_occ N.eq_dec l c). intros n. lia.
  - destruct (N.eqb x c) eqn:Eq; [apply N.eqb_eq in Eq; contradiction|]. reflexivity.
Qed.

Lemma Esum_upd : forall c x i' l i, get x l = Some i ->
  Esum c (upd x i' l) = (Esum c l - contrib c i + contrib c i')%Z.
Proof.
  induction l as [|[k v] l IH]; simpl; intros i H; try discriminate.
  destruct (N.eqb x k) eqn:Ek; simpl.
  - inversion H; subst. lia.
  - rewrite (IH _ H). lia.
Qed.

Lemma E_setf : forall s x i i' c, getf s x = Some i ->
  E (setf s x i') c = (E s c - contrib c i + contrib c i')%Z.
Proof. intros; unfold E, setf; simpl. apply Esum_upd; auto. Qed.

Lemma E_flows : forall s s' c, flows s' = flows s -> E s' c = E s c.
Proof. intros s s' c H; unfold E; rewrite H; auto. Qed.

Lemma act_flows : forall s s' c, flows s' = flows s -> act s' c = act s c.
Proof. intros s s' c H; unfold act, getf; rewrite H; auto. Qed.

Lemma E_modf_same : forall s x g c,
  (forall i, i_status (g i) = i_status i /\ i_children (g i) = i_children i) ->
  E (modf s x g) c = E s c.
Proof.
  intros s x g c Hg. unfold modf. destruct (getf s x) as [i|] eqn:Ex; auto.
  rewrite (E_setf _ _ _ _ _ Ex). unfold contrib. destruct (Hg i) as (-> & ->). lia.
Qed.

Lemma act_getf : forall s c i, getf s c = Some i -> act s c = i_activated i.
Proof. intros s c i H. unfold act. rewrite H. reflexivity. Qed.

Lemma act_setf_other : forall s x i' c, x <> c -> act (setf s x i') c = act s c.
Proof. intros; unfold act. rewrite getf_setf_other; auto. Qed.

Lemma act_modf_other : forall s x g c, x <> c -> act (modf s x g) c = act s c.
Proof. intros; unfold modf. destruct (getf s x); auto. apply act_setf_other; auto. Qed.

Lemma act_modf_self : forall s x g i, getf s x = Some i -> act (modf s x g) x = i_activated (g i).
Proof. intros s x g i H. rewrite (modf_some _ _ _ _ H). apply act_getf. eapply getf_setf_same; eauto. Qed.

Lemma act_modf_keep : forall s x g c, (forall i, i_activated (g i) = i_activated i) ->
  act (modf s x g) c = act s c.
Proof.
  intros s x g c Hg. destruct (N.eq_dec x c) as [->|Hne]; [|apply act_modf_other; auto].
  destruct (getf s c) as [i|] eqn:Ec; [|rewrite modf_none; auto].
  rewrite (act_modf_self _ _ _ _ Ec), (act_getf _ _ _ Ec). auto.
Qed.

(* a reference instance: linked to a parent of ANOTHER flow (static) *)
Definition refshape (s : st) (r : uid) : Prop :=
  exists i p pi, getf s r = Some i /\ i_parent i = Some p /\ getf s p = Some pi /\ i_flow pi <> i_flow i.

Lemma refshape_static : forall (R A : uid -> Prop) s s' r, Srel R A s s' -> refshape s r -> refshape s' r.
Proof.
  intros R A s s' r S (i & p & pi & Ei & Hp & Epi & Hfl).
  destruct (srel_fwd _ _ _ _ _ _ S Ei) as (i' & Ei' & Hi).
  destruct (srel_fwd _ _ _ _ _ _ S Epi) as (pi' & Epi' & Hpi).
  exists i', p, pi'. rewrite (irel_parent _ _ _ _ Hi), (irel_flow _ _ _ _ Hi), (irel_flow _ _ _ _ Hpi). auto.
Qed.

Lemma refshape_isref : forall s r i, refshape s r -> getf s r = Some i -> (0 < i_activated i)%Z ->
  is_ref_activated s i = Ok true /\ is_child_activated s i = false.
Proof.
  intros s r i (i0 & p & pi & Ei & Hp & Epi & Hfl) E Hpos. rewrite Ei in E; inversion E; subst i0.
  unfold is_ref_activated, is_child_activated. rewrite Hp, Epi.
  apply Z.ltb_lt in Hpos. rewrite Hpos. simpl.
  destruct (N.eqb (i_flow i) (i_flow pi)) eqn:Eq; auto.
  apply N.eqb_eq in Eq. congruence.
Qed.

Lemma act0_stable : forall (R A : uid -> Prop) s s' c, Srel R A s s' -> act s c = 0%Z -> act s' c = 0%Z.
Proof.
  intros R A s s' c S H. unfold act in *. destruct (getf s c) as [i|] eqn:Ec.
  - destruct (srel_fwd _ _ _ _ _ _ S Ec) as (i' & Ec' & Hi).
    rewrite Ec'. apply (irel_activated _ _ _ _ Hi); auto.
  - rewrite (srel_none _ _ _ _ _ S Ec). auto.
Qed.

Lemma act_pos_le : forall (R A : uid -> Prop) s s' c, Srel R A s s' -> (0 < act s' c)%Z -> (act s' c <= act s c)%Z.
Proof.
  intros R A s s' c S H. unfold act in *. destruct (getf s' c) as [i'|] eqn:Ec'; [|lia].
  destruct (srel_bwd _ _ _ _ _ _ S Ec') as (i & Ec & Hi).
  rewrite Ec. apply (irel_activated _ _ _ _ Hi); auto.
Qed.

Lemma act_pos_back : forall (R A : uid -> Prop) s s' c, Srel R A s s' -> (0 < act s' c)%Z -> act s c <> 0%Z.
Proof. intros R A s s' c S H Hz. rewrite (act0_stable _ _ _ _ _ S Hz) in H. lia. Qed.

(* a child-list entry only disappears for an instance whose count is 0 *)
Definition Urel (s s' : st) : Prop :=
  forall x i i' c, getf s x = Some i -> getf s' x = Some i' ->
    count_occ N.eq_dec (i_children i') c <> count_occ N.eq_dec (i_children i) c -> act s' c = 0%Z.

Lemma urel_refl : forall s, Urel s s.
Proof. intros s x i i' c E E' H. rewrite E in E'. inversion E'; subst. contradiction. Qed.

Lemma urel_trans : forall s1 s2 s3, SrelT s1 s2 -> SrelT s2 s3 -> Urel s1 s2 -> Urel s2 s3 -> Urel s1 s3.
Proof.
  intros s1 s2 s3 S1 S2 U1 U2 x i1 i3 c E1 E3 H.
  destruct (srel_fwd _ _ _ _ _ _ S1 E1) as (i2 & E2 & _).
  destruct (Nat.eq_dec (count_occ N.eq_dec (i_children i2) c) (count_occ N.eq_dec (i_children i1) c)) as [Heq|Hne].
  - eapply U2; eauto. congruence.
  - eapply act0_stable; eauto.
Qed.

Lemma urel_flows : forall s s', flows s' = flows s -> Urel s s'.
Proof.
  intros s s' H x i i' c E E' Hc. unfold getf in *. rewrite H in E'. rewrite E in E'. inversion E'; subst. contradiction.
Qed.

Lemma urel_modf_same : forall s x g, (forall i, i_children (g i) = i_children i) -> Urel s (modf s x g).
Proof.
  intros s x g Hg y i i' c E E' Hc. unfold modf in E'. destruct (getf s x) as [xi|] eqn:Ex.
  - destruct (N.eq_dec x y) as [<-|Hne].
    + rewrite (getf_setf_same _ _ _ _ Ex) in E'. inversion E'; subst. rewrite Ex in E. inversion E; subst.
      rewrite Hg in Hc. contradiction.
    + rewrite getf_setf_other in E'; auto. rewrite E in E'. inversion E'; subst. contradiction.
  - rewrite E in E'. inversion E'; subst. contradiction.
Qed.

Lemma urel_occ : forall s s' x i i' r, Urel s s' -> getf s x = Some i -> getf s' x = Some i' ->
  (0 < act s' r)%Z -> occ r (i_children i') = occ r (i_children i).
Proof.
  intros s s' x i i' r U E E' Hp. unfold occ. f_equal.
  destruct (Nat.eq_dec (count_occ N.eq_dec (i_children i') r) (count_occ N.eq_dec (i_children i) r)) as [|Hne]; auto.
  specialize (U _ _ _ r E E' Hne). lia.
Qed.

(* "Remove flow uid from parents children list" does nothing for an instance whose count is not 0 *)
Lemma unlink_activated : forall s f s', unlink s f = Ok s' -> act s f <> 0%Z -> s' = s.
Proof.
  unfold unlink, act; intros s f s' H Hnz. destruct (getf s f) as [fi|]; [|discriminate].
  destruct (i_activated fi =? 0)%Z eqn:Ez; [apply Z.eqb_eq in Ez; contradiction|inversion H; auto].
Qed.

Lemma unlink_act : forall s f s' c, unlink s f = Ok s' -> act s' c = act s c.
Proof.
  intros s f s' c H. destruct (unlink_ok _ _ _ H) as [->|(p & pi & l & Ep & _ & ->)]; auto.
  rewrite <- (modf_some _ _ (set_children l) _ Ep). apply act_modf_keep; auto.
Qed.

(* what an operation does to the surplus `activated - E` of the reference instances that stay
   activated: it falls by k *)
Definition Shift (k : uid -> Z) (s s' : st) : Prop :=
  SrelT s s' /\ Urel s s' /\
  forall r, refshape s r -> (0 < act s' r)%Z -> (act s' r - E s' r = act s r - E s r - k r)%Z.

Lemma shift_same : forall s s', SrelT s s' -> Urel s s' ->
  (forall r, E s' r = E s r /\ act s' r = act s r) -> Shift (fun _ => 0%Z) s s'.
Proof. intros s s' S U H. split; auto. split; auto. intros r _ _. destruct (H r) as (-> & ->). lia. Qed.

Lemma shift_refl : forall s, Shift (fun _ => 0%Z) s s.
Proof. intros s. apply shift_same; auto using Srel_refl, urel_refl. Qed.

Lemma shift_flows : forall s s', SrelT s s' -> flows s' = flows s -> Shift (fun _ => 0%Z) s s'.
Proof. intros s s' S H. apply shift_same; auto using urel_flows, E_flows, act_flows. Qed.

Lemma shift_trans : forall k1 k2 s s1 s2,
  Shift k1 s s1 -> Shift k2 s1 s2 -> Shift (fun r => (k1 r + k2 r)%Z) s s2.
Proof.
  intros k1 k2 s s1 s2 (S1 & U1 & K1) (S2 & U2 & K2).
  split; [eapply Srel_trans; eauto|]. split; [eapply urel_trans; eauto|].
  intros r Hr Hp. pose proof (act_pos_le _ _ _ _ _ S2 Hp).
  rewrite (K2 r (refshape_static _ _ _ _ _ S1 Hr) Hp), K1; auto; lia.
Qed.

Lemma shift_ext : forall k k' s s', Shift k s s' ->
  (forall r, refshape s r -> (0 < act s r)%Z -> (0 < act s' r)%Z -> k' r = k r) -> Shift k' s s'.
Proof.
  intros k k' s s' (S & U & K) Hk. split; auto. split; auto.
  intros r Hr Hp. pose proof (act_pos_le _ _ _ _ _ S Hp). rewrite Hk, K; auto; lia.
Qed.

Lemma shift_emit : forall s e, (forall a, e <> EStop a) -> Shift (fun _ => 0%Z) s (emit1 s e).
Proof.
  intros s e He. apply shift_flows; [|reflexivity].
  apply srel_emit; auto. destruct e; exact I.
Qed.

Lemma restart_E_act : forall s f d s' r, restart s f d = Ok s' -> E s' r = E s r /\ act s' r = act s r.
Proof.
  intros s f d s' r H. destruct (restart_ok _ _ _ _ H) as (i & _ & ->).
  destruct (negb d && (0 <? i_activated i)%Z && negb (i_nis i)); auto.
  split; [rewrite E_modf_same by auto|rewrite act_modf_keep by auto]; reflexivity.
Qed.

Lemma shift_restart : forall s f d s', restart s f d = Ok s' -> Shift (fun _ => 0%Z) s s'.
Proof.
  intros s f d s' H. apply shift_same; [eapply restart_srel; eauto; exact I| |intros; eapply restart_E_act; eauto].
  destruct (restart_ok _ _ _ _ H) as (i & _ & ->).
  destruct (negb d && (0 <? i_activated i)%Z && negb (i_nis i)); [|apply urel_refl].
  exact (urel_modf_same (emit1 s _) f (set_nis true) (fun _ => eq_refl)).
Qed.

Lemma shift_unlink : forall s f s', unlink s f = Ok s' -> Shift (fun _ => 0%Z) s s'.
Proof.
  intros s f s' H. assert (S : SrelT s s') by (eapply srel_unlink; eauto; exact I).
  pose proof (fun r => unlink_act _ _ _ r H) as A.
  destruct (Z.eq_dec (act s f) 0) as [Hz|Hnz]; [|rewrite (unlink_activated _ _ _ H Hnz); apply shift_refl].
  destruct (unlink_ok _ _ _ H) as [->|(p & pi & l & Ep & El & ->)]; [apply shift_refl|].
  split; auto. split.
  - (* the only entry that goes is one of f, whose count is 0 *)
    intros y i i' c Ey Ey' Hc. rewrite A. destruct (N.eq_dec c f) as [->|Hcf]; auto.
    exfalso. apply Hc. destruct (N.eq_dec p y) as [<-|Hne].
    + rewrite (getf_setf_same _ _ _ _ Ep) in Ey'. inversion Ey'; subst. rewrite Ep in Ey. inversion Ey; subst.
      eapply remove1_count_other; eauto.
    + rewrite getf_setf_other in Ey'; congruence.
  - intros r _ Hp. rewrite A in *. assert (Hne : r <> f) by (intros ->; lia).
    rewrite (E_setf _ _ _ _ _ Ep). unfold contrib, occ; simpl.
    rewrite (remove1_count_other _ _ _ _ El Hne). lia.
Qed.

Lemma shift_retire : forall s f fi v, getf s f = Some fi -> live (i_status fi) = true -> live v = false ->
  SrelT s (modf s f (set_status v)) ->
  Shift (fun r => (- occ r (i_children fi))%Z) s (modf s f (set_status v)).
Proof.
  intros s f fi v Ef Hl Hv S. split; auto. split; [apply urel_modf_same; auto|].
  intros r _ _. rewrite act_modf_keep by auto.
  rewrite (modf_some _ _ _ _ Ef), (E_setf _ _ _ _ _ Ef). unfold contrib; simpl. rewrite Hl, Hv. lia.
Qed.

Lemma shift_set_activated : forall s f i v, getf s f = Some i -> SrelT s (modf s f (set_activated v)) ->
  Shift (fun r => if N.eqb f r then (i_activated i - v)%Z else 0%Z) s (modf s f (set_activated v)).
Proof.
  intros s f i v Ef S. split; auto. split; [apply urel_modf_same; auto|].
  intros r _ _. rewrite E_modf_same by auto. destruct (N.eqb f r) eqn:Efr.
  - apply N.eqb_eq in Efr; subst r. rewrite (act_modf_self _ _ _ _ Ef), (act_getf _ _ _ Ef). simpl. lia.
  - apply N.eqb_neq in Efr. rewrite act_modf_other; auto. lia.
Qed.

(* the one explicit decrement, of a deactivation of r itself *)
Definition self_dec (f : uid) (d : bool) (r : uid) : Z := if N.eqb f r && d then 1%Z else 0%Z.

Lemma self_dec_false : forall f r, self_dec f false r = 0%Z.
Proof. intros. unfold self_dec. rewrite andb_false_r. reflexivity. Qed.

Definition CS (s : st) (f : uid) (d : bool) (s' : st) : Prop := Shift (self_dec f d) s s'.

Section ShiftLoops.
  Variable rk : uid -> nat.
  Variable ab : st -> uid -> bool -> res st.
  Hypothesis Hab1 : respects_srel rk ab.
  Hypothesis Hab4 : forall s c d s', ranked rk s -> ab s c d = Ok s' -> CS s c d s'.

  Lemma abort_children_cs : forall l s s',
    ranked rk s -> abort_children ab l s = Ok s' -> Shift (fun r => occ r l) s s'.
  Proof.
    induction l as [|c l IH]; simpl; intros s s' Hr H.
    - inversion H; subst. exact (shift_refl s').
    - destruct (getf s c) as [ci|] eqn:Ec.
      + destruct (is_child_activated s ci) eqn:Eca.
        * (* an activated child of the same flow is not a reference instance *)
          eapply shift_ext; [eapply IH; eauto|]. intros r Hrs Hp _. rewrite occ_cons.
          destruct (N.eqb c r) eqn:Ecr; [|lia]. apply N.eqb_eq in Ecr; subst c.
          rewrite (act_getf _ _ _ Ec) in Hp.
          destruct (refshape_isref _ _ _ Hrs Ec Hp) as (_ & Hn). congruence.
        * bind_inv H. pose proof (Hab4 _ _ _ _ Hr Hb) as T0.
          eapply shift_ext; [exact (shift_trans _ _ _ _ _ T0 (IH _ _ (srel_ranked _ _ _ _ _ (proj1 T0) Hr) H))|].
          intros r _ _ _. unfold self_dec. rewrite occ_cons, andb_true_r. reflexivity.
      + eapply shift_ext; [eapply IH; eauto|]. intros r (i & _ & _ & Ei & _) _ _. rewrite occ_cons.
        destruct (N.eqb c r) eqn:Ecr; [|lia]. apply N.eqb_eq in Ecr. congruence.
  Qed.

  Lemma abort_same_cs : forall fid l s s',
    ranked rk s -> abort_same ab fid l s = Ok s' -> Shift (fun _ => 0%Z) s s'.
  Proof.
    induction l as [|c l IH]; simpl; intros s s' Hr H.
    - inversion H; subst. apply shift_refl.
    - destruct (getf s c) as [ci|] eqn:Ec; try discriminate.
      destruct (N.eqb (i_flow ci) fid); [|eapply IH; eauto].
      bind_inv H. pose proof (Hab4 _ _ _ _ Hr Hb) as T0.
      destruct (srel_fwd _ _ _ _ _ _ (proj1 T0) Ec) as (ci0 & Ec0 & _).
      pose proof (shift_set_activated _ _ _ 0%Z Ec0 (modf_srel_activated0 _ _ _ _ I)) as Tt.
      pose proof (shift_trans _ _ _ _ _ T0 Tt) as T0t.
      pose proof (IH _ _ (srel_ranked _ _ _ _ _ (proj1 T0t) Hr) H) as T1.
      eapply shift_ext; [exact (shift_trans _ _ _ _ _ T0t T1)|].
      (* c itself has count 0 from here on *)
      intros r _ _ Hp. unfold self_dec. destruct (N.eqb c r) eqn:Ecr; [|reflexivity].
      apply N.eqb_eq in Ecr; subst r. exfalso.
      rewrite (act0_stable _ _ _ _ _ (proj1 T1)) in Hp; [lia|]. exact (act_modf_self _ _ (set_activated 0%Z) _ Ec0).
  Qed.

  Lemma deactivate_cs : forall s f d s1 b,
    ranked rk s -> deactivate ab s f d = Ok (s1, b) -> CS s f d s1.
  Proof.
    intros s f d s1 b Hr H.
    destruct (deactivate_ok _ _ _ _ _ _ H) as (i & isref & Ef & Href & _ & H'). destruct isref; simpl in H'.
    - destruct d; [simpl in Href|discriminate]. pose proof (is_ref_pos _ _ Href) as Hpos.
      assert (Tm : CS s f true (modf s f (set_activated (i_activated i - 1)%Z))).
      { eapply shift_ext; [apply (shift_set_activated _ _ _ _ Ef)|].
        - rewrite (modf_some _ _ _ _ Ef). apply srel_set_activated; unfold anyR; auto.
        - intros r _ _ _. unfold self_dec. rewrite andb_true_r. destruct (N.eqb f r); lia. }
      destruct (i_activated i - 1 =? 0)%Z; [|inversion H'; subst; exact Tm].
      eapply shift_ext; [exact (shift_trans _ _ _ _ _ Tm (abort_same_cs _ _ _ _ (srel_ranked _ _ _ _ _ (proj1 Tm) Hr) H'))|].
      intros; cbv beta; lia.
    - inversion H'; subst. eapply shift_ext; [apply shift_refl|].
      (* a reference instance that is deactivated passes the test *)
      intros r Hrs Hp _. unfold self_dec. destruct (N.eqb f r && d) eqn:Efd; [|reflexivity]. exfalso.
      apply andb_prop in Efd. destruct Efd as (Efr & ->). apply N.eqb_eq in Efr; subst r.
      rewrite (act_getf _ _ _ Ef) in Hp.
      destruct (refshape_isref _ _ _ Hrs Ef Hp) as (Hx & _). simpl in Href. congruence.
  Qed.

  (* after the common prologue: the count is off by the entries of f itself, which f gives back
     when it ends *)
  Lemma prologue_cs : forall skip s f d s3 go,
    ranked rk s -> prologue ab skip s f d = Ok (s3, go) ->
    if go then exists i3, getf s3 f = Some i3 /\ skip (i_status i3) = false /\
                          Shift (fun r => (self_dec f d r + occ r (i_children i3))%Z) s s3
    else CS s f d s3.
  Proof.
    intros skip s f d s3 go Hr H.
    destruct (prologue_ok _ _ _ _ _ _ _ H) as (s1 & b & Hd & H').
    pose proof (deactivate_cs _ _ _ _ _ Hr Hd) as T1.
    assert (Hr1 : ranked rk s1) by (eapply srel_ranked; eauto; apply T1).
    destruct H' as [| |i1 s0 i2 s3 E1 Esk Hb E2 Ha]; try exact T1.
    pose proof (abort_children_cs _ _ _ Hr1 Hb) as T2.
    destruct (abort_children_self rk ab Hab1 _ _ _ f i1 Hr1 (ranked_below _ _ _ _ Hr1 E1) Hb E1) as (i2' & E2' & Hst & _).
    assert (Hfl : flows s3 = flows s0) by (eapply stop_actions_flows; eauto).
    assert (T3 : Shift (fun _ => 0%Z) s0 s3).
    { apply shift_flows; auto. eapply stop_actions_srel; eauto; intros; exact I. }
    exists i2. split; [unfold getf; rewrite Hfl; exact E2|]. split; [congruence|].
    eapply shift_ext; [exact (shift_trans _ _ _ _ _ T1 (shift_trans _ _ _ _ _ T2 T3))|].
    intros r _ _ Hp. rewrite (act_flows _ _ r Hfl) in Hp. cbv beta.
    rewrite (urel_occ _ _ _ _ _ r (proj1 (proj2 T2)) E1 E2 Hp). lia.
  Qed.

  Lemma ending_cs : forall skip epi s f d s',
    ranked rk s -> ending ab skip epi s f d = Ok s' ->
    (forall s3 i3, SrelT s s3 -> getf s3 f = Some i3 -> skip (i_status i3) = false -> epi s3 = Ok s' ->
                   Shift (fun r => (- occ r (i_children i3))%Z) s3 s') ->
    CS s f d s'.
  Proof.
    intros skip epi s f d s' Hr H Hepi. destruct (ending_ok _ _ _ _ _ _ _ H) as (s3 & go & Hp & He).
    pose proof (prologue_cs _ _ _ _ _ _ Hr Hp) as P. destruct go; [|inversion He; subst; exact P].
    destruct P as (i3 & E3 & Hsk & P).
    eapply shift_ext; [exact (shift_trans _ _ _ _ _ P (Hepi _ _ (proj1 P) E3 Hsk He))|]. intros; cbv beta; lia.
  Qed.
End ShiftLoops.

Lemma epilogue_abort_shift : forall s3 f d s' i3,
  getf s3 f = Some i3 -> live (i_status i3) = true -> epilogue_abort s3 f d = Ok s' ->
  Shift (fun r => (- occ r (i_children i3))%Z) s3 s'.
Proof.
  unfold epilogue_abort; intros s3 f d s' i3 E3 Hl H. bind_inv H.
  pose proof (shift_unlink _ _ _ Hb) as Tu.
  destruct (unlink_getf_fields _ _ _ _ _ Hb E3) as (i4 & E4 & _ & _ & _ & _ & Hs4).
  assert (T : Shift (fun r => (- occ r (i_children i4) + (0 + 0))%Z) s s').
  { eapply shift_trans; [apply (shift_retire _ _ _ FStopped E4); [congruence|reflexivity|]|].
    - eapply modf_srel_status; eauto; [exact I|]. left; split; auto; congruence.
    - eapply shift_trans; [apply shift_emit with (e := EFailed f); discriminate|eapply shift_restart; eauto]. }
  eapply shift_ext; [exact (shift_trans _ _ _ _ _ Tu T)|].
  intros r _ _ Hp. pose proof (act_pos_le _ _ _ _ _ (proj1 T) Hp). cbv beta.
  rewrite (urel_occ _ _ _ _ _ r (proj1 (proj2 Tu)) E3 E4); lia.
Qed.

(* _finish_flow of an instance other than the main flow *)
Lemma epilogue_finish_shift : forall s3 f d s' i3,
  getf s3 f = Some i3 -> listening (i_status i3) = true -> i_flow i3 <> main_id ->
  epilogue_finish s3 f d = Ok s' -> Shift (fun r => (- occ r (i_children i3))%Z) s3 s'.
Proof.
  unfold epilogue_finish; intros s3 f d s' i3 E3 Hl Hm H. rewrite E3 in H.
  destruct (N.eqb (i_flow i3) main_id) eqn:Em; [apply N.eqb_eq in Em; contradiction|].
  bind_inv H. eapply shift_ext.
  - eapply shift_trans; [apply (shift_retire _ _ _ FFinished E3); [unfold live; rewrite Hl; auto|reflexivity|]|].
    + eapply modf_srel_status; eauto. exact I.
    + eapply shift_trans; [eapply shift_unlink; eauto|].
      eapply shift_trans; [apply shift_emit with (e := EFinished f); discriminate|eapply shift_restart; eauto].
  - intros; cbv beta; lia.
Qed.

Theorem abort_cs : forall rk n s f d s', ranked rk s -> abort n s f d = Ok s' -> CS s f d s'.
Proof.
  induction n as [|n IH]; intros s f d s' Hr H; [discriminate|]. rewrite abort_ending in H.
  apply (ending_cs rk _ (abort_srel rk n) IH _ _ _ _ _ _ Hr H).
  intros; eapply epilogue_abort_shift; eauto using skip_abort_live.
Qed.

Theorem abort_top_cs : forall rk b n s f d s', ranked rk s -> abort_top b n s f d = Ok s' -> CS s f d s'.
Proof.
  intros rk b [|n] s f d s' Hr H; [discriminate|]. rewrite abort_top_ending in H.
  apply (ending_cs rk _ (abort_srel rk n) (abort_cs rk n) _ _ _ _ _ _ Hr H).
  intros; eapply epilogue_abort_shift; eauto using skip_abort_live.
Qed.

Theorem finish_cs : forall rk n s f d s' i,
  ranked rk s -> getf s f = Some i -> i_flow i <> main_id -> finish n s f d = Ok s' -> CS s f d s'.
Proof.
  intros rk n s f d s' i Hr Ef Hm H. rewrite finish_ending in H.
  apply (ending_cs rk _ (abort_srel rk n) (abort_cs rk n) _ _ _ _ _ _ Hr H).
  intros s3 i3 S E3 Hsk He. eapply epilogue_finish_shift; eauto using skip_finish_listening.
  destruct (srel_fwd _ _ _ _ _ _ S Ef) as (i3' & E3' & Hi). pose proof (irel_flow _ _ _ _ Hi). congruence.
Qed.
