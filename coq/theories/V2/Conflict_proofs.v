(* Proofs about V2/Conflict.v (model of _resolve_action_conflicts).
   The lexicographic order on score lists; the sort yields a sorted permutation; the tie set
   and the picked head; `group_char`: what one group decides; `group_by_loop_eq`: the groups
   are the candidates of each interaction loop; `loop_view`: the decisions about one loop are
   those of its group alone.  The C05 statements (re-exported by Props/C05.v) follow from these.
   Everything holds for an arbitrary argument-dict equality `args_eqb` and arbitrary choice
   functions; sort_reverse / pad_value enter only where stated. *)
From Coq Require Import List String Bool QArith Lia Permutation Sorting.Sorted.
From NG Require Import Gen.C05Consts Gen.MatchConsts Val.ScoreQ V2.Conflict.
Import ListNotations.
Open Scope list_scope.
Open Scope nat_scope.

Lemma filter_const {A} (f : A -> bool) l b :
  (forall x, In x l -> f x = b) -> filter f l = if b then l else [].
Proof.
  induction l as [|x l IH]; intro H; simpl; [destruct b; reflexivity|].
  rewrite (H x (or_introl eq_refl)), IH by (intros y Hy; apply H; right; exact Hy).
  destruct b; reflexivity.
Qed.

Lemma NoDup_map_inj {A B} (f : A -> B) l x y :
  NoDup (map f l) -> In x l -> In y l -> f x = f y -> x = y.
Proof.
  induction l as [|a l IH]; intros ND Hx Hy E; [destruct Hx|].
  simpl in ND. inversion ND as [|? ? Ha ND']; subst.
  destruct Hx as [<-|Hx]; destruct Hy as [<-|Hy]; auto.
  - exfalso. apply Ha. rewrite E. apply in_map; exact Hy.
  - exfalso. apply Ha. rewrite <- E. apply in_map; exact Hx.
Qed.

Lemma NoDup_map_filter {A B} (f : A -> B) (p : A -> bool) l :
  NoDup (map f l) -> NoDup (map f (filter p l)).
Proof.
  induction l as [|x l IH]; intro ND; [constructor|].
  simpl in ND. inversion ND as [|? ? Hx ND']; subst. simpl.
  destruct (p x); [|apply IH; exact ND'].
  simpl. constructor; [|apply IH; exact ND'].
  intro H. apply Hx. apply in_map_iff in H. destruct H as [y [Hy Hf]]. apply filter_In in Hf.
  rewrite <- Hy. apply in_map. tauto.
Qed.

Lemma NoDup_snoc {A} (l : list A) x : NoDup l -> ~ In x l -> NoDup (l ++ [x]).
Proof.
  intros ND Hx. apply NoDup_rev in ND. rewrite <- (rev_involutive (l ++ [x])), rev_app_distr.
  apply NoDup_rev. constructor; [rewrite <- in_rev; exact Hx|exact ND].
Qed.

Lemma take_while_In {A} (f : A -> bool) l x : In x (take_while f l) -> In x l /\ f x = true.
Proof.
  induction l as [|y l IH]; simpl; [tauto|].
  destruct (f y) eqn:E; simpl; [|tauto].
  intros [<-|H]; [auto|]. destruct (IH H); auto.
Qed.

Lemma lex_cmp_refl a : lex_cmp a a = Eq.
Proof. induction a as [|x a IH]; simpl; [reflexivity|]. rewrite (proj1 (Qeq_alt x x) (Qeq_refl x)). exact IH. Qed.

Lemma lex_cmp_antisym a : forall b, lex_cmp b a = CompOpp (lex_cmp a b).
Proof.
  induction a as [|x a IH]; intros [|y b]; simpl; try reflexivity.
  rewrite <- (Qcompare_antisym x y).
  destruct (x ?= y)%Q eqn:E; simpl; try reflexivity. apply IH.
Qed.

Lemma lex_cmp_eq_l a : forall b c, lex_cmp a b = Eq -> lex_cmp a c = lex_cmp b c.
Proof.
  induction a as [|x a IH]; intros [|y b] c H; simpl in *; try discriminate; try reflexivity.
  destruct (x ?= y)%Q eqn:E; try discriminate. apply Qeq_alt in E.
  destruct c as [|z c]; [reflexivity|]. simpl.
  rewrite E. destruct (y ?= z)%Q; try reflexivity. apply IH; exact H.
Qed.

Lemma lex_cmp_eq_sym a b : lex_cmp a b = Eq -> lex_cmp b a = Eq.
Proof. intro H. rewrite lex_cmp_antisym, H. reflexivity. Qed.

Lemma lex_cmp_lt_trans a : forall b c, lex_cmp a b = Lt -> lex_cmp b c = Lt -> lex_cmp a c = Lt.
Proof.
  induction a as [|x a IH]; intros [|y b] [|z c] H1 H2; simpl in *; try discriminate; try reflexivity.
  destruct (x ?= y)%Q eqn:E1; try discriminate.
  - apply Qeq_alt in E1. rewrite E1. destruct (y ?= z)%Q; try discriminate; [|reflexivity].
    eapply IH; eauto.
  - destruct (y ?= z)%Q eqn:E2; try discriminate.
    + apply Qeq_alt in E2. rewrite <- E2, E1. reflexivity.
    + apply Qlt_alt in E1, E2. rewrite (proj1 (Qlt_alt x z) (Qlt_trans _ _ _ E1 E2)). reflexivity.
Qed.

Definition lex_ge (a b : list Q) : Prop := lex_cmp a b <> Lt.

Lemma lex_ge_refl a : lex_ge a a.
Proof. unfold lex_ge. rewrite lex_cmp_refl. discriminate. Qed.

Lemma lex_ge_trans a b c : lex_ge a b -> lex_ge b c -> lex_ge a c.
Proof.
  unfold lex_ge. intros H1 H2 H3. apply H2.
  (* a < c; were a = b or b < a, then b < c *)
  destruct (lex_cmp a b) eqn:E; [|contradiction|].
  - rewrite <- (lex_cmp_eq_l _ _ c E). exact H3.
  - apply (lex_cmp_lt_trans b a c); [rewrite lex_cmp_antisym, E; reflexivity|exact H3].
Qed.

Lemma lex_ge_total a b : lex_ge a b \/ lex_ge b a.
Proof.
  unfold lex_ge. rewrite (lex_cmp_antisym a b). destruct (lex_cmp a b); simpl; [left|right|left]; discriminate.
Qed.

Lemma scores_eqb_lex a : forall b, scores_eqb a b = true <-> lex_cmp a b = Eq.
Proof.
  induction a as [|x a IH]; intros [|y b]; simpl; try (split; (reflexivity || discriminate)).
  rewrite andb_true_iff, Qeq_bool_iff, Qeq_alt, IH.
  destruct (x ?= y)%Q; intuition congruence.
Qed.

Lemma lex_cmp_eq_length a : forall b, lex_cmp a b = Eq -> List.length a = List.length b.
Proof.
  induction a as [|x a IH]; intros [|y b] H; simpl in *; try discriminate; try reflexivity.
  destruct (x ?= y)%Q; try discriminate. f_equal. apply IH. exact H.
Qed.

Lemma lex_cmp_app a : forall b u v, lex_cmp a b = Eq -> lex_cmp (a ++ u) (b ++ v) = lex_cmp u v.
Proof.
  induction a as [|x a IH]; intros [|y b] u v H; simpl in *; try discriminate; [reflexivity|].
  destruct (x ?= y)%Q; try discriminate. apply IH. exact H.
Qed.

Lemma pad_eq n a b : lex_cmp a b = Eq -> lex_cmp (pad n a) (pad n b) = Eq.
Proof.
  intro H. unfold pad. rewrite (lex_cmp_eq_length _ _ H), (lex_cmp_app _ _ _ _ H). apply lex_cmp_refl.
Qed.

(* the padding value: a chain that is a prefix of another chain is never ranked below it,
   as long as the other chain's further scores do not exceed the padding value *)
Lemma repeat_ge_bounded (pv : Q) v :
  Forall (fun x => (x <= pv)%Q) v -> lex_ge (repeat pv (List.length v)) v.
Proof.
  induction 1 as [|y v Hy _ IH]; simpl; [discriminate|]. unfold lex_ge. simpl.
  destruct (pv ?= y)%Q eqn:E; [exact IH| |discriminate].
  apply Qlt_alt in E. destruct (Qlt_not_le _ _ E Hy).
Qed.

Lemma prefix_chain_not_below n a ext :
  Forall (fun x => (x <= pad_value)%Q) ext -> List.length (a ++ ext) <= n ->
  lex_cmp (pad n a) (pad n (a ++ ext)) <> Lt.
Proof.
  intros HF Hn. unfold pad. rewrite <- app_assoc, (lex_cmp_app _ _ _ _ (lex_cmp_refl a)).
  rewrite app_length in *.
  set (m := n - (List.length a + List.length ext)).
  replace (n - List.length a) with (List.length (ext ++ repeat pad_value m))
    by (rewrite app_length, repeat_length; unfold m; lia).
  apply repeat_ge_bounded. apply Forall_app. split; [exact HF|].
  apply Forall_forall. intros x Hx. apply repeat_spec in Hx. subst. apply Qle_refl.
Qed.

Lemma lex_cmp_first_lt (x y : Q) a b n m :
  (x < y)%Q -> lex_cmp (pad n (x :: a)) (pad m (y :: b)) = Lt.
Proof.
  intro H. unfold pad. rewrite <- !app_comm_cons. cbn [lex_cmp]. rewrite (proj1 (Qlt_alt x y) H). reflexivity.
Qed.

Lemma stays_before_ge a b :
  stays_before a b = true <-> (if sort_reverse then lex_ge a b else lex_ge b a).
Proof.
  unfold stays_before, lex_ltb, lex_ge.
  destruct sort_reverse; [destruct (lex_cmp a b)|destruct (lex_cmp b a)]; simpl; split; congruence.
Qed.

Lemma stays_before_total a b : stays_before a b = false -> stays_before b a = true.
Proof.
  rewrite <- not_true_iff_false, !stays_before_ge.
  destruct sort_reverse, (lex_ge_total a b); tauto.
Qed.

Lemma stays_before_trans a b c :
  stays_before a b = true -> stays_before b c = true -> stays_before a c = true.
Proof.
  rewrite !stays_before_ge. destruct sort_reverse; intros H1 H2; eapply lex_ge_trans; eauto.
Qed.

Lemma stays_before_refl a : stays_before a a = true.
Proof. apply stays_before_ge. destruct sort_reverse; apply lex_ge_refl. Qed.

Section Proofs.
  Variable args : Type.
  Variable args_eqb : args -> args -> bool.
  Notation cand := (cand args).
  Notation decision := (decision args).

  Section SortP.
    Variable key : cand -> list Q.
    Definition ord_rel (x y : cand) : Prop := stays_before (key x) (key y) = true.

    Lemma insert_perm x l : Permutation (insert_sorted key x l) (x :: l).
    Proof.
      induction l as [|y l IH]; simpl; [reflexivity|].
      destruct (stays_before (key x) (key y)); [reflexivity|].
      rewrite IH. apply perm_swap.
    Qed.

    Lemma sort_perm l : Permutation (sort_by key l) l.
    Proof.
      induction l as [|x l IH]; simpl; [reflexivity|].
      rewrite insert_perm. constructor. exact IH.
    Qed.

    Lemma insert_sorted_ok x l :
      StronglySorted ord_rel l -> StronglySorted ord_rel (insert_sorted key x l).
    Proof.
      induction l as [|y l IH]; intro HS; simpl.
      - constructor; constructor.
      - inversion HS as [|? ? HS' HF]; subst.
        destruct (stays_before (key x) (key y)) eqn:E.
        + constructor; [exact HS|]. constructor; [exact E|].
          eapply Forall_impl; [|exact HF]. intros z Hz. eapply stays_before_trans; eassumption.
        + constructor; [apply IH; exact HS'|].
          rewrite (insert_perm x l). constructor; [apply stays_before_total; exact E|exact HF].
    Qed.

    Lemma sort_sorted l : StronglySorted ord_rel (sort_by key l).
    Proof.
      induction l as [|x l IH]; simpl; [constructor|]. apply insert_sorted_ok. exact IH.
    Qed.

    Lemma sort_head_first l h tl :
      sort_by key l = h :: tl -> forall c, In c l -> ord_rel h c.
    Proof.
      intros E c Hc. pose proof (sort_sorted l) as HS. rewrite E in HS.
      inversion HS as [|? ? _ HF]; subst.
      rewrite <- (sort_perm l), E in Hc.
      destruct Hc as [<-|Hc]; [apply stays_before_refl|].
      rewrite Forall_forall in HF. apply HF; exact Hc.
    Qed.
  End SortP.

  Lemma ordered_perm (g : list cand) : Permutation (ordered g) g.
  Proof. apply sort_perm. Qed.

  Lemma ordered_In (g : list cand) c : In c (ordered g) <-> In c g.
  Proof. split; apply Permutation_in; [|symmetry]; apply ordered_perm. Qed.

  Lemma ordered_nil (g : list cand) : ordered g = [] -> g = [].
  Proof. intro H. apply Permutation_nil. rewrite <- H. apply ordered_perm. Qed.

  Lemma scores_eqb_refl a : scores_eqb a a = true.
  Proof. apply scores_eqb_lex. apply lex_cmp_refl. Qed.

  Lemma tie_set_cons (g : list cand) h0 tl :
    ordered g = h0 :: tl -> exists tl', tie_set g = h0 :: tl'.
  Proof.
    intro E. unfold tie_set. rewrite E. simpl. rewrite scores_eqb_refl. eauto.
  Qed.

  Lemma tie_set_In (g : list cand) t h0 :
    In t (tie_set g) -> hd_error (ordered g) = Some h0 ->
    In t g /\ scores_eqb (c_scores t) (c_scores h0) = true.
  Proof.
    unfold tie_set. destruct (ordered g) as [|h tl] eqn:E; [intros []|].
    intros Ht [= <-]. rewrite <- E in Ht. apply take_while_In in Ht.
    rewrite ordered_In in Ht. exact Ht.
  Qed.

  Lemma winner_none (pk : nat -> nat) (g : list cand) : winner pk g = None -> g = [].
  Proof. unfold winner. destruct (ordered g) eqn:E; [intros _; apply ordered_nil, E|discriminate]. Qed.

  (* whatever index the choice returns: an index out of range falls back on the first head *)
  Lemma winner_in_tie (pk : nat -> nat) (g : list cand) w :
    winner pk g = Some w -> In w (tie_set g).
  Proof.
    intro Hw. unfold winner in Hw. destruct (ordered g) as [|h0 tl] eqn:E; [discriminate|].
    injection Hw as <-. destruct (tie_set_cons g h0 tl E) as [tl' Ht].
    destruct (nth_in_or_default (pk (List.length (tie_set g))) (tie_set g) h0) as [H|H]; [exact H|].
    rewrite H, Ht. left; reflexivity.
  Qed.

  Lemma winner_member (pk : nat -> nat) (g : list cand) w : winner pk g = Some w -> In w g.
  Proof.
    intro Hw. pose proof (winner_in_tie pk g w Hw) as Ht.
    destruct (ordered g) as [|h0 tl] eqn:E; [apply ordered_nil in E; subst; destruct Ht|].
    apply (tie_set_In g w h0 Ht). rewrite E. reflexivity.
  Qed.

  Lemma winner_in_group (pk : nat -> nat) (g : list cand) w :
    pick_ok pk -> winner pk g = Some w -> In w g.
  Proof. intros _. apply winner_member. Qed.

  Lemma tie_member_picked (g : list cand) t :
    In t (tie_set g) -> exists pk, pick_ok pk /\ winner pk g = Some t.
  Proof.
    intro Ht. destruct (In_nth _ _ t Ht) as [i [Hi Hn]].
    exists (fun n => if Nat.eqb n (List.length (tie_set g)) then i else 0). split.
    - intros n Hn0. destruct (Nat.eqb n (List.length (tie_set g))) eqn:E; [|exact Hn0].
      apply Nat.eqb_eq in E. lia.
    - unfold winner. destruct (ordered g) as [|h0 tl] eqn:E.
      + unfold tie_set in Ht. rewrite E in Ht. destruct Ht.
      + rewrite Nat.eqb_refl. f_equal. rewrite <- Hn. apply nth_indep. exact Hi.
  Qed.

  Lemma winner_maximal (pk : nat -> nat) (g : list cand) w :
    sort_reverse = true -> winner pk g = Some w ->
    forall c, In c g -> lex_ge (key_of g w) (key_of g c).
  Proof.
    intros Hrev Hw c Hc. pose proof (winner_in_tie pk g w Hw) as Ht.
    destruct (ordered g) as [|h0 tl] eqn:E; [apply ordered_nil in E; subst; destruct Hc|].
    destruct (tie_set_In g w h0 Ht) as [_ Heq]; [rewrite E; reflexivity|].
    (* w's padded key equals that of the first sorted head h0, and h0 stays before everyone *)
    apply scores_eqb_lex, (pad_eq (max_len g)) in Heq.
    pose proof (sort_head_first (key_of g) g h0 tl E c Hc) as Hord.
    apply stays_before_ge in Hord. rewrite Hrev in Hord.
    unfold lex_ge, key_of in *. rewrite (lex_cmp_eq_l _ _ _ Heq). exact Hord.
  Qed.

  Definition others (w : cand) (g : list cand) : list cand :=
    filter (fun c => negb (same_head c w)) (ordered g).

  Lemma others_In w g c : In c (others w g) <-> In c g /\ same_head c w = false.
  Proof. unfold others. rewrite filter_In, ordered_In, negb_true_iff. reflexivity. Qed.

  Lemma resolve_group_shape pk g w :
    winner pk g = Some w ->
    resolve_group args args_eqb pk g = (w, Win) :: map (fun c => (c, decide args args_eqb w c)) (others w g).
  Proof. intro H. unfold resolve_group. rewrite H. reflexivity. Qed.

  Lemma resolve_group_nil pk : resolve_group args args_eqb pk [] = [].
  Proof. reflexivity. Qed.

  Lemma decide_not_win w c : is_win (decide args args_eqb w c) = false.
  Proof.
    unfold decide. destruct (is_equal _ _ _ _); [reflexivity|]. destruct (c_catch c); reflexivity.
  Qed.

  Lemma same_head_neq (a b : cand) : same_head a b = false <-> c_head a <> c_head b.
  Proof. apply String.eqb_neq. Qed.

  Lemma group_char pk (g : list cand) w :
    NoDup (map c_head g) -> winner pk g = Some w ->
    forall c o, In (c, o) (resolve_group args args_eqb pk g) <->
                In c g /\ o = (if same_head c w then Win else decide args args_eqb w c).
  Proof.
    intros ND Hw c o. rewrite (resolve_group_shape pk g w Hw).
    pose proof (winner_member pk g w Hw) as Hwg. simpl. rewrite in_map_iff. split.
    - intros [[= <- <-]|[c' [[= <- <-] Hc']]].
      + split; [exact Hwg|]. unfold same_head. rewrite String.eqb_refl. reflexivity.
      + apply others_In in Hc'. destruct Hc' as [Hc' ->]. auto.
    - intros [Hc ->]. destruct (same_head c w) eqn:E.
      + left. f_equal. symmetry. apply (NoDup_map_inj c_head g); auto. apply String.eqb_eq, E.
      + right. exists c. split; [reflexivity|]. apply others_In. auto.
  Qed.

  Lemma resolve_group_fst_in pk g d : In d (resolve_group args args_eqb pk g) -> In (fst d) g.
  Proof.
    destruct (winner pk g) as [w|] eqn:Hw; [|apply winner_none in Hw; subst; intros []].
    rewrite (resolve_group_shape pk g w Hw). intros [<-|H]; [exact (winner_member pk g w Hw)|].
    apply in_map_iff in H. destruct H as [c [<- Hc]]. apply others_In in Hc. apply Hc.
  Qed.

  Lemma filter_out_perm (l : list cand) w :
    NoDup (map c_head l) -> In w l ->
    Permutation (w :: filter (fun c => negb (same_head c w)) l) l.
  Proof.
    induction l as [|x l IH]; intros ND Hw; [destruct Hw|].
    simpl in ND. inversion ND as [|? ? Hx ND']; subst. simpl.
    destruct Hw as [<-|Hw].
    - unfold same_head at 1. rewrite String.eqb_refl. simpl. constructor.
      rewrite (filter_const _ l true); [reflexivity|].
      intros c Hc. apply negb_true_iff, same_head_neq. intro E. apply Hx. rewrite <- E. apply in_map. exact Hc.
    - destruct (same_head x w) eqn:E.
      + exfalso. apply String.eqb_eq in E. apply Hx. rewrite E. apply in_map. exact Hw.
      + simpl. rewrite perm_swap. constructor. apply IH; assumption.
  Qed.

  Lemma group_perm pk (g : list cand) :
    NoDup (map c_head g) -> Permutation (map fst (resolve_group args args_eqb pk g)) g.
  Proof.
    intro ND. destruct (winner pk g) as [w|] eqn:Hw; [|apply winner_none in Hw; subst; constructor].
    rewrite (resolve_group_shape pk g w Hw). simpl. rewrite map_map. simpl. rewrite map_id.
    unfold others. rewrite filter_out_perm.
    - apply ordered_perm.
    - rewrite (ordered_perm g). exact ND.
    - apply ordered_In. exact (winner_member pk g w Hw).
  Qed.

  Lemma group_emitted pk (g : list cand) w :
    winner pk g = Some w -> emitted (resolve_group args args_eqb pk g) = [c_event w].
  Proof.
    intro Hw. rewrite (resolve_group_shape pk g w Hw).
    change (emitted ((w, Win) :: ?l)) with (c_event w :: emitted l). f_equal.
    unfold emitted. induction (others w g) as [|c l IH]; simpl; [reflexivity|].
    rewrite decide_not_win. exact IH.
  Qed.

  Lemma resolve_group_single pk (c : cand) : resolve_group args args_eqb pk [c] = [(c, Win)].
  Proof.
    unfold resolve_group, winner, tie_set, ordered. simpl. rewrite scores_eqb_refl. simpl.
    destruct (pk 1) as [|[|n]]; cbv iota beta; unfold same_head; rewrite String.eqb_refl; reflexivity.
  Qed.

  Lemma advancing_In (ds : list decision) h :
    In h (advancing ds) <-> exists c o, In (c, o) ds /\ advances o = true /\ c_head c = h.
  Proof.
    unfold advancing. rewrite in_map_iff. split.
    - intros [[c o] [Hh Hd]]. apply filter_In in Hd. destruct Hd as [Hd Ha]. simpl in *. eauto.
    - intros [c [o [Hd [Ha Hh]]]]. exists (c, o). split; [exact Hh|]. apply filter_In. auto.
  Qed.

  Lemma aborted_In (ds : list decision) f sc :
    In (f, sc) (aborted ds) <-> exists c, In (c, Lose) ds /\ c_flow c = f /\ c_scores c = sc.
  Proof.
    unfold aborted. rewrite in_flat_map. split.
    - intros [[c o] [Hd Hi]]. destruct o; simpl in Hi; try contradiction.
      destruct Hi as [Hi|[]]. injection Hi as <- <-. eauto.
    - intros [c [Hd [<- <-]]]. exists (c, Lose). split; [exact Hd|]. left; reflexivity.
  Qed.

  Lemma jumped_In (ds : list decision) h l :
    In (h, l) (jumped ds) <-> exists c, In (c, Caught l) ds /\ c_head c = h.
  Proof.
    unfold jumped. rewrite in_flat_map. split.
    - intros [[c o] [Hd Hi]]. destruct o; simpl in Hi; try contradiction.
      destruct Hi as [Hi|[]]. injection Hi as <- <-. eauto.
    - intros [c [Hd <-]]. exists (c, Caught l). split; [exact Hd|]. left; reflexivity.
  Qed.

  (* loop ids in order of first occurrence *)
  Definition loop_order (cands : list cand) : list string :=
    fold_left (fun L c => if existsb (String.eqb (c_loop c)) L then L else L ++ [c_loop c]) cands [].

  Definition loop_cands (cands : list cand) (l : string) : list cand := filter (in_loop l) cands.

  Lemma loop_cands_in cands l c : In c (loop_cands cands l) <-> In c cands /\ c_loop c = l.
  Proof.
    unfold loop_cands, in_loop. rewrite filter_In, String.eqb_eq. intuition congruence.
  Qed.

  Lemma loop_cands_snoc p c l :
    loop_cands (p ++ [c]) l = if String.eqb l (c_loop c) then loop_cands p l ++ [c] else loop_cands p l.
  Proof.
    unfold loop_cands. rewrite filter_app. simpl. unfold in_loop at 2.
    destruct (String.eqb l (c_loop c)); [reflexivity|apply app_nil_r].
  Qed.

  Lemma loop_nodup cands l : NoDup (map c_head cands) -> NoDup (map c_head (loop_cands cands l)).
  Proof. apply NoDup_map_filter. Qed.

  Lemma existsb_eqb_In x L : existsb (String.eqb x) L = true <-> In x L.
  Proof.
    rewrite existsb_exists. split.
    - intros [y [Hy E]]. apply String.eqb_eq in E. subst. exact Hy.
    - intro H. exists x. split; [exact H|apply String.eqb_refl].
  Qed.

  Lemma group_by_loop_snoc p (c : cand) : group_by_loop (p ++ [c]) = insert_group c (group_by_loop p).
  Proof. unfold group_by_loop. rewrite fold_left_app. reflexivity. Qed.

  Lemma loop_order_snoc p (c : cand) :
    loop_order (p ++ [c]) =
    if existsb (String.eqb (c_loop c)) (loop_order p) then loop_order p else loop_order p ++ [c_loop c].
  Proof. unfold loop_order. rewrite fold_left_app. reflexivity. Qed.

  Lemma loop_order_spec (p : list cand) :
    NoDup (loop_order p) /\ forall l, In l (loop_order p) <-> In l (map c_loop p).
  Proof.
    induction p as [|c p [ND Hin]] using rev_ind.
    - split; [constructor|]. intro l. simpl. tauto.
    - rewrite loop_order_snoc, map_app. simpl.
      destruct (existsb (String.eqb (c_loop c)) (loop_order p)) eqn:E.
      + split; [exact ND|]. intro l. rewrite in_app_iff, <- Hin. simpl.
        apply existsb_eqb_In in E. split; [tauto|]. intros [H|[<-|[]]]; assumption.
      + split.
        * apply NoDup_snoc; [exact ND|]. rewrite <- existsb_eqb_In, E. discriminate.
        * intro l. rewrite !in_app_iff, <- Hin. simpl. tauto.
  Qed.

  Lemma loop_cands_none cands l : ~ In l (loop_order cands) -> loop_cands cands l = [].
  Proof.
    intro H. apply (filter_const _ _ false). intros c Hc. apply String.eqb_neq. intros ->.
    apply H, loop_order_spec, in_map, Hc.
  Qed.

  (* inserting into groups with distinct keys L, each given by F *)
  Lemma insert_group_map (F : string -> list cand) c L :
    NoDup L ->
    insert_group c (map (fun l => (l, F l)) L) =
    if existsb (String.eqb (c_loop c)) L
    then map (fun l => (l, if String.eqb l (c_loop c) then F l ++ [c] else F l)) L
    else map (fun l => (l, F l)) L ++ [(c_loop c, [c])].
  Proof.
    induction L as [|l L IH]; intro ND; simpl; [reflexivity|].
    inversion ND as [|? ? Hl ND']; subst.
    destruct (String.eqb l (c_loop c)) eqn:E.
    - rewrite String.eqb_sym, E. simpl. f_equal.
      apply map_ext_in. intros l' Hl'. destruct (String.eqb l' (c_loop c)) eqn:E'; [|reflexivity].
      apply String.eqb_eq in E, E'. subst. contradiction.
    - rewrite String.eqb_sym, E. simpl. rewrite (IH ND').
      destruct (existsb (String.eqb (c_loop c)) L); reflexivity.
  Qed.

  (* head_groups = one entry per loop id in first-occurrence order, holding the candidates of
     that loop in their original order *)
  Lemma group_by_loop_eq (p : list cand) :
    group_by_loop p = map (fun l => (l, loop_cands p l)) (loop_order p).
  Proof.
    induction p as [|c p IH] using rev_ind; [reflexivity|].
    destruct (loop_order_spec p) as [ND _].
    rewrite group_by_loop_snoc, IH, (insert_group_map (loop_cands p) c (loop_order p) ND), loop_order_snoc.
    destruct (existsb (String.eqb (c_loop c)) (loop_order p)) eqn:E.
    - apply map_ext. intro l. rewrite loop_cands_snoc. destruct (String.eqb l (c_loop c)); reflexivity.
    - rewrite map_app. simpl. f_equal.
      + apply map_ext_in. intros l Hl. rewrite loop_cands_snoc.
        destruct (String.eqb_spec l (c_loop c)) as [->|_]; [|reflexivity].
        apply existsb_eqb_In in Hl. congruence.
      + rewrite loop_cands_snoc, String.eqb_refl, loop_cands_none; [reflexivity|].
        rewrite <- existsb_eqb_In, E. discriminate.
  Qed.

  Lemma insert_group_perm (c : cand) gs :
    Permutation (flat_map snd (insert_group c gs)) (c :: flat_map snd gs).
  Proof.
    induction gs as [|[l g] gs IH]; simpl; [reflexivity|].
    destruct (String.eqb l (c_loop c)); simpl.
    - rewrite <- app_assoc. symmetry. apply Permutation_middle.
    - rewrite IH. symmetry. apply Permutation_middle.
  Qed.

  Lemma group_by_loop_perm (p : list cand) : Permutation (flat_map snd (group_by_loop p)) p.
  Proof.
    induction p as [|c p IH] using rev_ind; [reflexivity|].
    rewrite group_by_loop_snoc, insert_group_perm, IH. apply Permutation_cons_append.
  Qed.

  (* C05_shortcut_consistent *)
  Theorem shortcut_consistent pick (c : cand) :
    resolve args args_eqb pick [c] = resolve_groups args args_eqb pick 0 (group_by_loop [c]).
  Proof.
    unfold resolve, group_by_loop. cbn [fold_left insert_group resolve_groups].
    rewrite resolve_group_single. reflexivity.
  Qed.

  Lemma resolve_unfold pick (cands : list cand) :
    resolve args args_eqb pick cands = resolve_groups args args_eqb pick 0 (group_by_loop cands).
  Proof. destruct cands as [|c [|c' p]]; [reflexivity|apply shortcut_consistent|reflexivity]. Qed.

  (* C05_loops_distribute, for a candidate list of any length *)
  Theorem resolve_by_loops pick (cands : list cand) :
    resolve args args_eqb pick cands
    = resolve_groups args args_eqb pick 0 (map (fun l => (l, loop_cands cands l)) (loop_order cands)).
  Proof. rewrite resolve_unfold, group_by_loop_eq. reflexivity. Qed.

  Definition loop_decisions pick (cands : list cand) (l : string) : list decision :=
    filter (dec_in_loop l) (resolve args args_eqb pick cands).

  Lemma loop_decisions_in pick cands l c o :
    In (c, o) (loop_decisions pick cands l) <-> In (c, o) (resolve args args_eqb pick cands) /\ c_loop c = l.
  Proof.
    unfold loop_decisions, dec_in_loop, in_loop. rewrite filter_In, String.eqb_eq. simpl. intuition congruence.
  Qed.

  Lemma resolve_group_loop pk l l' (p : list cand) :
    filter (dec_in_loop l) (resolve_group args args_eqb pk (loop_cands p l'))
    = if String.eqb l l' then resolve_group args args_eqb pk (loop_cands p l') else [].
  Proof.
    apply filter_const. intros d Hd. apply resolve_group_fst_in, loop_cands_in in Hd.
    destruct Hd as [_ <-]. reflexivity.
  Qed.

  Lemma resolve_groups_loop pick (p : list cand) l L :
    NoDup L -> forall k0, exists k,
    filter (dec_in_loop l) (resolve_groups args args_eqb pick k0 (map (fun l => (l, loop_cands p l)) L))
    = if existsb (String.eqb l) L then resolve_group args args_eqb (pick k) (loop_cands p l) else [].
  Proof.
    induction L as [|l' L IH]; intros ND k0; [exists 0; reflexivity|].
    inversion ND as [|? ? Hl' ND']; subst. destruct (IH ND' (S k0)) as [k Hk].
    cbn [map resolve_groups existsb]. rewrite filter_app, resolve_group_loop, Hk.
    destruct (String.eqb_spec l l') as [<-|_]; [|exists k; reflexivity].
    (* the group of l itself: by NoDup no later group is about l *)
    exists k0. destruct (existsb (String.eqb l) L) eqn:E; [|apply app_nil_r].
    apply existsb_eqb_In in E. contradiction.
  Qed.

  (* the decisions about the candidates of loop l are those of the group made of exactly the
     candidates of loop l, with the choice function of that group's random.choice call *)
  Theorem loop_view pick (cands : list cand) l :
    exists k, loop_decisions pick cands l = resolve_group args args_eqb (pick k) (loop_cands cands l).
  Proof.
    unfold loop_decisions. rewrite resolve_by_loops.
    destruct (resolve_groups_loop pick cands l _ (proj1 (loop_order_spec cands)) 0) as [k Hk].
    exists k. rewrite Hk. destruct (existsb (String.eqb l) (loop_order cands)) eqn:E; [reflexivity|].
    (* no candidate is in loop l *)
    rewrite loop_cands_none; [reflexivity|]. rewrite <- existsb_eqb_In, E. discriminate.
  Qed.

  Lemma win_is_winner pk (g : list cand) w :
    In (w, Win) (resolve_group args args_eqb pk g) -> winner pk g = Some w.
  Proof.
    destruct (winner pk g) as [w'|] eqn:Hw; [|apply winner_none in Hw; subst; intros []].
    rewrite (resolve_group_shape _ _ _ Hw). intros [[= ->]|H]; [reflexivity|]. apply in_map_iff in H. destruct H as [c [[= _ H] _]].
    pose proof (decide_not_win w' c) as Hn. rewrite H in Hn. discriminate.
  Qed.

  Lemma loop_win_view pick cands l w :
    In (w, Win) (loop_decisions pick cands l) ->
    exists k, loop_decisions pick cands l = resolve_group args args_eqb (pick k) (loop_cands cands l)
              /\ winner (pick k) (loop_cands cands l) = Some w.
  Proof.
    intro H. destruct (loop_view pick cands l) as [k Hk]. exists k. split; [exact Hk|].
    rewrite Hk in H. exact (win_is_winner _ _ _ H).
  Qed.

  Lemma resolve_fst_in pick (cands : list cand) d :
    In d (resolve args args_eqb pick cands) -> In (fst d) cands.
  Proof.
    intro H. destruct (loop_view pick cands (c_loop (fst d))) as [k Hk].
    apply (loop_cands_in cands (c_loop (fst d))), (resolve_group_fst_in (pick k)). rewrite <- Hk.
    destruct d. apply loop_decisions_in. auto.
  Qed.

  Lemma resolve_groups_perm pick gs : forall k,
    Forall (fun g : string * list cand => NoDup (map c_head (snd g))) gs ->
    Permutation (map fst (resolve_groups args args_eqb pick k gs)) (flat_map snd gs).
  Proof.
    induction gs as [|[l g] gs IH]; intros k HF; [constructor|].
    inversion HF as [|? ? Hg HF']; subst.
    cbn [resolve_groups flat_map snd]. rewrite map_app. apply Permutation_app; [|apply IH; exact HF'].
    apply group_perm. exact Hg.
  Qed.

  (* C05_nonmatching_untouched, with resolve_fst_in *)
  Theorem resolve_perm pick (cands : list cand) :
    NoDup (map c_head cands) -> Permutation (map fst (resolve args args_eqb pick cands)) cands.
  Proof.
    intro ND. rewrite resolve_unfold, resolve_groups_perm; [apply group_by_loop_perm|].
    rewrite group_by_loop_eq. apply Forall_forall. intros g Hg.
    apply in_map_iff in Hg. destruct Hg as [l [<- _]]. apply loop_nodup. exact ND.
  Qed.

  (* what happens to a head whose action differs from the winner's *)
  Definition loser_outcome (c : cand) : outcome :=
    match c_catch c with [] => Lose | _ :: _ => Caught (last (c_catch c) EmptyString) end.

  (* the head proceeds with its own action statement (started, or shared with the winner) *)
  Definition proceeds (o : outcome) : bool := match o with Win | CoWin _ => true | _ => false end.

  Lemma loser_not_proceeds c : proceeds (loser_outcome c) = false.
  Proof. unfold loser_outcome. destruct (c_catch c); reflexivity. Qed.

  (* a candidate c of loop l, other than the head w picked there *)
  Section Rival.
    Variables (pick : nat -> nat -> nat) (cands : list cand) (l : string) (w c : cand).
    Hypothesis ND : NoDup (map c_head cands).
    Hypothesis Hw : In (w, Win) (loop_decisions pick cands l).
    Hypothesis Hc : In c (loop_cands cands l).
    Hypothesis Hne : c_head c <> c_head w.

    Lemma rival_decision o : In (c, o) (resolve args args_eqb pick cands) <-> o = decide args args_eqb w c.
    Proof.
      destruct (loop_win_view _ _ _ _ Hw) as [k [Hk Hwk]].
      transitivity (In (c, o) (loop_decisions pick cands l)).
      - rewrite loop_decisions_in. pose proof (proj1 (loop_cands_in _ _ _) Hc). tauto.
      - rewrite Hk, (group_char _ _ _ (loop_nodup cands l ND) Hwk).
        rewrite (proj2 (same_head_neq c w) Hne). tauto.
    Qed.

    (* C05_same_action_all_advance *)
    Theorem same_action_all_advance :
      is_equal args args_eqb (c_event w) (c_event c) = true ->
      (exists m, In (c, CoWin m) (resolve args args_eqb pick cands))
      /\ In (c_head c) (advancing (resolve args args_eqb pick cands))
      /\ emitted (loop_decisions pick cands l) = [c_event w]
      /\ (forall o, In (c, o) (resolve args args_eqb pick cands) -> exists m, o = CoWin m).
    Proof.
      intro Heq. pose proof rival_decision as Hd.
      unfold decide in Hd. rewrite Heq in Hd.
      split; [eexists; apply Hd; reflexivity|]. split; [|split].
      - apply advancing_In. eexists c, _. split; [apply Hd; reflexivity|auto].
      - destruct (loop_win_view _ _ _ _ Hw) as [k [Hk Hwk]]. rewrite Hk. apply group_emitted. exact Hwk.
      - intros o Ho. apply Hd in Ho. eauto.
    Qed.

    (* C05_losers_fail *)
    Theorem losers_fail :
      is_equal args args_eqb (c_event w) (c_event c) = false ->
      In (c, loser_outcome c) (resolve args args_eqb pick cands)
      /\ (forall o, In (c, o) (resolve args args_eqb pick cands) -> o = loser_outcome c)
      /\ match c_catch c with
         | [] => In (c_flow c, c_scores c) (aborted (resolve args args_eqb pick cands))
                 /\ ~ In (c_head c) (advancing (resolve args args_eqb pick cands))
         | _ :: _ => In (c_head c, last (c_catch c) EmptyString) (jumped (resolve args args_eqb pick cands))
                     /\ In (c_head c) (advancing (resolve args args_eqb pick cands))
         end.
    Proof.
      intro Heq. pose proof rival_decision as Hd.
      unfold decide in Hd. rewrite Heq in Hd.
      pose proof (proj2 (Hd _) eq_refl) as Hin.
      split; [exact Hin|]. split; [intro o; apply Hd|].
      revert Hd Hin. destruct (c_catch c) as [|lb rest]; intros Hd Hin; split.
      - apply aborted_In. exists c. auto.
      - (* a decision about this head is a decision about c *)
        intro Ha. apply advancing_In in Ha. destruct Ha as [c' [o' [Hd' [Hadv Hh]]]].
        assert (c' = c) as ->.
        { apply (NoDup_map_inj _ _ _ _ ND); [exact (resolve_fst_in _ _ _ Hd')|exact (proj1 (proj1 (loop_cands_in _ _ _) Hc))|exact Hh]. }
        apply Hd in Hd'. subst o'. discriminate.
      - apply jumped_In. exists c. auto.
      - apply advancing_In. eexists c, _. eauto.
    Qed.
  End Rival.

  (* C05_exactly_one; a loop with one candidate is covered as well *)
  Theorem exactly_one pick cands l :
    NoDup (map c_head cands) ->
    0 < List.length (loop_cands cands l) ->
    (forall x y, In x (loop_cands cands l) -> In y (loop_cands cands l) -> c_head x <> c_head y ->
                 is_equal args args_eqb (c_event x) (c_event y) = false) ->
    exists w, In w (loop_cands cands l)
      /\ emitted (loop_decisions pick cands l) = [c_event w]
      /\ map fst (filter (fun d => proceeds (snd d)) (loop_decisions pick cands l)) = [w]
      /\ (forall c, In c (loop_cands cands l) -> c_head c <> c_head w ->
            In (c, loser_outcome c) (resolve args args_eqb pick cands))
      /\ Permutation (map fst (loop_decisions pick cands l)) (loop_cands cands l).
  Proof.
    intros ND H2 Hdiff. destruct (loop_view pick cands l) as [k Hk].
    destruct (winner (pick k) (loop_cands cands l)) as [w|] eqn:Hw;
      [|apply winner_none in Hw; rewrite Hw in H2; inversion H2].
    pose proof (winner_member _ _ _ Hw) as Hwg.
    assert (Hlose : forall c, In c (loop_cands cands l) -> c_head c <> c_head w ->
                              decide args args_eqb w c = loser_outcome c).
    { intros c Hc Hne. unfold decide. rewrite Hdiff; auto. }
    exists w. split; [exact Hwg|]. split; [rewrite Hk; apply group_emitted; exact Hw|].
    split; [|split].
    - rewrite Hk, (resolve_group_shape _ _ _ Hw). cbn [filter snd proceeds map fst]. f_equal.
      rewrite (filter_const _ _ false); [reflexivity|].
      intros d Hd. apply in_map_iff in Hd. destruct Hd as [c [<- Hc]]. apply others_In in Hc. simpl.
      rewrite Hlose; [apply loser_not_proceeds|apply Hc|apply same_head_neq, Hc].
    - intros c Hc Hne. rewrite <- (Hlose c Hc Hne). apply (rival_decision pick cands l w c ND); auto.
      rewrite Hk, (resolve_group_shape _ _ _ Hw). left; reflexivity.
    - rewrite Hk. apply group_perm, loop_nodup, ND.
  Qed.

  (* C05_winner_maximal; the bound on the choice is not needed (see winner_in_tie) *)
  Theorem picked_is_maximal pick cands l w :
    sort_reverse = true -> In (w, Win) (loop_decisions pick cands l) ->
    forall c, In c (loop_cands cands l) ->
      lex_ge (key_of (loop_cands cands l) w) (key_of (loop_cands cands l) c).
  Proof.
    intros Hrev Hw. destruct (loop_win_view _ _ _ _ Hw) as [k [_ Hwk]].
    exact (winner_maximal (pick k) _ w Hrev Hwk).
  Qed.

  (* C05_any_tie: the picked head lies in the tie set, every member of the tie set is picked
     by some admissible choice (and tie_set_In) *)
  Theorem picked_in_tie pick cands l w :
    In (w, Win) (loop_decisions pick cands l) -> In w (tie_set (loop_cands cands l)).
  Proof.
    intro Hw. destruct (loop_win_view _ _ _ _ Hw) as [k [_ Hwk]]. exact (winner_in_tie _ _ _ Hwk).
  Qed.

  Theorem tie_member_wins cands l t :
    In t (tie_set (loop_cands cands l)) ->
    exists pick, picks_ok pick /\ In (t, Win) (loop_decisions pick cands l).
  Proof.
    intro Ht. destruct (tie_member_picked _ t Ht) as [pk [Hpk Hw]].
    exists (fun _ => pk). split; [intro k; exact Hpk|].
    destruct (loop_view (fun _ => pk) cands l) as [k Hk].
    rewrite Hk, (resolve_group_shape _ _ _ Hw). left; reflexivity.
  Qed.

  (* C05_loops_independent *)
  Theorem loops_independent pk cands cands' l :
    loop_cands cands l = loop_cands cands' l ->
    loop_decisions (fun _ => pk) cands l = loop_decisions (fun _ => pk) cands' l.
  Proof.
    intro E. destruct (loop_view (fun _ => pk) cands l) as [k ->].
    destruct (loop_view (fun _ => pk) cands' l) as [k' ->]. rewrite E. reflexivity.
  Qed.

  Lemma loop_cands_single (cands : list cand) c :
    NoDup (map c_loop cands) -> In c cands -> loop_cands cands (c_loop c) = [c].
  Proof.
    induction cands as [|x p IH]; intros ND Hc; [destruct Hc|].
    simpl in ND. inversion ND as [|? ? Hx ND']; subst. unfold loop_cands. simpl. unfold in_loop at 1.
    destruct Hc as [<-|Hc].
    - rewrite String.eqb_refl. f_equal. apply (filter_const _ _ false). intros y Hy.
      apply String.eqb_neq. intro E. apply Hx. rewrite E. apply in_map, Hy.
    - destruct (String.eqb_spec (c_loop c) (c_loop x)) as [E|_]; [|apply IH; assumption].
      destruct Hx. rewrite <- E. apply in_map, Hc.
  Qed.

  (* C05_different_loops_all_win *)
  Theorem different_loops_all_win pick cands :
    NoDup (map c_loop cands) ->
    (forall c, In c cands -> In (c, Win) (resolve args args_eqb pick cands))
    /\ (forall d, In d (resolve args args_eqb pick cands) -> snd d = Win).
  Proof.
    intro ND.
    assert (H : forall c, In c cands -> loop_decisions pick cands (c_loop c) = [(c, Win)]).
    { intros c Hc. destruct (loop_view pick cands (c_loop c)) as [k ->].
      rewrite (loop_cands_single _ _ ND Hc). apply resolve_group_single. }
    split.
    - intros c Hc. apply (loop_decisions_in pick cands (c_loop c)). rewrite (H c Hc). left; reflexivity.
    - intros [c o] Hd. pose proof (resolve_fst_in _ _ _ Hd) as Hc.
      assert (Hl : In (c, o) (loop_decisions pick cands (c_loop c))) by (apply loop_decisions_in; auto).
      rewrite (H c Hc) in Hl. destruct Hl as [[= <-]|[]]. reflexivity.
  Qed.
End Proofs.

Section Specificity.
  Variable args : Type.
  Variable args_eqb : args -> args -> bool.

  (* C05_less_specific_never_wins *)
  Theorem less_specific_never_wins pick (cands : list (cand args)) l c c' x a y b :
    sort_reverse = true ->
    In c (loop_cands args cands l) -> In c' (loop_cands args cands l) ->
    c_scores c = x :: a -> c_scores c' = y :: b -> (x < y)%Q ->
    ~ In (c, Win) (loop_decisions args args_eqb pick cands l).
  Proof.
    intros Hrev Hc Hc' Ex Ey Hlt Hw.
    apply (picked_is_maximal args args_eqb pick cands l c Hrev Hw c' Hc').
    unfold key_of. rewrite Ex, Ey. apply lex_cmp_first_lt. exact Hlt.
  Qed.

  (* C05_more_unmentioned_never_wins *)
  Theorem more_unmentioned_never_wins pick (cands : list (cand args)) l c c' p k k' a b :
    sort_reverse = true ->
    In c (loop_cands args cands l) -> In c' (loop_cands args cands l) ->
    (0 < p)%Q -> (k' < k)%Z ->
    c_scores c = (p * factor ^ k)%Q :: a -> c_scores c' = (p * factor ^ k')%Q :: b ->
    ~ In (c, Win) (loop_decisions args args_eqb pick cands l).
  Proof.
    intros Hrev Hc Hc' Hp Hk Ex Ey.
    eapply less_specific_never_wins; eauto.
    apply Qmult_lt_l; [exact Hp|]. apply Qpower_decreasing; [reflexivity|reflexivity|exact Hk].
  Qed.
End Specificity.

(* Sanity (depends on the generated constants, hence here and not in Conflict.v): the example of docs/colang_2/language_reference/more-on-flows.rst
   ("Flow Conflict Resolution Prioritization"): chains 1.0 -> 1.0 -> 1.0 and 0.9 -> 1.0 -> 1.0,
   different actions: the first chain wins, the second flow is aborted. *)
Module Sanity.
  Open Scope string_scope.
  Definition ev (s : string) : event string := {| ev_name := "StartUtteranceBotAction"; ev_args := s |}.
  Definition mk (h l : string) (sc : list Q) (s : string) : cand string :=
    {| c_head := h; c_flow := "f" ++ h; c_loop := l; c_scores := sc; c_event := ev s;
       c_action := None; c_catch := [] |}.
  Definition pick0 : nat -> nat -> nat := fun _ _ => 0.

  Definition doc_cands := [mk "b" "main" [9#10; 1; 1]%Q "Sure"; mk "a" "main" [1; 1; 1]%Q "Hello"].
  Example doc_example :
    result_of (resolve string String.eqb pick0 doc_cands)
    = {| r_advancing := ["a"]; r_emitted := [ev "Hello"]; r_aborted := [("fb", [9#10; 1; 1]%Q)];
         r_jumped := []; r_merged := [] |}.
  Proof. vm_compute. reflexivity. Qed.

  (* shorter list padded with 1.0 wins against an equal prefix followed by a lower score;
     two loops never compete; identical actions co-win and are emitted once *)
  Definition cands2 :=
    [mk "1" "L1" [9#10]%Q "A"; mk "2" "L1" [9#10; 9#10]%Q "B"; mk "3" "L2" [1#2]%Q "C"; mk "4" "L1" [81#100]%Q "A"].
  Example padding_loops_cowin :
    result_of (resolve string String.eqb pick0 cands2)
    = {| r_advancing := ["1"; "4"; "3"]; r_emitted := [ev "A"; ev "C"];
         r_aborted := [("f2", [9#10; 9#10]%Q)]; r_jumped := []; r_merged := [] |}.
  Proof. vm_compute. reflexivity. Qed.
End Sanity.

(* Non-vacuity: one concrete state in which the hypotheses of every statement above hold,
   and the witness that a head with the best score list can be outside the tie set. *)
Module Examples.
  Open Scope string_scope.
  Definition ev (s : string) : event string := {| ev_name := "StartUtteranceBotAction"; ev_args := s |}.
  Definition mk (h l : string) (sc : list Q) (s : string) (au : option string) (ct : list string) : cand string :=
    {| c_head := h; c_flow := "F" ++ h; c_loop := l; c_scores := sc; c_event := ev s;
       c_action := au; c_catch := ct |}.
  Notation R := (resolve string String.eqb).

  (* loop "main": c1, c2 tie exactly at [0.81]; c3 has the same action as c1 but a lower score;
     c4 is less specific, other action; c5 less specific, other action, inside an or-group.
     loop "L2": c6, c7 different actions, c6 more specific. *)
  Definition c1 := mk "1" "main" [81#100]%Q "A" (Some "a1") [].
  Definition c2 := mk "2" "main" [81#100]%Q "B" (Some "a2") [].
  Definition c3 := mk "3" "main" [729#1000]%Q "A" (Some "a3") [].
  Definition c4 := mk "4" "main" [729#1000; 1]%Q "C" None [].
  Definition c5 := mk "5" "main" [9#20]%Q "D" None ["outer"; "inner"].
  Definition c6 := mk "6" "L2" [1]%Q "A" None [].
  Definition c7 := mk "7" "L2" [9#10]%Q "B" None [].
  Definition cs := [c4; c1; c6; c5; c2; c7; c3].
  Definition pickA : nat -> nat -> nat := fun _ _ => 0.   (* picks c1 *)
  Definition pickB : nat -> nat -> nat := fun _ _ => 1.   (* picks c2 in "main" *)

  Lemma main_cands : loop_cands string cs "main" = [c4; c1; c5; c2; c3].
  Proof. reflexivity. Qed.

  Example cs_wellformed : NoDup (map c_head cs) /\ 2 <= List.length (loop_cands string cs "L2")
                          /\ 2 <= List.length (loop_cands string cs "main").
  Proof.
    split; [|split; vm_compute; repeat constructor].
    repeat constructor; simpl; intuition discriminate.
  Qed.

  Example cs_result_pickA :
    result_of (R pickA cs)
    = {| r_advancing := ["1"; "3"; "5"; "6"]; r_emitted := [ev "A"; ev "A"];
         r_aborted := [("F2", [81#100]%Q); ("F4", [729#1000; 1]%Q); ("F7", [9#10]%Q)];
         r_jumped := [("5", "inner")]; r_merged := [("F3", "a3", "a1")] |}.
  Proof. vm_compute. reflexivity. Qed.

  Example cs_result_pickB :
    result_of (R pickB cs)
    = {| r_advancing := ["2"; "5"; "6"]; r_emitted := [ev "B"; ev "A"];
         r_aborted := [("F1", [81#100]%Q); ("F4", [729#1000; 1]%Q); ("F3", [729#1000]%Q); ("F7", [9#10]%Q)];
         r_jumped := [("5", "inner")]; r_merged := [] |}.
  Proof. vm_compute. reflexivity. Qed.

  (* hypotheses of exactly_one: loop "L2" has two candidates with different actions *)
  Example exactly_one_inhabited :
    forall x y, In x (loop_cands string cs "L2") -> In y (loop_cands string cs "L2") -> c_head x <> c_head y ->
                is_equal string String.eqb (c_event x) (c_event y) = false.
  Proof.
    change (loop_cands string cs "L2") with [c6; c7].
    intros x y [<-|[<-|[]]] [<-|[<-|[]]] H; try reflexivity; exfalso; apply H; reflexivity.
  Qed.

  (* hypotheses of picked_is_maximal / same_action_all_advance / losers_fail *)
  Example winner_inhabited :
    In (c1, Win) (loop_decisions string String.eqb pickA cs "main")
    /\ In (c2, Win) (loop_decisions string String.eqb pickB cs "main")
    /\ tie_set (loop_cands string cs "main") = [c1; c2].
  Proof. split; [|split]; vm_compute; [left|left|]; reflexivity. Qed.

  Example same_action_inhabited :
    In c3 (loop_cands string cs "main") /\ c_head c3 <> c_head c1
    /\ is_equal string String.eqb (c_event c1) (c_event c3) = true.
  Proof. rewrite main_cands. split; [simpl; auto 6|]. split; [discriminate|reflexivity]. Qed.

  Example losers_inhabited :
    In c4 (loop_cands string cs "main") /\ is_equal string String.eqb (c_event c1) (c_event c4) = false
    /\ c_catch c4 = []
    /\ In c5 (loop_cands string cs "main") /\ is_equal string String.eqb (c_event c1) (c_event c5) = false
    /\ c_catch c5 <> [].
  Proof. rewrite main_cands. simpl In. repeat split; auto; discriminate. Qed.

  (* hypotheses of more_unmentioned_never_wins: c1 = 1 * factor^2, c3 = 1 * factor^3, same loop *)
  Example specificity_inhabited :
    c_scores c1 = [(1 * factor ^ 2)%Q] /\ c_scores c3 = [(1 * factor ^ 3)%Q]
    /\ In c1 (loop_cands string cs "main") /\ In c3 (loop_cands string cs "main") /\ (0 <= 2 < 3)%Z.
  Proof. rewrite main_cands. simpl In. repeat split; auto 6; discriminate. Qed.

  (* loops_independent: dropping or changing the candidates of other loops does not change "main" *)
  Example independent_inhabited :
    loop_cands string cs "main" = loop_cands string [c4; c1; c5; c2; c3; mk "9" "L3" [1]%Q "A" None []] "main"
    /\ cs <> [c4; c1; c5; c2; c3; mk "9" "L3" [1]%Q "A" None []].
  Proof. split; [reflexivity|discriminate]. Qed.

  (* The tie set is a PREFIX of the sorted list compared on UNPADDED score lists: a head whose
     score list is exactly the best one, but which sits behind a head with an equal PADDED key
     (here [0.81; 1.0] against [0.81]), is never picked - whatever random.choice returns. *)
  Definition t1 := mk "1" "main" [81#100]%Q "A" None [].
  Definition t2 := mk "2" "main" [81#100; 1]%Q "B" None [].
  Definition t3 := mk "3" "main" [81#100]%Q "C" None [].

  Lemma every_equal_score_head_can_win_refuted :
    exists (cands : list (cand string)) t1 t3,
      In t1 cands /\ In t3 cands
      /\ scores_eqb (c_scores t3) (c_scores t1) = true
      /\ lex_cmp (key_of cands t3) (key_of cands t1) = Eq
      /\ forall pick, In (t1, Win) (resolve string String.eqb pick cands)
                      /\ ~ In (t3, Win) (resolve string String.eqb pick cands).
  Proof.
    exists [t1; t2; t3], t1, t3.
    split; [left; reflexivity|]. split; [right; right; left; reflexivity|].
    split; [reflexivity|]. split; [reflexivity|]. intro pick.
    assert (E : R pick [t1; t2; t3] = [(t1, Win); (t2, Lose); (t3, Lose)]).
    { change (R pick [t1; t2; t3]) with ((resolve_group string String.eqb (pick 0) [t1; t2; t3] ++ [])%list).
      unfold resolve_group, winner.
      change (ordered [t1; t2; t3]) with [t1; t2; t3].
      change (tie_set [t1; t2; t3]) with [t1].
      destruct (pick 0 (List.length [t1])) as [|[|n]]; reflexivity. }
    rewrite E. split; [left; reflexivity|].
    intros [H|[H|[H|[]]]]; discriminate.
  Qed.
End Examples.
