(* C10 part 2 proofs: with the repaired restart logic every event cascade of a program accepted by
   cascade_cert_ok ends within phi(state) steps - instances with several heads (fork / merge /
   wait-for-heads), actionable heads that win or lose; with the unchanged logic it does not. *)
From Coq Require Import List Arith Bool Lia.
From NG Require Import V2.Term V2.Term_proofs V2.Cascade.
Import ListNotations.

(* the events of the starts a slide has sent (`run_head`) *)
Definition start_evs (l : list (flowid * bool)) : list cev := map (fun fa => CStart (fst fa) (snd fa)) l.

Definition starts_cost (prog : program) (certs : list fcert) (l : list (flowid * bool)) : nat :=
  list_sum (map (fun fa => 1 + newpot prog certs (fst fa)) l).

Lemma exec_cont_cost : forall prog certs f es o pos cs e pos' cs' st ni,
  exec_elem es o pos cs e = Cont pos' cs' st ni ->
  starts_cost prog certs (match st with Some x => [x] | None => [] end) +
  (if ni then 1 + newpot prog certs f else 0) <= ecost prog certs f e /\
  (forall g, st = Some (g, true) -> e = EStart g true).
Proof.
  intros prog certs f es o pos cs e pos' cs' st ni H.
  (* only `EStart` sends a start and only `ELabel _ true` sets the flag; `ecost` charges exactly these *)
  exec_elem_cases o e H; unfold starts_cost; simpl; (split; [lia|]); intros g Hg; try discriminate; inversion Hg; subst; reflexivity.
Qed.

Lemma exec_cont_pos : forall es o pos cs e pos' cs' st ni,
  exec_elem es o pos cs e = Cont pos' cs' st ni -> 1 <= pos'.
Proof.
  (* a continuation is behind the element or behind a label *)
  intros es o pos cs e pos' cs' st ni H. exec_elem_cases o e H; lia.
Qed.

Lemma exec_stop_kinds : forall es o pos cs e s,
  exec_elem es o pos cs e = Stop s ->
  match s with
  | Blocked p => p = pos /\ is_stop e = true
  | Forked p ts => p = pos /\ exists ls, e = EFork ls /\ all_some (map (label_pos es) ls) = Some ts
  | Ended => e = EReturn
  | OutOfFuel => False
  | _ => True
  end.
Proof.
  (* each stopping entry of the table stops in the way the statement lists for its element *)
  intros es o pos cs e s H. exec_elem_cases o e H; simpl; eauto.
Qed.

Lemma wat_lt : forall w len p, p < len -> wat w len p = nth p w 0.
Proof. intros. unfold wat. destruct (Nat.ltb_spec p len); [reflexivity|lia]. Qed.
Lemma wat_ge : forall w len p, len <= p -> wat w len p = 0.
Proof. intros. unfold wat. destruct (Nat.ltb_spec p len); [lia|reflexivity]. Qed.

Lemma check_w_at : forall prog certs f es ct p e,
  check_w prog certs f es ct = true -> nth_error es p = Some e ->
  (forall q s, In (q, s) (succ_cfg true es (f_stk ct) p) ->
     1 + ecost prog certs f e + wat (f_w ct) (length es) q <= wat (f_w ct) (length es) p) /\
  (forall ls, e = EFork ls -> 1 + fork_cost es (f_w ct) ls <= wat (f_w ct) (length es) p).
Proof.
  intros prog certs f es ct p e Hc Hn.
  apply (fun H => forallb_seq_at _ _ p H (nth_error_lt _ _ _ _ Hn)) in Hc. cbv beta in Hc.
  rewrite Hn in Hc. apply andb_true_iff in Hc. destruct Hc as [Hs Hf]. split.
  - intros q s Hin. rewrite forallb_forall in Hs. apply Nat.leb_le. exact (Hs _ Hin).
  - intros ls ->. apply Nat.leb_le. exact Hf.
Qed.

Lemma clean_at : forall es ct p e, check_clean es ct = true -> nth_error es p = Some e ->
  nth p (f_clean ct) false = true ->
  (forall q s, In (q, s) (succ_cfg true es (f_stk ct) p) -> q < length es -> nth q (f_clean ct) false = true) /\
  (forall ls q s, e = EFork ls -> In (q, s) (succ_cfg true es (f_stk ct) p) ->
                  q < length es /\ nth q (f_noend ct) false = true) /\
  (e = EWaitInt true -> p = 0) /\ e <> EBlock BAction.
Proof.
  intros es ct p e Hc Hn Hcl. apply (fun H => forallb_seq_at _ _ p H (nth_error_lt _ _ _ _ Hn)) in Hc. cbv beta in Hc.
  rewrite Hn, Hcl in Hc. apply andb_true_iff in Hc. destruct Hc as [Hc _].
  apply andb_true_iff in Hc. destruct Hc as [He Hs]. rewrite forallb_forall in Hs.
  split; [intros q s Hin; exact (beyond_or _ _ _ (Hs _ Hin))|]. split; [|split].
  - intros ls q s -> Hin. rewrite forallb_forall in He. exact (before_and _ _ _ (He _ Hin)).
  - intros ->. apply Nat.eqb_eq. exact He.
  - intros ->. discriminate.
Qed.

Lemma noend_at : forall es ct p e, check_clean es ct = true -> nth_error es p = Some e ->
  nth p (f_noend ct) false = true ->
  (forall q s, In (q, s) (succ_cfg true es (f_stk ct) p) -> q < length es /\ nth q (f_noend ct) false = true) /\
  e <> EReturn.
Proof.
  intros es ct p e Hc Hn Hne. apply (fun H => forallb_seq_at _ _ p H (nth_error_lt _ _ _ _ Hn)) in Hc. cbv beta in Hc.
  rewrite Hn, Hne in Hc. apply andb_true_iff in Hc. destruct Hc as [_ Hc].
  apply andb_true_iff in Hc. destruct Hc as [He Hs]. rewrite forallb_forall in Hs.
  split; [intros q s Hin; exact (before_and _ _ _ (Hs _ Hin))|intros ->; discriminate].
Qed.

Lemma resumes_in_succ : forall es stk p e s qs,
  nth_error es p = Some e -> stk_at stk p = Some s -> wakes e = true -> In qs (resumes es s p e) ->
  In qs (succ_cfg true es stk p).
Proof.
  intros es stk p e s qs Hn Hs Hw Hin. unfold succ_cfg. rewrite Hn, Hs. apply in_or_app. right.
  simpl. rewrite Hw. assumption.
Qed.

Lemma resumes_stk : forall ti es r stk p e s q s',
  check_cert ti es r stk = true -> nth_error es p = Some e -> stk_at stk p = Some s ->
  In (q, s') (resumes es s p e) -> q < length es -> stk_at stk q = Some s'.
Proof.
  intros ti es r stk p e s q s' Hc Hn Hs Hin Hq.
  apply (proj2 (proj2 (check_cert_at ti es r stk p e s Hc Hn Hs))); [|assumption].
  apply in_or_app. right. assumption.
Qed.

Lemma catch_resume_in : forall es s q s', In (q, s') (catch_resume es s) -> s' = s /\ 1 <= q.
Proof.
  intros es s q s'. unfold catch_resume. destruct s as [|l s0]; [intros []|].
  destruct (label_pos es l); [|intros []]. intros [H|[]]. inversion H; subst. split; [reflexivity|lia].
Qed.

Lemma resumes_same_stack : forall es s p e q s', In (q, s') (resumes es s p e) -> s' = s /\ 1 <= q.
Proof.
  intros es s p e q s' H. destruct e; try contradiction.
  1: match goal with k : bkind |- _ => destruct k end.
  (* the five kinds of stop: behind the element, or behind the catch label *)
  1-5: simpl in H; destruct H as [H|H]; [inversion H; subst; split; [reflexivity|lia]|];
       try contradiction; exact (catch_resume_in _ _ _ _ H).
  apply in_flat_map in H. destruct H as [l [_ H]]. destruct (label_pos es l); simpl in H; try contradiction.
  destruct H as [H|[]]. inversion H; subst. split; [reflexivity|lia].
Qed.

(* the heads a fork creates: each is resumed behind its label, and together they cost `fork_cost` *)
Lemma fork_targets : forall es s p w ls ts, all_some (map (label_pos es) ls) = Some ts ->
  (forall i, In i ts -> In (S i, s) (resumes es s p (EFork ls))) /\
  list_sum (map (fun i => 1 + wat w (length es) (S i)) ts) = fork_cost es w ls.
Proof.
  intros es s p w. unfold fork_cost. simpl. induction ls as [|l ls IH]; intros ts Ha; simpl in Ha.
  - inversion Ha. split; [intros i []|reflexivity].
  - destruct (label_pos es l) as [i0|] eqn:Hl; [|discriminate].
    destruct (all_some (map (label_pos es) ls)) as [ts0|] eqn:Hr; [|discriminate].
    inversion Ha; subst. destruct (IH ts0 eq_refl) as [IH1 IH2]. simpl. rewrite Hl. split.
    + intros i [->|Hin]; [left; reflexivity|right; exact (IH1 i Hin)].
    + cbn [map list_sum fold_right] in *. unfold list_sum in *. lia.
Qed.

Section SlidePot.
  Variables (prog : program) (certs : list fcert) (f : flowid) (es : list elem) (ct : fcert).
  Hypothesis Hprog : nth_error prog f = Some es.
  Hypothesis Hcert : check_cert true es (f_rank ct) (f_stk ct) = true.
  Hypothesis Hw : check_w prog certs f es ct = true.
  Hypothesis Hclean : check_clean es ct = true.

  Local Notation len := (length es).
  Local Notation w := (f_w ct).
  Local Notation cl := (f_clean ct).
  Local Notation ne := (f_noend ct).

  Definition endpot (s : stop) : nat :=
    match s with Blocked p | Forked p _ => wat w len p | _ => 0 end.

  (* a slide from pos (catch stack there: as predicted) has come to rest at p with the stack cs: the
     prediction holds at p too, and p is in the regions `clean` / `noend` if pos was *)
  Definition rests (pos : nat) (cs : list label) (p : nat) : Prop :=
    stk_at (f_stk ct) p = Some cs /\
    ((pos < len -> nth pos cl false = true) -> nth p cl false = true) /\
    (pos < len /\ nth pos ne false = true -> nth p ne false = true).

  (* the weight at pos pays for every start the slide sends, for the label start_new_flow_instance
     if it passes it, and for the weight of the place where it stops *)
  Lemma slide_pot : forall fuel orc k pos cs starts ni,
    (pos < len -> stk_at (f_stk ct) pos = Some cs) ->
    let res := slide_fuel fuel es orc k pos cs starts ni in
    (exists new, s_starts res = starts ++ new /\
       (forall g, In (g, true) new -> activatable prog g = true) /\
       starts_cost prog certs new + (if s_newinst res && negb ni then 1 + newpot prog certs f else 0)
       + endpot (s_stop res) <= wat w len pos) /\
    match s_stop res with
    | Blocked p => (exists e, nth_error es p = Some e /\ is_stop e = true) /\ rests pos (s_catch res) p
    | Forked p ts => (exists ls, nth_error es p = Some (EFork ls) /\ all_some (map (label_pos es) ls) = Some ts) /\
                     rests pos (s_catch res) p
    | Ended => ~ (pos < len /\ nth pos ne false = true)
    | _ => True
    end.
  Proof.
    (* a slide that stops at once sends nothing *)
    assert (Hnone : forall pos starts ni n, n <= wat w len pos ->
              exists new : list (flowid * bool), starts = starts ++ new /\
                (forall g, In (g, true) new -> activatable prog g = true) /\
                starts_cost prog certs new + (if ni && negb ni then 1 + newpot prog certs f else 0) + n <= wat w len pos).
    { intros pos starts ni n Hn. exists []. rewrite app_nil_r, andb_negb_r.
      split; [reflexivity|]. split; [intros g []|exact Hn]. }
    induction fuel as [|fuel IH]; intros orc k pos cs starts ni Hcs; simpl.
    { split; [apply Hnone, Nat.le_0_l|exact I]. }
    destruct (nth_error es pos) as [e|] eqn:Hnth; simpl.
    2:{ apply nth_error_None in Hnth. split; [apply Hnone, Nat.le_0_l|]. intros [Hlt _]. lia. }
    pose proof (nth_error_lt _ _ _ _ Hnth) as Hlt.
    destruct (exec_elem es (orc k) pos cs e) as [pos' cs' st ni'|s] eqn:Hex.
    - destruct (cert_step true es (f_rank ct) (f_stk ct) (orc k) pos cs e pos' cs' st ni' Hcert Hnth (Hcs Hlt) Hex)
        as [_ [_ Hstk']].
      pose proof (conts_in_succ true _ _ _ _ _ _ _ Hnth (Hcs Hlt) (exec_cont_in_conts _ _ _ _ _ _ _ _ _ Hex)) as Hins.
      pose proof (proj1 (check_w_at _ _ _ _ _ _ _ Hw Hnth) _ _ Hins) as Hwstep.
      destruct (exec_cont_cost prog certs f _ _ _ _ _ _ _ _ _ Hex) as [Hcost Hact].
      specialize (IH orc (S k) pos' cs' (match st with Some x => starts ++ [x] | None => starts end) (ni || ni') Hstk').
      cbv zeta in IH. destruct IH as [[new [Hs [Hact' Hc]]] IH].
      split.
      + exists (match st with Some x => [x] | None => [] end ++ new). split; [|split].
        * rewrite Hs. destruct st; [rewrite <- app_assoc; reflexivity | reflexivity].
        * intros g Hg. apply in_app_or in Hg. destruct Hg as [Hg|Hg]; [|apply Hact'; assumption].
          destruct st as [[g0 a0]|]; [|destruct Hg]. destruct Hg as [Hg|[]]. inversion Hg; subst.
          specialize (Hact g eq_refl). subst e.
          unfold activatable. apply existsb_exists. exists es. split; [eapply nth_error_In; eassumption|].
          apply existsb_exists. exists (EStart g true). split; [eapply nth_error_In; eassumption|].
          apply Nat.eqb_refl.
        * unfold starts_cost in *. rewrite map_app, list_sum_app.
          set (R := slide_fuel fuel es orc (S k) pos' cs'
                               (match st with Some x => starts ++ [x] | None => starts end) (ni || ni')) in *.
          (* the label start_new_flow_instance is charged once, where the flag first turns true *)
          destruct (s_newinst R), ni, ni'; simpl in *; lia.
      + (* pos' is a successor of pos: the regions are closed under successors *)
        assert (Hne : pos < len /\ nth pos ne false = true -> pos' < len /\ nth pos' ne false = true)
          by (intros [_ Hne]; exact (proj1 (noend_at es ct pos e Hclean Hnth Hne) _ _ Hins)).
        assert (Hrest : forall c p, rests pos' c p -> rests pos c p).
        { intros c p (J1 & J2 & J3). split; [exact J1|]. split; [|intros H; exact (J3 (Hne H))].
          intros Hcl. apply J2. exact (proj1 (clean_at es ct pos e Hclean Hnth (Hcl Hlt)) _ _ Hins). }
        revert IH. destruct (s_stop _) as [p|p ts| | |p|]; try exact (fun _ => I).
        * intros [E J]. split; [exact E|exact (Hrest _ _ J)].
        * intros [E J]. split; [exact E|exact (Hrest _ _ J)].
        * intros IH H. exact (IH (Hne H)).
    - pose proof (exec_stop_kinds _ _ _ _ _ _ Hex) as Hk.
      assert (Hrest : rests pos cs pos)
        by (split; [exact (Hcs Hlt)|split; [intros Hcl; exact (Hcl Hlt)|intros [_ Hne]; exact Hne]]).
      split; [apply Hnone; destruct s; simpl; try lia; destruct Hk as [-> _]; lia|].
      destruct s as [p|p ts| | |p|]; try exact I.
      + destruct Hk as [-> Hk]. split; [eauto|exact Hrest].
      + destruct Hk as [-> [ls [-> Hk]]]. split; [eauto|exact Hrest].
      + intros [_ Hne]. subst e. exact (proj2 (noend_at es ct pos EReturn Hclean Hnth Hne) eq_refl).
  Qed.
End SlidePot.


Lemma forallb_i_nth : forall A (f : nat -> A -> bool) l i k a,
  forallb_i f l i = true -> nth_error l k = Some a -> f (i + k) a = true.
Proof.
  induction l as [|x l IH]; intros i k a H Hn; [destruct k; discriminate|].
  simpl in H. apply andb_true_iff in H. destruct H as [H1 H2].
  destruct k as [|k]; simpl in Hn.
  - inversion Hn; subst. rewrite Nat.add_0_r. assumption.
  - replace (i + S k) with (S i + k) by lia. eapply IH; eauto.
Qed.

Record flow_ok (prog : program) (certs : list fcert) (f : flowid) (es : list elem) (ct : fcert) : Prop := {
  fo_cert : nth_error certs f = Some ct;
  fo_head : exists tl, es = EWaitInt true :: tl;
  fo_stk0 : stk_at (f_stk ct) 0 = Some [];
  fo_check : check_cert true es (f_rank ct) (f_stk ct) = true;
  fo_w : check_w prog certs f es ct = true;
  fo_clean : check_clean es ct = true;
  fo_act : activatable prog f = true -> 1 < length es -> nth 1 (f_clean ct) false = true
}.

Lemma cert_ok_flow : forall prog certs f es,
  cascade_cert_ok prog certs = true -> nth_error prog f = Some es ->
  exists ct, flow_ok prog certs f es ct.
Proof.
  intros prog certs f es H Hn. unfold cascade_cert_ok in H.
  apply andb_true_iff in H. destruct H as [_ H].
  pose proof (forallb_i_nth _ _ _ 0 f es H Hn) as Hf. simpl in Hf.
  destruct (nth_error certs f) as [ct|] eqn:Hc; [|discriminate].
  (* the six checks of cascade_cert_ok for flow f, last first *)
  apply andb_true_iff in Hf. destruct Hf as [Hf Hact]. apply andb_true_iff in Hf. destruct Hf as [Hf Hcl].
  apply andb_true_iff in Hf. destruct Hf as [Hf Hw]. apply andb_true_iff in Hf. destruct Hf as [Hf Hchk].
  apply andb_true_iff in Hf. destruct Hf as [Hhead Hstk].
  exists ct. constructor; auto.
  - destruct es as [|e tl]; [discriminate|]. exists tl.
    destruct e eqn:E; try discriminate. match type of E with _ = EWaitInt ?b => destruct b end; [reflexivity|discriminate].
  - destruct (stk_at (f_stk ct) 0) as [[|]|]; try discriminate. reflexivity.
  - intros Ha Hl. rewrite Ha in Hact. simpl in Hact. apply orb_true_iff in Hact. destruct Hact as [H0|H0]; [assumption|].
    apply Nat.leb_le in H0. lia.
Qed.

Definition quiet (es : list elem) (h : chead) : bool :=
  match nth_error es (h_pos h) with
  | Some (EWaitInt true) => Nat.eqb (h_pos h) 0
  | Some (EBlock BAction) => false
  | Some (EBlock BMatch) | Some EWaitHeads => h_inert h
  | _ => true
  end.

Section Inv.
  Variables (prog : program) (certs : list fcert).

  (* sa = the instance is activated and has not been STARTED yet *)
  Definition hwf (es : list elem) (ct : fcert) (sa forked : bool) (h : chead) : Prop :=
    (h_inert h = false -> forall q, In q (h_alts h) ->
       1 <= q /\ (q < length es -> stk_at (f_stk ct) q = Some (h_catch h)) /\
       (sa = true -> (q < length es -> nth q (f_clean ct) false = true) /\
                     (forked = true -> q < length es /\ nth q (f_noend ct) false = true))) /\
    (sa = true -> quiet es h = true).

  Definition sa_of (c : cinst) : bool := negb (started c) && c_act c.

  Definition iwf (c : cinst) : Prop :=
    (c_act c = true -> activatable prog (c_flow c) = true) /\
    (c_forked c = false -> length (c_heads c) <= 1) /\
    (listening c = true ->
     exists es ct, nth_error prog (c_flow c) = Some es /\ flow_ok prog certs (c_flow c) es ct /\
                   Forall (hwf es ct (sa_of c) (c_forked c)) (c_heads c)).

  Definition ewf (e : cev) : Prop :=
    match e with CStart g true => activatable prog g = true | _ => True end.

  Definition swf (st : cstate) : Prop :=
    Forall iwf (c_insts st) /\ Forall ewf (c_queue st).

  Definition qcost (l : list cev) : nat := list_sum (map (ev_cost prog certs) l).

  Lemma qcost_app : forall a b, qcost (a ++ b) = qcost a + qcost b.
  Proof. intros. unfold qcost. rewrite map_app, list_sum_app. reflexivity. Qed.

  Lemma qcost_starts : forall l,
    qcost (start_evs l) = starts_cost prog certs l.
  Proof.
    induction l as [|a l IH]; [reflexivity|]. unfold qcost, starts_cost in *. simpl. rewrite IH. reflexivity.
  Qed.

  Lemma ewf_starts : forall l, (forall g, In (g, true) l -> activatable prog g = true) ->
    Forall ewf (start_evs l).
  Proof.
    intros l H. apply Forall_forall. intros e He. apply in_map_iff in He. destruct He as [[g a] [He Hin]].
    subst e. simpl. destruct a; [apply H; assumption | exact I].
  Qed.

  Lemma hwf_weaken : forall es ct sa sa' fk h, (sa' = true -> sa = true) -> hwf es ct sa fk h -> hwf es ct sa' fk h.
  Proof.
    intros es ct sa sa' fk h Himp [H1 H2]. split.
    - intros Hi q Hq. destruct (H1 Hi q Hq) as [A [B C]]. split; [assumption|]. split; [assumption|].
      intros Hs. apply C. apply Himp. assumption.
    - intros Hs. apply H2. apply Himp. assumption.
  Qed.
End Inv.

Lemma list_max_in : forall l x, In x l -> x <= list_max l.
Proof.
  induction l as [|y l IH]; intros x H; [destruct H|]. simpl. destruct H as [->|H]; [lia|].
  specialize (IH x H). lia.
Qed.

(* the other heads of an instance that a merge leaves (`react_head`) *)
Definition keep_filter (keep : nat -> bool) (l : list chead) : list chead :=
  map snd (filter (fun kh => keep (fst kh)) (combine (seq 0 (length l)) l)).

Section Steps.
  Variables (prog : program) (certs : list fcert).
  Hypothesis Hok : cascade_cert_ok prog certs = true.

  Local Notation iwf := (iwf prog certs).
  Local Notation ewf := (ewf prog).
  Local Notation qcost := (qcost prog certs).
  Local Notation ipot := (ipot prog certs).

  Lemma ewf_start_if : forall b f a, (a = true -> activatable prog f = true) -> Forall ewf (start_if b f a).
  Proof.
    intros b f a H. destruct b; simpl; [|constructor]. constructor; [|constructor].
    simpl. destruct a; [apply H; reflexivity | exact I].
  Qed.

  Lemma ewf_note_if : forall b, Forall ewf (note_if b).
  Proof. intros []; simpl; repeat constructor. Qed.

  Lemma qcost_note_if : forall b, qcost (note_if b) = if b then 1 else 0.
  Proof. intros []; reflexivity. Qed.

  Lemma qcost_start_if : forall b f a, qcost (start_if b f a) = if b then 1 + newpot prog certs f else 0.
  Proof. intros [] f a; unfold Cascade_proofs.qcost; simpl; lia. Qed.

  Lemma qcost_note : qcost [CNote] = 1. Proof. reflexivity. Qed.

  Lemma wakes_movable_stop : forall e, is_stop e = true ->
    match e with EBlock BMatch | EWaitHeads => true | _ => false end = false -> wakes e = true.
  Proof. intros e H Hn. destruct e; simpl in *; try discriminate; auto. destruct k; auto; discriminate. Qed.

  Lemma waits_quiet_inert : forall es h, head_waits es h = true -> quiet es h = true -> h_inert h = true.
  Proof.
    intros es h Hw Hq. unfold head_waits in Hw. unfold quiet in Hq.
    apply andb_true_iff in Hw. destruct Hw as [Hp Hw]. apply negb_true_iff in Hp.
    destruct (nth_error es (h_pos h)) as [e|]; [|discriminate].
    destruct e; try discriminate.
    - destruct k; try discriminate. assumption.
    - destruct started_making; try discriminate. congruence.
    - assumption.
  Qed.

  (* heads that all wait (so that their instance becomes STARTED) and rest where a not yet started
     activated instance may rest are all inert: nothing in this cascade finishes the instance *)
  Lemma waiting_inert : forall es heads,
    forallb (head_waits es) heads = true -> Forall (fun h => quiet es h = true) heads ->
    existsb (fun h => negb (h_inert h)) heads = false.
  Proof.
    intros es heads Hw Hq. rewrite forallb_forall in Hw. rewrite Forall_forall in Hq.
    destruct (existsb (fun h => negb (h_inert h)) heads) eqn:Hex; [|reflexivity].
    apply existsb_exists in Hex. destruct Hex as [h [Hin Hni]].
    rewrite (waits_quiet_inert es h (Hw h Hin) (Hq h Hin)) in Hni. discriminate.
  Qed.

  (* A slide in the flow es has stopped at the element e at p, with the catch stack s predicted there:
     the heads that come to rest at p are well-formed and the weight at p pays for their potential. *)
  Section Rest.
  Variables (f : flowid) (es : list elem) (ct : fcert) (p : nat) (e : elem) (s : list label).
  Hypothesis Hf : flow_ok prog certs f es ct.
  Hypothesis He : nth_error es p = Some e.
  Hypothesis Hs : stk_at (f_stk ct) p = Some s.

  Lemma alts_pot : is_stop e = true -> wakes e = true ->
    1 + list_max (map (wat (f_w ct) (length es)) (map fst (resumes es s p e))) <= wat (f_w ct) (length es) p.
  Proof.
    intros Hse Hw.
    assert (Hall : forall qs, In qs (resumes es s p e) ->
                     1 + wat (f_w ct) (length es) (fst qs) <= wat (f_w ct) (length es) p).
    { intros [q s'] Hin. pose proof (resumes_in_succ es (f_stk ct) p e s (q, s') He Hs Hw Hin) as Hin2.
      pose proof (proj1 (check_w_at prog certs f es ct p e (fo_w _ _ _ _ _ Hf) He) q s' Hin2). simpl. lia. }
    assert (Hne : In (S p, s) (resumes es s p e)).
    { destruct e; simpl in Hse; try discriminate; simpl; [destruct k|..]; simpl; auto. }
    pose proof (Hall _ Hne) as H1. simpl in H1.
    assert (Hm : list_max (map (wat (f_w ct) (length es)) (map fst (resumes es s p e))) <= wat (f_w ct) (length es) p - 1).
    { apply list_max_le, Forall_forall. intros x Hx. apply in_map_iff in Hx. destruct Hx as [q [Hq Hin]].
      apply in_map_iff in Hin. destruct Hin as [qs [Hqs Hin]]. subst. specialize (Hall _ Hin). lia. }
    lia.
  Qed.

  Lemma clean_stop_quiet : forall cs alts, nth p (f_clean ct) false = true -> is_stop e = true ->
    quiet es {| h_pos := p; h_catch := cs;
                h_inert := match e with EBlock BMatch | EWaitHeads => true | _ => false end; h_alts := alts |} = true.
  Proof.
    intros cs alts Hcp Hse. unfold quiet. cbn [h_pos h_inert]. rewrite He.
    destruct (clean_at es ct p e (fo_clean _ _ _ _ _ Hf) He Hcp) as (_ & _ & C1 & C2).
    destruct e; simpl in Hse; try discriminate.
    - match goal with k : bkind |- _ => destruct k end; try reflexivity. exfalso; apply C2; reflexivity.
    - match goal with b : bool |- _ => destruct b end; [rewrite (C1 eq_refl)|]; reflexivity.
    - reflexivity.
  Qed.

  (* a head resting on e and resumed from its successors *)
  Lemma rest_hwf : forall sa fk hd,
    (h_inert hd = false -> wakes e = true) -> h_catch hd = s ->
    (forall q, In q (h_alts hd) -> In (q, s) (resumes es s p e)) ->
    (sa = true -> nth p (f_clean ct) false = true) ->
    (sa = true -> fk = true -> forall q, In (q, s) (succ_cfg true es (f_stk ct) p) ->
                               q < length es /\ nth q (f_noend ct) false = true) ->
    (sa = true -> quiet es hd = true) -> hwf es ct sa fk hd.
  Proof.
    intros sa fk hd Hw Hc Halts Hcl Hne Hq. split; [|exact Hq].
    intros Hin q Hq'. specialize (Halts q Hq'). rewrite Hc.
    destruct (resumes_same_stack _ _ _ _ _ _ Halts) as [_ Hge].
    pose proof (resumes_in_succ es (f_stk ct) p e s _ He Hs (Hw Hin) Halts) as Hsucc.
    split; [assumption|]. split.
    - exact (resumes_stk true es _ _ p e s q s (fo_check _ _ _ _ _ Hf) He Hs Halts).
    - intros Hsa. split; [|intros Hfk; exact (Hne Hsa Hfk q Hsucc)].
      exact (proj1 (clean_at es ct p e (fo_clean _ _ _ _ _ Hf) He (Hcl Hsa)) q s Hsucc).
  Qed.

  Lemma blocked_head : forall sa fk, is_stop e = true ->
    (sa = true -> nth p (f_clean ct) false = true) ->
    (sa = true -> fk = true -> nth p (f_noend ct) false = true) ->
    let hd' := {| h_pos := p; h_catch := s; h_inert := match e with EBlock BMatch | EWaitHeads => true | _ => false end;
                  h_alts := map fst (resumes es s p e) |} in
    hwf es ct sa fk hd' /\ hpot (f_w ct) (length es) hd' <= wat (f_w ct) (length es) p.
  Proof.
    intros sa fk Hse Hcl Hne hd'. split.
    - apply rest_hwf; auto.
      + intros Hin. apply wakes_movable_stop; assumption.
      + intros q Hq. apply in_map_iff in Hq. destruct Hq as [[q2 s2] [<- Hin2]].
        destruct (resumes_same_stack _ _ _ _ _ _ Hin2) as [-> _]. exact Hin2.
      + intros Hsa Hfk. exact (fun q => proj1 (noend_at es ct p e (fo_clean _ _ _ _ _ Hf) He (Hne Hsa Hfk)) q s).
      + intros Hsa. apply clean_stop_quiet; auto.
    - unfold hpot. cbn [hd' h_inert h_alts].
      destruct (match e with EBlock BMatch | EWaitHeads => true | _ => false end) eqn:Hin; [lia|].
      exact (alts_pot Hse (wakes_movable_stop e Hse Hin)).
  Qed.

  Lemma forked_heads : forall ls ts sa, e = EFork ls -> all_some (map (label_pos es) ls) = Some ts ->
    (sa = true -> nth p (f_clean ct) false = true) ->
    let news := map (fun i => {| h_pos := p; h_catch := s; h_inert := false; h_alts := [S i] |}) ts in
    Forall (hwf es ct sa true) news /\
    list_sum (map (hpot (f_w ct) (length es)) news) + 1 <= wat (f_w ct) (length es) p.
  Proof.
    intros ls ts sa E Hts Hcl news. split.
    - apply Forall_forall. intros h Hh. apply in_map_iff in Hh. destruct Hh as [i [<- Hi]].
      apply rest_hwf; auto.
      + intros _. rewrite E. reflexivity.
      + intros q [<-|[]]. rewrite E. exact (proj1 (fork_targets es s p (f_w ct) ls ts Hts) i Hi).
      + intros Hsa _ q Hq.
        exact (proj1 (proj2 (clean_at es ct p e (fo_clean _ _ _ _ _ Hf) He (Hcl Hsa))) ls q _ E Hq).
      + intros _. unfold quiet. cbn [h_pos]. rewrite He, E. reflexivity.
    - pose proof (proj2 (check_w_at prog certs f es ct p e (fo_w _ _ _ _ _ Hf) He) ls E) as Hfc.
      rewrite <- (proj2 (fork_targets es s p (f_w ct) ls ts Hts)) in Hfc.
      replace (map (hpot (f_w ct) (length es)) news) with (map (fun i => 1 + wat (f_w ct) (length es) (S i)) ts); [lia|].
      unfold news. rewrite map_map. apply map_ext. intros i. unfold hpot. simpl. lia.
  Qed.
  End Rest.

  (* b pays for what an advance leaves: the instance is well-formed, and together with the events it
     sends costs less than b *)
  Definition pays (b : nat) (ro : rout) : Prop :=
    iwf (r_inst ro) /\ Forall ewf (r_right ro) /\ Forall ewf (r_left ro) /\
    ipot (r_inst ro) + qcost (r_right ro) + qcost (r_left ro) + 1 <= b.

  Lemma pays_le : forall b b' ro, pays b ro -> b <= b' -> pays b' ro.
  Proof. intros b b' ro (A & B & C & D) H. split; [exact A|]. split; [exact B|]. split; [exact C|lia]. Qed.

  Lemma ipot_dead : forall c r, ipot (dead_inst c r) = 0.
  Proof. reflexivity. Qed.

  Lemma iwf_dead : forall c r, (c_act c = true -> activatable prog (c_flow c) = true) -> iwf (dead_inst c r).
  Proof. intros c r H. split; [exact H|]. split; [cbn; intros _; lia|cbn; discriminate]. Qed.

  (* The account of restarts.  An activated instance that is STARTED and not yet restarted keeps N in
     reserve for its restart as long as one of its heads can still move (any).  A slide that passes
     the label start_new_flow_instance (ni) in a STARTED instance sends the restart at once and marks
     the instance restarted: the reserve is released when it is spent, and the label itself was
     charged to the weights. *)
  Lemma restart_paid : forall (N : nat) (st act rst ni any : bool),
    (if act && negb (rst || ni && st) && st && any then N else 0) + (if ni && st then N else 0)
    <= (if ni then N else 0) + (if act && negb rst && st then N else 0).
  Proof. intros N [] [] [] [] []; simpl; lia. Qed.

  (* A listening instance c of the flow es, out of which the head that is advanced has been taken. *)
  Section Advance.
  Variables (c : cinst) (es : list elem) (ct : fcert).
  Hypothesis Hprog : nth_error prog (c_flow c) = Some es.
  Hypothesis Hf : flow_ok prog certs (c_flow c) es ct.
  Hypothesis Hl : listening c = true.
  Hypothesis Hactv : c_act c = true -> activatable prog (c_flow c) = true.
  Hypothesis Hnf : c_forked c = false -> c_heads c = [].
  Hypothesis Hothers : Forall (hwf es ct (sa_of c) (c_forked c)) (c_heads c).

  Local Notation len := (length es).
  Local Notation w := (f_w ct).

  (* what c has to pay an advance from q with *)
  Definition good_bound (q : nat) : nat :=
    2 + (if started c then 0 else 1) + list_sum (map (hpot w len) (c_heads c)) + (1 + wat w len q) +
    (if c_act c && negb (c_restarted c) && started c then 1 + newpot prog certs (c_flow c) else 0).

  (* the advanced head ends its instance (flow finished, aborted, or raised): it is paid for the
     events it sent, the notes of its end, and its restart if there is one *)
  Lemma dies_ok : forall q new ni restart notes b,
    Forall ewf (start_evs new) -> Forall ewf notes ->
    (restart = true -> c_act c && negb (c_restarted c || ni && started c) && started c = true) ->
    qcost notes <= 2 + (if started c then 0 else 1) ->
    starts_cost prog certs new + (if ni then 1 + newpot prog certs (c_flow c) else 0) <= wat w len q ->
    pays (good_bound q)
      {| r_inst := dead_inst c b;
         r_right := start_evs new ++ notes;
         r_left := start_if restart (c_flow c) (c_act c) ++ start_if (ni && started c) (c_flow c) (c_act c) |}.
  Proof.
    intros q new ni restart notes b Hnew Hnotes Hres Hn Hcost. unfold pays. cbn [r_inst r_right r_left].
    split; [apply iwf_dead; assumption|]. split; [apply Forall_app; auto|].
    split; [apply Forall_app; split; apply ewf_start_if; assumption|].
    rewrite ipot_dead, !qcost_app, qcost_starts, !qcost_start_if. unfold good_bound.
    (* a restart is sent only by an instance that held the reserve for it (Hres); otherwise at most the
       label is paid, out of what the weights charged for it *)
    destruct restart.
    - specialize (Hres eq_refl). destruct (c_act c), (c_restarted c), (started c), ni; try discriminate Hres; simpl in *; lia.
    - destruct (started c), ni; simpl in *; lia.
  Qed.

  Lemma fails_ok : forall q new (ni ce : bool),
    Forall ewf (start_evs new) ->
    starts_cost prog certs new + (if ni then 1 + newpot prog certs (c_flow c) else 0) <= wat w len q ->
    let f := fail_inst c (guard_ok true c) ce (c_restarted c || ni && started c) in
    pays (good_bound q)
      {| r_inst := r_inst f;
         r_right := start_evs new ++ r_right f;
         r_left := r_left f ++ start_if (ni && started c) (c_flow c) (c_act c) |}.
  Proof.
    intros q new ni ce Hnew Hcost. cbv zeta. cbn [fail_inst r_inst r_right r_left].
    apply dies_ok; try assumption.
    - apply Forall_app. split; [apply ewf_note_if|repeat constructor].
    - exact (fun H => H).
    - rewrite qcost_app, qcost_note_if, qcost_note. destruct ce, (started c); simpl; lia.
  Qed.

  (* the advanced head leaves its instance alive: new heads `news` (none, the head itself at its new
     resting place, or the heads of a fork) join the others; the status stays, or the instance becomes
     STARTED (one note) and then, if it is activated, no head is left that could finish it in this cascade *)
  Lemma survives_ok : forall q new (ni : bool) news status' fk' notes wp,
    Forall ewf (start_evs new) -> Forall ewf notes ->
    fk' = c_forked c \/ fk' = true -> (fk' = false -> length news <= 1) ->
    Forall (hwf es ct (sa_of c) fk') news ->
    list_sum (map (hpot w len) news) <= wp ->
    starts_cost prog certs new + (if ni then 1 + newpot prog certs (c_flow c) else 0) + wp <= wat w len q ->
    status' = c_status c /\ qcost notes = 0 \/
    status' = CStarted /\ started c = false /\ qcost notes = 1 /\
      (c_act c = true -> existsb (fun h => negb (h_inert h)) (news ++ c_heads c) = false) ->
    pays (good_bound q)
      {| r_inst := {| c_flow := c_flow c; c_heads := news ++ c_heads c; c_status := status'; c_act := c_act c;
                      c_restarted := c_restarted c || ni && started c; c_forked := fk' |};
         r_right := start_evs new ++ notes;
         r_left := start_if (ni && started c) (c_flow c) (c_act c) |}.
  Proof.
    intros q new ni news status' fk' notes wp Hnew Hnotes Hfk Hlen Hnews Hsum Hcost Hst.
    unfold pays. cbn [r_inst r_right r_left].
    split; [|split; [apply Forall_app; auto|split; [apply ewf_start_if; assumption|]]].
    - split; [exact Hactv|]. split.
      { cbn. intros E. rewrite app_length. destruct Hfk as [E'|E']; [|congruence].
        rewrite (Hnf (eq_trans (eq_sym E') E)). specialize (Hlen E). simpl. lia. }
      intros _. exists es, ct. split; [exact Hprog|]. split; [exact Hf|]. cbn [c_heads c_forked].
      assert (Himp : sa_of {| c_flow := c_flow c; c_heads := news ++ c_heads c; c_status := status'; c_act := c_act c;
                              c_restarted := c_restarted c || ni && started c; c_forked := fk' |} = true ->
                     sa_of c = true)
        by (destruct Hst as [[-> _]|[-> _]]; [exact (fun H => H)|discriminate]).
      assert (Hall : Forall (hwf es ct (sa_of c) fk') (news ++ c_heads c)).
      { apply Forall_app. split; [assumption|]. destruct Hfk as [->| ->]; [assumption|].
        destruct (c_forked c) eqn:E; [assumption|]. rewrite (Hnf eq_refl). constructor. }
      eapply Forall_impl; [|exact Hall]. intros h Hh. exact (hwf_weaken _ _ _ _ _ _ Himp Hh).
    - rewrite qcost_app, qcost_starts, qcost_start_if.
      unfold good_bound, Cascade.ipot, listening, started in *.
      cbn [c_status c_flow c_heads c_act c_restarted]. rewrite Hprog, (fo_cert _ _ _ _ _ Hf), map_app, list_sum_app.
      clear - Hl Hsum Hcost Hst.
      pose proof (restart_paid (1 + newpot prog certs (c_flow c)) (match c_status c with CStarted => true | _ => false end)
                               (c_act c) (c_restarted c) ni (existsb (fun h => negb (h_inert h)) (news ++ c_heads c))).
      destruct Hst as [[-> Hn]|[-> [Hs [Hn Hany]]]]; rewrite Hn; (destruct (c_status c); try discriminate); cbv iota in *.
      + lia.
      + lia.
      + (* the instance becomes STARTED: nothing is in reserve, since no head can move *)
        (destruct (c_act c); [rewrite (Hany eq_refl), andb_false_r|]); destruct (c_restarted c), ni; simpl in *; lia.
  Qed.

  (* advancing a movable head from one of its resume points: the instance stays well-formed, pays
     for everything it emits, and the potential drops by >= 1 *)
  Lemma run_head_pot : forall hd q o,
    hwf es ct (sa_of c) (c_forked c) hd -> h_inert hd = false -> In q (h_alts hd) ->
    exists ro, run_head true es o c hd q = Some ro /\ pays (good_bound q) ro.
  Proof.
    intros hd q o [Hhd1 Hhd2] Hmov Hq.
    destruct (Hhd1 Hmov q Hq) as [Hq1 [Hqstk Hqsa]].
    pose proof (fo_check _ _ _ _ _ Hf) as Hchk.
    pose proof (slide_bound_cert true es _ _ Hchk o q (h_catch hd) Hqstk) as Hno.
    pose proof (slide_pot prog certs (c_flow c) es ct Hprog Hchk (fo_w _ _ _ _ _ Hf) (fo_clean _ _ _ _ _ Hf)
                          (length es + 1) o 0 q (h_catch hd) [] false Hqstk) as HS.
    cbv zeta in HS. fold (slide (length es + 1) es o q (h_catch hd)) in HS.
    unfold run_head.
    set (r := slide (length es + 1) es o q (h_catch hd)) in *.
    destruct HS as [[new [Hnew [Hnact Hcost]]] Hstop].
    simpl in Hnew. rewrite andb_true_r in Hcost. rewrite Hnew.
    assert (Hewf_new : Forall ewf (start_evs new))
      by (apply ewf_starts; assumption).
    revert Hstop Hcost Hno.
    destruct (s_stop r) as [p|p ts| | |p|]; cbn [endpot]; intros Hstop Hcost Hno.
    - (* Blocked p *)
      destruct Hstop as [[e [He Hse]] [Hstkp [Hclp Hnep]]]. rewrite He.
      set (inert := match e with EBlock BMatch | EWaitHeads => true | _ => false end) in *.
      set (hd' := {| h_pos := p; h_catch := s_catch r; h_inert := inert;
                     h_alts := map fst (resumes es (s_catch r) p e) |}) in *.
      set (becomes := negb (started c) && forallb (head_waits es) (hd' :: c_heads c)) in *.
      eexists; split; [reflexivity|].
      destruct (blocked_head (c_flow c) es ct p e (s_catch r) Hf He Hstkp (sa_of c) (c_forked c) Hse
                             (fun Hsa => Hclp (proj1 (Hqsa Hsa))) (fun Hsa Hfk => Hnep (proj2 (Hqsa Hsa) Hfk))) as [Hhwf Hhpot].
      fold inert in Hhwf, Hhpot. fold hd' in Hhwf, Hhpot.
      apply (survives_ok q new (s_newinst r) [hd'] _ (c_forked c) (note_if becomes) (wat w len p));
        auto; [apply ewf_note_if|simpl; lia|].
      rewrite qcost_note_if. destruct becomes eqn:Hbec; [right|left; auto].
      unfold becomes in Hbec. apply andb_true_iff in Hbec. destruct Hbec as [Hb1 Hb2].
      apply negb_true_iff in Hb1. repeat split; auto.
      intros Ha. assert (Hsa : sa_of c = true) by (unfold sa_of; rewrite Hb1, Ha; reflexivity).
      apply (waiting_inert es _ Hb2). constructor; [exact (proj2 Hhwf Hsa)|].
      eapply Forall_impl; [|exact Hothers]. intros h Hh. exact (proj2 Hh Hsa).
    - (* Forked p ts *)
      destruct Hstop as [[ls [He Hts]] [Hstkp [Hclp Hnep]]].
      set (news := map (fun i => {| h_pos := p; h_catch := s_catch r; h_inert := false; h_alts := [S i] |}) ts) in *.
      eexists; split; [reflexivity|].
      destruct (forked_heads (c_flow c) es ct p _ (s_catch r) Hf He Hstkp ls ts (sa_of c) eq_refl Hts
                             (fun Hsa => Hclp (proj1 (Hqsa Hsa)))) as [Hnews Hsum].
      fold news in Hnews, Hsum.
      fold (start_evs new). rewrite <- (app_nil_r (start_evs new)).
      apply (survives_ok q new (s_newinst r) news _ true [] (wat w len p)); auto; [discriminate|lia].
    - (* Ended *)
      destruct (negb (started c) && c_act c) eqn:Hg.
      + (* immediate-finish guard: only possible for an instance that never forked *)
        assert (Hsa : sa_of c = true) by exact Hg.
        assert (Hnofork : c_forked c = false).
        { destruct (c_forked c) eqn:Hfk; [|reflexivity]. destruct (Hstop (proj2 (Hqsa Hsa) eq_refl)). }
        eexists; split; [reflexivity|].
        apply andb_true_iff in Hg. destruct Hg as [Hg _]. apply negb_true_iff in Hg.
        apply (survives_ok q new (s_newinst r) [] CStarted (c_forked c) [CNote] 0); auto; [repeat constructor|].
        right. repeat split; auto. intros _. rewrite (Hnf Hnofork). reflexivity.
      + eexists; split; [reflexivity|].
        apply (dies_ok q new (s_newinst r)); try assumption.
        * apply Forall_app. split; [apply ewf_note_if|repeat constructor].
        * (* no immediate-finish guard: an activated instance that ends has been started *)
          intros Hr. destruct (started c); [rewrite andb_true_r; exact Hr|]. simpl in Hg. rewrite Hg in Hr. discriminate.
        * rewrite qcost_app, qcost_note_if, qcost_note. destruct (started c); simpl; lia.
        * lia.
    - (* Aborted *)
      eexists; split; [reflexivity|]. apply fails_ok; try assumption. lia.
    - (* Raised *)
      eexists; split; [reflexivity|]. apply fails_ok; try assumption. lia.
    - destruct (Hno eq_refl).
  Qed.
  End Advance.

  Lemma sum_set_nth : forall (f : cinst -> nat) l i a b,
    nth_error l i = Some a -> list_sum (map f (set_nth l i b)) + f a = list_sum (map f l) + f b.
  Proof.
    induction l as [|x l IH]; intros i a b H; [destruct i; discriminate|].
    destruct i as [|i]; simpl in *.
    - inversion H; subst. lia.
    - specialize (IH i a b H). lia.
  Qed.

  Lemma Forall_set_nth : forall (P : cinst -> Prop) l i b, Forall P l -> P b -> Forall P (set_nth l i b).
  Proof.
    induction l as [|x l IH]; intros i b Hl Hb; [constructor|].
    inversion Hl; subst. destruct i; simpl; constructor; auto.
  Qed.

  Local Notation swf := (swf prog certs).
  Local Notation phi := (phi prog certs).

  Lemma phi_eq : forall st, phi st = list_sum (map ipot (c_insts st)) + qcost (c_queue st).
  Proof. reflexivity. Qed.

  (* the first event is taken from the queue; an instance is appended *)
  Lemma phi_pop : forall st e q t,
    c_queue st = e :: q -> phi {| c_insts := c_insts st; c_queue := q; c_tick := t |} + ev_cost prog certs e = phi st.
  Proof. intros st e q t Hq. rewrite !phi_eq, Hq. unfold Cascade_proofs.qcost. simpl. lia. Qed.

  Lemma phi_new : forall l c q t,
    phi {| c_insts := l ++ [c]; c_queue := q; c_tick := t |} = phi {| c_insts := l; c_queue := q; c_tick := t |} + ipot c.
  Proof. intros l c q t. rewrite !phi_eq. cbn [c_insts c_queue]. rewrite map_app, list_sum_app. simpl. lia. Qed.

  Lemma apply_good : forall st i c ro,
    swf st -> nth_error (c_insts st) i = Some c -> pays (ipot c) ro ->
    swf (apply_rout st i ro) /\ phi (apply_rout st i ro) + 1 <= phi st.
  Proof.
    intros st i c ro [Hi Hq] Hn [G1 [G2 [G3 G4]]]. split.
    - split; simpl.
      + apply Forall_set_nth; assumption.
      + apply Forall_app. split; [assumption|]. apply Forall_app. split; assumption.
    - rewrite !phi_eq. cbn [apply_rout c_insts c_queue]. rewrite !qcost_app.
      pose proof (sum_set_nth ipot (c_insts st) i c (r_inst ro) Hn) as Hs. lia.
  Qed.

  Lemma remove_nth_sum : forall (f : chead -> nat) l j h,
    nth_error l j = Some h -> list_sum (map f l) = f h + list_sum (map f (remove_nth l j)).
  Proof.
    induction l as [|x l IH]; intros j h H; [destruct j; discriminate|].
    destruct j as [|j]; simpl in *.
    - inversion H; subst. reflexivity.
    - rewrite (IH j h H). lia.
  Qed.

  Lemma remove_nth_incl : forall A (l : list A) j x, In x (remove_nth l j) -> In x l.
  Proof.
    induction l as [|y l IH]; intros j x H; [destruct j; destruct H|].
    destruct j; simpl in *; [right; assumption|]. destruct H as [H|H]; [left; assumption|right; eapply IH; eauto].
  Qed.

  Lemma remove_nth_length : forall A (l : list A) j h, nth_error l j = Some h -> length l = S (length (remove_nth l j)).
  Proof.
    induction l as [|y l IH]; intros j h H; [destruct j; discriminate|].
    destruct j; simpl in *; [reflexivity|]. rewrite (IH j h H). reflexivity.
  Qed.

  (* l' is what is left of l when some heads are taken away *)
  Definition some_of (l' l : list chead) : Prop :=
    (forall x, In x l' -> In x l) /\ (forall f : chead -> nat, list_sum (map f l') <= list_sum (map f l)) /\
    length l' <= length l.

  Lemma some_of_refl : forall l, some_of l l.
  Proof. intros l. split; [|split]; auto. Qed.

  Lemma keep_some_of : forall keep l n,
    some_of (map snd (filter (fun kh : nat * chead => keep (fst kh)) (combine (seq n (length l)) l))) l.
  Proof.
    intros keep. induction l as [|h l IH]; intros n; simpl; [apply some_of_refl|].
    destruct (IH (S n)) as [A [B C]]. destruct (keep n); simpl; (split; [|split]).
    - intros x [Hx|Hx]; [left; exact Hx|right; exact (A x Hx)].
    - intros f. specialize (B f). simpl. lia.
    - simpl. lia.
    - intros x Hx. right. exact (A x Hx).
    - intros f. specialize (B f). simpl. lia.
    - simpl. lia.
  Qed.

  Lemma merge_some_of : forall keep es (hd : chead) others,
    some_of match nth_error es (h_pos hd) with
            | Some (EBlock BMerge) => keep_filter keep others
            | _ => others
            end others.
  Proof.
    intros keep es hd others.
    destruct (nth_error es (h_pos hd)) as [e|]; [destruct e|]; try apply some_of_refl.
    match goal with k : bkind |- _ => destruct k end; try apply some_of_refl. apply keep_some_of.
  Qed.

  Lemma ipot_listening : forall c es ct, listening c = true ->
    nth_error prog (c_flow c) = Some es -> nth_error certs (c_flow c) = Some ct ->
    ipot c = 2 + (if started c then 0 else 1) + list_sum (map (hpot (f_w ct) (length es)) (c_heads c)) +
             (if c_act c && negb (c_restarted c) && started c && existsb (fun h => negb (h_inert h)) (c_heads c)
              then 1 + newpot prog certs (c_flow c) else 0).
  Proof. intros c es ct Hl Hp Hc. unfold Cascade.ipot. rewrite Hl, Hp, Hc. lia. Qed.

  Lemma subheads_iwf : forall c others,
    iwf c -> (forall x, In x others -> In x (c_heads c)) -> length others <= length (c_heads c) ->
    iwf (with_heads c others).
  Proof.
    intros c others [Ha [Hnf Hw]] Hincl Hlen. split; [exact Ha|]. split.
    - cbn. intros Hfk. specialize (Hnf Hfk). lia.
    - intros Hl. destruct (Hw Hl) as [es [ct [Hp [Hf Hall]]]]. exists es, ct. split; [exact Hp|]. split; [exact Hf|].
      cbn [with_heads c_heads c_forked]. change (sa_of (with_heads c others)) with (sa_of c).
      rewrite Forall_forall in *. intros x Hx. apply Hall. apply Hincl. assumption.
  Qed.

  Lemma kill_good : forall c, iwf c -> listening c = true -> pays (ipot c) (kill_inst c).
  Proof.
    intros c [Ha [Hnf Hw]] Hl. unfold pays, kill_inst. cbn [r_inst r_right r_left].
    split; [apply iwf_dead; assumption|].
    split; [repeat constructor|]. split; [constructor|].
    destruct (Hw Hl) as [es [ct [Hp [Hf _]]]].
    rewrite ipot_dead, (ipot_listening c es ct Hl Hp (fo_cert _ _ _ _ _ Hf)). unfold Cascade_proofs.qcost. simpl. lia.
  Qed.

  Lemma inst_iwf : forall st i c, swf st -> nth_error (c_insts st) i = Some c -> iwf c.
  Proof. intros st i c [Hs _] Hn. rewrite Forall_forall in Hs. apply Hs. eapply nth_error_In; eauto. Qed.

  (* Head j of instance i of a well-formed state is movable.  What its instance c can pay when the head
     is taken out and advanced, or dropped, or the flow fails; each of these decreases phi. *)
  Section Movable.
  Variables (orc : nat -> nat -> outcome) (st : cstate) (i j : nat) (c : cinst) (hd : chead) (es : list elem).
  Hypothesis Hs : swf st.
  Hypothesis Hn : nth_error (c_insts st) i = Some c.
  Hypothesis Hj : nth_error (c_heads c) j = Some hd.
  Hypothesis Hp : nth_error prog (c_flow c) = Some es.
  Hypothesis Hm : movable c hd = true.

  Lemma mov_listening : listening c = true.
  Proof. apply andb_true_iff in Hm. apply Hm. Qed.

  Lemma mov_inert : h_inert hd = false.
  Proof. apply andb_true_iff in Hm. apply negb_true_iff, Hm. Qed.

  Lemma mov_cert : exists ct, flow_ok prog certs (c_flow c) es ct /\ Forall (hwf es ct (sa_of c) (c_forked c)) (c_heads c).
  Proof.
    destruct (inst_iwf st i c Hs Hn) as [_ [_ Hw]]. destruct (Hw mov_listening) as [es' [ct [Hp' H]]].
    rewrite Hp in Hp'. injection Hp' as <-. eauto.
  Qed.

  (* the potential of c: the head, the others, and the reserve, which is held since the head can move *)
  Lemma ipot_movable : forall ct, nth_error certs (c_flow c) = Some ct ->
    ipot c = 2 + (if started c then 0 else 1) + hpot (f_w ct) (length es) hd +
             list_sum (map (hpot (f_w ct) (length es)) (remove_nth (c_heads c) j)) +
             (if c_act c && negb (c_restarted c) && started c then 1 + newpot prog certs (c_flow c) else 0).
  Proof.
    intros ct Hct. rewrite (ipot_listening c es ct mov_listening Hp Hct), (remove_nth_sum _ _ _ _ Hj).
    replace (existsb (fun h => negb (h_inert h)) (c_heads c)) with true; [rewrite andb_true_r; lia|].
    symmetry. apply existsb_exists. exists hd. split; [exact (nth_error_In _ _ Hj)|]. rewrite mov_inert. reflexivity.
  Qed.

  Lemma head_good : forall q o others, In q (h_alts hd) -> some_of others (remove_nth (c_heads c) j) ->
    exists ro, run_head true es o (with_heads c others) hd q = Some ro /\ pays (ipot c) ro.
  Proof.
    intros q o others Hq [Hincl [Hsum Hlen]]. destruct mov_cert as [ct [Hf Hall]].
    destruct (inst_iwf st i c Hs Hn) as [Hactv [Hnf _]].
    specialize (Hsum (hpot (f_w ct) (length es))). rewrite Forall_forall in Hall.
    assert (Hoth : Forall (hwf es ct (sa_of c) (c_forked c)) others).
    { apply Forall_forall. intros x Hx. apply Hall. eapply remove_nth_incl. apply Hincl. assumption. }
    assert (Hnf' : c_forked c = false -> others = []).
    { intros Hfk. specialize (Hnf Hfk). pose proof (remove_nth_length _ _ _ _ Hj) as Hlj.
      destruct others; [reflexivity|]. simpl in Hlen. lia. }
    destruct (run_head_pot (with_heads c others) es ct Hp Hf mov_listening Hactv Hnf' Hoth hd q o
                           (Hall hd (nth_error_In _ _ Hj)) mov_inert Hq) as [ro [Hr G]].
    exists ro. split; [exact Hr|]. apply (pays_le _ _ _ G).
    rewrite (ipot_movable ct (fo_cert _ _ _ _ _ Hf)). unfold good_bound.
    cbn [with_heads c_heads c_act c_restarted c_flow]. change (started (with_heads c others)) with (started c).
    (* q is one of the places the potential of the head provides for *)
    assert (Hh : 1 + wat (f_w ct) (length es) q <= hpot (f_w ct) (length es) hd).
    { unfold hpot. rewrite mov_inert.
      pose proof (list_max_in _ _ (in_map (wat (f_w ct) (length es)) _ _ Hq)). lia. }
    lia.
  Qed.

  Lemma drop_good : forall others, some_of others (remove_nth (c_heads c) j) ->
    pays (ipot c) {| r_inst := with_heads c others; r_right := []; r_left := [] |}.
  Proof.
    intros others [Hincl [Hsum Hlen]]. unfold pays. cbn [r_inst r_right r_left].
    pose proof (remove_nth_length _ _ _ _ Hj) as Hlj.
    split; [apply subheads_iwf; [exact (inst_iwf st i c Hs Hn)| |lia]|].
    { intros x Hx. eapply remove_nth_incl. apply Hincl. assumption. }
    split; [constructor|]. split; [constructor|].
    destruct mov_cert as [ct [Hf _]]. pose proof (fo_cert _ _ _ _ _ Hf) as Hct.
    rewrite (ipot_movable ct Hct), (ipot_listening (with_heads c others) es ct mov_listening Hp Hct).
    cbn [with_heads c_heads c_act c_restarted c_flow]. change (started (with_heads c others)) with (started c).
    assert (1 <= hpot (f_w ct) (length es) hd) by (unfold hpot; rewrite mov_inert; lia).
    pose proof (Hsum (hpot (f_w ct) (length es))). unfold Cascade_proofs.qcost. simpl.
    destruct (c_act c && negb (c_restarted c) && started c);
      destruct (existsb (fun h => negb (h_inert h)) others); simpl; lia.
  Qed.

  (* the flow fails by itself: restart only if allowed and paid for *)
  Lemma fail_good : forall may, (may = true -> c_act c = true -> started c = true) ->
    pays (ipot c) (fail_inst c may false (c_restarted c)).
  Proof.
    intros may Hmay. destruct mov_cert as [ct [Hf _]]. destruct (inst_iwf st i c Hs Hn) as [Ha _].
    unfold pays, fail_inst. cbn [r_inst r_right r_left].
    split; [apply iwf_dead; assumption|].
    split; [repeat constructor|]. split; [apply ewf_start_if; assumption|].
    rewrite ipot_dead, qcost_start_if, (ipot_movable ct (fo_cert _ _ _ _ _ Hf)).
    assert (1 <= hpot (f_w ct) (length es) hd) by (unfold hpot; rewrite mov_inert; lia).
    unfold Cascade_proofs.qcost. simpl.
    destruct (c_act c) eqn:Hact, (c_restarted c), may; simpl; try lia;
      rewrite (Hmay eq_refl eq_refl); simpl; lia.
  Qed.

  (* the head is advanced from `alt` while others' of the heads stay; when there is no such resume
     point the instance becomes fb *)
  Lemma move_ok : forall others' (alt : option nat) fb,
    some_of others' (remove_nth (c_heads c) j) ->
    (forall q, alt = Some q -> In q (h_alts hd)) -> pays (ipot c) fb ->
    exists st',
      match alt with
      | Some q => match run_head true es (orc (c_tick st)) (with_heads c others') hd q with
                  | Some ro => COk (apply_rout st i ro)
                  | None => CUnsup
                  end
      | None => COk (apply_rout st i fb)
      end = COk st' /\ swf st' /\ phi st' + 1 <= phi st.
  Proof.
    intros others' alt fb Ho Halt Hfb. destruct alt as [q|].
    - destruct (head_good q (orc (c_tick st)) others' (Halt q eq_refl) Ho) as [ro [Hr Hg]].
      rewrite Hr. destruct (apply_good st i c ro Hs Hn Hg) as [A B]. eauto.
    - destruct (apply_good st i c fb Hs Hn Hfb) as [A B]. eauto.
  Qed.

  (* an advance or a failed match: from the first resp. second resume point; without it the head is
     dropped resp. the flow fails *)
  Lemma react_dec : forall keep rc, rc = RAdvance \/ rc = RFail ->
    exists st', react_head true prog orc keep rc st i j = COk st' /\ swf st' /\ phi st' + 1 <= phi st.
  Proof.
    intros keep rc Hrc. unfold react_head. rewrite Hn, Hj, Hp, Hm. destruct Hrc as [-> | ->].
    - exact (move_ok _ (nth_error (h_alts hd) 0) _ (merge_some_of keep es hd _) (fun q H => nth_error_In _ _ H)
                     (drop_good _ (some_of_refl _))).
    - exact (move_ok _ (nth_error (h_alts hd) 1) _ (merge_some_of keep es hd _) (fun q H => nth_error_In _ _ H)
                     (fail_good (guard_ok true c) (fun H _ => H))).
  Qed.

  Lemma outer_head_dec : forall keep cr e, nth_error es (h_pos hd) = Some e ->
    exists st', outer_head true prog orc keep cr st i j = COk st' /\ swf st' /\ phi st' + 1 <= phi st.
  Proof.
    intros keep cr e He. unfold outer_head. destruct cr; [exact (react_dec keep RAdvance (or_introl eq_refl))|].
    rewrite Hn, Hj, Hp, He.
    pose proof (move_ok _ None _ (some_of_refl _) (fun q H => ltac:(discriminate H)) (drop_good _ (some_of_refl _))) as Hdrop.
    destruct e; try exact Hdrop. match goal with k : bkind |- _ => destruct k end; try exact Hdrop.
    (* a lost action without catch label aborts the flow with the default restart: the instance had
       been started (side condition 2) *)
    assert (Hst : c_act c = true -> started c = true).
    { intros Hact. destruct (started c) eqn:Hsd; [reflexivity|]. exfalso.
      destruct mov_cert as [ct [_ Hall]]. rewrite Forall_forall in Hall. destruct (Hall hd (nth_error_In _ _ Hj)) as [_ Hqt].
      assert (Hsa : sa_of c = true) by (unfold sa_of; rewrite Hsd, Hact; reflexivity).
      specialize (Hqt Hsa). unfold quiet in Hqt. rewrite He in Hqt. discriminate. }
    exact (move_ok _ (nth_error (h_alts hd) 1) _ (some_of_refl _) (fun q H => nth_error_In _ _ H)
                   (fail_good true (fun _ => Hst))).
  Qed.
  End Movable.

  Lemma react_head_ok : forall orc keep rc st i j,
    swf st -> exists st', react_head true prog orc keep rc st i j = COk st' /\ swf st' /\ phi st' <= phi st.
  Proof.
    intros orc keep rc st i j Hs.
    assert (Hsame : exists st', COk st = COk st' /\ swf st' /\ phi st' <= phi st) by (exists st; auto).
    assert (Hless : forall r, (exists st', r = COk st' /\ swf st' /\ phi st' + 1 <= phi st) ->
                              exists st', r = COk st' /\ swf st' /\ phi st' <= phi st).
    { intros r [st' [E [A B]]]. exists st'. split; [exact E|]. split; [exact A|lia]. }
    destruct rc; [unfold react_head; destruct (nth_error (c_insts st) i); exact Hsame| | |].
    3:{ (* RKill *)
      unfold react_head. destruct (nth_error (c_insts st) i) as [c|] eqn:Hn; [|exact Hsame].
      destruct (listening c) eqn:Hl; [|exact Hsame]. apply Hless.
      destruct (apply_good st i c _ Hs Hn (kill_good c (inst_iwf st i c Hs Hn) Hl)) as [A B]. eauto. }
    all: destruct (nth_error (c_insts st) i) as [c|] eqn:Hn; [|unfold react_head; rewrite Hn; exact Hsame];
      destruct (nth_error (c_heads c) j) as [hd|] eqn:Hj; [|unfold react_head; rewrite Hn, Hj; exact Hsame];
      destruct (nth_error prog (c_flow c)) as [es|] eqn:Hp; [|unfold react_head; rewrite Hn, Hj, Hp; exact Hsame];
      destruct (movable c hd) eqn:Hm; [|unfold react_head; rewrite Hn, Hj, Hp, Hm; exact Hsame];
      apply Hless, (react_dec orc st i j c hd es Hs Hn Hj Hp Hm); auto.
  Qed.

  Lemma react_all_ok : forall orc keep react idx st,
    swf st -> exists st', react_all true prog orc keep react idx st = COk st' /\ swf st' /\ phi st' <= phi st.
  Proof.
    intros orc keep react. induction idx as [|[i j] idx IH]; intros st Hs; simpl.
    - exists st; auto.
    - destruct (react_head_ok orc (keep (c_tick st)) (react i j) st i j Hs) as [st1 [H1 [S1 P1]]]. rewrite H1.
      destruct (IH st1 S1) as [st2 [H2 [S2 P2]]]. exists st2. split; [assumption|]. split; [assumption|lia].
  Qed.

  Lemma find_in_heads_spec : forall p es c hs j k,
    find_in_heads p es c hs j = Some k ->
    exists hd e, nth_error hs (k - j) = Some hd /\ j <= k /\ movable c hd = true /\
                 nth_error es (h_pos hd) = Some e /\ p e = true.
  Proof.
    induction hs as [|h hs IH]; intros j k H; simpl in H; [discriminate|].
    destruct (movable c h && match nth_error es (h_pos h) with Some e => p e | None => false end) eqn:Hb.
    - inversion H; subst. rewrite Nat.sub_diag. apply andb_true_iff in Hb. destruct Hb as [Hb1 Hb2].
      destruct (nth_error es (h_pos h)) as [e|] eqn:He; [|discriminate]. exists h, e. repeat split; auto.
    - destruct (IH (S j) k H) as [hd [e [Hn [Hle [Hm [He Hp]]]]]]. exists hd, e.
      split; [|repeat split; auto; lia]. replace (k - j) with (S (k - S j)) by lia. exact Hn.
  Qed.

  Lemma find_head_spec : forall p l i a j,
    find_head p prog l i = Some (a, j) ->
    exists c es hd e, nth_error l (a - i) = Some c /\ i <= a /\ nth_error prog (c_flow c) = Some es /\
      nth_error (c_heads c) j = Some hd /\ movable c hd = true /\ nth_error es (h_pos hd) = Some e /\ p e = true.
  Proof.
    induction l as [|c l IH]; intros i a j H; simpl in H; [discriminate|].
    destruct (nth_error prog (c_flow c)) as [es|] eqn:Hp; [destruct (find_in_heads p es c (c_heads c) 0) as [k|] eqn:Hf|].
    { inversion H; subst. rewrite Nat.sub_diag.
      destruct (find_in_heads_spec _ _ _ _ _ _ Hf) as [hd [e [Hn [_ [Hm [He Hpe]]]]]]. rewrite Nat.sub_0_r in Hn.
      exists c, es, hd, e. repeat split; auto. }
    all: destruct (IH (S i) a j H) as [c' [es' [hd [e [Hn [Hle R]]]]]]; exists c', es', hd, e;
      (split; [|split; [lia|exact R]]); replace (a - i) with (S (a - S i)) by lia; exact Hn.
  Qed.

  Lemma fresh_iwf : forall f a es, nth_error prog f = Some es -> (a = true -> activatable prog f = true) -> iwf (fresh f a).
  Proof.
    intros f a es Hes Ha. split; [simpl; assumption|]. split; [cbn; intros _; lia|].
    intros _. cbn [fresh c_flow c_heads c_forked].
    destruct (cert_ok_flow prog certs f es Hok Hes) as [ct Hf].
    exists es, ct. split; [assumption|]. split; [assumption|].
    constructor; [|constructor]. split.
    - cbn [h_inert h_alts h_catch]. intros _ q [<-|[]]. split; [lia|]. split.
      + intros Hlt. destruct (fo_head _ _ _ _ _ Hf) as [tl Htl].
        pose proof (resumes_stk true es (f_rank ct) (f_stk ct) 0 (EWaitInt true) [] 1 [] (fo_check _ _ _ _ _ Hf)) as R.
        apply R; [subst es; reflexivity | apply (fo_stk0 _ _ _ _ _ Hf) | left; reflexivity | assumption].
      + intros Hsa. unfold sa_of in Hsa. cbn in Hsa. split.
        * intros Hlt. apply (fo_act _ _ _ _ _ Hf); [apply Ha; destruct a; [reflexivity|discriminate]|assumption].
        * discriminate.
    - intros _. unfold quiet. cbn [h_pos]. destruct (fo_head _ _ _ _ _ Hf) as [tl Htl]. subst es. reflexivity.
  Qed.

  Lemma fresh_pot : forall f a es, nth_error prog f = Some es -> ipot (fresh f a) = newpot prog certs f.
  Proof.
    intros f a es Hes. destruct (cert_ok_flow prog certs f es Hok Hes) as [ct Hf].
    pose proof (fo_cert _ _ _ _ _ Hf) as Hct.
    rewrite (ipot_listening (fresh f a) es ct eq_refl Hes Hct). unfold newpot. rewrite Hes, Hct.
    unfold hpot. simpl. destruct a; simpl; lia.
  Qed.

  Lemma step_dec : forall o st,
    swf st ->
    step true prog o st = None \/
    exists st', step true prog o st = Some (COk st') /\ swf st' /\ phi st' + 1 <= phi st.
  Proof.
    intros o st Hs. unfold step.
    destruct (find_head is_pending prog (c_insts st) 0) as [[i j]|] eqn:Hpend.
    { right. destruct (find_head_spec _ _ _ _ _ Hpend) as [c [es [hd [e [Hn [_ [Hp [Hj [Hm [He _]]]]]]]]]].
      rewrite Nat.sub_0_r in Hn.
      destruct (react_dec (o_orc o) st i j c hd es Hs Hn Hj Hp Hm (o_keep o (c_tick st)) RAdvance (or_introl eq_refl)) as [st' [H1 H2]].
      exists st'. rewrite H1. auto. }
    destruct (c_queue st) as [|ev q] eqn:Hq.
    - destruct (find_head is_outer prog (c_insts st) 0) as [[i j]|] eqn:Hf; [|left; reflexivity]. right.
      destruct (find_head_spec _ _ _ _ _ Hf) as [c [es [hd [e [Hn [_ [Hp [Hj [Hm [He _]]]]]]]]]].
      rewrite Nat.sub_0_r in Hn.
      destruct (outer_head_dec (o_orc o) st i j c hd es Hs Hn Hj Hp Hm (o_keep o (c_tick st)) (o_conflict o (c_tick st)) e He)
        as [st' [H1 [H2 H3]]].
      exists st'. rewrite H1. auto.
    - right. destruct Hs as [Hi Hqw]. rewrite Hq in Hqw. inversion Hqw as [|x l Hev Hq']; subst.
      pose proof (phi_pop st _ q (S (c_tick st)) Hq) as Hp1.
      destruct ev as [f a|]; simpl in Hp1.
      + destruct (nth_error prog f) as [es|] eqn:Hes.
        * set (st1 := {| c_insts := c_insts st ++ [fresh f a]; c_queue := q; c_tick := S (c_tick st) |}).
          assert (Hs1 : swf st1).
          { split; simpl; [|assumption]. apply Forall_app. split; [assumption|]. constructor; [|constructor].
            apply (fresh_iwf f a es Hes). intros ->. exact Hev. }
          destruct (react_dec (o_orc o) st1 (length (c_insts st)) 0 (fresh f a) _ es Hs1 (nth_error_mid _ _ _ _) eq_refl Hes eq_refl
                              (o_keep o (c_tick st)) RAdvance (or_introl eq_refl)) as [st' [H1 [H2 Hdec]]].
          exists st'. split; [rewrite H1; reflexivity|]. split; [assumption|].
          unfold st1 in Hdec. rewrite phi_new, (fresh_pot f a es Hes) in Hdec. lia.
        * eexists. split; [reflexivity|]. split; [split; simpl; assumption|lia].
      + set (st1 := {| c_insts := c_insts st; c_queue := q; c_tick := S (c_tick st) |}).
        assert (Hs1 : swf st1) by (split; simpl; assumption).
        destruct (react_all_ok (o_orc o) (o_keep o) (o_react o (c_tick st)) (all_heads st) st1 Hs1) as [st' [H1 [H2 H3]]].
        exists st'. split; [rewrite H1; reflexivity|]. split; [assumption|]. fold st1 in Hp1. lia.
  Qed.

  (* with the repaired restart logic the cascade of a well-formed state ends within phi steps *)
  Theorem cascade_terminates : forall o fuel st,
    swf st -> phi st <= fuel ->
    exists st', cascade true prog o fuel st = COk st' /\ swf st' /\ step true prog o st' = None.
  Proof.
    intros o. induction fuel as [|fuel IH]; intros st Hs Hp;
      (destruct (step_dec o st Hs) as [Hn|[st' [H1 [H2 H3]]]]; [exists st; simpl; rewrite Hn; auto|]).
    - lia.
    - simpl. rewrite H1. apply IH; [assumption|lia].
  Qed.
End Steps.


Definition live (st : cstate) : nat := length (filter listening (c_insts st)).
Definition live_heads (st : cstate) : nat :=
  list_sum (map (fun c => if listening c then length (c_heads c) else 0) (c_insts st)).

Lemma list_max_nth : forall l p, nth p l 0 <= list_max l.
Proof.
  induction l as [|x l IH]; intros p; destruct p; simpl; try lia.
  specialize (IH p). lia.
Qed.

Lemma wat_le_max : forall w len p, wat w len p <= list_max w.
Proof. intros. unfold wat. destruct (Nat.ltb p len); [apply list_max_nth|lia]. Qed.

Lemma flow_cost_le : forall prog certs f es, nth_error prog f = Some es ->
  flow_cost prog certs f + 3 <= max_flow_cost prog certs.
Proof.
  intros prog certs f es H. unfold max_flow_cost.
  assert (Hin : In (flow_cost prog certs f) (map (flow_cost prog certs) (seq 0 (length prog)))).
  { apply in_map. apply in_seq. split; [lia|]. simpl. apply nth_error_Some. congruence. }
  pose proof (list_max_in _ _ Hin). lia.
Qed.

Lemma hpot_le : forall w len h, hpot w len h <= 1 + list_max w.
Proof.
  intros w len h. unfold hpot. destruct (h_inert h); [lia|].
  assert (list_max (map (wat w len) (h_alts h)) <= list_max w).
  { apply list_max_le. apply Forall_forall. intros x Hx. apply in_map_iff in Hx. destruct Hx as [q [<- _]]. apply wat_le_max. }
  lia.
Qed.

Lemma ipot_le : forall prog certs c,
  ipot prog certs c <= if listening c then (1 + length (c_heads c)) * max_flow_cost prog certs else 0.
Proof.
  intros prog certs c. unfold ipot. destruct (listening c); [|lia].
  destruct (nth_error prog (c_flow c)) as [es|] eqn:He; [|unfold max_flow_cost; destruct (started c); lia].
  destruct (nth_error certs (c_flow c)) as [ct|] eqn:Hc; [|unfold max_flow_cost; destruct (started c); lia].
  pose proof (flow_cost_le prog certs (c_flow c) es He) as Hf. unfold flow_cost in Hf. rewrite He, Hc in Hf.
  assert (Hs : list_sum (map (hpot (f_w ct) (length es)) (c_heads c)) <= length (c_heads c) * (1 + list_max (f_w ct))).
  { induction (c_heads c) as [|h l IH]; simpl; [lia|]. pose proof (hpot_le (f_w ct) (length es) h). lia. }
  set (M := max_flow_cost prog certs) in *.
  assert (1 + list_max (f_w ct) <= M) by lia.
  assert (length (c_heads c) * (1 + list_max (f_w ct)) <= length (c_heads c) * M) by (apply Nat.mul_le_mono_l; assumption).
  destruct (started c), (c_act c && negb (c_restarted c)), (existsb (fun h => negb (h_inert h)) (c_heads c)); simpl; lia.
Qed.

Lemma ev_cost_le : forall prog certs e, ev_cost prog certs e <= max_flow_cost prog certs.
Proof.
  intros prog certs [g a|]; simpl; [|unfold max_flow_cost; lia].
  unfold newpot. destruct (nth_error prog g) as [es|] eqn:He; [|unfold max_flow_cost; lia].
  destruct (nth_error certs g) as [ct|] eqn:Hc; [|unfold max_flow_cost; lia].
  pose proof (flow_cost_le prog certs g es He) as Hf. unfold flow_cost, newpot in Hf. rewrite He, Hc in Hf. lia.
Qed.

Lemma phi_le_bound : forall prog certs st,
  phi prog certs st <= rtc_bound prog certs (live_heads st) (live st) (length (c_queue st)).
Proof.
  intros prog certs st. unfold phi, rtc_bound, live, live_heads.
  set (M := max_flow_cost prog certs).
  assert (H1 : list_sum (map (ipot prog certs) (c_insts st)) <=
               (list_sum (map (fun c => if listening c then length (c_heads c) else 0) (c_insts st)) +
                length (filter listening (c_insts st))) * M).
  { induction (c_insts st) as [|c l IH]; simpl; [lia|].
    pose proof (ipot_le prog certs c) as Hc. fold M in Hc. destruct (listening c); simpl; lia. }
  assert (H2 : list_sum (map (ev_cost prog certs) (c_queue st)) <= length (c_queue st) * M).
  { induction (c_queue st) as [|e l IH]; simpl; [lia|]. pose proof (ev_cost_le prog certs e). fold M in H. lia. }
  lia.
Qed.

Theorem rtc_bound_thm : forall prog certs,
  cascade_cert_ok prog certs = true ->
  forall o st, swf prog certs st ->
  exists st', cascade true prog o (rtc_bound prog certs (live_heads st) (live st) (length (c_queue st))) st = COk st' /\
              step true prog o st' = None.
Proof.
  intros prog certs Hok o st Hs.
  destruct (cascade_terminates prog certs Hok o _ st Hs (phi_le_bound prog certs st)) as [st' [H1 [_ H2]]].
  eauto.
Qed.

(* a decidable version of well-formedness, for examples *)
Definition hwfb (es : list elem) (ct : fcert) (sa fk : bool) (h : chead) : bool :=
  (h_inert h ||
   forallb (fun q => Nat.leb 1 q &&
                     (Nat.leb (length es) q || match stk_at (f_stk ct) q with Some s => eqb_labels s (h_catch h) | None => false end) &&
                     (negb sa || ((Nat.leb (length es) q || nth q (f_clean ct) false) &&
                                  (negb fk || (Nat.ltb q (length es) && nth q (f_noend ct) false)))))
           (h_alts h)) &&
  (negb sa || quiet es h).

Definition iwfb (prog : program) (certs : list fcert) (c : cinst) : bool :=
  (negb (c_act c) || activatable prog (c_flow c)) &&
  (c_forked c || Nat.leb (length (c_heads c)) 1) &&
  (negb (listening c) ||
   match nth_error prog (c_flow c), nth_error certs (c_flow c) with
   | Some es, Some ct => forallb (hwfb es ct (sa_of c) (c_forked c)) (c_heads c)
   | _, _ => false
   end).

Definition swfb (prog : program) (certs : list fcert) (st : cstate) : bool :=
  forallb (iwfb prog certs) (c_insts st) &&
  forallb (fun e => match e with CStart g true => activatable prog g | _ => true end) (c_queue st).

Lemma hwfb_sound : forall es ct sa fk h, hwfb es ct sa fk h = true -> hwf es ct sa fk h.
Proof.
  intros es ct sa fk h H. unfold hwfb in H. apply andb_true_iff in H. destruct H as [H1 H2]. split.
  - intros Hi q Hq. rewrite Hi, orb_false_l in H1. rewrite forallb_forall in H1. specialize (H1 q Hq).
    apply andb_true_iff in H1. destruct H1 as [H1 H3]. apply andb_true_iff in H1. destruct H1 as [Ha Hb].
    apply Nat.leb_le in Ha. split; [assumption|]. split.
    + exact (stk_ok_at es (f_stk ct) q (h_catch h) Hb).
    + intros Hsa. rewrite Hsa in H3. simpl in H3. apply andb_true_iff in H3. destruct H3 as [Hc Hd]. split.
      * exact (beyond_or _ _ _ Hc).
      * intros Hfk. rewrite Hfk in Hd. exact (before_and _ _ _ Hd).
  - intros Hsa. rewrite Hsa in H2. simpl in H2. assumption.
Qed.

Lemma swfb_sound : forall prog certs st,
  cascade_cert_ok prog certs = true -> swfb prog certs st = true -> swf prog certs st.
Proof.
  intros prog certs st Hok H. unfold swfb in H. apply andb_true_iff in H. destruct H as [H1 H2].
  rewrite forallb_forall in H1, H2. split; apply Forall_forall.
  - intros c Hc. specialize (H1 c Hc). unfold iwfb in H1. apply andb_true_iff in H1. destruct H1 as [H1 Hb].
    apply andb_true_iff in H1. destruct H1 as [Ha Hf].
    split; [|split].
    + intros Hact. rewrite Hact in Ha. simpl in Ha. assumption.
    + intros Hfk. rewrite Hfk in Hf. simpl in Hf. apply Nat.leb_le in Hf. assumption.
    + intros Hl. rewrite Hl in Hb. simpl in Hb.
      destruct (nth_error prog (c_flow c)) as [es|] eqn:He; [|discriminate].
      destruct (nth_error certs (c_flow c)) as [ct|] eqn:Hct; [|discriminate].
      destruct (cert_ok_flow prog certs (c_flow c) es Hok He) as [ct' Hfo].
      assert (ct' = ct) by (pose proof (fo_cert _ _ _ _ _ Hfo); congruence). subst ct'.
      exists es, ct. split; [reflexivity|]. split; [assumption|].
      apply Forall_forall. intros h Hh. rewrite forallb_forall in Hb. apply hwfb_sound. apply Hb. assumption.
  - intros e He. specialize (H2 e He). destruct e as [g [|]|]; simpl; auto.
Qed.

(* the unchanged restart logic: an activated flow that aborts at once keeps the cascade busy forever *)

Definition f4_main : cinst := mk_inst 0 [mk_head 3] CStarting false.
Definition f4_dead : cinst :=
  {| c_flow := 1; c_heads := []; c_status := CDead; c_act := true; c_restarted := true; c_forked := false |}.
Definition f4_after_send (k : nat) (q : list cev) (tick : nat) : cstate :=
  {| c_insts := f4_main :: repeat f4_dead k; c_queue := CStart 1 true :: q; c_tick := tick |}.

Lemma f4_spins : forall n k q tick,
  cascade false f4_prog eager n (f4_after_send k q tick) = COut.
Proof.
  intros n k q tick. apply (cascade_busy _ _ _ f4_inv f4_loop).
  exists q, [], (repeat f4_dead k). repeat split; [constructor|].
  apply Forall_forall. intros c Hc. apply repeat_spec in Hc. subst c. constructor.
Qed.

Theorem activated_abort_refuted :
  cascade_guardedb f4_prog = true /\
  (forall n, cascade false f4_prog eager n (f4_after_send 0 [] 0) = COut) /\
  (exists st', cascade true f4_prog eager 20 (f4_after_send 0 [] 0) = COk st').
Proof.
  split; [exact f4_guarded|]. split.
  - intros n. apply f4_spins.
  - eexists. vm_compute. reflexivity.
Qed.

(* the hypotheses of rtc_bound_thm are inhabited: the state right after `activate a` was sent,
   and a state of the or-group program with two resting heads, one of them woken (the hypothesis is
   `swf`; it follows from the `swfb = true` shown here by `swfb_sound`) *)
Example rtc_bound_inhabited :
  let certs := compute_certs f4_prog 3 in
  let st := f4_after_send 0 [] 0 in
  cascade_cert_ok f4_prog certs = true /\ swfb f4_prog certs st = true.
Proof. vm_compute. split; reflexivity. Qed.

Definition f6_state : cstate :=
  {| c_insts := [ {| c_flow := 0;
                     c_heads := [ {| h_pos := 7; h_catch := [0]; h_inert := true; h_alts := [8; 10] |};
                                  {| h_pos := 4; h_catch := [0]; h_inert := false; h_alts := [5; 10] |} ];
                     c_status := CStarted; c_act := false; c_restarted := false; c_forked := true |} ];
     c_queue := [CNote]; c_tick := 0 |}.

Example rtc_bound_inhabited_fork :
  let certs := compute_certs f6_prog 2 in
  cascade_cert_ok f6_prog certs = true /\ swfb f6_prog certs f6_state = true /\
  match cascade true f6_prog eager (rtc_bound f6_prog certs (live_heads f6_state) (live f6_state) 1) f6_state with
  | COk st => map (fun c => (map h_pos (c_heads c), c_status c)) (c_insts st) = [([], CDead)]
  | _ => False
  end.
Proof. vm_compute. repeat split. Qed.
