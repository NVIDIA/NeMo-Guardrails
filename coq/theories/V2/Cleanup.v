(* C11 - model of nemoguardrails/colang/v2_x/runtime/statemachine.py::_clean_up_state on an
   abstract interpreter state.

   state.flow_states      : dict uid -> FlowState      = `flows`  (association list, insertion order)
   state.flow_id_states   : dict flow_id -> [FlowState] = `by_flow` (the instances by uid)
   state.actions          : dict uid -> Action          = `actions` (the Action is opaque)
   everything else of State                              = `s_rest`  (opaque, never touched)
   A FlowState keeps: flow_id, status (name of the FlowStatus member), status_updated (clock
   ticks), activated, parent_uid, child_flow_uids, action_uids, the matching scores of its heads,
   the flow uids of its open scopes (scopes[name][0]) and `i_rest` (every other field, opaque,
   never touched).

   The function, in the order of the source:
     1. clear head.matching_scores of every head of every flow state;
     2. needed_parent_uids = the parent_uid of every flow state that is not done or is activated
        (computed from the state BEFORE anything is removed);
        states_to_be_removed = uids of the flow states with
          _is_done_flow(fs) and (now - fs.status_updated) > timedelta(seconds=AGE) and fs.activated == 0
          and fs.uid not in needed_parent_uids;
     3. for each of them: if its parent_uid is set, the parent is (still) in flow_states and lists
        it as a child, remove it from the parent's child_flow_uids; remove it from
        flow_id_states[flow_id] (KeyError / ValueError = None); delete it from flow_states;
     3b. (if anything was removed) drop the removed uids from the child_flow_uids of EVERY remaining
        flow state and from the flow lists of their open scopes;
     4. rebuild `actions` from the action_uids of the remaining flow states, in order, first
        occurrence (KeyError = None).
   The constants of step 2 (age, direction of the comparison, the two other conjuncts, the
   statuses of _is_done_flow) are parameters (`cfg`) read from the current source by the
   translator (Gen/C11Consts.v). *)
From Coq Require Import ZArith List String Bool.
Import ListNotations.
Open Scope string_scope.
Open Scope Z_scope.

Record inst := mkInst {
  i_flow : string;
  i_status : string;
  i_updated : Z;
  i_activated : Z;
  i_parent : option string;
  i_children : list string;
  i_actions : list string;
  i_heads : list (string * list Z);
  i_scopes : list (string * list string);
  i_rest : Z
}.

Record state := mkState {
  flows : list (string * inst);
  by_flow : list (string * list string);
  actions : list (string * Z);
  s_rest : Z
}.

Record cfg := mkCfg {
  age : Z;                       (* clock ticks *)
  cmp_gt : bool;                 (* the source compares (now - status_updated) > age *)
  needs_done : bool;
  needs_not_activated : bool;
  done_set : list string;
  purge_children : bool;         (* step 3b present in the source: child lists *)
  purge_scopes : bool;           (* step 3b present in the source: scope flow lists *)
  needs_unneeded : bool          (* the source keeps an ended flow that is the parent of a running or activated flow *)
}.

Fixpoint slook {A} (l : list (string * A)) (k : string) : option A :=
  match l with [] => None | (k', x) :: r => if String.eqb k' k then Some x else slook r k end.

Definition smem (s : string) (l : list string) : bool := existsb (String.eqb s) l.

Definition sdelete {A} (k : string) (l : list (string * A)) : list (string * A) :=
  filter (fun kv => negb (String.eqb (fst kv) k)) l.

Definition supdate {A} (k : string) (x : A) (l : list (string * A)) : list (string * A) :=
  map (fun kv => if String.eqb (fst kv) k then (fst kv, x) else kv) l.

Fixpoint remove_first (s : string) (l : list string) : list string :=
  match l with [] => [] | x :: r => if String.eqb x s then r else x :: remove_first s r end.

Definition set_children (i : inst) (ch : list string) : inst :=
  mkInst (i_flow i) (i_status i) (i_updated i) (i_activated i) (i_parent i) ch (i_actions i) (i_heads i) (i_scopes i) (i_rest i).

Definition clear_heads (i : inst) : inst :=
  mkInst (i_flow i) (i_status i) (i_updated i) (i_activated i) (i_parent i) (i_children i) (i_actions i)
         (map (fun hs => (fst hs, @nil Z)) (i_heads i)) (i_scopes i) (i_rest i).

Definition is_done (c : cfg) (i : inst) : bool := smem (i_status i) (done_set c).

Definition old_enough (c : cfg) (now : Z) (i : inst) : bool :=
  if cmp_gt c then age c <? now - i_updated i else negb (age c <? now - i_updated i).

Definition removable (c : cfg) (now : Z) (i : inst) : bool :=
  (if needs_done c then is_done c i else true)
  && old_enough c now i
  && (if needs_not_activated c then i_activated i =? 0 else true).

(* one iteration of the removal loop *)
Definition remove_one (st : option state) (uid : string) : option state :=
  match st with
  | None => None
  | Some s =>
    match slook (flows s) uid with
    | None => None                                             (* KeyError *)
    | Some fs =>
      let fl1 :=
        match i_parent fs with
        | Some p =>
          if String.eqb p "" then flows s
          else match slook (flows s) p with
               | Some pi =>
                 if smem uid (i_children pi)
                 then supdate p (set_children pi (remove_first uid (i_children pi))) (flows s)
                 else flows s
               | None => flows s
               end
        | None => flows s
        end in
      match slook (by_flow s) (i_flow fs) with
      | None => None                                           (* KeyError *)
      | Some lst =>
        if smem uid lst
        then Some (mkState (sdelete uid fl1) (supdate (i_flow fs) (remove_first uid lst) (by_flow s))
                           (actions s) (s_rest s))
        else None                                              (* ValueError: list.remove(x) *)
      end
    end
  end.

Fixpoint rebuild_actions (old : list (string * Z)) (uids : list string) (acc : list (string * Z)) : option (list (string * Z)) :=
  match uids with
  | [] => Some acc
  | a :: r =>
    match slook acc a with
    | Some _ => rebuild_actions old r acc
    | None =>
      match slook old a with
      | None => None                                           (* KeyError *)
      | Some x => rebuild_actions old r (acc ++ [(a, x)])
      end
    end
  end.

Definition clear_scores (s : state) : state :=
  mkState (map (fun kv => (fst kv, clear_heads (snd kv))) (flows s)) (by_flow s) (actions s) (s_rest s).

(* needed_parent_uids *)
Definition keeps_parent (c : cfg) (i : inst) : bool := negb (is_done c i) || negb (i_activated i =? 0).

Definition needed_parents (c : cfg) (s : state) : list string :=
  flat_map (fun kv => if keeps_parent c (snd kv) then match i_parent (snd kv) with Some p => [p] | None => [] end else [])
           (flows s).

(* the removal condition of step 2, for the instance i stored under uid u; `pre` = the state the
   needed parents are computed from *)
Definition rm (c : cfg) (now : Z) (pre : state) (u : string) (i : inst) : bool :=
  removable c now i && (if needs_unneeded c then negb (smem u (needed_parents c pre)) else true).

Definition to_remove_gen (P : string -> inst -> bool) (s : state) : list string :=
  map fst (filter (fun kv => P (fst kv) (snd kv)) (flows s)).

Definition all_action_uids (s : state) : list string := flat_map (fun kv => i_actions (snd kv)) (flows s).

(* step 3b on one remaining flow state *)
Definition keep_uids (rem : list string) (l : list string) : list string :=
  filter (fun u => negb (smem u rem)) l.

Definition purge_inst (c : cfg) (rem : list string) (i : inst) : inst :=
  mkInst (i_flow i) (i_status i) (i_updated i) (i_activated i) (i_parent i)
         (if purge_children c then keep_uids rem (i_children i) else i_children i)
         (i_actions i) (i_heads i)
         (if purge_scopes c then map (fun kl => (fst kl, keep_uids rem (snd kl))) (i_scopes i) else i_scopes i)
         (i_rest i).

Definition purge_flows (c : cfg) (rem : list string) (l : list (string * inst)) : list (string * inst) :=
  map (fun kv => (fst kv, purge_inst c rem (snd kv))) l.

(* steps 1, 3, 3b, 4 for a removal condition P that is fixed before the loop *)
Definition cleanup_gen (c : cfg) (P : string -> inst -> bool) (s : state) : option state :=
  let s1 := clear_scores s in
  let rem := to_remove_gen P s1 in
  match fold_left remove_one rem (Some s1) with
  | None => None
  | Some s2 =>
    match rebuild_actions (actions s2) (all_action_uids s2) [] with
    | None => None
    | Some acts => Some (mkState (purge_flows c rem (flows s2)) (by_flow s2) acts (s_rest s2))
    end
  end.

Definition cleanup (c : cfg) (now : Z) (s : state) : option state := cleanup_gen c (rm c now s) s.

(* what event dispatch reads (the part modelled for the behavioural claim):
   `index` = state.event_matching_heads : event name -> [(flow uid, head uid)].
   _get_all_head_candidates resolves every entry through state.flow_states[flow_uid].heads[head_uid];
   an entry of a removed instance would raise KeyError. *)
Definition index := list (string * list (string * string)).

Definition resolve (s : state) (e : string * string) : option (string * string * inst) :=
  match slook (flows s) (fst e) with
  | None => None
  | Some i => match slook (i_heads i) (snd e) with
              | None => None
              | Some _ => Some (fst e, snd e, i)
              end
  end.

Definition candidates (ix : index) (s : state) (name : string) : list (option (string * string * inst)) :=
  match slook ix name with None => [] | Some es => map (resolve s) es end.

(* reference closure: every uid a flow state, a scope, a per-flow list or an action list mentions
   resolves (dict lookups of the dispatch: flow_states[uid], actions[uid]).  The harness checks it
   on every real state; clean-up preserves it (Cleanup_proofs.cleanup_preserves_closed). *)
Definition present (s : state) (u : string) : Prop := slook (flows s) u <> None.

Record closed_refs (s : state) : Prop := {
  cr_children : forall u i x, slook (flows s) u = Some i -> In x (i_children i) -> present s x;
  cr_scopes : forall u i k l x, slook (flows s) u = Some i -> slook (i_scopes i) k = Some l -> In x l -> present s x;
  cr_actions : forall u i a, slook (flows s) u = Some i -> In a (i_actions i) -> slook (actions s) a <> None;
  cr_by_flow : forall f l, slook (by_flow s) f = Some l ->
               NoDup l /\ forall u, In u l -> exists i, slook (flows s) u = Some i /\ i_flow i = f
}.

(* decidable version (evaluated on abstracted real states by the harness) *)
Fixpoint nodupb (l : list string) : bool :=
  match l with [] => true | x :: r => negb (smem x r) && nodupb r end.

Definition presentb (s : state) (u : string) : bool := match slook (flows s) u with Some _ => true | None => false end.

Definition refs_okb (s : state) : bool :=
  nodupb (map fst (flows s)) &&
  forallb (fun ui =>
      forallb (presentb s) (i_children (snd ui)) &&
      forallb (fun kl => forallb (presentb s) (snd kl)) (i_scopes (snd ui)) &&
      forallb (fun a => match slook (actions s) a with Some _ => true | None => false end) (i_actions (snd ui)) &&
      match slook (by_flow s) (i_flow (snd ui)) with Some l => smem (fst ui) l | None => false end) (flows s) &&
  forallb (fun fl =>
      nodupb (snd fl) &&
      forallb (fun u => match slook (flows s) u with Some i => String.eqb (i_flow i) (fst fl) | None => false end) (snd fl))
    (by_flow s).

Definition ex_cfg : cfg := mkCfg 5 true true true ["FINISHED"; "STOPPED"] true true true.
Definition ex_state : state :=
  mkState
    [ ("m", mkInst "main" "STARTED" 0 0 None ["a1"; "b1"] ["act1"] [("h0", [1; 2])] [("sc", ["a1"; "b1"])] 0);
      ("a1", mkInst "a" "FINISHED" 1 0 (Some "m") [] ["act1"; "act2"] [] [] 1);
      ("b1", mkInst "b" "FINISHED" 1 1 (Some "m") ["a1"] ["act3"] [("h1", [3])] [] 2) ]
    [ ("main", ["m"]); ("a", ["a1"]); ("b", ["b1"]) ]
    [ ("act1", 10); ("act2", 20); ("act3", 30) ]
    7.

Example ex_cleanup :
  cleanup ex_cfg 10 ex_state
  = Some (mkState
            [ ("m", mkInst "main" "STARTED" 0 0 None ["b1"] ["act1"] [("h0", [])] [("sc", ["b1"])] 0);
              ("b1", mkInst "b" "FINISHED" 1 1 (Some "m") [] ["act3"] [("h1", [])] [] 2) ]
            [ ("main", ["m"]); ("a", []); ("b", ["b1"]) ]
            [ ("act1", 10); ("act3", 30) ]
            7).
Proof. vm_compute. reflexivity. Qed.
