(* C08 - parameter binding, return values and per-instance contexts of Colang 2 flow calls.

   Transcription (definitions only) of
     nemoguardrails/colang/v2_x/runtime/statemachine.py
        create_flow_instance   (named arguments, `$i` positional overrides in `arguments`,
                                defaults evaluated in the EMPTY context, return-member defaults)
        _start_flow            (positional -> context; the surplus check exactly as written:
                                it enumerates `flow_state.arguments`, which already holds the
                                `$i` keys appended by create_flow_instance)
        _get_reference_activated_flow_instance   (`activate f(..)` of an already activated flow)
        slide: Assignment / Return / Global cases, _get_eval_context
        slide: send StartFlow (reserved keys added to the event arguments)
     nemoguardrails/colang/v2_x/runtime/flows.py      FlowState.finished_event/_create_out_event,
                                                      FlowState.start_event (restart of an activated flow)
     nemoguardrails/colang/v2_x/lang/transformer.py   call arguments -> {"$0":e0,..,name:e}
     nemoguardrails/colang/v2_x/lang/expansion.py     `$x = await f(..)` ->
                                start f(..) as $ref ; match $ref.Finished() as $ev ;
                                $x = $ev.arguments.return_value

   A Python dict is an association list in insertion order (assignment to an existing key
   keeps its position).  Values are Val.Value.value.  Expression evaluation is a Section
   function [eval : ctx -> expr -> value] (eval_expression with the variable bindings of the
   given context); expressions that raise are outside the model.
   Aliasing of a context between two instances (StartFlow(context=$self.context)) is
   modelled with an explicit heap of cells: an instance owns a cell index, two instances
   that share a context own the same cell. *)
From Coq Require Import ZArith List String Ascii Bool Decimal DecimalNat DecimalString.
From NG Require Import Val.Value.
Import ListNotations.
Open Scope string_scope.

Section Assoc.
  Context {A : Type}.

  Fixpoint aget (k : string) (d : list (string * A)) : option A :=
    match d with
    | [] => None
    | (k', v) :: r => if String.eqb k k' then Some v else aget k r
    end.

  (* d[k] = v *)
  Fixpoint aset (k : string) (v : A) (d : list (string * A)) : list (string * A) :=
    match d with
    | [] => [(k, v)]
    | (k', v') :: r => if String.eqb k k' then (k', v) :: r else (k', v') :: aset k v r
    end.

  Definition ahas (k : string) (d : list (string * A)) : bool :=
    match aget k d with Some _ => true | None => false end.

  (* d.update(e) *)
  Definition aupdate (d e : list (string * A)) : list (string * A) :=
    fold_left (fun acc kv => aset (fst kv) (snd kv) acc) e d.
End Assoc.

Definition ctx := list (string * value).

(* dict.get(k, None) *)
Definition getN (k : string) (c : ctx) : value :=
  match aget k c with Some v => v | None => VNone end.

Definition mem (k : string) (l : list string) : bool := existsb (String.eqb k) l.

Fixpoint nodupb (l : list string) : bool :=
  match l with
  | [] => true
  | x :: r => negb (mem x r) && nodupb r
  end.

(* f"${idx}" *)
Definition pos_key (i : nat) : string :=
  String "$"%char (NilEmpty.string_of_uint (Nat.to_uint i)).

(* identifiers never start with `$` (var_name tokens have the `$` stripped by the transformer) *)
Definition plain (s : string) : bool :=
  match s with
  | String c _ => negb (Ascii.eqb c "$"%char)
  | EmptyString => true
  end.

(* keys of the StartFlow event that the runtime itself writes *)
Definition reserved_keys : list string :=
  ["flow_id"; "flow_instance_uid"; "activated"; "source_flow_instance_uid"; "source_head_uid";
   "flow_hierarchy_position"; "context"].

Fixpoint prefixb (p s : string) : bool :=
  match p with
  | EmptyString => true
  | String c p' => match s with
                   | EmptyString => false
                   | String d s' => Ascii.eqb c d && prefixb p' s'
                   end
  end.

Fixpoint dropn (n : nat) (s : string) : string :=
  match n, s with
  | O, _ => s
  | S n', String _ s' => dropn n' s'
  | S _, EmptyString => EmptyString
  end.

Definition global_key (x : string) : string := "_global_" ++ x.
Definition is_global_key (k : string) : bool := prefixb "_global_" k.

Section Binding.
  Variable expr : Type.
  (* eval_expression(e, context) *)
  Variable eval : ctx -> expr -> value.

  (* FlowParamDef / FlowReturnMemberDef *)
  Record param := mkParam { p_name : string; p_default : option expr }.

  (* eval_expression(default_value_expr, {}) if default_value_expr else None *)
  Definition default_val (d : option expr) : value :=
    match d with Some e => eval [] e | None => VNone end.

  (* ---- create_flow_instance ---- *)

  (* "Add all the flow parameters" *)
  Fixpoint cfi_named (ps : list param) (ev : ctx) (args c : ctx) : ctx * ctx :=
    match ps with
    | [] => (args, c)
    | p :: ps' =>
        let v := match aget (p_name p) ev with
                 | Some v => v
                 | None => default_val (p_default p)
                 end in
        cfi_named ps' ev (aset (p_name p) v args) (aset (p_name p) v c)
    end.

  (* "Add the positional flow parameter identifiers" (context is NOT touched here) *)
  Fixpoint cfi_pos (ps : list param) (idx : nat) (ev args : ctx) : ctx :=
    match ps with
    | [] => args
    | p :: ps' =>
        let args' := match aget (pos_key idx) ev with
                     | Some v => aset (pos_key idx) v (aset (p_name p) v args)
                     | None => args
                     end in
        cfi_pos ps' (S idx) ev args'
    end.

  (* "Add all flow return members" *)
  Fixpoint cfi_ret (rs : list param) (c : ctx) : ctx :=
    match rs with
    | [] => c
    | r :: rs' => cfi_ret rs' (aset (p_name r) (default_val (p_default r)) c)
    end.

  Inductive cfi_res :=
  | CfiSharedWithParams              (* ColangRuntimeError: Context cannot be shared to flows with parameters *)
  | CfiOk (args c : ctx).

  (* [shared] = Some c0 when "context" is in event_arguments (c0 = current content of the
     shared dict; the aliasing itself is the machine's business), None otherwise *)
  Definition create_flow_instance (ps rs : list param) (ev : ctx) (shared : option ctx) : cfi_res :=
    match shared, ps with
    | Some _, _ :: _ => CfiSharedWithParams
    | _, _ =>
        let c0 := match shared with Some c => c | None => [] end in
        let '(args, c) := cfi_named ps ev [] c0 in
        CfiOk (cfi_pos ps 0 ev args) (cfi_ret rs c)
    end.

  (* ---- _start_flow (non-main flows) ----
        last_idx = -1
        for idx, arg in enumerate(flow_state.arguments):
            pos_arg = f"${idx}"; last_idx = idx
            if pos_arg in event_arguments: flow_state.context[arg] = event_arguments[pos_arg]
            else: break
        if f"${last_idx+1}" in event_arguments: raise ColangRuntimeError
     [next] is last_idx+1. *)
  Fixpoint sf_loop (ks : list string) (idx : nat) (ev c : ctx) (next : nat) : ctx * nat :=
    match ks with
    | [] => (c, next)
    | a :: r =>
        match aget (pos_key idx) ev with
        | Some v => sf_loop r (S idx) ev (aset a v c) (S idx)
        | None => (c, S idx)
        end
    end.

  Definition start_flow (args ev c : ctx) : option ctx :=
    let '(c', next) := sf_loop (map fst args) 0 ev c 0 in
    if ahas (pos_key next) ev then None else Some c'.

  Inductive bound :=
  | BSharedWithParams
  | BTooMany                         (* ColangRuntimeError: To many parameters provided in start of flow *)
  | Bound (args c : ctx).

  Definition bind_in (ps rs : list param) (ev : ctx) (shared : option ctx) : bound :=
    match create_flow_instance ps rs ev shared with
    | CfiSharedWithParams => BSharedWithParams
    | CfiOk args c =>
        match start_flow args ev c with
        | None => BTooMany
        | Some c' => Bound args c'
        end
    end.

  (* the ordinary call: a fresh, empty context *)
  Definition bind (ps rs : list param) (ev : ctx) : bound := bind_in ps rs ev None.

  (* the positional keys present are exactly $0 .. $(k-1) (what the transformer produces) *)
  Definition pos_contig (ev : ctx) (k : nat) : Prop := forall i, ahas (pos_key i) ev = (i <? k)%nat.

  (* positional argument i if given, else the named argument, else the declared default, else None *)
  Definition ev_value (ev : ctx) (i : nat) (p : param) : value :=
    match aget (pos_key i) ev with
    | Some v => v
    | None => match aget (p_name p) ev with
              | Some v => v
              | None => default_val (p_default p)
              end
    end.

  (* ---- call syntax -> Spec.arguments (transformer.py) ----
     simple_arguments loop (`f 1 $a=2 3`): positional arguments are numbered in order of
     appearance wherever they stand; __parse_classical_arguments (`f(1, a=2)`) is the same
     loop but rejects a positional argument after a named one at parse time. *)
  Inductive arg := APos (e : expr) | ANamed (n : string) (e : expr).

  Fixpoint parse_args (l : list arg) (idx : nat) (acc : list (string * expr)) : list (string * expr) :=
    match l with
    | [] => acc
    | APos e :: r => parse_args r (S idx) (aset (pos_key idx) e acc)
    | ANamed n e :: r => parse_args r idx (aset n e acc)
    end.

  (* _evaluate_arguments *)
  Definition eval_args (c : ctx) (d : list (string * expr)) : ctx :=
    map (fun ke => (fst ke, eval c (snd ke))) d.

  (* values the runtime writes itself *)
  Record reserved := mkReserved {
    r_flow_id : value; r_instance_uid : value; r_source_uid : value; r_head_uid : value; r_hier : value }.

  (* _expand_start_element/_expand_activate_element: spec.arguments.update({flow_id, flow_instance_uid
     [, activated]}); slide(send): event.arguments.update({source_flow_instance_uid, source_head_uid});
     .update({flow_hierarchy_position}) *)
  Definition start_event_args (R : reserved) (activated : bool) (evargs : ctx) : ctx :=
    let a1 := aset "flow_instance_uid" (r_instance_uid R) (aset "flow_id" (r_flow_id R) evargs) in
    let a2 := if activated then aset "activated" (VBool true) a1 else a1 in
    aset "flow_hierarchy_position" (r_hier R)
      (aset "source_head_uid" (r_head_uid R) (aset "source_flow_instance_uid" (r_source_uid R) a2)).

  (* FlowState.start_event, used by _finish_flow/_abort_flow to RESTART an activated flow:
        arguments = {flow_instance_uid, flow_id, source_flow_instance_uid, source_head_uid,
                     flow_hierarchy_position, activated}
        arguments.update(self.arguments)
        event.arguments.update({"source_flow_instance_uid": ...})
     i.e. the successor instance is started from the predecessor's `arguments` (the parameter
     values bound at ITS start and the `$i` keys), not from its context. *)
  Definition restart_event_args (R : reserved) (activated : value) (args : ctx) : ctx :=
    aset "source_flow_instance_uid" (r_source_uid R)
      (aupdate [("flow_instance_uid", r_instance_uid R); ("flow_id", r_flow_id R);
                ("source_flow_instance_uid", r_source_uid R); ("source_head_uid", r_head_uid R);
                ("flow_hierarchy_position", r_hier R); ("activated", activated)] args).

  (* the arguments of the caller's `match FlowStarted(...)`.
     [with_args] = true: the source passes the complete call-argument dict (flow_id,
     flow_instance_uid AND every call argument; without `activated` and without the keys slide
     adds); false: exactly {flow_id, flow_instance_uid}.  Which one the current source does is
     read by translator/gen_c08.py (Gen/C08Consts.v).  [evargs] are the call arguments as
     evaluated WHEN THE EVENT ARRIVES (get_event_from_element evaluates a match pattern at
     matching time), which need not be the values sent with StartFlow. *)
  Definition started_pattern (with_args : bool) (R : reserved) (evargs : ctx) : ctx :=
    if with_args
    then aset "flow_instance_uid" (r_instance_uid R) (aset "flow_id" (r_flow_id R) evargs)
    else [("flow_id", r_flow_id R); ("flow_instance_uid", r_instance_uid R)].

  (* FlowState._create_out_event *)
  Definition out_event_args (uid flow_id : value) (args : ctx) (extra : ctx) : ctx :=
    aupdate (aupdate [("source_flow_instance_uid", uid); ("flow_instance_uid", uid); ("flow_id", flow_id)] args) extra.

  Definition started_args (uid flow_id : value) (args : ctx) : ctx := out_event_args uid flow_id args [].

  (* FlowState.finished_event *)
  Definition finished_args (uid flow_id : value) (args c : ctx) : ctx :=
    out_event_args uid flow_id args
      (match aget "_return_value" c with Some v => [("return_value", v)] | None => [] end).

  (* _create_event_reference: new_event.arguments.update(event.arguments) *)
  Definition event_ref_args (pattern event : ctx) : ctx := aupdate pattern event.

  (* what the specification says parameter number i receives *)
  Fixpoint pos_exprs (l : list arg) : list expr :=
    match l with
    | [] => []
    | APos e :: r => e :: pos_exprs r
    | ANamed _ _ :: r => pos_exprs r
    end.

  Fixpoint named_names (l : list arg) : list string :=
    match l with
    | [] => []
    | APos _ :: r => named_names r
    | ANamed n _ :: r => n :: named_names r
    end.

  (* the (last) named argument called n *)
  Fixpoint named_expr (n : string) (l : list arg) : option expr :=
    match l with
    | [] => None
    | APos _ :: r => named_expr n r
    | ANamed m e :: r =>
        match named_expr n r with
        | Some e' => Some e'
        | None => if String.eqb n m then Some e else None
        end
    end.

  Definition spec_value (cc : ctx) (l : list arg) (i : nat) (p : param) : value :=
    match nth_error (pos_exprs l) i with
    | Some e => eval cc e
    | None => match named_expr (p_name p) l with
              | Some e => eval cc e
              | None => default_val (p_default p)
              end
    end.

  (* no parameter bound both positionally and by name; no more positional arguments than
     parameters *)
  Definition well_formed_call (ps : list param) (l : list arg) : bool :=
    (List.length (pos_exprs l) <=? List.length ps)%nat
    && forallb (fun p => negb (mem (p_name p) (named_names l))) (firstn (List.length (pos_exprs l)) ps).

  (* what the grammar guarantees about a call: argument names are identifiers *)
  Definition syntactic_call (l : list arg) : bool := forallb plain (named_names l).

  (* a signature: distinct identifier names, none of them a key the runtime writes itself,
     return members distinct from the parameters *)
  Definition wf_signature (ps rs : list param) : bool :=
    nodupb (map p_name ps)
    && forallb (fun p => plain (p_name p) && negb (mem (p_name p) reserved_keys)) ps
    && forallb (fun r => negb (mem (p_name r) (map p_name ps))) rs.

  Record mstate := mkM {
    m_cell : nat -> option nat;      (* FlowState.context of instance uid = heap cell *)
    m_heap : nat -> ctx;
    m_args : nat -> ctx;             (* FlowState.arguments *)
    m_gctx : ctx;                    (* State.context *)
    m_next : nat                     (* next fresh cell *)
  }.

  Definition upd {B} (f : nat -> B) (k : nat) (v : B) : nat -> B :=
    fun k' => if Nat.eqb k' k then v else f k'.

  Definition ctx_of (st : mstate) (i : nat) : ctx :=
    match m_cell st i with Some c => m_heap st c | None => [] end.

  (* initial state: the main instance 0 with an empty context *)
  Definition m_init : mstate :=
    mkM (fun i => if Nat.eqb i 0 then Some 0 else None)%nat (fun _ => []) (fun _ => []) [] 1.

  Inductive err := EKey | ETooMany | ESharedWithParams | ENoReturnValue.
  Inductive res (T : Type) := Ok (x : T) | Err (e : err).
  Arguments Ok {T} x.
  Arguments Err {T} e.

  (* _get_eval_context: a copy of the instance context in which every `_global_x` key is
     linked to state.context[x] (KeyError if absent) *)
  Fixpoint link_globals (g c : ctx) : option ctx :=
    match c with
    | [] => Some []
    | (k, v) :: r =>
        match link_globals g r with
        | None => None
        | Some r' =>
            if is_global_key k then
              match aget (dropn 8 k) g with
              | Some gv => Some ((k, gv) :: r')
              | None => None
              end
            else Some ((k, v) :: r')
        end
    end.

  Definition eval_ctx (st : mstate) (i : nat) : option ctx :=
    match m_cell st i with
    | None => None
    | Some c => link_globals (m_gctx st) (m_heap st c)
    end.

  (* Assignment: `if f"_global_{key}" in flow_state.context: state.context[key] = v
                  else: flow_state.context[key] = v` *)
  Definition assign_val (st : mstate) (i : nat) (k : string) (v : value) : res mstate :=
    match m_cell st i with
    | None => Err EKey
    | Some c =>
        if ahas (global_key k) (m_heap st c)
        then Ok (mkM (m_cell st) (m_heap st) (m_args st) (aset k v (m_gctx st)) (m_next st))
        else Ok (mkM (m_cell st) (upd (m_heap st) c (aset k v (m_heap st c))) (m_args st) (m_gctx st) (m_next st))
    end.

  Inductive op :=
  | OAssign (i : nat) (k : string) (e : expr)
  | OGlobal (i : nat) (x : string)
  | OStart (caller callee : nat) (ps rs : list param) (R : reserved) (activated : bool) (d : list (string * expr))
  | OStartShared (caller callee : nat) (rs : list param)     (* send StartFlow(.., context=$self.context) *)
  | OReturn (i : nat) (e : option expr)
  | OAwaitAssign (caller callee : nat) (uid flow_id : value) (x : string).

  Definition step (st : mstate) (o : op) : res mstate :=
    match o with
    | OAssign i k e =>
        match eval_ctx st i with
        | None => Err EKey
        | Some ec => assign_val st i k (eval ec e)
        end
    | OGlobal i x =>
        (* flow_state.context[f"_global_{x}"] = None; if x not in state.context: state.context[x] = None *)
        match m_cell st i with
        | None => Err EKey
        | Some c =>
            Ok (mkM (m_cell st) (upd (m_heap st) c (aset (global_key x) VNone (m_heap st c))) (m_args st)
                    (if ahas x (m_gctx st) then m_gctx st else aset x VNone (m_gctx st)) (m_next st))
        end
    | OStart caller callee ps rs R act d =>
        match eval_ctx st caller with
        | None => Err EKey
        | Some ec =>
            match bind ps rs (start_event_args R act (eval_args ec d)) with
            | BSharedWithParams => Err ESharedWithParams
            | BTooMany => Err ETooMany
            | Bound a c =>
                Ok (mkM (upd (m_cell st) callee (Some (m_next st))) (upd (m_heap st) (m_next st) c)
                        (upd (m_args st) callee a) (m_gctx st) (S (m_next st)))
            end
        end
    | OStartShared caller callee rs =>
        match m_cell st caller with
        | None => Err EKey
        | Some c =>
            Ok (mkM (upd (m_cell st) callee (Some c)) (upd (m_heap st) c (cfi_ret rs (m_heap st c)))
                    (upd (m_args st) callee []) (m_gctx st) (m_next st))
        end
    | OReturn i e =>
        match m_cell st i, eval_ctx st i with
        | Some c, Some ec =>
            let v := match e with Some e => eval ec e | None => VNone end in
            Ok (mkM (m_cell st) (upd (m_heap st) c (aset "_return_value" v (m_heap st c))) (m_args st) (m_gctx st) (m_next st))
        | _, _ => Err EKey
        end
    | OAwaitAssign caller callee uid fid x =>
        (* the matched FlowFinished event of the callee; the reference merges the match
           pattern (the callee's own finished_event at that moment) with the event *)
        let fin := finished_args uid fid (m_args st callee) (ctx_of st callee) in
        match aget "return_value" (event_ref_args fin fin) with
        | None => Err ENoReturnValue        (* `.arguments.return_value` raises: the caller fails *)
        | Some v => assign_val st caller x v
        end
    end.

  Fixpoint run (st : mstate) (os : list op) : res mstate :=
    match os with
    | [] => Ok st
    | o :: r => match step st o with Ok st' => run st' r | Err e => Err e end
    end.

  (* ---- _get_reference_activated_flow_instance ----
     `activate f(..)` of a flow that already has activated instances: is there a reference
     instance "with exactly the same parameters"?  Transcription of the per-parameter test

        val = activated_flow.arguments[arg.name]                         (KeyError if absent)
        matched  = arg.name in event.arguments and val == event.arguments[arg.name]
        matched |= f"${idx}" in event.arguments and val == event.arguments[f"${idx}"]
        matched |= (arg.name not in event.arguments and f"${idx}" not in event.arguments
                    and arg.default_value_expr is not None
                    and val == eval_expression(arg.default_value_expr, {}))
        if not matched: matching_parameters = False; break

     [veq] is Python's `==` on values (True == 1 == 1.0, dicts unordered, ...). *)
  Variable veq : value -> value -> bool.

  Definition param_matched (ev : ctx) (val : value) (idx : nat) (p : param) : bool :=
    (match aget (p_name p) ev with Some v => veq val v | None => false end)
    || (match aget (pos_key idx) ev with Some v => veq val v | None => false end)
    || (negb (ahas (p_name p) ev) && negb (ahas (pos_key idx) ev)
        && match p_default p with Some e => veq val (eval [] e) | None => false end).

  (* None = KeyError *)
  Fixpoint params_match (ps : list param) (idx : nat) (ev act : ctx) : option bool :=
    match ps with
    | [] => Some true
    | p :: r =>
        match aget (p_name p) act with
        | None => None
        | Some val => if param_matched ev val idx p then params_match r (S idx) ev act else Some false
        end
    end.

  (* state.flow_id_states[flow_id] in order: is the instance a reference instance
     (activated > 0, parent alive and of another flow), and its `arguments` *)
  Fixpoint find_reference (ps : list param) (ev : ctx) (insts : list (bool * ctx)) (i : nat) : option (option nat) :=
    match insts with
    | [] => Some None
    | (is_ref, act) :: r =>
        if negb is_ref then find_reference ps ev r (S i) else
        match params_match ps 0 ev act with
        | None => None
        | Some true => Some (Some i)
        | Some false => find_reference ps ev r (S i)
        end
    end.

  Definition is_shared_start (o : op) : bool :=
    match o with OStartShared _ _ _ => true | _ => false end.
End Binding.

Arguments Ok {T} x.
Arguments Err {T} e.
Arguments mkParam {expr} _ _.
Arguments p_name {expr} _.
Arguments p_default {expr} _.
Arguments APos {expr} _.
Arguments ANamed {expr} _ _.

Example pos_key_12 : pos_key 12 = "$12".
Proof. reflexivity. Qed.
