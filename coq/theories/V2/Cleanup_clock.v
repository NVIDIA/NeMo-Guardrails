(* C11 - clean-up and the clock: cleaning up at t1 and again at a later t2 gives the same state
   (extensionally) as cleaning up once at t2: the second clean-up removes exactly the instances
   that became old enough in between.  Also: the clean-up never raises on a state with closed
   references, and the decidable check of that closure is sound. *)
From Coq Require Import ZArith List String Bool Lia.
From NG Require Import V2.Cleanup V2.Cleanup_proofs.
Import ListNotations.
Open Scope string_scope.
Open Scope Z_scope.

Lemma removable_mono c t1 t2 i : cmp_gt c = true -> t1 <= t2 -> removable c t1 i = true -> removable c t2 i = true.
Proof.
  intros Hc Ht. unfold removable, old_enough. rewrite Hc. intro H.
  apply andb_true_iff in H as [H H3]. apply andb_true_iff in H as [H1 H2]. rewrite H1, H3.
  apply Z.ltb_lt in H2. replace (age c <? t2 - i_updated i) with true by (symmetry; apply Z.ltb_lt; lia). reflexivity.
Qed.

Lemma frame_rel_trans (g1 g2 g : string -> Prop) i i1 i2 :
  frame_rel g1 i i1 -> frame_rel g2 i1 i2 -> (forall x, g1 x -> g x) -> (forall x, g2 x -> g x) -> frame_rel g i i2.
Proof.
  intros F1 F2 H1 H2. apply frame_rel_frame in F1, F2. apply frame_rel_frame. constructor.
  - exact (core_eq_trans _ _ _ (fr_core F2) (fr_core F1)).
  - now rewrite (fr_actions F2), (fr_actions F1).
  - now rewrite (fr_rest F2), (fr_rest F1).
  - unfold heads_cleared. rewrite (fr_heads F2), (fr_heads F1), map_map. reflexivity.
  - exact (shrunk_trans _ _ _ _ _ _ (fr_children F1) (fr_children F2) H1 H2).
  - now rewrite (fr_scope_keys F2), (fr_scope_keys F1).
  - intros k l2 Hl2. destruct (fr_scopes F2 k l2 Hl2) as (l1 & Hl1 & S2).
    destruct (fr_scopes F1 k l1 Hl1) as (l & Hl & S1). exists l. split; [exact Hl|exact (shrunk_trans _ _ _ _ _ _ S1 S2 H1 H2)].
Qed.

Definition same_fields (a b : inst) : Prop :=
  i_flow a = i_flow b /\ i_status a = i_status b /\ i_updated a = i_updated b /\
  i_activated a = i_activated b /\ i_parent a = i_parent b /\ i_actions a = i_actions b /\
  i_rest a = i_rest b /\ i_heads a = i_heads b /\ map fst (i_scopes a) = map fst (i_scopes b).

(* two states with the same content, the order of the lists and of the tables not compared *)
Definition same_state_ext (a b : state) : Prop :=
  (forall u, slook (flows a) u = None <-> slook (flows b) u = None) /\
  (forall u ia ib, slook (flows a) u = Some ia -> slook (flows b) u = Some ib ->
     same_fields ia ib /\
     (forall x, In x (i_children ia) <-> In x (i_children ib)) /\
     (forall k la lb, slook (i_scopes ia) k = Some la -> slook (i_scopes ib) k = Some lb ->
                      forall x, In x la <-> In x lb)) /\
  (forall x, slook (actions a) x = slook (actions b) x) /\
  (forall f la lb, slook (by_flow a) f = Some la -> slook (by_flow b) f = Some lb -> forall x, In x la <-> In x lb) /\
  s_rest a = s_rest b.

Lemma frame_rel_agree (g g' : string -> Prop) i a b : frame_rel g i a -> frame_rel g' i b -> same_fields a b.
Proof.
  intros Fa Fb. apply frame_rel_frame in Fa, Fb. destruct (fr_core Fa), (fr_core Fb).
  pose proof (fr_actions Fa). pose proof (fr_actions Fb). pose proof (fr_rest Fa). pose proof (fr_rest Fb).
  pose proof (fr_scope_keys Fa). pose proof (fr_scope_keys Fb).
  unfold same_fields. rewrite (fr_heads Fa), (fr_heads Fb). repeat split; congruence.
Qed.

Lemma shrunk_agree (g g' : string -> Prop) l a b :
  shrunk g l a -> shrunk g' l b -> (forall x, In x a -> ~ g x) -> (forall x, In x b -> ~ g' x) ->
  (forall x, g x <-> g' x) -> forall x, In x a <-> In x b.
Proof.
  intros Sa Sb Ha Hb H x. rewrite (shrunk_char g l a Sa Ha), (shrunk_char g' l b Sb Hb), H. reflexivity.
Qed.

Lemma closed_by_flow_present s f l x : closed_refs s -> slook (by_flow s) f = Some l -> In x l -> present s x.
Proof.
  intros Hcl Hl Hx. destruct (proj2 (cr_by_flow s Hcl f l Hl) x Hx) as (i & Hi & _). unfold present. congruence.
Qed.

(* two removal conditions, the second weaker than the first (a later clock) *)
Section Later.
  Variable c : cfg.
  Variables P1 P2 : string -> inst -> bool.
  Hypothesis HP1 : core_pred P1.
  Hypothesis HP2 : core_pred P2.
  Hypothesis Hmono : forall u i, P1 u i = true -> P2 u i = true.
  Variables s s1 s12 s2 : state.
  Hypothesis Hdict : NoDup (map fst (flows s)).
  Hypothesis R1 : cleanup_gen c P1 s = Some s1.
  Hypothesis R12 : cleanup_gen c P2 s1 = Some s12.
  Hypothesis R2 : cleanup_gen c P2 s = Some s2.

  Let Hdict1 : NoDup (map fst (flows s1)) := cleanup_keys c P1 s s1 Hdict R1.

  Lemma gone_later x : gone' s1 x -> gone' s12 x.
  Proof. intro Hx. apply (cleanup_dom c P2 HP2 s1 s12 Hdict1 R12 x). now left. Qed.

  (* by the fate of u in the first clean-up *)
  Theorem later_same_domain u : slook (flows s12) u = None <-> slook (flows s2) u = None.
  Proof.
    generalize (cleanup_flows c P1 HP1 s s1 Hdict R1 u) (cleanup_flows c P2 HP2 s s2 Hdict R2 u).
    destruct (slook (flows s) u) as [i|]; [destruct (P1 u i) eqn:E1|].
    - rewrite (Hmono u i E1). intros H1 H2. split; intros _; [exact H2|exact (gone_later u H1)].
    - intros (i1 & Hi1 & Hf) H2. generalize (cleanup_flows c P2 HP2 s1 s12 Hdict1 R12 u).
      rewrite Hi1, (HP2 u _ _ (frame_rel_core _ _ _ Hf)). destruct (P2 u i).
      + intro H12. split; intros _; assumption.
      + intros (i12 & -> & _). destruct H2 as (i2 & -> & _). split; discriminate.
    - intros H1 H2. split; intros _; [exact H2|exact (gone_later u H1)].
  Qed.

  Lemma later_frame u i12 : slook (flows s12) u = Some i12 ->
    exists i, slook (flows s) u = Some i /\ frame_rel (gone' s12) i i12.
  Proof.
    intro H12. destruct (cleanup_survivor c P2 HP2 s1 s12 Hdict1 R12 u i12 H12) as (i1 & Hi1 & _ & F12).
    destruct (cleanup_survivor c P1 HP1 s s1 Hdict R1 u i1 Hi1) as (i & Hi & _ & F1).
    exists i. split; [exact Hi|]. exact (frame_rel_trans _ _ _ _ _ _ F1 F12 gone_later (fun _ H => H)).
  Qed.

  Theorem later_same_instance u i12 i2 :
    slook (flows s12) u = Some i12 -> slook (flows s2) u = Some i2 -> same_fields i12 i2.
  Proof.
    intros H12 H2. destruct (later_frame u i12 H12) as (i & Hi & F12).
    destruct (cleanup_survivor c P2 HP2 s s2 Hdict R2 u i2 H2) as (i' & Hi' & _ & F2).
    rewrite Hi in Hi'. injection Hi' as <-. exact (frame_rel_agree _ _ _ _ _ F12 F2).
  Qed.

  Theorem later_same_rest : s_rest s12 = s_rest s2.
  Proof.
    rewrite (cleanup_rest c P2 s1 s12 Hdict1 R12), (cleanup_rest c P1 s s1 Hdict R1). symmetry. exact (cleanup_rest c P2 s s2 Hdict R2).
  Qed.

  Theorem later_same_actions a : slook (actions s12) a = slook (actions s2) a.
  Proof.
    pose proof (cleanup_keys c P2 s1 s12 Hdict1 R12) as Hd12. pose proof (cleanup_keys c P2 s s2 Hdict R2) as Hd2.
    assert (Same : forall u i12 i2, slook (flows s12) u = Some i12 -> slook (flows s2) u = Some i2 -> i_actions i12 = i_actions i2)
      by (intros u i12 i2 H1 H2; apply (later_same_instance u i12 i2 H1 H2)).
    destruct (slook (actions s12) a) as [x|] eqn:E12; destruct (slook (actions s2) a) as [y|] eqn:E2; auto.
    - apply (cleanup_actions_old c P2 s1 s12 Hdict1 R12), (cleanup_actions_old c P1 s s1 Hdict R1) in E12.
      apply (cleanup_actions_old c P2 s s2 Hdict R2) in E2. congruence.
    - exfalso. destruct (cleanup_actions_ref c P2 s1 s12 Hdict1 R12 a x E12) as (u & i12 & Hin & Hia).
      apply in_slook in Hin; [|exact Hd12].
      destruct (slook (flows s2) u) as [i2|] eqn:Eu; [|apply (proj2 (later_same_domain u)) in Eu; congruence].
      rewrite (Same u i12 i2 Hin Eu) in Hia. exact (cleanup_actions_kept c P2 s s2 Hdict R2 u i2 a (slook_in _ _ _ Eu) Hia E2).
    - exfalso. destruct (cleanup_actions_ref c P2 s s2 Hdict R2 a y E2) as (u & i2 & Hin & Hia).
      apply in_slook in Hin; [|exact Hd2].
      destruct (slook (flows s12) u) as [i12|] eqn:Eu; [|apply (proj1 (later_same_domain u)) in Eu; congruence].
      rewrite <- (Same u i12 i2 Eu Hin) in Hia. exact (cleanup_actions_kept c P2 s1 s12 Hdict1 R12 u i12 a (slook_in _ _ _ Eu) Hia E12).
  Qed.

  (* the lists.  The reference closure and step 3b are needed: a dangling uid would stay listed
     on both sides but nothing says so.  With them, a list after a clean-up is the list before
     restricted to the instances still present (shrunk_char), and the same are present. *)
  Hypothesis Pc : purge_children c = true.
  Hypothesis Ps : purge_scopes c = true.
  Hypothesis Hcl : closed_refs s.

  Let Hcl12 : closed_refs s12 :=
    cleanup_preserves_closed c P2 HP2 s1 s12 Hdict1 R12 Pc Ps (cleanup_preserves_closed c P1 HP1 s s1 Hdict R1 Pc Ps Hcl).
  Let Hcl2 : closed_refs s2 := cleanup_preserves_closed c P2 HP2 s s2 Hdict R2 Pc Ps Hcl.

  Theorem later_same_lists u i12 i2 :
    slook (flows s12) u = Some i12 -> slook (flows s2) u = Some i2 ->
    (forall x, In x (i_children i12) <-> In x (i_children i2)) /\
    (forall k l12 l2, slook (i_scopes i12) k = Some l12 -> slook (i_scopes i2) k = Some l2 ->
                      forall x, In x l12 <-> In x l2).
  Proof.
    intros H12 H2. destruct (later_frame u i12 H12) as (i & Hi & F12).
    destruct (cleanup_survivor c P2 HP2 s s2 Hdict R2 u i2 H2) as (i' & Hi' & _ & F2).
    rewrite Hi in Hi'. injection Hi' as <-. split.
    - exact (shrunk_agree _ _ _ _ _ (fr_children (frame_of F12)) (fr_children (frame_of F2))
               (fun x => cr_children s12 Hcl12 u i12 x H12) (fun x => cr_children s2 Hcl2 u i2 x H2) later_same_domain).
    - intros k l12 l2 Hl12 Hl2. destruct (fr_scopes (frame_of F12) k l12 Hl12) as (l & Hl & S12).
      destruct (fr_scopes (frame_of F2) k l2 Hl2) as (l' & Hl' & S2). rewrite Hl in Hl'. injection Hl' as <-.
      exact (shrunk_agree _ _ _ _ _ S12 S2 (fun x => cr_scopes s12 Hcl12 u i12 k l12 x H12 Hl12)
               (fun x => cr_scopes s2 Hcl2 u i2 k l2 x H2 Hl2) later_same_domain).
  Qed.

  Theorem later_same_by_flow f l12 l2 :
    slook (by_flow s12) f = Some l12 -> slook (by_flow s2) f = Some l2 -> forall x, In x l12 <-> In x l2.
  Proof.
    intros H12 H2. destruct (cleanup_by_flow c P2 HP2 s1 s12 Hdict1 R12 f l12 H12) as (l1 & Hl1 & S12 & _).
    destruct (cleanup_by_flow c P1 HP1 s s1 Hdict R1 f l1 Hl1) as (l & Hl & S1 & _).
    destruct (cleanup_by_flow c P2 HP2 s s2 Hdict R2 f l2 H2) as (l' & Hl' & S2 & _). rewrite Hl in Hl'. injection Hl' as <-.
    exact (shrunk_agree _ _ _ _ _ (shrunk_trans _ _ _ _ _ _ S1 S12 gone_later (fun _ H => H)) S2
             (fun x => closed_by_flow_present s12 f l12 x Hcl12 H12) (fun x => closed_by_flow_present s2 f l2 x Hcl2 H2)
             later_same_domain).
  Qed.
  Theorem later_same : same_state_ext s12 s2.
  Proof.
    split; [exact later_same_domain|]. split; [|split; [exact later_same_actions|split; [exact later_same_by_flow|exact later_same_rest]]].
    intros u i12 i2 H12 H2. split; [exact (later_same_instance u i12 i2 H12 H2)|exact (later_same_lists u i12 i2 H12 H2)].
  Qed.
End Later.

Definition listed_by_flow (s : state) : Prop :=
  forall u i, slook (flows s) u = Some i -> exists l, slook (by_flow s) (i_flow i) = Some l /\ In u l.

Lemma rebuild_total old : forall uids acc,
  (forall a, In a uids -> slook old a <> None) -> exists B, rebuild_actions old uids acc = Some B.
Proof.
  induction uids as [|a r IH]; intros acc H; simpl; [eauto|].
  destruct (slook acc a); [apply IH; intros; apply H; now right|].
  destruct (slook old a) as [x|] eqn:E; [apply IH; intros; apply H; now right|].
  exfalso. exact (H a (or_introl eq_refl) E).
Qed.

(* an iteration does not raise: the instance to be removed is still there (li_keep), and still
   listed under its flow, since only removed uids have left the per-flow lists (li_by) *)
Lemma remove_one_total F1 B1 A1 Rr done s u i0 l0 :
  LInv F1 B1 A1 Rr done s -> ~ In u done ->
  slook F1 u = Some i0 -> slook B1 (i_flow i0) = Some l0 -> In u l0 ->
  exists s1, remove_one (Some s) u = Some s1.
Proof.
  intros HI Hud Hi0 Hl0 Hin0. simpl.
  destruct (slook (flows s) u) as [fs|] eqn:Hfs; [|destruct (li_keep HI u); congruence].
  destruct (li_look HI u fs Hfs) as (i1 & Hi1 & Hp). rewrite Hi0 in Hi1. injection Hi1 as <-.
  rewrite <- (ce_flow (sbc_core _ _ (proj1 Hp))).
  rewrite (li_by HI), Hl0. simpl. replace (smem u _) with true; [eauto|]. symmetry. apply smem_in.
  destruct (strike_shrunk (filter (of_flow F1 (i_flow i0)) done) l0) as [_ Hmiss].
  destruct (in_dec string_dec u (strike (filter (of_flow F1 (i_flow i0)) done) l0)) as [?|Hn]; [assumption|].
  apply Hmiss, filter_In in Hn as [Hn _]; [destruct (Hud Hn)|exact Hin0].
Qed.

Lemma fold_total F1 B1 A1 Rr rem : forall done s,
  LInv F1 B1 A1 Rr done s -> NoDup rem ->
  (forall u, In u rem -> ~ In u done /\ exists i0 l0, slook F1 u = Some i0 /\ slook B1 (i_flow i0) = Some l0 /\ In u l0) ->
  exists s', fold_left remove_one rem (Some s) = Some s'.
Proof.
  induction rem as [|u r IH]; intros done s HI Hnd Hr; cbn [fold_left]; [eauto|].
  inversion Hnd as [|? ? Hu Hnd']; subst.
  destruct (Hr u (or_introl eq_refl)) as (Hud & i0 & l0 & Hi0 & Hl0 & Hin0).
  destruct (remove_one_total _ _ _ _ _ _ _ _ _ HI Hud Hi0 Hl0 Hin0) as (s1 & Hs1). rewrite Hs1.
  apply (IH (done ++ [u])%list s1); [eapply linv_step; eauto|exact Hnd'|].
  intros u' Hu'. destruct (Hr u' (or_intror Hu')) as (Hd' & Hrest). split; [|exact Hrest].
  intro Hin. apply in_app_or in Hin as [Hin|[<-|[]]]; [exact (Hd' Hin)|exact (Hu Hu')].
Qed.

(* on a state with closed references whose instances are listed under their flow,
   _clean_up_state raises neither KeyError nor ValueError *)
Theorem cleanup_total c P s :
  NoDup (map fst (flows s)) -> closed_refs s -> listed_by_flow s -> exists s', cleanup_gen c P s = Some s'.
Proof.
  intros Hn Hcl Hlb. unfold cleanup_gen.
  set (s1 := clear_scores s). set (rem := to_remove_gen P s1).
  assert (Hk1 : NoDup (map fst (flows s1))) by (simpl; now rewrite F1_keys).
  assert (HI0 : LInv (flows s1) (by_flow s) (actions s) (s_rest s) [] s1) by (apply linv_init; exact Hk1).
  destruct (fold_total _ _ _ _ rem [] s1 HI0) as (s2 & Hs2).
  - apply nodup_filter_keys. exact Hk1.
  - intros u Hu. split; [tauto|]. destruct (to_remove_in P s u Hn Hu) as (i & Ei & _).
    destruct (Hlb u i Ei) as (l & Hl & Hin'). exists (clear_heads i), l. simpl. rewrite F1_look, Ei. auto.
  - rewrite Hs2. pose proof (linv_fold _ _ _ _ rem [] (Some s1) s2 HI0 Hs2) as HI.
    destruct (rebuild_total (actions s2) (all_action_uids s2) []) as (B & HB); [|rewrite HB; eauto].
    intros a Ha. rewrite (li_act HI). apply in_flat_map in Ha as ([u i2] & Hin & Hia).
    apply in_slook in Hin; [|exact (li_keys HI)].
    destruct (li_look HI u i2 Hin) as (i0 & Hi0 & Hp).
    simpl in Hi0. rewrite F1_look in Hi0. destruct (slook (flows s) u) as [i|] eqn:Ei; [|discriminate].
    injection Hi0 as <-. simpl in Hia. rewrite <- (sbc_actions _ _ (proj1 Hp)) in Hia.
    exact (cr_actions s Hcl u i a Ei Hia).
Qed.

Theorem cleanup_preserves_listed c P s s' :
  core_pred P -> NoDup (map fst (flows s)) -> cleanup_gen c P s = Some s' -> listed_by_flow s -> listed_by_flow s'.
Proof.
  intros HP Hn Hr Hl u i' Hi'.
  destruct (cleanup_survivor c P HP s s' Hn Hr u i' Hi') as (i & Hi & _ & Hfr).
  rewrite (ce_flow (frame_rel_core _ _ _ Hfr)). destruct (Hl u i Hi) as (l & Hll & Hin).
  destruct (slook (by_flow s') (i_flow i)) as [l'|] eqn:Hl'; [|destruct (cleanup_by_flow_kept c P s s' Hn Hr (i_flow i)); congruence].
  exists l'. split; [reflexivity|].
  destruct (cleanup_by_flow c P HP s s' Hn Hr _ _ Hl') as (l0 & Hl0 & [_ Hg] & _). rewrite Hll in Hl0. injection Hl0 as <-.
  destruct (in_dec string_dec u l') as [?|Hno]; [assumption|]. specialize (Hg u Hin Hno). unfold gone' in Hg. congruence.
Qed.

Lemma nodupb_sound l : nodupb l = true -> NoDup l.
Proof.
  induction l as [|x r IH]; simpl; intro H; [constructor|].
  apply andb_true_iff in H as [H1 H2]. constructor; [|auto].
  intro Hin. apply smem_in in Hin. rewrite Hin in H1. discriminate.
Qed.

Lemma presentb_spec s u : presentb s u = true -> present s u.
Proof. unfold presentb, present. now destruct (slook (flows s) u). Qed.

Lemma refs_okb_sound s : refs_okb s = true ->
  NoDup (map fst (flows s)) /\ closed_refs s /\ listed_by_flow s.
Proof.
  unfold refs_okb. intro H. apply andb_true_iff in H as [H H3]. apply andb_true_iff in H as [H1 H2].
  rewrite forallb_forall in H2, H3.
  assert (Pres : forall l x, forallb (presentb s) l = true -> In x l -> present s x).
  { intros l x Hl Hx. apply presentb_spec. exact (proj1 (forallb_forall _ l) Hl x Hx). }
  (* what the check says of one instance: the first three fields of closed_refs and listed_by_flow *)
  assert (Per : forall u i, slook (flows s) u = Some i ->
     (forall x, In x (i_children i) -> present s x) /\
     (forall k l x, slook (i_scopes i) k = Some l -> In x l -> present s x) /\
     (forall a, In a (i_actions i) -> slook (actions s) a <> None) /\
     exists l, slook (by_flow s) (i_flow i) = Some l /\ In u l).
  { intros u i Hi. specialize (H2 (u, i) (slook_in _ _ _ Hi)). simpl in H2.
    apply andb_true_iff in H2 as [H2 D]. apply andb_true_iff in H2 as [H2 C]. apply andb_true_iff in H2 as [A B].
    rewrite forallb_forall in B, C. split; [exact (fun x => Pres _ x A)|]. split; [|split].
    - intros k l x Hl. exact (Pres _ x (B (k, l) (slook_in _ _ _ Hl))).
    - intros a Ha. specialize (C a Ha). now destruct (slook (actions s) a).
    - destruct (slook (by_flow s) (i_flow i)) as [l|]; [|discriminate]. exists l. split; [reflexivity|now apply smem_in]. }
  split; [now apply nodupb_sound|]. split; [constructor|].
  - intros u i x Hi. now apply (Per u i Hi).
  - intros u i k l x Hi. now apply (Per u i Hi).
  - intros u i a Hi. now apply (Per u i Hi).
  - intros f l Hl. specialize (H3 (f, l) (slook_in _ _ _ Hl)). simpl in H3.
    apply andb_true_iff in H3 as [N M]. split; [now apply nodupb_sound|].
    rewrite forallb_forall in M. intros u Hu. specialize (M u Hu).
    destruct (slook (flows s) u) as [i|]; [|discriminate]. apply String.eqb_eq in M. eauto.
  - intros u i Hi. now apply (Per u i Hi).
Qed.
