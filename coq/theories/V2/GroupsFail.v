(* C07 - the failure side of the group protocol and `when` statements with several cases.

   Source: expansion.py _expand_when_stmt_element, _expand_await_element, _expand_match_element
   (failure labels), statemachine.py (a head whose `match $ref.Finished` sees the Failed event of
   that flow instance jumps to its innermost CatchPatternFailure label; Abort jumps to the next
   enclosing one, or aborts the flow when there is none).

   What the expansions emit on the failure side:
     and-fork of an alternative (members m_1..m_k), failure label:  MergeHeads(and-fork); Abort
         -> ONE failed member kills the whole alternative and hands over to the enclosing handler
     `when` case c with alternatives g_1..g_n, failure label of the case:
         WaitForHeads(n); Goto else            -> the case has failed when ALL n alternatives failed
     `when` statement with cases c_1..c_m, else label:  WaitForHeads(m); Abort (or the else body)
                                               -> the statement fails when ALL m cases failed
     await / match with an or-fork over n alternatives, failure label:  WaitForHeads(n); Abort
     await / match with a single alternative: its failure aborts directly (no WaitForHeads)
   WaitForHeads(n) is evaluated by a head that arrives there (Groups.v).

   Events have two readings per atom:  mt a e  = the flow instance of atom a finishes in step e,
   fl a e = it fails (is stopped / aborts) in step e.  A head that has matched no longer listens,
   a dead alternative has no heads left. *)
From Coq Require Import List Bool Arith.
From NG Require Import V2.Dnf V2.Groups.
Import ListNotations.

Inductive foutcome :=
| FoErr                                  (* the expansion raised / ill-formed statement *)
| FoNever                                (* neither completed nor failed after all the events *)
| FoDone (n : nat) (cases : list nat)    (* completed in step n; the body of one of `cases` runs *)
| FoFail (n : nat).                      (* failed in step n (else branch / flow aborted) *)

Inductive fres := RNone | RDone (cases : list nat) | RFail.

Section GroupsFail.
  Variables A E : Type.
  Variables mt fl : A -> E -> bool.

  (* one case: or-fork?, its alternatives, the WaitForHeads number of its failure handler
     (None = the handler has no WaitForHeads) *)
  Record cprog := mkC { cp_fork : bool; cp_branches : list (branch A); cp_fail_wait : option nat }.
  (* the statement: its cases and the WaitForHeads number at the else label *)
  Record fprog := mkF { fp_cases : list cprog; fp_else_wait : option nat }.

  Definition cprog_of (p : prog A) : cprog :=
    match p with
    | PSingle b => mkC false [b] None
    | POr bs => mkC true bs (Some (length bs))
    end.

  Definition fcompile (st : stmt) (fs : list (formula A)) : option fprog :=
    match st, fs with
    | SWhen, _ =>
        bind (mapM (fun f => bind (compile SWhen f) (fun p => Some (cprog_of p))) fs)
             (fun cs => Some (mkF cs (Some (length cs))))
    | _, [f] => bind (compile st f) (fun p => Some (mkF [cprog_of p] None))
    | _, _ => None      (* match / await take exactly one group *)
    end.

  Inductive astate :=
  | ALive (hs : list (head A)) (need : nat)
  | ADead.                                   (* a member failed: the alternative's heads are merged away *)

  Record cstate := mkCS { cs_alts : list astate; cs_fail_wait : option nat }.

  Inductive fstate :=
  | FActive (cs : list cstate) (els : option nat)
  | FDone
  | FFailed.

  Definition init_alt (b : branch A) : astate :=
    ALive (b_heads (init_branch b)) (b_need (init_branch b)).
  Definition init_case (c : cprog) : cstate := mkCS (map init_alt (cp_branches c)) (cp_fail_wait c).
  Definition finit (p : fprog) : fstate := FActive (map init_case (fp_cases p)) (fp_else_wait p).

  Definition head_fails (e : E) (h : head A) : bool :=
    match h with HMatch a => fl a e | HWait => false end.

  (* the alternative dies in this step *)
  Definition alt_fails (e : E) (a : astate) : bool :=
    match a with ALive hs _ => existsb (head_fails e) hs | ADead => false end.

  Definition alt_next (e : E) (a : astate) : astate :=
    match a with
    | ALive hs n => if existsb (head_fails e) hs then ADead else ALive (map (adv_head mt e) hs) n
    | ADead => ADead
    end.

  Definition alt_passes (e : E) (a : astate) : bool :=
    match a with
    | ALive hs n =>
        negb (existsb (head_fails e) hs)
        && existsb (head_moves mt e) hs
        && (n <=? length (filter is_wait (map (adv_head mt e) hs)))
    | ADead => false
    end.

  Definition is_dead (a : astate) : bool := match a with ADead => true | _ => false end.

  (* WaitForHeads(n) with k heads on it; no WaitForHeads = the first arriving head goes on *)
  Definition wait_ok (o : option nat) (k : nat) : bool :=
    match o with Some n => n <=? k | None => 1 <=? k end.

  Definition case_next (e : E) (c : cstate) : cstate :=
    mkCS (map (alt_next e) (cs_alts c)) (cs_fail_wait c).
  Definition case_passes (e : E) (c : cstate) : bool := existsb (alt_passes e) (cs_alts c).
  Definition case_failed (c : cstate) : bool :=
    wait_ok (cs_fail_wait c) (length (filter is_dead (cs_alts c))).

  Fixpoint iw_from {X} (g : X -> bool) (k : nat) (l : list X) : list nat :=
    match l with
    | [] => []
    | x :: xs => if g x then k :: iw_from g (S k) xs else iw_from g (S k) xs
    end.
  (* 0-based indices of the elements satisfying g *)
  Definition indices_where {X} (g : X -> bool) (l : list X) : list nat := iw_from g 0 l.

  Definition fdeliver (s : fstate) (e : E) : fstate * fres :=
    match s with
    | FActive cs els =>
        match indices_where (case_passes e) cs with
        | [] =>
            let cs' := map (case_next e) cs in
            if existsb (fun c => existsb (alt_fails e) (cs_alts c)) cs
               && wait_ok els (length (filter case_failed cs'))
            then (FFailed, RFail)
            else (FActive cs' els, RNone)
        | w => (FDone, RDone w)
        end
    | FDone => (FDone, RNone)
    | FFailed => (FFailed, RNone)
    end.

  Fixpoint frun_from (s : fstate) (evs : list E) (k : nat) : foutcome :=
    match evs with
    | [] => FoNever
    | e :: r =>
        match fdeliver s e with
        | (_, RDone w) => FoDone (S k) w
        | (_, RFail) => FoFail (S k)
        | (s', RNone) => frun_from s' r (S k)
        end
    end.

  Definition frun (st : stmt) (fs : list (formula A)) (evs : list E) : foutcome :=
    match fcompile st fs with
    | None => FoErr
    | Some p => frun_from (finit p) evs 0
    end.

  (* what happened to atom a: the first event that finishes or fails it decides
     (Some true = finished, Some false = failed, None = still running) *)
  Fixpoint status (p : list E) (a : A) : option bool :=
    match p with
    | [] => None
    | e :: r => if fl a e then Some false else if mt a e then Some true else status r a
    end.

  Definition is_fin (p : list E) (a : A) : bool :=
    match status p a with Some true => true | _ => false end.
  Definition not_failed (p : list E) (a : A) : bool :=
    match status p a with Some false => false | _ => true end.

  (* after the events p: the cases whose formula holds of the finished members; failed iff no
     case can hold any more even if every member that has not failed finishes *)
  Definition fspec_at (fs : list (formula A)) (p : list E) : fres :=
    match indices_where (eval (is_fin p)) fs with
    | [] => if forallb (fun f => negb (eval (not_failed p) f)) fs then RFail else RNone
    | w => RDone w
    end.

  Fixpoint fspec_from (fs : list (formula A)) (p r : list E) (k : nat) : foutcome :=
    match r with
    | [] => FoNever
    | e :: r' =>
        match fspec_at fs (p ++ [e]) with
        | RDone w => FoDone (S k) w
        | RFail => FoFail (S k)
        | RNone => fspec_from fs (p ++ [e]) r' (S k)
        end
    end.

  (* the first step at which a case holds (then: which cases) or no case can hold any more *)
  Definition fspec (fs : list (formula A)) (evs : list E) : foutcome := fspec_from fs [] evs 0.

End GroupsFail.

Arguments mkC {A} cp_fork cp_branches cp_fail_wait.
Arguments mkF {A} fp_cases fp_else_wait.
Arguments cp_fork {A} c.
Arguments cp_branches {A} c.
Arguments cp_fail_wait {A} c.
Arguments fp_cases {A} f.
Arguments fp_else_wait {A} f.
Arguments cprog_of {A} p.
Arguments fcompile {A} st fs.
Arguments ALive {A} hs need.
Arguments ADead {A}.
Arguments mkCS {A} cs_alts cs_fail_wait.
Arguments cs_alts {A} c.
Arguments cs_fail_wait {A} c.
Arguments FActive {A} cs els.
Arguments FDone {A}.
Arguments FFailed {A}.
Arguments init_alt {A} b.
Arguments init_case {A} c.
Arguments finit {A} p.
Arguments head_fails {A E} fl e h.
Arguments alt_fails {A E} fl e a.
Arguments alt_next {A E} mt fl e a.
Arguments alt_passes {A E} mt fl e a.
Arguments is_dead {A} a.
Arguments case_next {A E} mt fl e c.
Arguments case_passes {A E} mt fl e c.
Arguments case_failed {A} c.
Arguments fdeliver {A E} mt fl s e.
Arguments frun_from {A E} mt fl s evs k.
Arguments frun {A E} mt fl st fs evs.
Arguments status {A E} mt fl p a.
Arguments is_fin {A E} mt fl p a.
Arguments not_failed {A E} mt fl p a.
Arguments fspec_at {A E} mt fl fs p.
Arguments fspec_from {A E} mt fl fs p r k.
Arguments fspec {A E} mt fl fs evs.

(* events are (flow, finishes?) pairs *)
Definition ex_mt (a : nat) (e : nat * bool) : bool := Nat.eqb a (fst e) && snd e.
Definition ex_fl (a : nat) (e : nat * bool) : bool := Nat.eqb a (fst e) && negb (snd e).

(* when f0 or f1 ... or when f2 : stop f0, stop f2, f1 finishes -> case 0 *)
Example frun_ex1 :
  frun ex_mt ex_fl SWhen [Or [Atom 0; Atom 1]; Atom 2] [(0, false); (2, false); (1, true)] = FoDone 3 [0]
  /\ fspec ex_mt ex_fl [Or [Atom 0; Atom 1]; Atom 2] [(0, false); (2, false); (1, true)] = FoDone 3 [0].
Proof. split; reflexivity. Qed.

(* ... stop f0, f1, f2 -> fails exactly when the last one is stopped *)
Example frun_ex2 :
  frun ex_mt ex_fl SWhen [Or [Atom 0; Atom 1]; Atom 2] [(0, false); (1, false); (2, false); (2, true)] = FoFail 3.
Proof. reflexivity. Qed.

(* await (f0 and f1) or f2 : f0 finishes, f1 is stopped (alternative dead), f2 finishes *)
Example frun_ex3 :
  frun ex_mt ex_fl SAwait [Or [And [Atom 0; Atom 1]; Atom 2]] [(0, true); (1, false); (1, true); (2, true)] = FoDone 4 [0].
Proof. reflexivity. Qed.

Example fcompile_ex :
  fcompile SWhen [Or [Atom 0; Atom 1]; Atom 2]
  = Some (mkF [mkC true [BMatch 0; BMatch 1] (Some 2); mkC true [BMatch 2] (Some 1)] (Some 2)).
Proof. reflexivity. Qed.
