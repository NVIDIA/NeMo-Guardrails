(* C07 - and/or groups: the data structure and the DNF normaliser.

   Model of nemoguardrails/colang/v2_x/lang/expansion.py
     normalize_element_groups
     flatten_or_group

   A group as the parser produces it is either a `Spec` (one event / flow / action) or a dict
   {"_type": "spec_and" | "spec_or", "elements": [Spec | dict, ...]}; the same operator is
   n-ary (`a and b and c` is ONE spec_and with three elements), parentheses nest.
     Atom a  = a Spec object (identified by `a`)
     And l   = {"_type": "spec_and", "elements": l}
     Or  l   = {"_type": "spec_or",  "elements": l}
   Python exceptions (subscripting a Spec with ["elements"]) are explicit: every function that
   subscripts returns `option`, None = exception.  Dnf_proofs.v shows that None never occurs. *)
From Coq Require Import List Bool.
Import ListNotations.

Section Formula.
  Variable A : Type.

  Inductive formula :=
  | Atom (a : A)
  | And (l : list formula)
  | Or (l : list formula).

  Section formula_ind'.
    Variable P : formula -> Prop.
    Hypothesis HAtom : forall a, P (Atom a).
    Hypothesis HAnd : forall l, Forall P l -> P (And l).
    Hypothesis HOr : forall l, Forall P l -> P (Or l).

    Fixpoint formula_ind' (f : formula) : P f :=
      match f with
      | Atom a => HAtom a
      | And l =>
          HAnd l ((fix go (l : list formula) : Forall P l :=
                     match l with
                     | [] => Forall_nil _
                     | x :: xs => Forall_cons _ (formula_ind' x) (go xs)
                     end) l)
      | Or l =>
          HOr l ((fix go (l : list formula) : Forall P l :=
                    match l with
                    | [] => Forall_nil _
                    | x :: xs => Forall_cons _ (formula_ind' x) (go xs)
                    end) l)
      end.
  End formula_ind'.

  (* the boolean formula a group spells, under an assignment of its atoms *)
  Fixpoint eval (s : A -> bool) (f : formula) : bool :=
    match f with
    | Atom a => s a
    | And l => forallb (eval s) l
    | Or l => existsb (eval s) l
    end.

  (* atoms in left-to-right order *)
  Fixpoint atoms (f : formula) : list A :=
    match f with
    | Atom a => [a]
    | And l => flat_map atoms l
    | Or l => flat_map atoms l
    end.

  (* every group has at least one element (the parser never produces an empty group) *)
  Fixpoint wf (f : formula) : bool :=
    match f with
    | Atom _ => true
    | And l => negb (match l with [] => true | _ => false end) && forallb wf l
    | Or l => negb (match l with [] => true | _ => false end) && forallb wf l
    end.

  Definition bind {X Y : Type} (o : option X) (k : X -> option Y) : option Y :=
    match o with Some x => k x | None => None end.

  Section mapM.
    Variables X Y : Type.
    Variable k : X -> option Y.
    Fixpoint mapM (l : list X) : option (list Y) :=
      match l with
      | [] => Some []
      | x :: xs => bind (k x) (fun y => bind (mapM xs) (fun ys => Some (y :: ys)))
      end.
  End mapM.
  Arguments mapM {X Y} k l.

  (* group["elements"] : a Spec is not subscriptable *)
  Definition elements (g : formula) : option (list formula) :=
    match g with
    | Atom _ => None
    | And l => Some l
    | Or l => Some l
    end.

  (* def flatten_or_group(group):
         new_elements = []
         for elem in group["elements"]:
             if isinstance(elem, dict) and elem["_type"] == "spec_or":
                 new_elements.extend(elem["elements"])
             else:
                 new_elements.append(elem)
         return {"_type": "spec_or", "elements": new_elements}                         *)
  Definition flatten_or (group : formula) : option formula :=
    bind (elements group) (fun els =>
    Some (Or (flat_map (fun elem => match elem with Or l' => l' | _ => [elem] end) els))).

  (*         new_results = []
             for res_elem in results:
                 for norm_elem in normalized["elements"]:
                     new_elem = {"_type": "spec_and",
                                 "elements": res_elem["elements"] + norm_elem["elements"]}
                     new_results.append(new_elem)
             results = new_results                                                      *)
  Definition distribute (results norm_elems : list formula) : option (list formula) :=
    bind (mapM (fun res_elem =>
                  mapM (fun norm_elem =>
                          bind (elements res_elem) (fun re =>
                          bind (elements norm_elem) (fun ne =>
                          Some (And (re ++ ne))))) norm_elems) results)
         (fun rows => Some (concat rows)).

  (* the `elif group["_type"] == "spec_and":` branch, for the element list `els`;
     `rec` is the recursive call *)
  Definition norm_and (rec : formula -> option formula) (els : list formula) : option formula :=
    bind (fold_left
            (fun (acc : option (list formula)) elem =>
               bind acc (fun results =>
               bind (match elem with
                     | Atom _ => Some (Or [And [elem]])     (* not a dict *)
                     | _ => rec elem
                     end) (fun normalized =>
               bind (elements normalized) (fun norm_elems =>
               distribute results norm_elems))))
            els (Some [And []]))
         (fun results => flatten_or (Or results)).

  (* def normalize_element_groups(group):
         if isinstance(group, Spec):
             group = {"_type": "spec_and", "elements": [group]}
         if group["_type"] == "spec_or":
             return flatten_or_group({"_type": "spec_or", "elements": [
                 normalize_element_groups(elem) if isinstance(elem, dict)
                 else {"_type": "spec_and", "elements": [elem]}
                 for elem in group["elements"]]})
         elif group["_type"] == "spec_and":
             results = [{"_type": "spec_and", "elements": []}]
             for elem in group["elements"]:
                 normalized = (normalize_element_groups(elem) if isinstance(elem, dict)
                               else {"_type": "spec_or", "elements": [{"_type": "spec_and", "elements": [elem]}]})
                 ... distribute ...
             return flatten_or_group({"_type": "spec_or", "elements": results})
         return {}                                                                       *)
  Fixpoint normalize (group : formula) : option formula :=
    match group with
    | Atom a => norm_and (fun _ => None) [Atom a]   (* the degenerate single-Spec case: wrapped into a one-element and-group *)
    | Or l =>
        bind (mapM (fun elem => match elem with
                                | Atom _ => Some (And [elem])
                                | _ => normalize elem
                                end) l)
             (fun els => flatten_or (Or els))
    | And l => norm_and normalize l
    end.

  (* reading a normalised group the way the expansion does:
     normalized_group["elements"][i]["elements"][j]  is a Spec *)
  Definition atom_of (g : formula) : option A :=
    match g with Atom a => Some a | _ => None end.

  Definition alts_of (d : formula) : option (list (list A)) :=
    bind (elements d) (mapM (fun g => bind (elements g) (mapM atom_of))).

  Definition conjf (c : list A) : formula := And (map Atom c).
  Definition dnf (alts : list (list A)) : formula := Or (map conjf alts).

  Definition eval_dnf (s : A -> bool) (alts : list (list A)) : bool :=
    existsb (forallb s) alts.

  (* specification of the normaliser: plain DNF by distribution, no exceptions *)
  Definition cross (xs ys : list (list A)) : list (list A) :=
    flat_map (fun x => map (fun y => x ++ y) ys) xs.

  Fixpoint nf (f : formula) : list (list A) :=
    match f with
    | Atom a => [[a]]
    | Or l => flat_map nf l
    | And l => fold_left (fun acc e => cross acc (nf e)) l [[]]
    end.

End Formula.

Arguments Atom {A} a.
Arguments And {A} l.
Arguments Or {A} l.
Arguments eval {A} s f.
Arguments atoms {A} f.
Arguments wf {A} f.
Arguments bind {X Y} o k.
Arguments mapM {X Y} k l.
Arguments elements {A} g.
Arguments flatten_or {A} group.
Arguments distribute {A} results norm_elems.
Arguments norm_and {A} rec els.
Arguments normalize {A} group.
Arguments atom_of {A} g.
Arguments alts_of {A} d.
Arguments conjf {A} c.
Arguments dnf {A} alts.
Arguments eval_dnf {A} s alts.
Arguments cross {A} xs ys.
Arguments nf {A} f.

(* `a and (b or c)` as the parser produces it *)
Example normalize_ex1 :
  normalize (And [Atom 1; Or [Atom 2; Atom 3]])
  = Some (Or [And [Atom 1; Atom 2]; And [Atom 1; Atom 3]]).
Proof. reflexivity. Qed.

(* the degenerate single-Spec case *)
Example normalize_ex2 : normalize (Atom 7) = Some (Or [And [Atom 7]]).
Proof. reflexivity. Qed.

(* nested same-operator groups are flattened; or-in-and-in-or distributes *)
Example normalize_ex3 :
  normalize (Or [Or [Atom 1; Atom 2]; And [Atom 3; Or [Atom 4; And [Atom 5; Atom 6]]]])
  = Some (Or [And [Atom 1]; And [Atom 2]; And [Atom 3; Atom 4]; And [Atom 3; Atom 5; Atom 6]]).
Proof. reflexivity. Qed.

Example alts_of_ex :
  bind (normalize (And [Or [Atom 1; Atom 2]; Atom 3])) alts_of = Some [[1; 3]; [2; 3]].
Proof. reflexivity. Qed.
