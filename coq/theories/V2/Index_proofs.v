(* C09 - proofs about V2/Index.v: the invariant "index = from-scratch scan, reverse map exactly
   inverse" is established by the empty state and preserved by every operation of the model
   (whose side conditions are the discipline statemachine.py follows), hence by every finite
   sequence of operations.

   The two clauses of the invariant about the reverse map speak of one key at a time (`key_ok`).
   A mutation changes `insts` at one instance (`put_inst_off`: only the keys of that instance are
   to be looked at) and/or registers and unregisters keys of it (`head_changed_with_inv`: the
   callback leaves the one right value at its key); `InvOff` is the invariant in between.  Each
   kind of mutation is a lemma about the resulting state (`..._inv`), a `key_ok` fact at bottom;
   `step_inv` hands it the guards of `step`.

   At the end: the decision procedure IndexRun.exactb, evaluated inside Coq on every distinct
   snapshot of the real State, implies exactness of the index w.r.t. the scan. *)
From Coq Require Import NArith List Bool Lia PeanoNat.
From NG Require Import V2.Index V2.IndexRun.
Import ListNotations.
Open Scope N_scope.

Section AListLemmas.
  Context {K V : Type}.
  Variable eqb : K -> K -> bool.
  Hypothesis eqb_eq : forall a b, eqb a b = true <-> a = b.

  Lemma eqb_spec a b : reflect (a = b) (eqb a b).
  Proof. apply iff_reflect. symmetry. apply eqb_eq. Qed.

  Lemma eqb_refl a : eqb a a = true.
  Proof. apply eqb_eq. reflexivity. Qed.

  Lemma eqb_neq a b : a <> b -> eqb a b = false.
  Proof. intro H. destruct (eqb_spec a b); [contradiction | reflexivity]. Qed.

  Lemma eqb_false_neq a b : eqb a b = false -> a <> b.
  Proof. intros E H. subst. rewrite eqb_refl in E. discriminate. Qed.

  Lemma aget_app (l1 l2 : list (K * V)) k :
    aget eqb (l1 ++ l2) k = match aget eqb l1 k with Some v => Some v | None => aget eqb l2 k end.
  Proof.
    induction l1 as [|[k' v'] t IH]; simpl; [reflexivity|].
    destruct (eqb k' k); [reflexivity | exact IH].
  Qed.

  Lemma aget_replace (l : list (K * V)) k v k' :
    aget eqb (map (fun p => if eqb (fst p) k then (k, v) else p) l) k'
    = if eqb k k' then (if amem eqb l k then Some v else None) else aget eqb l k'.
  Proof.
    unfold amem. induction l as [|[k0 v0] t IH]; simpl.
    - destruct (eqb k k'); reflexivity.
    - destruct (eqb_spec k0 k) as [->|Hn]; simpl; rewrite IH.
      + destruct (eqb k k'); reflexivity.
      + destruct (eqb_spec k k') as [E|]; [subst k'; rewrite (eqb_neq _ _ Hn)|]; reflexivity.
  Qed.

  Lemma aget_aset (l : list (K * V)) k v k' :
    aget eqb (aset eqb l k v) k' = if eqb k k' then Some v else aget eqb l k'.
  Proof.
    unfold aset. destruct (amem eqb l k) eqn:E.
    - rewrite aget_replace, E. reflexivity.
    - rewrite aget_app. simpl. unfold amem in E.
      destruct (eqb_spec k k') as [<-|]; [destruct (aget eqb l k) | destruct (aget eqb l k')];
        (reflexivity || discriminate).
  Qed.

  Lemma aget_adel (l : list (K * V)) k k' :
    aget eqb (adel eqb l k) k' = if eqb k k' then None else aget eqb l k'.
  Proof.
    unfold adel. induction l as [|[k0 v0] t IH]; simpl.
    - destruct (eqb k k'); reflexivity.
    - destruct (eqb_spec k0 k) as [->|Hn]; simpl; rewrite IH.
      + destruct (eqb k k'); reflexivity.
      + destruct (eqb_spec k k') as [E|]; [subst k'; rewrite (eqb_neq _ _ Hn)|]; reflexivity.
  Qed.

  Lemma aget_Some_in (l : list (K * V)) k v : aget eqb l k = Some v -> In (k, v) l.
  Proof.
    induction l as [|[k' v'] t IH]; simpl; intro H; [discriminate|].
    destruct (eqb_spec k' k) as [->|]; [left; congruence | right; exact (IH H)].
  Qed.

  Lemma forallb_aget (P : K * V -> bool) (l : list (K * V)) k v :
    forallb P l = true -> aget eqb l k = Some v -> P (k, v) = true.
  Proof. intros H E. exact (proj1 (forallb_forall _ _) H _ (aget_Some_in _ _ _ E)). Qed.

  Lemma aget_None_notin (l : list (K * V)) k : aget eqb l k = None -> ~ In k (map fst l).
  Proof.
    induction l as [|[k' v'] t IH]; simpl; intro H; [intros []|].
    destruct (eqb_spec k' k); [discriminate | intros [Hin|Hin]; [contradiction | exact (IH H Hin)]].
  Qed.

  Lemma keys_aset (l : list (K * V)) k v :
    map fst (aset eqb l k v) = if amem eqb l k then map fst l else map fst l ++ [k].
  Proof.
    unfold aset. destruct (amem eqb l k); [|apply map_app].
    rewrite map_map. apply map_ext. intros [k' v']. simpl.
    destruct (eqb_spec k' k) as [->|]; reflexivity.
  Qed.

  Lemma keys_adel (l : list (K * V)) k :
    map fst (adel eqb l k) = filter (fun x => negb (eqb x k)) (map fst l).
  Proof.
    unfold adel. induction l as [|[k' v'] t IH]; simpl; [reflexivity|].
    destruct (eqb k' k); simpl; rewrite IH; reflexivity.
  Qed.

  Lemma nodup_aset (l : list (K * V)) k v :
    NoDup (map fst l) -> NoDup (map fst (aset eqb l k v)).
  Proof.
    intro Hnd. rewrite keys_aset. unfold amem. destruct (aget eqb l k) eqn:E; [exact Hnd|].
    apply (NoDup_Add (Add_app k _ [])). rewrite app_nil_r.
    split; [exact Hnd | exact (aget_None_notin _ _ E)].
  Qed.

  Lemma nodup_adel (l : list (K * V)) k :
    NoDup (map fst l) -> NoDup (map fst (adel eqb l k)).
  Proof. intro Hnd. rewrite keys_adel. apply NoDup_filter. exact Hnd. Qed.
End AListLemmas.

Lemma key_eqb_eq (a b : key) : key_eqb a b = true <-> a = b.
Proof.
  destruct a as [a1 a2], b as [b1 b2]. unfold key_eqb. simpl. split.
  - intro H. apply andb_true_iff in H. destruct H as [H1 H2].
    apply N.eqb_eq in H1, H2. subst. reflexivity.
  - intros [= -> ->]. rewrite !N.eqb_refl. reflexivity.
Qed.

Definition key_dec (a b : key) : {a = b} + {a <> b}.
Proof. decide equality; apply N.eq_dec. Defined.
Arguments key_dec : simpl never.

Section Specialised.
  Context {V : Type}.
  Lemma Ng_None_notin (l : list (N * V)) k : aget N.eqb l k = None -> ~ In k (map fst l).
  Proof. exact (aget_None_notin _ N.eqb_eq l k). Qed.
End Specialised.

Notation cnt := (count_occ key_dec).

Lemma remove_first_spec k l :
  match remove_first k l with
  | Some l' => forall k', cnt l k' = cnt (k :: l') k'
  | None => cnt l k = 0%nat
  end.
Proof.
  induction l as [|x t IH]; simpl; [reflexivity|].
  destruct (eqb_spec _ key_eqb_eq x k) as [->|Hn]; [reflexivity|].
  destruct (remove_first k t) as [t'|].
  - intro k'. specialize (IH k'). simpl in *. destruct (key_dec x k'), (key_dec k k'); lia.
  - destruct (key_dec x k); [contradiction | exact IH].
Qed.

Lemma remove_first_None k l : remove_first k l = None -> cnt l k = 0%nat.
Proof. intro H. pose proof (remove_first_spec k l) as S. rewrite H in S. exact S. Qed.

(* occurrences in the concatenation of the blocks of an association list with unique keys, when
   only the block filed under `sel k` can contain k *)
Lemma cnt_flat_map {V} (g : N * V -> list key) (sel : key -> N) (l : list (N * V)) k :
  NoDup (map fst l) -> (forall p, fst p <> sel k -> cnt (g p) k = 0%nat) ->
  cnt (flat_map g l) k
  = match aget N.eqb l (sel k) with Some v => cnt (g (sel k, v)) k | None => 0%nat end.
Proof.
  intros Hnd Hg. induction l as [|[x v] t IH]; simpl; [reflexivity|].
  inversion Hnd as [|? ? Hni Hnd']; subst. rewrite count_occ_app, (IH Hnd').
  destruct (N.eqb_spec x (sel k)) as [->|Hx].
  - destruct (aget N.eqb t (sel k)) eqn:E; [|lia].
    contradiction Hni. exact (in_map fst _ _ (aget_Some_in _ N.eqb_eq _ _ _ E)).
  - rewrite (Hg (x, v) Hx). reflexivity.
Qed.

Section Proofs.
  Variable prog : uid -> N -> option elem.

  Notation relevant := (relevant prog).
  Notation rel_of := (rel_of prog).
  Notation step := (step prog).
  Notation run := (run prog).
  Notation head_changed := (head_changed prog).
  Notation head_changed_with := (head_changed_with prog).
  Notation scan := (scan prog).
  Notation scanb := (scanb prog).

  (* how often k is registered under n according to the reverse map *)
  Definition regd (s : state) (n : name) (k : key) : nat :=
    match rev_get s k with
    | Some n' => if N.eqb n' n then 1%nat else 0%nat
    | None => 0%nat
    end.

  Definition CntOK (s : state) : Prop := forall n k, cnt (ix_get s n) k = regd s n k.

  Definition WF (s : state) : Prop :=
    NoDup (map fst (insts s)) /\
    forall f i, find_inst s f = Some i -> NoDup (map fst (i_heads i)).

  Record Inv (s : state) : Prop := {
    inv_wf : WF s;
    inv_cnt : CntOK s;
    (* no stale entry: whatever is registered is an attached, non-inactive head on that match *)
    inv_sound : forall k n, rev_get s k = Some n -> relevant s k = Some n;
    (* no missed head *)
    inv_complete : forall k n, relevant s k = Some n -> listening s (fst k) = true -> rev_get s k = Some n;
    (* finished / failed instances hold no position *)
    inv_done : forall f i, find_inst s f = Some i -> is_done (i_st i) = true -> i_heads i = []
  }.

  (* `inv_sound` and `inv_complete` at one key: what the reverse map may hold (v), given whether
     the instance listens (l) and the event name its head waits for (r) *)
  Definition key_ok (l : bool) (r v : option name) : Prop :=
    (forall n, v = Some n -> r = Some n) /\ (forall n, r = Some n -> l = true -> v = Some n).

  (* what _flow_head_changed leaves behind *)
  Lemma key_ok_fresh l r : key_ok l r (if l then r else None).
  Proof. destruct l; split; intros n H; auto; discriminate. Qed.

  Lemma key_ok_unreg l r :
    l && match r with Some _ => true | None => false end = false -> key_ok l r None.
  Proof. intro H. split; intros n E; [discriminate|]. intros ->. rewrite E in H. discriminate. Qed.

  Lemma key_ok_empty l : key_ok l None None.
  Proof. exact (key_ok_unreg l None (andb_false_r l)). Qed.

  Lemma key_ok_unrel l v : key_ok l None v -> v = None.
  Proof. intros [H _]. destruct v as [n|]; [discriminate (H n eq_refl) | reflexivity]. Qed.

  Lemma key_ok_mono l l' r v : key_ok l r v -> (l' = true -> r <> None -> l = true) -> key_ok l' r v.
  Proof.
    intros [Hs Hc] Hl. split; [exact Hs|]. intros n Hr El. apply (Hc n Hr), Hl; [exact El|].
    rewrite Hr. discriminate.
  Qed.

  Definition rel_at (f : uid) (hs : list (uid * head)) (h : uid) : option name :=
    match aget N.eqb hs h with Some hd => rel_of f hd | None => None end.

  Definition KeyOK (s : state) (k : key) : Prop :=
    key_ok (listening s (fst k)) (relevant s k) (rev_get s k).

  Lemma key_at s f i h :
    find_inst s f = Some i ->
    KeyOK s (f, h) -> key_ok (is_listening (i_st i)) (rel_at f (i_heads i) h) (rev_get s (f, h)).
  Proof.
    intro E. unfold KeyOK, listening, Index.relevant, find_head. simpl. rewrite E. exact (fun x => x).
  Qed.

  Definition inst_ok (i : inst) : Prop :=
    NoDup (map fst (i_heads i)) /\ (is_done (i_st i) = true -> i_heads i = []).

  (* Inv, with the condition on the reverse map waived at the keys in D: the state between the two
     halves of a mutation *)
  Record InvOff (D : key -> Prop) (s : state) : Prop := {
    off_nodup : NoDup (map fst (insts s));
    off_inst : forall f i, find_inst s f = Some i -> inst_ok i;
    off_cnt : CntOK s;
    off_key : forall k, ~ D k -> KeyOK s k
  }.

  Lemma inv_inst_ok s f i : Inv s -> find_inst s f = Some i -> inst_ok i.
  Proof. intros HI H. exact (conj (proj2 (inv_wf _ HI) f i H) (inv_done _ HI f i H)). Qed.

  Lemma inv_key s k : Inv s -> KeyOK s k.
  Proof. intro HI. exact (conj (inv_sound _ HI k) (inv_complete _ HI k)). Qed.

  Lemma inv_off D s : Inv s -> InvOff D s.
  Proof.
    intro HI. constructor.
    - exact (proj1 (inv_wf _ HI)).
    - intros f i. exact (inv_inst_ok s f i HI).
    - exact (inv_cnt _ HI).
    - intros k _. exact (inv_key s k HI).
  Qed.

  Lemma inv_intro s : InvOff (fun _ => False) s -> Inv s.
  Proof.
    intros [Hn Hi Hc Hk]. constructor.
    - split; [exact Hn | intros f i H; exact (proj1 (Hi f i H))].
    - exact Hc.
    - intros k. exact (proj1 (Hk k (fun x => x))).
    - intros k. exact (proj2 (Hk k (fun x => x))).
    - intros f i H. exact (proj2 (Hi f i H)).
  Qed.

  Lemma InvOff_weaken (D D' : key -> Prop) s : InvOff D s -> (forall k, D k -> D' k) -> InvOff D' s.
  Proof.
    intros [Hn Hi Hc Hk] HD. constructor; try assumption.
    intros k Hd. apply Hk. intro X. exact (Hd (HD k X)).
  Qed.

  Lemma inst_ok_live st hs : is_done st = false -> NoDup (map fst hs) -> inst_ok (mkI st hs).
  Proof. intros Hd Hn. split; [exact Hn|]. simpl. rewrite Hd. discriminate. Qed.

  Lemma has_head_not_done i h hd :
    inst_ok i -> aget N.eqb (i_heads i) h = Some hd -> is_done (i_st i) = false.
  Proof.
    intros [_ Hd] Hh. destruct (is_done (i_st i)); [|reflexivity]. rewrite (Hd eq_refl) in Hh. discriminate.
  Qed.

  Lemma unattached_unregistered s f h : Inv s -> find_head s f h = None -> rev_get s (f, h) = None.
  Proof.
    intros HI Hh. apply (key_ok_unrel (listening s f)). generalize (inv_key s (f, h) HI).
    unfold KeyOK, Index.relevant. simpl. rewrite Hh. exact (fun x => x).
  Qed.

  Lemma ix_get_aset s n l n' :
    match aget N.eqb (aset N.eqb (index s) n l) n' with Some x => x | None => [] end
    = if N.eqb n n' then l else ix_get s n'.
  Proof. rewrite (aget_aset _ N.eqb_eq). destruct (N.eqb n n'); reflexivity. Qed.

  Lemma remove_entry_spec s k s' :
    CntOK s -> remove_entry s k = Ok s' ->
    insts s' = insts s /\ CntOK s' /\
    forall k', rev_get s' k' = if key_eqb k k' then None else rev_get s k'.
  Proof.
    intros Hc H. unfold remove_entry in H.
    destruct (rev_get s k) as [n|] eqn:Er.
    2:{ inversion H; subst. refine (conj eq_refl (conj Hc _)). intro k'.
        destruct (eqb_spec _ key_eqb_eq k k') as [<-|]; [exact Er | reflexivity]. }
    destruct (aget N.eqb (index s) n) as [l|] eqn:El; [|discriminate].
    destruct (remove_first k l) as [l'|] eqn:Rf; [|discriminate].
    inversion H; subst; clear H.
    refine (conj eq_refl (conj _ (aget_adel _ key_eqb_eq (rev s) k))).
    intros n' k'. unfold regd, rev_get, ix_get at 1. simpl.
    rewrite (aget_adel _ key_eqb_eq), ix_get_aset.
    pose proof (Hc n' k') as Hc'. unfold regd, ix_get in Hc'. unfold rev_get in Hc', Er.
    pose proof (remove_first_spec k l) as Hq. rewrite Rf in Hq. specialize (Hq k').
    destruct (N.eqb_spec n n') as [<-|Hn]; [rewrite El in Hc'|];
      destruct (eqb_spec _ key_eqb_eq k k') as [<-|Hk].
    - rewrite Er, N.eqb_refl in Hc'. rewrite count_occ_cons_eq in Hq by reflexivity. lia.
    - rewrite count_occ_cons_neq in Hq by exact Hk. lia.
    - rewrite Er, (proj2 (N.eqb_neq n n') Hn) in Hc'. exact Hc'.
    - exact Hc'.
  Qed.

  Lemma add_entry_spec s k n :
    CntOK s -> rev_get s k = None ->
    CntOK (add_entry s k n) /\
    forall k', rev_get (add_entry s k n) k' = if key_eqb k k' then Some n else rev_get s k'.
  Proof.
    intros Hc Er. split; [|exact (aget_aset _ key_eqb_eq (rev s) k n)].
    intros n' k'.
    assert (Hix : ix_get (add_entry s k n) n' = if N.eqb n n' then ix_get s n ++ [k] else ix_get s n').
    { unfold ix_get at 1, add_entry. simpl.
      destruct (aget N.eqb (index s) n) as [l|] eqn:El; rewrite ix_get_aset;
        unfold ix_get; rewrite El; reflexivity. }
    rewrite Hix. unfold regd, rev_get, add_entry. simpl. rewrite (aget_aset _ key_eqb_eq).
    pose proof (Hc n' k') as Hc'. unfold regd, rev_get in Hc', Er.
    destruct (N.eqb_spec n n') as [<-|Hn]; [rewrite count_occ_app|];
      destruct (eqb_spec _ key_eqb_eq k k') as [<-|Hk].
    - rewrite Er in Hc'. rewrite N.eqb_refl, count_occ_cons_eq by reflexivity. simpl. lia.
    - rewrite count_occ_cons_neq by exact Hk. simpl. lia.
    - rewrite Er in Hc'. rewrite (proj2 (N.eqb_neq n n') Hn). exact Hc'.
    - exact Hc'.
  Qed.

  Lemma listening_insts s s' f : insts s' = insts s -> listening s' f = listening s f.
  Proof. intro H. unfold listening, find_inst. rewrite H. reflexivity. Qed.

  Lemma relevant_insts s s' k : insts s' = insts s -> relevant s' k = relevant s k.
  Proof. intro H. unfold Index.relevant, find_head, find_inst. rewrite H. reflexivity. Qed.

  Lemma head_changed_with_spec s f h hd s' r :
    CntOK s -> head_changed_with s f h hd = (Ok s', r) ->
    insts s' = insts s /\ CntOK s' /\
    forall k', rev_get s' k'
               = if key_eqb (f, h) k' then (if listening s f then rel_of f hd else None) else rev_get s k'.
  Proof.
    intros Hc H. unfold Index.head_changed_with in H.
    destruct (remove_entry s (f, h)) as [s1|] eqn:Er; [|inversion H].
    destruct (remove_entry_spec _ _ _ Hc Er) as (Hi & Hc1 & Hr1).
    rewrite (listening_insts _ _ f Hi) in H.
    destruct (listening s f); [destruct (rel_of f hd) as [n|]|]; inversion H; subst; clear H;
      try exact (conj Hi (conj Hc1 Hr1)).
    assert (E : rev_get s1 (f, h) = None) by (rewrite Hr1, (eqb_refl _ key_eqb_eq); reflexivity).
    destruct (add_entry_spec s1 (f, h) n Hc1 E) as (Hc2 & Hr2).
    refine (conj Hi (conj Hc2 _)). intro k'. rewrite Hr2, Hr1.
    destruct (key_eqb (f, h) k'); reflexivity.
  Qed.

  Lemma find_inst_put_inst s f i f' :
    find_inst (put_inst s f i) f' = if N.eqb f f' then Some i else find_inst s f'.
  Proof. exact (aget_aset _ N.eqb_eq (insts s) f i f'). Qed.

  Lemma find_head_put_inst s f i f' h' :
    find_head (put_inst s f i) f' h' = if N.eqb f f' then aget N.eqb (i_heads i) h' else find_head s f' h'.
  Proof. unfold find_head. rewrite find_inst_put_inst. destruct (N.eqb f f'); reflexivity. Qed.

  Lemma listening_put_inst s f i f' :
    listening (put_inst s f i) f' = if N.eqb f f' then is_listening (i_st i) else listening s f'.
  Proof. unfold listening. rewrite find_inst_put_inst. destruct (N.eqb f f'); reflexivity. Qed.

  Lemma put_head_eq s f i h hd :
    find_inst s f = Some i ->
    put_head s f h hd = put_inst s f (mkI (i_st i) (aset N.eqb (i_heads i) h hd)).
  Proof. intro H. unfold put_head. rewrite H. reflexivity. Qed.

  Lemma CntOK_insts s l : CntOK s -> CntOK (set_insts s l).
  Proof. intros H n k. exact (H n k). Qed.

  (* `insts` changes at instance f: only the keys of f have to be looked at *)
  Lemma put_inst_off (D : key -> Prop) s f i :
    InvOff (fun k => fst k = f \/ D k) s -> inst_ok i ->
    (forall h, ~ D (f, h) -> key_ok (is_listening (i_st i)) (rel_at f (i_heads i) h) (rev_get s (f, h))) ->
    InvOff D (put_inst s f i).
  Proof.
    intros [Hn Hi Hc Hk] Hok Hf. constructor.
    - exact (nodup_aset _ N.eqb_eq _ f i Hn).
    - intros g j. rewrite find_inst_put_inst. destruct (N.eqb f g); [intros [= <-]; exact Hok | apply Hi].
    - exact (CntOK_insts _ _ Hc).
    - intros [g h] Hd. unfold KeyOK, Index.relevant. rewrite listening_put_inst, find_head_put_inst. simpl.
      destruct (N.eqb_spec f g) as [<-|Hg]; [exact (Hf h Hd)|].
      apply (Hk (g, h)). intros [E|E]; [exact (Hg (eq_sym E)) | exact (Hd E)].
  Qed.

  Lemma InvOff_transfer (D : key -> Prop) s s' :
    InvOff D s -> insts s' = insts s -> CntOK s' ->
    (forall k, ~ D k -> rev_get s' k = rev_get s k) -> InvOff D s'.
  Proof.
    intros [Hn Hi _ Hk] E Hc Hr. unfold find_inst in Hi. rewrite <- E in Hn, Hi.
    constructor; try assumption. intros k Hd. unfold KeyOK.
    rewrite (listening_insts _ _ _ E), (relevant_insts _ _ _ E), (Hr k Hd). exact (Hk k Hd).
  Qed.

  (* _flow_head_changed writes the fresh value at its key *)
  Lemma head_changed_with_inv s f h hd s' r :
    InvOff (eq (f, h)) s -> (listening s f = true -> rel_of f hd = relevant s (f, h)) ->
    head_changed_with s f h hd = (Ok s', r) -> Inv s'.
  Proof.
    intros HO Hrel H.
    destruct (head_changed_with_spec _ _ _ _ _ _ (off_cnt _ _ HO) H) as (Hi & Hc & Hr).
    assert (HO' : InvOff (eq (f, h)) s').
    { apply (InvOff_transfer _ s); auto. intros k Hk. rewrite Hr, (eqb_neq _ key_eqb_eq _ _ Hk). reflexivity. }
    destruct HO' as [Hn Hii _ Hk]. apply inv_intro. constructor; try assumption.
    intros k _. destruct (key_dec (f, h) k) as [<-|Hne]; [|exact (Hk k Hne)].
    unfold KeyOK. rewrite Hr, (eqb_refl _ key_eqb_eq), (listening_insts _ _ _ Hi), (relevant_insts _ _ _ Hi).
    simpl. destruct (listening s f) eqn:El; [rewrite (Hrel eq_refl)|]; apply key_ok_fresh.
  Qed.

  Lemma head_changed_inv s f h s' r :
    InvOff (eq (f, h)) s -> head_changed s f h = (Ok s', r) -> Inv s'.
  Proof.
    intros HO H. unfold Index.head_changed in H.
    destruct (find_head s f h) as [hd|] eqn:E; [|inversion H].
    eapply head_changed_with_inv; [exact HO | | exact H].
    intros _. unfold Index.relevant. simpl. rewrite E. reflexivity.
  Qed.

  Lemma one_head_off (D : key -> Prop) s (f : uid) i hs (h : uid) :
    InvOff D s -> find_inst s f = Some i -> inst_ok (mkI (i_st i) hs) ->
    (forall h', h' <> h -> aget N.eqb hs h' = aget N.eqb (i_heads i) h') ->
    (~ D (f, h) -> key_ok (is_listening (i_st i)) (rel_at f hs h) (rev_get s (f, h))) ->
    InvOff D (put_inst s f (mkI (i_st i) hs)).
  Proof.
    intros HO Ei Hok Hsame Hh. apply put_inst_off; [|exact Hok|].
    - apply (InvOff_weaken D); [exact HO | intros k X; right; exact X].
    - intros h' Hd. destruct (N.eq_dec h' h) as [->|Hne]; [exact (Hh Hd)|].
      unfold rel_at. simpl. rewrite (Hsame _ Hne).
      exact (key_at _ _ _ _ Ei (off_key _ _ HO _ Hd)).
  Qed.

  Lemma empty_inv : Inv empty_state.
  Proof.
    constructor.
    - split; [constructor | intros f i H; discriminate].
    - intros n k. reflexivity.
    - intros k n H. discriminate.
    - intros k n H. discriminate.
    - intros f i H. discriminate.
  Qed.

  (* an instance is put with the single head h, whose callback then runs (add_new_flow_instance,
     the restart of main) *)
  Lemma inst_alone_inv s f st h hd s' r :
    Inv s -> is_done st = false -> (forall h', rev_get s (f, h') = None) ->
    head_changed (put_inst s f (mkI st [(h, hd)])) f h = (Ok s', r) -> Inv s'.
  Proof.
    intros HI Ed Hun. apply head_changed_inv, put_inst_off; [exact (inv_off _ _ HI) | |].
    - apply inst_ok_live; [exact Ed | repeat constructor; intros []].
    - intros h' Hne. rewrite (Hun h'). unfold rel_at. simpl.
      destruct (N.eqb_spec h h') as [->|]; [contradiction Hne; reflexivity | apply key_ok_empty].
  Qed.

  Lemma reset_inv s : Inv s -> rev s = [] -> Inv (set_insts s []).
  Proof.
    intros HI Erev. apply inv_intro. constructor.
    - constructor.
    - intros f i Hf. discriminate.
    - exact (CntOK_insts _ _ (inv_cnt _ HI)).
    - intros k _. unfold KeyOK, rev_get. simpl. rewrite Erev. apply key_ok_empty.
  Qed.

  Lemma put_head_off (D : key -> Prop) s f i h hd :
    InvOff D s -> find_inst s f = Some i -> is_done (i_st i) = false ->
    (~ D (f, h) -> key_ok (is_listening (i_st i)) (rel_of f hd) (rev_get s (f, h))) ->
    InvOff D (put_head s f h hd).
  Proof.
    intros HO Ei Hnd Hh. rewrite (put_head_eq _ _ _ _ _ Ei).
    apply (one_head_off _ _ _ _ _ h); [exact HO | exact Ei | | |].
    - apply inst_ok_live; [exact Hnd|].
      exact (nodup_aset _ N.eqb_eq _ _ _ (proj1 (off_inst _ _ HO _ _ Ei))).
    - intros h' Hne. rewrite (aget_aset _ N.eqb_eq), (proj2 (N.eqb_neq h h')) by congruence. reflexivity.
    - unfold rel_at. rewrite (aget_aset _ N.eqb_eq), N.eqb_refl. exact Hh.
  Qed.

  Lemma set_changed_inv s f h hd' fr s' :
    InvOff (eq (f, h)) s -> find_head s f h <> None ->
    do_set prog s f h hd' true fr = Ok s' -> Inv s'.
  Proof.
    intros HO Hat H. unfold do_set in H.
    destruct (head_changed (put_head s f h hd') f h) as [[s1|e] raised] eqn:Ehc; [|inversion H].
    destruct (fire_eqb fr (expect_fire true raised)); inversion H; subst; clear H.
    apply (head_changed_inv _ _ _ _ _ ) in Ehc; [exact Ehc|]. clear Ehc.
    unfold find_head in Hat. destruct (find_inst s f) as [i|] eqn:Ei; [|contradiction].
    destruct (aget N.eqb (i_heads i) h) as [hd|] eqn:Eh; [|contradiction].
    apply (put_head_off _ _ _ i); [exact HO | exact Ei | | intro X; contradiction X; reflexivity].
    exact (has_head_not_done _ _ _ (off_inst _ _ HO _ _ Ei) Eh).
  Qed.

  Lemma setter_inv s f h (new : head -> head) (changed : head -> bool) fr s' :
    Inv s ->
    match find_head s f h with
    | None => Fail E_NOT_ATTACHED
    | Some hd => do_set prog s f h (new hd) (changed hd) fr
    end = Ok s' -> Inv s'.
  Proof.
    intros HI H. destruct (find_head s f h) as [hd|] eqn:Eh; [|inversion H].
    unfold do_set in H. destruct (changed hd).
    - apply (set_changed_inv _ _ _ _ _ _ (inv_off _ _ HI)) in H; [exact H|]. rewrite Eh. discriminate.
    - destruct (fire_eqb fr NoFire); inversion H; subst. exact HI.
  Qed.

  Lemma remove_entries_spec s f hs s' :
    CntOK s -> remove_entries s f hs = Ok s' ->
    insts s' = insts s /\ CntOK s' /\
    forall k, rev_get s' k = rev_get s k \/ fst k = f /\ rev_get s' k = None.
  Proof.
    revert s. induction hs as [|h t IH]; simpl; intros s Hc H.
    - inversion H; subst. auto.
    - destruct (remove_entry s (f, h)) as [s1|] eqn:Er; [|discriminate].
      destruct (remove_entry_spec _ _ _ Hc Er) as (Hi & Hc1 & Hr1).
      destruct (IH _ Hc1 H) as (Hi' & Hc' & Hr').
      refine (conj (eq_trans Hi' Hi) (conj Hc' _)). intro k.
      destruct (Hr' k) as [E|E]; [|right; exact E]. rewrite E, Hr1.
      destruct (eqb_spec _ key_eqb_eq (f, h) k) as [<-|]; auto.
  Qed.

  (* what `step` lets through for `flow_state.status = st`: the heads stay; with heads, only
     listening -> listening and anything -> stopping *)
  Definition status_change_ok (i : inst) (st : fstatus) : Prop :=
    i_heads i = [] \/ cls st = Stopping \/ cls st = Listening /\ cls (i_st i) = Listening.

  Lemma inst_status_step s f i st s' :
    match cls st, cls (i_st i) with
    | Listening, Listening => Ok (put_inst s f (mkI st (i_heads i)))
    | Stopping, _ => Ok (put_inst s f (mkI st (i_heads i)))
    | _, _ => match i_heads i with
              | [] => Ok (put_inst s f (mkI st []))
              | _ => Fail E_STATUS
              end
    end = Ok s' ->
    s' = put_inst s f (mkI st (i_heads i)) /\ status_change_ok i st.
  Proof.
    unfold status_change_ok. intro H. destruct (i_heads i) as [|q t].
    - (* no heads: every branch puts the same record *)
      split; [|left; reflexivity]. destruct (cls st), (cls (i_st i)); inversion H; reflexivity.
    - (* heads: the other branches fail *)
      destruct (cls st) eqn:Ec; [destruct (cls (i_st i)) eqn:Eci | |]; try discriminate H;
        inversion H; auto.
  Qed.

  (* the mutations at an instance i that is there *)
  Section AtInst.
    Variables (s : state) (f : uid) (i : inst).
    Hypothesis HI : Inv s.
    Hypothesis Ei : find_inst s f = Some i.

    Lemma attach_inv h hd :
      find_head s f h = None -> is_done (i_st i) = false ->
      (is_listening (i_st i) && match rel_of f hd with Some _ => true | None => false end) = false ->
      Inv (put_head s f h hd).
    Proof.
      intros Eh Ed Eu.
      apply inv_intro, (put_head_off _ _ _ i); [exact (inv_off _ _ HI) | exact Ei | exact Ed |].
      intros _. rewrite (unattached_unregistered s f h HI Eh). exact (key_ok_unreg _ _ Eu).
    Qed.

    (* ForkHead: created, then moved through the setter: the callback registers it *)
    Lemma attach_set_inv h hd hd' fr s' :
      is_done (i_st i) = false -> do_set prog (put_head s f h hd) f h hd' true fr = Ok s' -> Inv s'.
    Proof.
      intros Ed H. apply (set_changed_inv _ _ _ _ _ _) in H; [exact H | |].
      - apply (put_head_off _ _ _ i); [exact (inv_off _ _ HI) | exact Ei | exact Ed |].
        intro X. contradiction X. reflexivity.
      - rewrite (put_head_eq _ _ _ _ _ Ei), find_head_put_inst, N.eqb_refl. simpl.
        rewrite (aget_aset _ N.eqb_eq), N.eqb_refl. discriminate.
    Qed.

    Lemma del_head_inv (h : uid) hd :
      aget N.eqb (i_heads i) h = Some hd -> rev_get s (f, h) = None ->
      Inv (put_inst s f (mkI (i_st i) (adel N.eqb (i_heads i) h))).
    Proof.
      intros Eh Er. pose proof (inv_inst_ok _ _ _ HI Ei) as Hok.
      apply inv_intro, (one_head_off _ _ _ _ _ h); [exact (inv_off _ _ HI) | exact Ei | | |].
      - apply inst_ok_live; [exact (has_head_not_done _ _ _ Hok Eh)|].
        exact (nodup_adel _ _ _ (proj1 Hok)).
      - intros h' Hne. rewrite (aget_adel _ N.eqb_eq), (proj2 (N.eqb_neq h h')) by congruence. reflexivity.
      - intros _. unfold rel_at. rewrite (aget_adel _ N.eqb_eq), N.eqb_refl, Er. apply key_ok_empty.
    Qed.

    (* s1: s after some removals.  When none of the attached heads of f is registered in s1, no key
       of f is *)
    Lemma none_registered_all s1 (h : uid) :
      none_registered s1 f (i_heads i) = true ->
      rev_get s1 (f, h) = rev_get s (f, h) \/ rev_get s1 (f, h) = None -> rev_get s1 (f, h) = None.
    Proof.
      intros Hn [E|E]; [|exact E]. destruct (aget N.eqb (i_heads i) h) as [hd|] eqn:Eh.
      - pose proof (forallb_aget _ N.eqb_eq _ _ _ _ Hn Eh) as Hh. cbn [fst] in Hh.
        destruct (rev_get s1 (f, h)); [discriminate Hh | reflexivity].
      - rewrite E. apply (unattached_unregistered _ _ _ HI). unfold find_head. rewrite Ei. exact Eh.
    Qed.

    (* _abort_flow / _finish_flow: explicit removals, then heads.clear() *)
    Lemma clear_heads_inv removed s1 :
      remove_entries s f removed = Ok s1 -> none_registered s1 f (i_heads i) = true ->
      Inv (put_inst s1 f (mkI (i_st i) [])).
    Proof.
      intros Er En.
      destruct (remove_entries_spec _ _ _ _ (inv_cnt _ HI) Er) as (Hi & Hc1 & Hr).
      apply inv_intro, put_inst_off; [|exact (conj (NoDup_nil _) (fun _ => eq_refl))|].
      - apply (InvOff_transfer _ s); [exact (inv_off _ _ HI) | exact Hi | exact Hc1|].
        intros k Hk. destruct (Hr k) as [E|[E _]]; [exact E | contradiction Hk; left; exact E].
      - intros h _. cbn [i_heads]. rewrite (none_registered_all _ h En); [apply key_ok_empty|].
        destruct (Hr (f, h)) as [E|[_ E]]; [left | right]; exact E.
    Qed.

    Lemma inst_status_inv st : status_change_ok i st -> Inv (put_inst s f (mkI st (i_heads i))).
    Proof.
      intro Hok. apply inv_intro, put_inst_off; [exact (inv_off _ _ HI) | |].
      - (* done only without heads *)
        split; [exact (proj2 (inv_wf _ HI) _ _ Ei)|]. unfold is_done. cbn [i_st i_heads].
        destruct Hok as [E|[E|[E _]]]; [intros _; exact E | rewrite E; discriminate | rewrite E; discriminate].
      - (* listening again only without heads; otherwise key_ok is monotone in `listening` *)
        intros h _. cbn [i_heads i_st].
        apply (key_ok_mono (is_listening (i_st i))); [exact (key_at _ _ _ _ Ei (inv_key _ _ HI))|].
        unfold is_listening, rel_at. destruct Hok as [E|[E|[_ E]]].
        + rewrite E. intros _ Hr. contradiction Hr. reflexivity.
        + rewrite E. discriminate.
        + rewrite E. reflexivity.
    Qed.

    (* _clean_up_state: a done instance, hence one without heads, is dropped *)
    Lemma del_inst_inv : is_done (i_st i) = true -> Inv (set_insts s (adel N.eqb (insts s) f)).
    Proof.
      intro Ed.
      assert (Hfi : forall g, find_inst (set_insts s (adel N.eqb (insts s) f)) g = if N.eqb f g then None else find_inst s g)
        by exact (aget_adel _ N.eqb_eq (insts s) f).
      apply inv_intro. constructor.
      - exact (nodup_adel _ _ f (proj1 (inv_wf _ HI))).
      - intros g j. rewrite Hfi. destruct (N.eqb f g); [discriminate | exact (inv_inst_ok _ _ _ HI)].
      - exact (CntOK_insts _ _ (inv_cnt _ HI)).
      - intros [g h] _. generalize (inv_key _ (g, h) HI).
        unfold KeyOK, listening, Index.relevant, find_head. cbn [fst snd]. rewrite Hfi.
        change (rev_get (set_insts s (adel N.eqb (insts s) f)) (g, h)) with (rev_get s (g, h)).
        destruct (N.eqb_spec f g) as [<-|]; [|exact (fun x => x)].
        rewrite Ei, (inv_done _ HI _ _ Ei Ed). intro Hk. rewrite (key_ok_unrel _ _ Hk). apply key_ok_empty.
    Qed.
  End AtInst.

  (* one case per primitive, in the order of `op`: the guards of `step` are the hypotheses of the
     lemma for that shape of mutation *)
  Theorem step_inv s o s' : Inv s -> step s o = Ok s' -> Inv s'.
  Proof.
    intros HI H. destruct o; unfold Index.step in H.
    - (* OResetInsts *)
      destruct (forallb _ (index s) && _) eqn:E; inversion H; subst; clear H.
      apply andb_true_iff in E. destruct E as [_ E]. destruct (rev s) eqn:Erev; [|discriminate].
      exact (reset_inv _ HI Erev).
    - (* ONewInst *)
      destruct (find_inst s f) eqn:Ef; [inversion H|].
      destruct (is_done st) eqn:Ed; [inversion H|].
      destruct (cbp && cbs); [|inversion H].
      destruct (head_changed (put_inst s f (mkI st [(h, hd)])) f h) as [[s1|e] [|]] eqn:Ehc; inversion H; subst; clear H.
      refine (inst_alone_inv _ _ _ _ _ _ _ HI Ed _ Ehc).
      intro h'. apply (unattached_unregistered _ _ _ HI). unfold find_head. rewrite Ef. reflexivity.
    - (* OSetPos *) exact (setter_inv _ _ _ _ _ _ _ HI H).
    - (* OSetStatus *) exact (setter_inv _ _ _ _ _ _ _ HI H).
    - (* OHeadChanged *)
      destruct (head_changed s f h) as [[s1|e] r] eqn:Ehc; [|inversion H].
      destruct (Bool.eqb r raised); inversion H; subst; clear H.
      exact (head_changed_inv _ _ _ _ _ (inv_off _ _ HI) Ehc).
    - (* OAttachHead *)
      destruct (find_inst s f) as [i|] eqn:Ei; [|inversion H].
      destruct (find_head s f h) eqn:Eh; [inversion H|].
      destruct (is_done (i_st i)) eqn:Ed; [inversion H|].
      destruct (cbp && cbs); [|inversion H].
      destruct (is_listening (i_st i) && _) eqn:Eu; [inversion H|].
      destruct (rev_get s (f, h)); inversion H; subst; clear H.
      exact (attach_inv _ _ _ HI Ei _ _ Eh Ed Eu).
    - (* OForkHead *)
      destruct (find_inst s f) as [i|] eqn:Ei; [|inversion H].
      destruct (find_head s f h) eqn:Eh; [inversion H|].
      destruct (is_done (i_st i)) eqn:Ed; [inversion H|].
      destruct (cbp && cbs); [|inversion H].
      destruct (N.eqb p (h_pos hd)); [|exact (attach_set_inv _ _ _ HI Ei _ _ _ _ _ Ed H)].
      destruct (is_listening (i_st i) && _) eqn:Eu; [inversion H|].
      destruct (rev_get s (f, h)); [inversion H|].
      destruct (fire_eqb fr NoFire); inversion H; subst; clear H.
      exact (attach_inv _ _ _ HI Ei _ _ Eh Ed Eu).
    - (* ODelHead *)
      destruct (find_inst s f) as [i|] eqn:Ei; [|inversion H].
      unfold find_head in H. rewrite Ei in H.
      destruct (aget N.eqb (i_heads i) h) as [hd|] eqn:Eh; [|inversion H].
      destruct (rev_get s (f, h)) eqn:Er; inversion H; subst; clear H.
      exact (del_head_inv _ _ _ HI Ei _ _ Eh Er).
    - (* OClearHeads *)
      destruct (find_inst s f) as [i|] eqn:Ei; [|inversion H].
      destruct (forallb (fun h : N => amem N.eqb (i_heads i) h) removed); [|inversion H].
      destruct (remove_entries s f removed) as [s1|] eqn:Er; [|inversion H].
      destruct (none_registered s1 f (i_heads i)) eqn:En; inversion H; subst; clear H.
      exact (clear_heads_inv _ _ _ HI Ei _ _ Er En).
    - (* OMainRestart *)
      destruct (find_inst s f) as [i|] eqn:Ei; [|inversion H].
      destruct (is_done (i_st i)) eqn:Ed; [inversion H|].
      destruct (cbp && cbs); [|inversion H].
      destruct (none_registered s f (i_heads i)) eqn:En; [|inversion H].
      destruct (head_changed (put_inst s f (mkI (i_st i) [(h, hd)])) f h) as [[s1|e] r] eqn:Ehc; [|inversion H].
      destruct (Bool.eqb r raised); inversion H; subst; clear H.
      refine (inst_alone_inv _ _ _ _ _ _ _ HI Ed _ Ehc).
      intro h'. exact (none_registered_all _ _ _ HI Ei _ h' En (or_introl eq_refl)).
    - (* OInstStatus *)
      destruct (find_inst s f) as [i|] eqn:Ei; [|inversion H].
      destruct (inst_status_step _ _ _ _ _ H) as [-> Hok]. exact (inst_status_inv _ _ _ HI Ei _ Hok).
    - (* ODelInst *)
      destruct (find_inst s f) as [i|] eqn:Ei; [|inversion H].
      destruct (is_done (i_st i)) eqn:Ed; inversion H; subst; clear H.
      exact (del_inst_inv _ _ _ HI Ei Ed).
    - (* ODetachedChanged *)
      destruct (find_head s f h) eqn:Eh; [inversion H|].
      destruct (listening s f && _) eqn:Eu; [inversion H|].
      destruct (head_changed_with s f h hd) as [[s1|e] r] eqn:Ehc; [|inversion H].
      destruct (Bool.eqb r raised); inversion H; subst; clear H.
      apply (head_changed_with_inv _ _ _ _ _ _ (inv_off _ _ HI)) in Ehc; [exact Ehc|].
      intro El. rewrite El in Eu. unfold Index.relevant. simpl. rewrite Eh.
      destruct (rel_of f hd); [discriminate Eu | reflexivity].
    - discriminate.
  Qed.

  Theorem run_inv ops : forall s s', Inv s -> run s ops = Ok s' -> Inv s'.
  Proof.
    induction ops as [|o t IH]; simpl; intros s s' HI H.
    - inversion H; subst. exact HI.
    - destruct (step s o) as [s1|e] eqn:E; [|discriminate].
      exact (IH _ _ (step_inv _ _ _ HI E) H).
  Qed.

  Lemma relevant_Some s k n :
    relevant s k = Some n ->
    exists i hd, find_inst s (fst k) = Some i /\ aget N.eqb (i_heads i) (snd k) = Some hd /\
                 rel_of (fst k) hd = Some n.
  Proof.
    unfold Index.relevant, find_head. destruct (find_inst s (fst k)) as [i|]; [|discriminate].
    destruct (aget N.eqb (i_heads i) (snd k)) as [hd|] eqn:Eh; [|discriminate].
    intro H. exists i, hd. auto.
  Qed.

  Lemma scanb_true s n k : scanb s n k = true <-> listening s (fst k) = true /\ relevant s k = Some n.
  Proof.
    unfold Index.scanb. split.
    - intro H. apply andb_true_iff in H. destruct H as [Hl Hr].
      destruct (relevant s k) as [n'|]; [|discriminate]. apply N.eqb_eq in Hr. subst. auto.
    - intros [-> ->]. rewrite N.eqb_refl. reflexivity.
  Qed.

  Lemma cnt_scan s n k : WF s -> cnt (scan s n) k = if scanb s n k then 1%nat else 0%nat.
  Proof.
    intros [Hn Hh]. destruct k as [g x].
    unfold Index.scan, Index.scanb, listening, Index.relevant, find_head. cbn [fst snd].
    rewrite (cnt_flat_map _ fst _ _ Hn); cbn [fst snd].
    2:{ intros [f i] Hf. cbn [fst snd] in *. destruct (is_listening (i_st i)); [|reflexivity].
        apply count_occ_not_In. intro Hin. apply in_flat_map in Hin. destruct Hin as [[h hd] [_ Hin]]. simpl in *.
        destruct (rel_of f hd) as [n'|]; [destruct (N.eqb n' n)|]; try contradiction.
        destruct Hin as [[= <- _]|[]]. exact (Hf eq_refl). }
    fold (find_inst s g). destruct (find_inst s g) as [i|] eqn:Ei; [|reflexivity].
    destruct (is_listening (i_st i)); [|reflexivity]. unfold scan_heads.
    rewrite (cnt_flat_map _ snd _ _ (Hh _ _ Ei)); cbn [fst snd].
    2:{ intros [h hd] Hx. simpl in *. destruct (rel_of g hd) as [n'|]; [destruct (N.eqb n' n)|]; try reflexivity.
        apply count_occ_cons_neq. intros [= E]. exact (Hx E). }
    destruct (aget N.eqb (i_heads i) x) as [hd|]; [|reflexivity]. simpl.
    destruct (rel_of g hd) as [n'|]; [destruct (N.eqb n' n)|]; try reflexivity.
    apply count_occ_cons_eq. reflexivity.
  Qed.

  (* always: no duplicates, no entry a scan ignoring `stopping` would not find, no missed head *)
  Theorem index_sandwich s :
    Inv s ->
    forall n k,
      (cnt (ix_get s n) k <= 1)%nat /\
      (scanb s n k = true -> cnt (ix_get s n) k = 1%nat) /\
      (cnt (ix_get s n) k = 1%nat -> relevant s k = Some n).
  Proof.
    intros HI n k. rewrite (inv_cnt _ HI). unfold regd. repeat split.
    - destruct (rev_get s k); [destruct (N.eqb n0 n)|]; lia.
    - intro Hs. apply scanb_true in Hs. destruct Hs as [Hl Er].
      rewrite (inv_complete _ HI _ _ Er Hl), N.eqb_refl. reflexivity.
    - destruct (rev_get s k) as [n'|] eqn:Er; [|discriminate].
      destruct (N.eqb_spec n' n) as [->|]; [|discriminate]. intros _. exact (inv_sound _ HI _ _ Er).
  Qed.

  (* whatever is registered is an attached head, so its instance is not done *)
  Lemma registered_attached s k n :
    Inv s -> rev_get s k = Some n ->
    exists i hd, find_inst s (fst k) = Some i /\ is_done (i_st i) = false /\
                 aget N.eqb (i_heads i) (snd k) = Some hd /\ rel_of (fst k) hd = Some n.
  Proof.
    intros HI Hr. destruct (relevant_Some _ _ _ (inv_sound _ HI _ _ Hr)) as (i & hd & Ei & Eh & Hrel).
    exists i, hd. repeat split; auto. exact (has_head_not_done _ _ _ (inv_inst_ok _ _ _ HI Ei) Eh).
  Qed.

  (* ... hence it listens unless it is `stopping`, and the scan finds the head *)
  Theorem index_exact s :
    Inv s -> no_stopping s ->
    forall n k, cnt (ix_get s n) k = cnt (scan s n) k.
  Proof.
    intros HI Hns n k. rewrite (cnt_scan _ _ _ (inv_wf _ HI)).
    destruct (scanb s n k) eqn:Es; [exact (proj1 (proj2 (index_sandwich _ HI n k)) Es)|].
    rewrite (inv_cnt _ HI). unfold regd.
    destruct (rev_get s k) as [n'|] eqn:Er; [|reflexivity].
    destruct (N.eqb_spec n' n) as [->|]; [exfalso|reflexivity].
    destruct (registered_attached _ _ _ HI Er) as (i & hd & Ei & Hnd & Eh & Hrel).
    unfold Index.scanb, listening, Index.relevant, find_head in Es.
    rewrite Ei, Eh, Hrel, N.eqb_refl, andb_true_r in Es.
    pose proof (Hns _ _ Ei) as Hst. unfold is_listening in Es. unfold is_done in Hnd.
    destruct (cls (i_st i)); [discriminate | exact (Hst eq_refl) | discriminate].
  Qed.

  Theorem rev_exact s : CntOK s -> forall k n, rev_get s k = Some n <-> In k (ix_get s n).
  Proof.
    intros Hc k n. split; intro H.
    - apply (count_occ_In key_dec). rewrite Hc. unfold regd. rewrite H, N.eqb_refl. lia.
    - apply (count_occ_In key_dec) in H. rewrite Hc in H. revert H. unfold regd.
      destruct (rev_get s k) as [n'|]; [|lia]. destruct (N.eqb_spec n' n) as [->|]; [reflexivity | lia].
  Qed.

  (* dispatch never reaches a dead instance or a missing head *)
  Theorem no_dispatch_to_dead s :
    Inv s ->
    forall n k, In k (ix_get s n) ->
      exists i hd, find_inst s (fst k) = Some i /\ is_done (i_st i) = false /\
                   aget N.eqb (i_heads i) (snd k) = Some hd /\ h_st hd <> HInactive /\
                   prog (fst k) (h_pos hd) = Some (EMatch n).
  Proof.
    intros HI n k Hin. apply (rev_exact _ (inv_cnt _ HI)) in Hin.
    destruct (registered_attached _ _ _ HI Hin) as (i & hd & Ei & Hnd & Eh & Hrel).
    exists i, hd. repeat split; auto; unfold Index.rel_of in Hrel; destruct (h_st hd); try discriminate;
      destruct (prog (fst k) (h_pos hd)) as [[]|]; congruence.
  Qed.

  (* quiescence excludes `stopping` instances, so at a quiescent state the index is exact *)
  Lemma quiescent_no_stopping sn : quiescentb prog sn = true -> no_stopping (sn_state sn).
  Proof.
    intros Hq f i Hf Hst. unfold quiescentb in Hq. apply andb_true_iff in Hq. destruct Hq as [_ Hq].
    pose proof (forallb_aget _ N.eqb_eq _ _ _ _ Hq Hf) as Hi. unfold inst_quiescent in Hi. rewrite Hst in Hi. discriminate.
  Qed.

  Theorem quiescent_exact sn :
    Inv (sn_state sn) -> quiescentb prog sn = true ->
    forall n k, cnt (ix_get (sn_state sn) n) k = cnt (scan (sn_state sn) n) k.
  Proof. intros HI Hq. apply index_exact; [exact HI | exact (quiescent_no_stopping _ Hq)]. Qed.

  Theorem reachable_inv ops s : run empty_state ops = Ok s -> Inv s.
  Proof. apply run_inv. exact empty_inv. Qed.
End Proofs.

Lemma count_key_cnt k l : count_key k l = count_occ key_dec l k.
Proof.
  unfold count_key. induction l as [|x t IH]; simpl; [reflexivity|].
  destruct (key_dec x k) as [->|Hn].
  - rewrite (eqb_refl _ key_eqb_eq). simpl. rewrite IH. reflexivity.
  - rewrite (eqb_neq _ key_eqb_eq k x) by congruence. exact IH.
Qed.

Theorem exactb_sound prog s :
  WF s -> exactb prog s = true ->
  forall n k, count_occ key_dec (ix_get s n) k = count_occ key_dec (scan prog s n) k.
Proof.
  intros Hwf He n k. unfold exactb in He.
  apply andb_true_iff in He. destruct He as [He _]. apply andb_true_iff in He. destruct He as [H1 H2].
  rewrite (cnt_scan prog _ _ _ Hwf).
  assert (HA : In k (ix_get s n) -> cnt (ix_get s n) k = 1%nat /\ scanb prog s n k = true).
  { unfold ix_get. destruct (aget N.eqb (index s) n) as [l|] eqn:El; [|intros []]. intro Hin.
    pose proof (forallb_aget _ N.eqb_eq _ _ _ _ H1 El) as Hl. cbn [fst snd] in Hl.
    pose proof (proj1 (forallb_forall _ _) Hl _ Hin) as Hk.
    apply andb_true_iff in Hk. destruct Hk as [Hk _]. apply andb_true_iff in Hk. destruct Hk as [Hc Hs].
    apply Nat.eqb_eq in Hc. rewrite count_key_cnt in Hc. exact (conj Hc Hs). }
  assert (HB : scanb prog s n k = true -> In k (ix_get s n)).
  { intro Es. apply scanb_true in Es. destruct Es as [Hl Hr].
    destruct (relevant_Some _ _ _ _ Hr) as (i & hd & Ei & Eh & Er).
    unfold listening in Hl. rewrite Ei in Hl.
    pose proof (forallb_aget _ N.eqb_eq _ _ _ _ H2 Ei) as Hi. cbn [fst snd] in Hi. rewrite Hl in Hi.
    pose proof (forallb_aget _ N.eqb_eq _ _ _ _ Hi Eh) as Hh. cbn [fst snd] in Hh. rewrite Er in Hh.
    apply existsb_exists in Hh. destruct Hh as [x [Hin He]]. apply key_eqb_eq in He. subst x.
    destruct k; exact Hin. }
  destruct (scanb prog s n k).
  - exact (proj1 (HA (HB eq_refl))).
  - apply count_occ_not_In. intro Hin. destruct (HA Hin) as [_ X]. discriminate X.
Qed.
