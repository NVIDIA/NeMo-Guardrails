(* C10 part 3 proofs: a raising element fails only its flow (and descendants); the retry loop ends;
   the matching phase is safe on its snapshot of candidates; the max_events cap ends process_events. *)
From Coq Require Import List Arith Bool Lia.
From NG Require Import V2.Term V2.Isolate.
Import ListNotations.

Lemma set_nth_length : forall A (l : list A) n a, length (set_nth l n a) = length l.
Proof. induction l; destruct n; simpl; intros; auto. Qed.

Lemma nth_error_set_nth_eq : forall A (l : list A) n a, n < length l -> nth_error (set_nth l n a) n = Some a.
Proof. induction l; destruct n; simpl; intros; try lia; auto. apply IHl. lia. Qed.

Lemma nth_error_set_nth_neq : forall A (l : list A) n m a, n <> m -> nth_error (set_nth l n a) m = nth_error l m.
Proof. induction l; destruct n; destruct m; simpl; intros; try congruence; auto. Qed.

Lemma get_set_eq : forall st u i i0, get st u = Some i0 -> get (set_inst st u i) u = Some i.
Proof. unfold get, set_inst; simpl; intros. apply nth_error_set_nth_eq. apply nth_error_Some. congruence. Qed.

Lemma get_set_neq : forall st u x i, u <> x -> get (set_inst st u i) x = get st x.
Proof. unfold get, set_inst; simpl; intros. apply nth_error_set_nth_neq; assumption. Qed.

Lemma get_push : forall st e x, get (push st e) x = get st x. Proof. reflexivity. Qed.
Lemma get_push_left : forall st e x, get (push_left st e) x = get st x. Proof. reflexivity. Qed.

Definition same_ctl (st st' : state) (x : nat) : Prop :=
  option_map control (get st x) = option_map control (get st' x).

Definition shrunk (st st' : state) : Prop :=
  forall x i', get st' x = Some i' -> exists i, get st x = Some i /\ incl (i_children i') (i_children i).

Definition qext (st st' : state) : Prop := exists pre post, queue st' = pre ++ queue st ++ post.

Definition frame (D : nat -> Prop) (st st' : state) : Prop :=
  length (insts st') = length (insts st) /\
  (forall x, ~ D x -> same_ctl st st' x) /\
  shrunk st st' /\ qext st st'.

Definition closed (st : state) (D : nat -> Prop) : Prop :=
  forall x i c, D x -> get st x = Some i -> In c (i_children i) -> D c.

Lemma frame_queue : forall D st st', insts st' = insts st -> qext st st' -> frame D st st'.
Proof.
  intros D st st' Hi Hq. unfold frame, same_ctl, shrunk, get. rewrite Hi.
  repeat split; auto. intros x i' H. exists i'. split; [assumption | apply incl_refl].
Qed.

Lemma frame_refl : forall D st, frame D st st.
Proof. intros. apply frame_queue; [reflexivity|]. exists [], []. rewrite app_nil_r. reflexivity. Qed.

Lemma frame_trans : forall D a b c, frame D a b -> frame D b c -> frame D a c.
Proof.
  intros D a b c [L1 [C1 [S1 Q1]]] [L2 [C2 [S2 Q2]]]. split; [|split; [|split]].
  - congruence.
  - intros x Hx. unfold same_ctl in *. rewrite (C1 x Hx). apply C2. assumption.
  - intros x i' H. destruct (S2 x i' H) as [ib [Hb Ib]]. destruct (S1 x ib Hb) as [ia [Ha Ia]].
    exists ia. split; [assumption | eapply incl_tran; eassumption].
  - destruct Q1 as [p1 [q1 E1]]. destruct Q2 as [p2 [q2 E2]].
    exists (p2 ++ p1), (q1 ++ q2). rewrite E2, E1. repeat rewrite <- app_assoc. reflexivity.
Qed.

Lemma closed_shrunk : forall D st st', closed st D -> shrunk st st' -> closed st' D.
Proof.
  intros D st st' Hc Hs x i' c Dx Hg Hin.
  destruct (Hs x i' Hg) as [i [Hi Hincl]]. eapply Hc; eauto.
Qed.

Lemma frame_push : forall D st e, frame D st (push st e).
Proof. intros. apply frame_queue; [reflexivity|]. exists [], [e]. reflexivity. Qed.

Lemma frame_push_left : forall D st e, frame D st (push_left st e).
Proof. intros. apply frame_queue; [reflexivity|]. exists [e], []. simpl. rewrite app_nil_r. reflexivity. Qed.

(* replacing an instance: its child list does not grow; outside D what dispatch sees of it stays *)
Lemma frame_set : forall (D : nat -> Prop) st u i0 i,
  get st u = Some i0 -> incl (i_children i) (i_children i0) -> (~ D u -> control i = control i0) ->
  frame D st (set_inst st u i).
Proof.
  intros D st u i0 i Hg Hincl Hctl. split; [|split; [|split]].
  - simpl. apply set_nth_length.
  - intros x Hx. unfold same_ctl. destruct (Nat.eq_dec u x) as [->|Hne].
    + rewrite (get_set_eq _ _ _ _ Hg), Hg. simpl. rewrite (Hctl Hx). reflexivity.
    + rewrite get_set_neq by assumption. reflexivity.
  - intros x i' H. destruct (Nat.eq_dec u x) as [->|Hne].
    + rewrite (get_set_eq _ _ _ _ Hg) in H. inversion H; subst. exists i0. split; assumption.
    + rewrite get_set_neq in H by assumption. exists i'. split; [assumption|apply incl_refl].
  - exists [], []. simpl. rewrite app_nil_r. reflexivity.
Qed.

Lemma frame_set_in : forall (D : nat -> Prop) st u i0 i,
  D u -> get st u = Some i0 -> incl (i_children i) (i_children i0) -> frame D st (set_inst st u i).
Proof. intros D st u i0 i Du Hg Hincl. apply (frame_set D st u i0 i Hg Hincl). intros H. destruct (H Du). Qed.

Lemma remove_nat_incl : forall x l, incl (remove_nat x l) l.
Proof. intros x l y H. unfold remove_nat in H. apply filter_In in H. tauto. Qed.

Definition abort_kids (f : nat) : list nat -> state -> option state :=
  fix kids (ks : list nat) (s : state) {struct ks} : option state :=
    match ks with
    | [] => Some s
    | c :: ks' =>
        match get s c with
        | None => kids ks' s
        | Some ci =>
            if child_activated s ci then kids ks' s
            else match abort f s c true true with
                 | None => None
                 | Some s' => kids ks' s'
                 end
        end
    end.

Lemma kids_frame : forall (D : nat -> Prop) f,
  (forall s c s', closed s D -> D c -> abort f s c true true = Some s' -> frame D s s') ->
  forall ks s s1, (forall c, In c ks -> D c) -> closed s D -> abort_kids f ks s = Some s1 -> frame D s s1.
Proof.
  intros D f IH. induction ks as [|c ks IHks]; intros s s1 Hin Hc Hk; simpl in Hk.
  - inversion Hk; subst. apply frame_refl.
  - assert (Hin' : forall c', In c' ks -> D c') by (intros; apply Hin; right; assumption).
    destruct (get s c) as [ci|]; [|apply IHks; auto].
    destruct (child_activated s ci); [apply IHks; auto|].
    destruct (abort f s c true true) as [s'|] eqn:Ha; [|discriminate].
    pose proof (IH s c s' Hc (Hin c (or_introl eq_refl)) Ha) as F1.
    eapply frame_trans; [exact F1|]. apply IHks; auto.
    eapply closed_shrunk; [exact Hc|]. apply F1.
Qed.

(* one pass through `abort`: what it leaves untouched, and that the aborted instance ends stopped *)
Lemma abort_spec : forall (D : nat -> Prop) fuel st u d r st',
  closed st D -> D u -> abort fuel st u d r = Some st' ->
  frame D st st' /\
  forall i, get st u = Some i -> listening (i_status i) = true \/ i_status i = Stopping ->
    exists i', get st' u = Some i' /\ i_status i' = Stopped /\ i_heads i' = [].
Proof.
  intros D. induction fuel as [|f IH]; intros st u d r st' Hcl Du Hab; [discriminate|].
  simpl in Hab. fold (abort_kids f) in Hab.
  destruct (get st u) as [i|] eqn:Hgu; [|inversion Hab; subst; split; [apply frame_refl|discriminate]].
  destruct (negb (listening (i_status i)) && negb (is_stopping (i_status i))) eqn:Hc.
  { inversion Hab; subst. split; [apply frame_refl|]. intros i0 Hi0 Hl. inversion Hi0; subst i0.
    destruct Hl as [Hl|Hl]; rewrite Hl in Hc; discriminate. }
  destruct (abort_kids f (i_children i) st) as [s1|] eqn:Hk; [|discriminate].
  assert (F1 : frame D st s1).
  { apply (kids_frame D f (fun s c s' Hc' Dc Ha => proj1 (IH s c true true s' Hc' Dc Ha)) (i_children i)); auto.
    intros c Hc'. eapply Hcl; eauto. }
  destruct (get s1 u) as [i1|] eqn:Hg1.
  2:{ (* the children loop keeps the number of instances *)
      exfalso. destruct F1 as [FL _]. unfold get in Hgu, Hg1. apply nth_error_None in Hg1.
      assert (u < length (insts st)) by (apply nth_error_Some; congruence). lia. }
  set (s2 := set_inst s1 u (with_heads i1 [])) in *.
  assert (F2 : frame D s1 s2) by (eapply frame_set_in; eauto; apply incl_refl).
  assert (Hg2 : get s2 u = Some (with_heads i1 [])) by (eapply get_set_eq; eauto).
  (* s3: the instance is taken off its parent's child list, unless it is activated *)
  set (s3 := if Nat.eqb (i_activated i1) 0 then _ else s2) in *.
  assert (F3 : frame D s2 s3 /\ exists i3, get s3 u = Some i3 /\ i_heads i3 = []).
  { unfold s3. destruct (Nat.eqb (i_activated i1) 0); [|split; [apply frame_refl|eauto]].
    destruct (i_parent i1) as [p|]; [|split; [apply frame_refl|eauto]].
    destruct (get s2 p) as [pi|] eqn:Hgp; [|split; [apply frame_refl|eauto]].
    split; [apply (frame_set D s2 p pi (with_children pi _) Hgp (remove_nat_incl _ _)); reflexivity|].
    destruct (Nat.eq_dec p u) as [->|Hne].
    - rewrite (get_set_eq _ _ _ _ Hgp). rewrite Hg2 in Hgp. inversion Hgp; subst. eauto.
    - rewrite get_set_neq by assumption. eauto. }
  destruct F3 as [F3 [i3 [Hg3 Hh3]]]. rewrite Hg3 in Hab.
  set (s4 := push (set_inst s3 u (with_status i3 Stopped)) (EvFlowFailed u)) in *.
  assert (Hg4 : get s4 u = Some (with_status i3 Stopped)) by (eapply get_set_eq; eauto).
  assert (F04 : frame D st s4).
  { eapply frame_trans; [exact F1|]. eapply frame_trans; [exact F2|]. eapply frame_trans; [exact F3|].
    eapply frame_trans; [|apply frame_push]. eapply frame_set_in; eauto. apply incl_refl. }
  destruct (negb d && r && Nat.ltb 0 (i_activated i3) && negb (i_new_started i3)).
  - rewrite Hg4 in Hab. inversion Hab; subst. split.
    + eapply frame_trans; [exact F04|]. eapply frame_trans; [apply frame_push_left|].
      eapply frame_set_in; eauto. apply incl_refl.
    + intros _ _ _. exists (with_new_started (with_status i3 Stopped) true). split; [|split; [reflexivity|assumption]].
      eapply get_set_eq. rewrite get_push_left. eassumption.
  - inversion Hab; subst. split; [exact F04|]. intros _ _ _. exists (with_status i3 Stopped). auto.
Qed.

Lemma reach_closed : forall st u, closed st (reach st u).
Proof. intros st u x i c Hr Hg Hin. eapply reach_step; eauto. Qed.

Lemma fold_push_frame : forall D (l : list (flowid * bool)) u st,
  frame D st (fold_left (fun s fa => push s (EvStartFlow (fst fa) u (snd fa))) l st).
Proof.
  intros D l u. induction l as [|a l IH]; intros st; simpl; [apply frame_refl|].
  eapply frame_trans; [apply frame_push|]. apply IH.
Qed.

Lemma frame_queue_in : forall D st st' e, frame D st st' -> In e (queue st) -> In e (queue st').
Proof.
  intros D st st' e [_ [_ [_ [pre [post E]]]]] Hin. rewrite E.
  apply in_or_app; right; apply in_or_app; left; assumption.
Qed.

Lemma set_head_children : forall i h hd, i_children (set_head i h hd) = i_children i.
Proof. reflexivity. Qed.

(* if the slide of head `hidx` of instance `u` raises, the resulting state differs from the
   old one only inside the sub-tree of `u` (child lists elsewhere can only lose entries), nothing
   is removed from the event queue, and a ColangError event is queued. *)
Theorem error_isolated : forall guard prog st u hidx orc st' i hd es p,
  get st u = Some i ->
  nth_error (i_heads i) hidx = Some hd ->
  nth_error prog (i_flow i) = Some es ->
  h_status hd <> HInactive -> listening (i_status i) = true ->
  s_stop (slide (length es + 1) es orc
                (match h_status hd with HActive => S (h_pos hd) | _ => h_pos hd end) (h_catch hd)) = Raised p ->
  advance guard prog st u hidx orc = Some st' ->
  length (insts st') = length (insts st) /\
  (forall x, ~ reach st u x -> option_map control (get st x) = option_map control (get st' x)) /\
  (forall x i', get st' x = Some i' -> exists i0, get st x = Some i0 /\ incl (i_children i') (i_children i0)) /\
  (exists pre post, queue st' = pre ++ queue st ++ post /\ In EvColangError post).
Proof.
  intros guard prog st u hidx orc st' i hd es p Hg Hh He Hact Hl Hs Hadv.
  unfold advance in Hadv. rewrite Hg, Hh, He in Hadv.
  assert (Hina : (match h_status hd with HInactive => true | _ => false end) = false)
    by (destruct (h_status hd); congruence).
  rewrite Hina, Hl in Hadv. change (false || negb true) with false in Hadv. cbv iota in Hadv. rewrite Hs in Hadv.
  set (i_a := match i_status i with Waiting => with_status i Starting | _ => i end) in *.
  set (st_a := set_inst st u i_a) in *.
  set (r := slide (length es + 1) es orc
                  (match h_status hd with HActive => S (h_pos hd) | _ => h_pos hd end) (h_catch hd)) in *.
  set (st_b := fold_left (fun s fa => push s (EvStartFlow (fst fa) u (snd fa))) (s_starts r) st_a) in *.
  set (hd' := {| h_pos := p; h_status := h_status hd; h_catch := s_catch r |}) in *.
  set (st_c0 := set_inst st_b u (set_head i_a hidx hd')) in *.
  set (st_c := push st_c0 EvColangError) in *.
  set (D := reach st u).
  assert (Du : D u) by apply reach_refl.
  assert (Hia_ch : i_children i_a = i_children i) by (unfold i_a; destruct (i_status i); reflexivity).
  assert (Hgb : get st_b u = Some i_a).
  { assert (Hga : get st_a u = Some i_a) by (unfold st_a; eapply get_set_eq; eauto).
    clear - Hga. unfold st_b. generalize (s_starts r) st_a Hga.
    induction l as [|a l IH]; intros s Hs; simpl; [assumption|]. apply IH. rewrite get_push. assumption. }
  assert (F0 : frame D st st_c0).
  { eapply frame_trans; [eapply frame_set_in; eauto; rewrite Hia_ch; apply incl_refl|].
    eapply frame_trans; [apply fold_push_frame|]. eapply frame_set_in; eauto. apply incl_refl. }
  assert (Fc : frame D st st_c) by (eapply frame_trans; [exact F0|apply frame_push]).
  assert (Hclosed : closed st_c D).
  { eapply closed_shrunk; [apply reach_closed|]. apply Fc. }
  pose proof (proj1 (abort_spec D _ _ _ _ _ _ Hclosed Du Hadv)) as Fab.
  assert (F : frame D st st') by (eapply frame_trans; eassumption).
  destruct F as [FL [FC [FS _]]].
  repeat split; try assumption.
  destruct F0 as [_ [_ [_ [p0 [q0 E0]]]]]. destruct Fab as [_ [_ [_ [pd [qd Ed]]]]].
  exists (pd ++ p0), (q0 ++ [EvColangError] ++ qd).
  split.
  - rewrite Ed. unfold st_c. unfold push at 1. cbn [queue]. rewrite E0. repeat rewrite <- app_assoc. reflexivity.
  - apply in_or_app; right. left; reflexivity.
Qed.

(* the heads on which an instance listens are part of what dispatch sees of it: outside the sub-tree
   they are exactly the same afterwards, so those instances are candidates for the current and for
   all later events as before *)
Definition listening_heads (st : state) (x : nat) : list head :=
  match get st x with
  | Some i => if listening (i_status i) then filter (fun h => match h_status h with HInactive => false | _ => true end) (i_heads i) else []
  | None => []
  end.

Lemma same_ctl_listening : forall st st' x, same_ctl st st' x -> listening_heads st' x = listening_heads st x.
Proof.
  intros st st' x HC. unfold same_ctl in HC. unfold listening_heads.
  destruct (get st x) as [a|], (get st' x) as [b|]; simpl in HC; try discriminate; [|reflexivity].
  unfold control in HC. inversion HC. reflexivity.
Qed.

(* the faulty instance itself no longer listens *)
Lemma abort_stops : forall fuel st u d r st' i,
  abort fuel st u d r = Some st' -> get st u = Some i ->
  listening (i_status i) = true \/ i_status i = Stopping ->
  exists i', get st' u = Some i' /\ i_status i' = Stopped /\ i_heads i' = [].
Proof.
  intros fuel st u d r st' i Hab. apply (abort_spec (fun _ => True) fuel st u d r st'); auto. repeat intro. exact I.
Qed.


(* the second run_to_completion, on the ColangError event, must not raise; that may rest on an
   invariant of the state which the first one keeps *)
Theorem retry_invariant : forall St Ev Exn (rtc : St -> Ev -> St * option Exn) (ce : Exn -> Ev) (Inv : St -> Prop),
  (forall st ev, Inv st -> Inv (fst (rtc st ev))) ->
  (forall st x, Inv st -> snd (rtc st (ce x)) = None) ->
  forall st ev, Inv st -> retry St Ev Exn rtc ce 2 st ev <> None.
Proof.
  intros St Ev Exn rtc ce Inv Hk H st ev Hst. simpl. specialize (Hk st ev Hst).
  destruct (rtc st ev) as [st1 [x|]]; [|discriminate].
  specialize (H st1 x Hk). destruct (rtc st1 (ce x)) as [st2 [y|]]; simpl in H; discriminate.
Qed.

Theorem retry_terminates : forall St Ev Exn (rtc : St -> Ev -> St * option Exn) (ce : Exn -> Ev),
  (forall st x, snd (rtc st (ce x)) = None) ->
  forall st ev, retry St Ev Exn rtc ce 2 st ev <> None.
Proof. intros St Ev Exn rtc ce H st ev. apply (retry_invariant St Ev Exn rtc ce (fun _ => True)); auto. Qed.

(* without the assumption the loop need not end: a handler for ColangError that itself raises *)
Theorem retry_unbounded_without_assumption :
  exists hs, ~ no_raising_error_handler hs /\
    forall n, retry _ _ _ (rtc_match false) (fun _ => ev_colang_error) n hs ev_colang_error = None.
Proof.
  exists [{| m_event := ev_colang_error; m_raises := true |}]. split.
  - intros H. specialize (H _ (or_introl eq_refl) eq_refl). discriminate.
  - induction n as [|n IH]; [reflexivity|]. simpl. exact IH.
Qed.

Lemma rtc_match_colang_ok : forall catch hs,
  no_raising_error_handler hs -> snd (rtc_match catch hs ev_colang_error) = None.
Proof.
  intros catch hs H. unfold rtc_match.
  destruct (existsb (fun h => Nat.eqb (m_event h) ev_colang_error && m_raises h) hs) eqn:E; [|reflexivity].
  apply existsb_exists in E. destruct E as [h [Hin Hb]]. apply andb_true_iff in Hb. destruct Hb as [He Hr].
  apply Nat.eqb_eq in He. rewrite (H h Hin He) in Hr. discriminate.
Qed.

Lemma rtc_match_preserves : forall catch hs ev,
  no_raising_error_handler hs -> no_raising_error_handler (fst (rtc_match catch hs ev)).
Proof.
  intros catch hs ev H h Hin. unfold rtc_match in Hin.
  destruct (existsb (fun h => Nat.eqb (m_event h) ev && m_raises h) hs); [destruct catch|]; simpl in Hin;
    try (apply filter_In in Hin; destruct Hin as [Hin _]); apply H; assumption.
Qed.

Theorem no_escape_unchanged : forall hs ev,
  no_raising_error_handler hs ->
  retry _ _ _ (rtc_match false) (fun _ => ev_colang_error) 2 hs ev <> None.
Proof.
  intros hs ev. apply (retry_invariant _ _ _ _ _ no_raising_error_handler).
  - intros st e. apply rtc_match_preserves.
  - intros st _. apply rtc_match_colang_ok.
Qed.

(* with the match-error patch run_to_completion never lets the exception out: one iteration *)
Theorem no_escape_repaired : forall hs ev,
  retry _ _ _ (rtc_match true) (fun _ => ev_colang_error) 1 hs ev <> None.
Proof.
  intros hs ev. simpl. unfold rtc_match.
  destruct (existsb (fun h => Nat.eqb (m_event h) ev && m_raises h) hs); discriminate.
Qed.

(* the hypotheses of error_isolated are inhabited: instance 1 of ex_state raises in its second step;
   it and its child 3 are stopped, the bystander 2 and main 0 are untouched, the queued event
   is still there, ColangError and the two FlowFailed events follow, the activated flow is
   restarted (it had been STARTED) *)
Example ex_error_isolated :
  s_stop (slide 6 [EWaitInt true; EBlock BMatch; EStep; EStep; EBlock BMatch] ex_orc 2 []) = Raised 3 /\
  exists st', advance true ex_prog ex_state 1 0 ex_orc = Some st' /\
    option_map i_status (get st' 1) = Some Stopped /\ option_map i_status (get st' 3) = Some Stopped /\
    get st' 2 = get ex_state 2 /\ get st' 0 = get ex_state 0 /\
    queue st' = [EvStartFlow 1 1 true; EvOther 7; EvColangError; EvFlowFailed 3; EvFlowFailed 1].
Proof. split; [reflexivity|]. eexists. split; [vm_compute; reflexivity|]. repeat split. Qed.

(* with the repaired guard a flow that raises while still STARTING is not restarted *)
Example ex_guard_blocks_restart :
  let st0 := {| insts := [ mk_inst 0 Started [mk_head 3] None [1] 1;
                           mk_inst 1 Waiting [mk_head 0] (Some 0) [] 1 ]; queue := [] |} in
  (exists st', advance true ex_prog st0 1 0 (fun _ => ORaise) = Some st' /\
               queue st' = [EvColangError; EvFlowFailed 1]) /\
  (exists st', advance false ex_prog st0 1 0 (fun _ => ORaise) = Some st' /\
               queue st' = [EvStartFlow 1 1 true; EvColangError; EvFlowFailed 1]).
Proof. split; eexists; (split; [vm_compute; reflexivity|reflexivity]). Qed.


Lemma match_phase_deferred_safe : forall fuel raises cands st errs,
  Forall (cand_valid st) cands ->
  forall u h, match_phase false fuel cands raises st errs <> MLookupError u h.
Proof.
  intros fuel raises. induction cands as [|[u h] cs IH]; intros st errs Hv u0 h0; simpl.
  - destruct (abort_all fuel (rev errs) st); discriminate.
  - inversion Hv as [|x l [i [hd [Hg Hn]]] Hrest]; subst. simpl in Hg, Hn. rewrite Hg, Hn.
    destruct (raises u h).
    + apply IH. eapply Forall_impl; [|exact Hrest].
      intros c [i' [hd' [Hg' Hn']]]. exists i', hd'. split; assumption.
    + apply IH. assumption.
Qed.

Lemma match_phase_immediate_refuted :
  exists st cands raises, Forall (cand_valid st) cands /\
    match_phase true 10 cands raises st [] = MLookupError 1 1.
Proof.
  exists ex_two_heads, [(1, 0); (1, 1); (2, 0)], (fun u h => Nat.eqb u 1 && Nat.eqb h 0). split.
  - repeat (constructor; [unfold cand_valid; simpl; repeat eexists|]). constructor.
  - vm_compute. reflexivity.
Qed.

(* with the deferred abort the same state is handled: the faulty instance is stopped, the bystander
   instance 2 is untouched and ColangError is queued *)
Example ex_match_phase_deferred :
  exists st', match_phase false 10 [(1, 0); (1, 1); (2, 0)] (fun u h => Nat.eqb u 1 && Nat.eqb h 0) ex_two_heads [] = MOk st' /\
    option_map i_status (get st' 1) = Some Stopped /\ get st' 2 = get ex_two_heads 2 /\
    queue st' = [EvColangError; EvFlowFailed 1].
Proof. eexists. split; [vm_compute; reflexivity|]. repeat split. Qed.

(* the outer loop of process_events ends because of the max_events cap, whatever the flows send *)

Lemma pe_round_spec : forall St Ev (rtc : St -> Ev -> St * list Ev) max inp cnt st out st' cnt' out' stopped,
  pe_round St Ev rtc max cnt st inp out = (st', cnt', out', stopped) ->
  stopped = false -> cnt' = cnt + length inp /\ (inp <> [] -> cnt' <= max).
Proof.
  intros St Ev rtc max. induction inp as [|e inp IH]; intros cnt st out st' cnt' out' stopped H Hs; simpl in H.
  - inversion H; subst. split; [simpl; lia|]. intros Hn. congruence.
  - destruct (Nat.ltb max (S cnt)) eqn:Hlt.
    + inversion H; subst. discriminate.
    + apply Nat.ltb_ge in Hlt. destruct (rtc st e) as [st1 o].
      destruct (IH _ _ _ _ _ _ _ H Hs) as [A B]. split; [simpl; lia|].
      intros _. destruct inp as [|e2 inp2]; [simpl in A; lia|]. apply B. discriminate.
Qed.

Theorem process_events_terminates : forall St Ev (rtc : St -> Ev -> St * list Ev) max fuel cnt st inp,
  cnt <= max -> max - cnt < fuel -> pe St Ev rtc false fuel max cnt st inp <> None.
Proof.
  intros St Ev rtc max. induction fuel as [|fuel IH]; intros cnt st inp Hc Hf; [lia|].
  simpl. destruct inp as [|e inp]; [discriminate|].
  destruct (pe_round St Ev rtc max cnt st (e :: inp) []) as [[[st' cnt'] out] stopped] eqn:Hr.
  destruct stopped; [discriminate|].
  destruct (pe_round_spec _ _ _ _ _ _ _ _ _ _ _ _ Hr eq_refl) as [A B].
  specialize (B ltac:(discriminate)). simpl in A. apply IH; lia.
Qed.

(* with the counter reset in every round, two flows that answer each other never let it end *)
Theorem process_events_per_round_refuted : forall max, 1 <= max ->
  forall n cnt, pe unit nat (fun st e => (st, [e])) true n max cnt tt [0] = None.
Proof.
  intros max Hm. induction n as [|n IH]; intros cnt; [reflexivity|].
  simpl. destruct (Nat.ltb max 1) eqn:Hlt; [apply Nat.ltb_lt in Hlt; lia|]. simpl. apply IH.
Qed.
