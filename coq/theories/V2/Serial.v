(* C11 - model of nemoguardrails/colang/v2_x/runtime/serialization.py
   (encode_to_dict, decode_from_dict, state_to_json, json_to_state).

   OBJECT GRAPH.  A Python object graph is a heap `list (id * node)`; `id` plays the role of
   `id(obj)`.  Immutable scalars (None/bool/int/float/str) are not heap objects: a reference
   (`val`) is either a scalar `VP p` or an object reference `VO i`.  Floats are opaque tokens.
   Every other object (list, tuple, set, deque, dict, dataclass instance, Action, Enum member,
   SpecType member, datetime, RailsConfig, functools.partial, re.Pattern, anything else) is a
   heap node = a `head` (kind + labels) and the ordered list of the references it holds.

   ENCODER.  `enc` transcribes encode_to_dict branch by branch, in the order of the source:
     1. `obj_id in refs`  -> {"__type":"ref","__id":id}
     2. list              -> [ ... ]            (NOT registered in refs: lists are never shared)
     3. str/int/float/None-> as is
     4. functools.partial -> None               (callbacks, re-created by json_to_state)
     5. dict / dataclass / RailsConfig / SpecType / Action / datetime / Enum / deque / tuple /
        set [/ re.Pattern in the repaired source] -> {"__type": .., "value": ..};
        registered in refs AFTER its children were encoded;
     6. anything else     -> raise  (None)
   The Python code later MUTATES the dict of an object that is met again (adds "__ref_count" and
   "__id").  The model is two-pass: `enc` builds a tree (`etree`) in which every registered
   object carries its id, `count_refs` counts the later references, `render` emits the JSON
   with the two marks exactly on the objects referenced again.
   Unbounded recursion on a cyclic graph is Python's RecursionError: `enc` takes the recursion
   limit as fuel and fails when it is exhausted.

   Three flags say which repaired branches are present in the CURRENT source (read by the
   translator into Gen/C11Consts.v): fx_regex (re.Pattern branch in encoder and decoder),
   fx_keys (dicts with non-str keys encoded as "items" pairs), fx_action (the values of
   Action.to_dict() are encoded recursively instead of being handed raw to json.dumps).

   DECODER.  `dec` transcribes decode_from_dict on raw JSON, allocating fresh objects in a new
   heap; `refs` maps "__id" marks to the decoded objects (registered after the children).
   `json_to_state` = dec + re-creation of the two head callbacks of every head of every flow
   state as partial(_flow_head_changed, state, flow_state).  The two loops of the source only
   assign attributes of heads, so the model first reads the (flow state, head) pairs from the
   decoded state (`collect_heads`) and then performs the assignments (`redo_head`) in order. *)
From Coq Require Import ZArith List String Bool DecimalString.
Import ListNotations.
Open Scope string_scope.
Open Scope Z_scope.

Definition id := Z.

Inductive prim := PNone | PBool (b : bool) | PInt (z : Z) | PFloat (f : Z) | PStr (s : string).
Inductive val := VP (p : prim) | VO (i : id).

(* dict keys: str / int / bool / None / float; KObj = any other hashable object (tuple, ...) *)
Inductive key := KS (s : string) | KI (z : Z) | KB (b : bool) | KN | KF (f : Z) | KObj.

Inductive head :=
| HList | HTuple | HSet | HDeque
| HDict (ks : list key)                   (* kids = the values, insertion order *)
| HData (cls : string) (fs : list string) (* dataclass instance; kids = field values *)
| HAction (fs : list string)              (* flows.Action; kids = values of to_dict() (status = its name) *)
| HEnum (cls mem : string)
| HSpecType (v : string)
| HDatetime (iso : string)
| HRailsConfig (tok : Z)                  (* pydantic model, opaque token (model_dump/model_validate = oracle) *)
| HPartial (fn : string)                  (* functools.partial(fn, *kids); kids are NOT traversed by the encoder *)
| HRegex (pat : string) (flags : Z)
| HOther (ty : string).

Record node := mk { hd : head; kids : list val }.
Definition heap := list (id * node).

Inductive json :=
| JNull | JBool (b : bool) | JInt (z : Z) | JFloat (f : Z) | JStr (s : string)
| JArr (l : list json) | JObj (kvs : list (string * json)).

(* what encode_to_dict returns, before the marks are known *)
Inductive etree :=
| EP (p : prim)
| EL (l : list etree)
| ER (i : id)
| EN (i : id) (h : head) (l : list etree)
| ERaw (j : json).

Record flags := { fx_regex : bool; fx_keys : bool; fx_action : bool }.

Fixpoint lookup {A} (l : list (Z * A)) (i : Z) : option A :=
  match l with [] => None | (k, x) :: r => if k =? i then Some x else lookup r i end.

Fixpoint memz (i : Z) (l : list Z) : bool :=
  match l with [] => false | x :: r => if x =? i then true else memz i r end.

Fixpoint jget (k : string) (kvs : list (string * json)) : option json :=
  match kvs with [] => None | (k', v) :: r => if String.eqb k' k then Some v else jget k r end.

(* left-to-right traversal threading a state; None = exception *)
Fixpoint map_st {S A B} (f : S -> A -> option (B * S)) (s : S) (l : list A) : option (list B * S) :=
  match l with
  | [] => Some ([], s)
  | x :: r => match f s x with
              | None => None
              | Some (y, s1) => match map_st f s1 r with
                                | None => None
                                | Some (ys, s2) => Some (y :: ys, s2)
                                end
              end
  end.

Fixpoint map_opt {A B} (f : A -> option B) (l : list A) : option (list B) :=
  match l with
  | [] => Some []
  | x :: r => match f x with None => None | Some y =>
              match map_opt f r with None => None | Some ys => Some (y :: ys) end end
  end.

Definition string_of_Z (z : Z) : string := NilZero.string_of_int (Z.to_int z).

Definition json_of_prim (p : prim) : json :=
  match p with PNone => JNull | PBool b => JBool b | PInt z => JInt z | PFloat f => JFloat f | PStr s => JStr s end.

Definition is_str_key (k : key) : bool := match k with KS _ => true | _ => false end.
Definition is_json_key (k : key) : bool := match k with KObj => false | _ => true end.

(* json.dumps coerces int/bool/None/float keys to strings (float repr = opaque "f<token>") *)
Definition key_str (k : key) : string :=
  match k with
  | KS s => s | KI z => string_of_Z z | KB true => "true" | KB false => "false" | KN => "null"
  | KF f => "f" ++ string_of_Z f | KObj => ""
  end.

Definition json_of_key (k : key) : json :=
  match k with KS s => JStr s | KI z => JInt z | KB b => JBool b | KN => JNull | KF f => JFloat f | KObj => JNull end.

Definition key_of_json (j : json) : option key :=
  match j with JStr s => Some (KS s) | JInt z => Some (KI z) | JBool b => Some (KB b) | JNull => Some KN
             | JFloat f => Some (KF f) | _ => None end.

(* json.dumps on a raw Python value (only for the UNREPAIRED Action branch) *)

Fixpoint raw (fuel : nat) (h : heap) (v : val) : option json :=
  match fuel with
  | O => None
  | S f =>
    match v with
    | VP p => Some (json_of_prim p)
    | VO i =>
      match lookup h i with
      | None => None
      | Some n =>
        match hd n with
        | HList | HTuple => option_map JArr (map_opt (raw f h) (kids n))
        | HDict ks =>
          if forallb is_json_key ks
          then option_map (fun js => JObj (combine (map key_str ks) js)) (map_opt (raw f h) (kids n))
          else None
        | _ => None       (* TypeError: Object of type ... is not JSON serializable *)
        end
      end
    end
  end.

(* encode_to_dict *)

Definition dict_keys_ok (fl : flags) (ks : list key) : bool :=
  forallb is_json_key ks.        (* KObj: json.dumps TypeError (unrepaired) / outside the model (repaired) *)

Fixpoint enc (fl : flags) (fuel : nat) (h : heap) (seen : list id) (v : val) : option (etree * list id) :=
  match fuel with
  | O => None                                            (* RecursionError *)
  | S f =>
    match v with
    | VP p => Some (EP p, seen)
    | VO i =>
      if memz i seen then Some (ER i, seen)               (* obj_id in refs *)
      else
        match lookup h i with
        | None => None
        | Some n =>
          let generic :=
            match map_st (enc fl f h) seen (kids n) with
            | None => None
            | Some (es, s') => Some (EN i (hd n) es, i :: s')     (* refs[obj_id] = value, after the children *)
            end in
          match hd n with
          | HList =>
            match map_st (enc fl f h) seen (kids n) with
            | None => None
            | Some (es, s') => Some (EL es, s')
            end
          | HPartial _ => Some (EP PNone, seen)
          | HOther _ => None                              (* raise Exception("Unhandled type ...") *)
          | HRegex _ _ => if fx_regex fl then generic else None
          | HDict ks => if dict_keys_ok fl ks then generic else None
          | HAction _ =>
            if fx_action fl then generic
            else match map_opt (raw f h) (kids n) with
                 | None => None
                 | Some js => Some (EN i (hd n) (map ERaw js), i :: seen)
                 end
          | _ => generic
          end
        end
    end
  end.

(* THE ASSUMPTION THE refs TABLE RELIES ON.  `refs` is keyed by id(obj): an entry is only
   meaningful while the object it was made for is alive - "every object registered in refs stays
   alive until encoding ends".  In `enc` this holds by construction: the identities are those of
   the heap, which does not change during encoding, and the translator checks on every run that
   Action.to_dict() hands out the LIVE context / start_event_arguments (Gen: action_to_dict_live).
   `enc_tmp` is the encoder one gets when the Action branch encodes TEMPORARY copies of these two
   dicts (to_dict() returning `.copy()`): the k-th temporary lives at identity `alloc k` and is
   freed right after it was encoded, so the allocator may hand the same identity out again.  With
   an allocator that never reuses an identity during one encoding (`tmp_ids_fresh`) the output is
   restored correctly; with CPython's reuse a later temporary is taken for an earlier one and is
   written as a {"__type": "ref"} to it (Serial_examples: tmp_reuse_refuted). *)
Definition tmp_ids_fresh (alloc : nat -> id) (h : heap) : Prop :=
  (forall k, lookup h (alloc k) = None) /\ (forall k k', alloc k = alloc k' -> k = k').

Fixpoint enc_tmp (alloc : nat -> id) (fl : flags) (fuel : nat) (h : heap) (st : list id * nat) (v : val)
  : option (etree * (list id * nat)) :=
  match fuel with
  | O => None
  | S f =>
    (* encode the object stored at i under the identity `ident` *)
    let enc_at (ident i : id) (st : list id * nat) : option (etree * (list id * nat)) :=
      if memz ident (fst st) then Some (ER ident, st)
      else
        match lookup h i with
        | None => None
        | Some n =>
          let generic :=
            match map_st (enc_tmp alloc fl f h) st (kids n) with
            | None => None
            | Some (es, (s', k')) => Some (EN ident (hd n) es, (ident :: s', k'))
            end in
          match hd n with
          | HList =>
            match map_st (enc_tmp alloc fl f h) st (kids n) with
            | None => None
            | Some (es, st') => Some (EL es, st')
            end
          | HPartial _ => Some (EP PNone, st)
          | HOther _ => None
          | HRegex _ _ => if fx_regex fl then generic else None
          | HDict ks => if dict_keys_ok fl ks then generic else None
          | HAction _ =>
            (* to_dict(): the two dicts are fresh copies, everything else is the live value *)
            match kids n with
            | [k0; k1; k2; k3; VO c; VO a; k6] =>
              match map_st (enc_tmp alloc fl f h) st [k0; k1; k2; k3] with
              | None => None
              | Some (es1, (s1, n1)) =>
                match lookup h c, lookup h a with
                | Some nc, Some na =>
                  let tc := alloc n1 in
                  match (if memz tc s1 then Some (ER tc, (s1, S n1))
                         else match map_st (enc_tmp alloc fl f h) (s1, S n1) (kids nc) with
                              | None => None
                              | Some (esc, (s2, n2)) => Some (EN tc (hd nc) esc, (tc :: s2, n2))
                              end) with
                  | None => None
                  | Some (ec, (s2, n2)) =>
                    let ta := alloc n2 in
                    match (if memz ta s2 then Some (ER ta, (s2, S n2))
                           else match map_st (enc_tmp alloc fl f h) (s2, S n2) (kids na) with
                                | None => None
                                | Some (esa, (s3, n3)) => Some (EN ta (hd na) esa, (ta :: s3, n3))
                                end) with
                    | None => None
                    | Some (ea, (s3, n3)) =>
                      match enc_tmp alloc fl f h (s3, n3) k6 with
                      | None => None
                      | Some (e6, (s4, n4)) => Some (EN ident (hd n) (es1 ++ [ec; ea; e6]), (ident :: s4, n4))
                      end
                    end
                  end
                | _, _ => None
                end
              end
            | _ => None
            end
          | _ => generic
          end
        end in
    match v with
    | VP p => Some (EP p, st)
    | VO i => enc_at i i st
    end
  end.

Fixpoint count_refs (e : etree) (i : id) : Z :=
  match e with
  | ER k => if k =? i then 1 else 0
  | EL l | EN _ _ l => fold_right (fun x acc => count_refs x i + acc) 0 l
  | _ => 0
  end.

Fixpoint pair_up (ks : list key) (js : list json) : list json :=
  match ks, js with
  | k :: ks', j :: js' => JArr [json_of_key k; j] :: pair_up ks' js'
  | _, _ => []
  end.

Definition render_head (fl : flags) (h : head) (js : list json) : list (string * json) :=
  match h with
  | HTuple => [("__type", JStr "tuple"); ("value", JArr js)]
  | HSet => [("__type", JStr "set"); ("value", JArr js)]
  | HDeque => [("__type", JStr "deque"); ("value", JArr js)]
  | HDict ks =>
    if fx_keys fl && negb (forallb is_str_key ks)
    then [("__type", JStr "dict"); ("items", JArr (pair_up ks js))]
    else [("__type", JStr "dict"); ("value", JObj (combine (map key_str ks) js))]
  | HData cls fs => [("__type", JStr cls); ("value", JObj (combine fs js))]
  | HAction fs => [("__type", JStr "Action"); ("value", JObj (combine fs js))]
  | HEnum cls mem => [("__type", JStr "enum"); ("__class", JStr cls); ("value", JStr mem)]
  | HSpecType v => [("__type", JStr "SpecType"); ("value", JStr v)]
  | HDatetime iso => [("__type", JStr "datetime"); ("value", JStr iso)]
  | HRailsConfig tok => [("__type", JStr "RailsConfig"); ("value", JInt tok)]
  | HRegex pat fg => [("__type", JStr "re.Pattern"); ("value", JObj [("pattern", JStr pat); ("flags", JInt fg)])]
  | HList | HPartial _ | HOther _ => []
  end.

Definition marks (cnt : id -> Z) (i : id) : list (string * json) :=
  if 0 <? cnt i then [("__ref_count", JInt (cnt i)); ("__id", JInt i)] else [].

Fixpoint render (fl : flags) (cnt : id -> Z) (e : etree) : json :=
  match e with
  | EP p => json_of_prim p
  | EL l => JArr (map (render fl cnt) l)
  | ER i => JObj [("__type", JStr "ref"); ("__id", JInt i)]
  | EN i h l => JObj (render_head fl h (map (render fl cnt) l) ++ marks cnt i)
  | ERaw j => j
  end.

(* state_to_json up to json.dumps; `limit` = recursion limit *)
Definition encode (fl : flags) (limit : nat) (h : heap) (r : val) : option json :=
  match enc fl limit h [] r with
  | None => None
  | Some (e, _) => Some (render fl (count_refs e) e)
  end.

Definition encode_tmp (alloc : nat -> id) (fl : flags) (limit : nat) (h : heap) (r : val) : option json :=
  match enc_tmp alloc fl limit h ([], O) r with
  | None => None
  | Some (e, _) => Some (render fl (count_refs e) e)
  end.

(* decode_from_dict *)

(* the class table of the decoder: name_to_class restricted to dataclasses (with their field
   names) and to Enum classes (with their member names); valid SpecType values *)
Record classes := {
  class_fields : string -> option (list string);
  enum_member : string -> string -> bool;
  spectype_value : string -> bool
}.

Definition action_fields : list string :=
  ["uid"; "name"; "flow_uid"; "status"; "context"; "start_event_arguments"; "flow_scope_count"].

Record dstate := { dh : heap; nxt : id; drefs : list (id * val) }.

Definition alloc (n : node) (st : dstate) : id * dstate :=
  (nxt st, {| dh := (nxt st, n) :: dh st; nxt := nxt st + 1; drefs := drefs st |}).

Definition add_ref (old : id) (v : val) (st : dstate) : dstate :=
  {| dh := dh st; nxt := nxt st; drefs := (old, v) :: drefs st |}.

Fixpoint unpair (l : list json) : option (list key * list json) :=
  match l with
  | [] => Some ([], [])
  | JArr [k; v] :: r =>
    match key_of_json k, unpair r with
    | Some k', Some (ks, vs) => Some (k' :: ks, v :: vs)
    | _, _ => None
    end
  | _ => None
  end.

(* one branch of the if/elif chain of decode_from_dict (after "ref"): the head of the object to
   build and the JSON of the children to decode first.  Same order as the source. *)
Definition parse_head (fl : flags) (C : classes) (t : string) (kvs : list (string * json)) : option (head * list json) :=
  if String.eqb t "enum" then
    match jget "__class" kvs, jget "value" kvs with
    | Some (JStr cls), Some (JStr mem) => if enum_member C cls mem then Some (HEnum cls mem, []) else None
    | _, _ => None
    end
  else if String.eqb t "RailsConfig" then
    match jget "value" kvs with Some (JInt tok) => Some (HRailsConfig tok, []) | _ => None end
  else if String.eqb t "SpecType" then
    match jget "value" kvs with
    | Some (JStr v) => if spectype_value C v then Some (HSpecType v, []) else None
    | _ => None
    end
  else if String.eqb t "Action" then
    match jget "value" kvs with
    | Some (JObj fkvs) =>
      match map_opt (fun f => jget f fkvs) action_fields with
      | Some js =>
        match jget "status" fkvs with
        | Some (JStr m) => if enum_member C "ActionStatus" m then Some (HAction action_fields, js) else None
        | _ => None
        end
      | None => None                                       (* KeyError in Action.from_dict *)
      end
    | _ => None
    end
  else
    match class_fields C t with
    | Some fs =>
      match jget "value" kvs with
      | Some (JObj fkvs) =>
        if list_eq_dec string_dec (map fst fkvs) fs then Some (HData t fs, map snd fkvs) else None
      | _ => None
      end
    | None =>
      if String.eqb t "datetime" then
        match jget "value" kvs with Some (JStr iso) => Some (HDatetime iso, []) | _ => None end
      else if String.eqb t "deque" then
        match jget "value" kvs with Some (JArr l) => Some (HDeque, l) | _ => None end
      else if String.eqb t "tuple" then
        match jget "value" kvs with Some (JArr l) => Some (HTuple, l) | _ => None end
      else if fx_regex fl && String.eqb t "re.Pattern" then
        match jget "value" kvs with
        | Some (JObj pkvs) =>
          match jget "pattern" pkvs, jget "flags" pkvs with
          | Some (JStr p), Some (JInt fg) => Some (HRegex p fg, [])
          | _, _ => None
          end
        | _ => None
        end
      else if String.eqb t "dict" then
        match (if fx_keys fl then jget "items" kvs else None) with
        | Some (JArr prs) =>
          match unpair prs with Some (ks, vs) => Some (HDict ks, vs) | None => None end
        | Some _ => None
        | None =>
          match jget "value" kvs with
          | Some (JObj fkvs) => Some (HDict (map (fun kv => KS (fst kv)) fkvs), map snd fkvs)
          | _ => None
          end
        end
      else if String.eqb t "set" then
        match jget "value" kvs with Some (JArr l) => Some (HSet, l) | _ => None end
      else None                                              (* raise Exception("Unknown d_type") *)
    end.

Fixpoint dec (fl : flags) (C : classes) (fuel : nat) (st : dstate) (j : json) : option (val * dstate) :=
  match fuel with
  | O => None
  | S f =>
    match j with
    | JNull => Some (VP PNone, st)
    | JBool b => Some (VP (PBool b), st)
    | JInt z => Some (VP (PInt z), st)
    | JFloat x => Some (VP (PFloat x), st)
    | JStr s => Some (VP (PStr s), st)
    | JArr l =>
      match map_st (dec fl C f) st l with
      | None => None
      | Some (vs, st1) => let (i', st2) := alloc (mk HList vs) st1 in Some (VO i', st2)
      end
    | JObj kvs =>
      match jget "__type" kvs with
      | None =>
        match map_st (dec fl C f) st (map snd kvs) with
        | None => None
        | Some (vs, st1) =>
          let (i', st2) := alloc (mk (HDict (map (fun kv => KS (fst kv)) kvs)) vs) st1 in Some (VO i', st2)
        end
      | Some (JStr t) =>
        if String.eqb t "ref" then
          match jget "__id" kvs with
          | Some (JInt i) => match lookup (drefs st) i with Some v => Some (v, st) | None => None end
          | _ => None
          end
        else
          match parse_head fl C t kvs with
          | None => None
          | Some (hd', kjs) =>
            match map_st (dec fl C f) st kjs with
            | None => None
            | Some (vs, st1) =>
              let (i', st2) := alloc (mk hd' vs) st1 in
              Some (VO i', match jget "__id" kvs with
                           | Some (JInt old) => add_ref old (VO i') st2
                           | _ => st2
                           end)
            end
          end
      | Some _ => None
      end
    end
  end.

Definition st0 : dstate := {| dh := []; nxt := 0; drefs := [] |}.

(* decode_from_dict(json.loads(s), refs={}) *)
Definition decode (fl : flags) (C : classes) (limit : nat) (j : json) : option (heap * val) :=
  match dec fl C limit st0 j with
  | None => None
  | Some (v, st) => Some (dh st, v)
  end.

(* json_to_state: re-creation of the head callbacks *)

Fixpoint index_of (s : string) (l : list string) : option nat :=
  match l with [] => None | x :: r => if String.eqb x s then Some O else option_map S (index_of s r) end.

(* getattr(obj, f) on a dataclass instance *)
Definition field (h : heap) (v : val) (f : string) : option val :=
  match v with
  | VO i =>
    match lookup h i with
    | Some (mk (HData _ fs) ks) =>
      match index_of f fs with Some n => nth_error ks n | None => None end
    | _ => None
    end
  | _ => None
  end.

(* the values of a dict *)
Definition dict_values (h : heap) (v : val) : option (list val) :=
  match v with
  | VO i => match lookup h i with Some (mk (HDict _) ks) => Some ks | _ => None end
  | _ => None
  end.

Fixpoint set_nth {A} (n : nat) (x : A) (l : list A) : list A :=
  match l, n with
  | [], _ => []
  | _ :: r, O => x :: r
  | y :: r, S n' => y :: set_nth n' x r
  end.

Fixpoint heap_set (h : heap) (i : id) (n : node) : heap :=
  match h with [] => [] | (k, x) :: r => if k =? i then (k, n) :: r else (k, x) :: heap_set r i n end.

(* setattr(obj, f, v) on a dataclass instance *)
Definition set_field (h : heap) (o : val) (f : string) (v : val) : option heap :=
  match o with
  | VO i =>
    match lookup h i with
    | Some (mk (HData c fs) ks) =>
      match index_of f fs with
      | Some n => Some (heap_set h i (mk (HData c fs) (set_nth n v ks)))
      | None => None
      end
    | _ => None
    end
  | _ => None
  end.

Definition cb_name : string := "_flow_head_changed".

(* for one head: the two assignments of json_to_state *)
Definition redo_head (state fs : val) (acc : option (heap * id)) (head : val) : option (heap * id) :=
  match acc with
  | None => None
  | Some (h, n) =>
    let h1 := (n, mk (HPartial cb_name) [state; fs]) :: h in
    match set_field h1 head "position_changed_callback" (VO n) with
    | None => None
    | Some h2 =>
      let h3 := (n + 1, mk (HPartial cb_name) [state; fs]) :: h2 in
      match set_field h3 head "status_changed_callback" (VO (n + 1)) with
      | None => None
      | Some h4 => Some (h4, n + 2)
      end
    end
  end.

(* the (flow state, head) pairs the two loops of json_to_state visit, in order.  The loop body
   assigns attributes of heads only, so the dicts it iterates are the ones of the decoded state. *)
Fixpoint collect_flows (h : heap) (fss : list val) : option (list (val * val)) :=
  match fss with
  | [] => Some []
  | fs :: r =>
    match field h fs "heads" with
    | None => None
    | Some hv =>
      match dict_values h hv, collect_flows h r with
      | Some heads, Some rest => Some (map (fun x => (fs, x)) heads ++ rest)%list
      | _, _ => None
      end
    end
  end.

Definition collect_heads (h : heap) (state : val) : option (list (val * val)) :=
  match field h state "flow_states" with
  | None => None
  | Some fv =>
    match dict_values h fv with
    | None => None
    | Some fss => collect_flows h fss
    end
  end.

Definition redo_callbacks (h : heap) (n : id) (state : val) : option (heap * id) :=
  match collect_heads h state with
  | None => None
  | Some W => fold_left (fun acc fh => redo_head state (fst fh) acc (snd fh)) W (Some (h, n))
  end.

Definition json_to_state (fl : flags) (C : classes) (limit : nat) (j : json) : option (heap * val) :=
  match dec fl C limit st0 j with
  | None => None
  | Some (v, st) =>
    match redo_callbacks (dh st) (nxt st) v with
    | None => None
    | Some (h', _) => Some (h', v)
    end
  end.

(* State shape with canonical callbacks, as ONE decidable predicate (hypothesis of the composed
   round-trip theorem; evaluated on real states by the harness):
   state.flow_states[*].heads[*] exist, the heads are distinct dataclass instances with the two
   callback attributes, both attributes of every head are partial(_flow_head_changed, state, its
   flow state), and no other object refers to a functools.partial. *)
Definition pos_f : string := "position_changed_callback".
Definition stat_f : string := "status_changed_callback".

Definition val_eq_dec : forall a b : val, {a = b} + {a <> b}.
Proof.
  decide equality; [decide equality; try apply Z.eq_dec; try apply string_dec; apply bool_dec|apply Z.eq_dec].
Defined.

Definition cb_idx (h : heap) (hv : val) : option (id * string * list string * list val * nat * nat) :=
  match hv with
  | VO x =>
    match lookup h x with
    | Some (mk (HData c fds) ks) =>
      match index_of pos_f fds, index_of stat_f fds with
      | Some p, Some q =>
        if negb (Nat.eqb p q) && Nat.ltb p (List.length ks) && Nat.ltb q (List.length ks)
        then Some (x, c, fds, ks, p, q) else None
      | _, _ => None
      end
    | _ => None
    end
  | _ => None
  end.

Definition val_eqb (a b : val) : bool := if val_eq_dec a b then true else false.

Fixpoint heads_okb (h : heap) (W : list (val * val)) : bool :=
  match W with
  | [] => true
  | (fs, hv) :: r =>
    match cb_idx h hv with
    | Some _ => negb (existsb (fun fh => val_eqb (snd fh) hv) r) && heads_okb h r
    | None => false
    end
  end.

Definition is_cb_node (h : heap) (state fs v : val) : bool :=
  match v with
  | VO a =>
    match lookup h a with
    | Some (mk (HPartial fn) [v1; v2]) => String.eqb fn cb_name && val_eqb v1 state && val_eqb v2 fs
    | _ => false
    end
  | _ => false
  end.

Definition cb_okb (h : heap) (s : id) (W : list (val * val)) : bool :=
  forallb (fun fh =>
    match cb_idx h (snd fh) with
    | Some (x, c, fds, ks, p, q) =>
      match nth_error ks p, nth_error ks q with
      | Some va, Some vb => is_cb_node h (VO s) (fst fh) va && is_cb_node h (VO s) (fst fh) vb
      | _, _ => false
      end
    | None => false
    end) W.

Definition is_partialb (h : heap) (j : id) : bool :=
  match lookup h j with Some (mk (HPartial _) _) => true | _ => false end.

Definition head_pos_ok (h : heap) (W : list (val * val)) (i : id) (k : nat) : bool :=
  existsb (fun fh => val_eqb (snd fh) (VO i)) W &&
  match cb_idx h (VO i) with
  | Some (x, c, fds, ks, p, q) => Nat.eqb k p || Nat.eqb k q
  | None => false
  end.

Fixpoint kids_only (h : heap) (W : list (val * val)) (i : id) (k : nat) (l : list val) : bool :=
  match l with
  | [] => true
  | v :: r =>
    (match v with VO j => if is_partialb h j then head_pos_ok h W i k else true | VP _ => true end)
    && kids_only h W i (S k) r
  end.

Definition onlyb (h : heap) (W : list (val * val)) : bool :=
  forallb (fun kn => kids_only h W (fst kn) O (kids (snd kn))) h.

Definition state_hyps (h : heap) (s : id) : bool :=
  match collect_heads h (VO s) with
  | Some W => heads_okb h W && cb_okb h s W && onlyb h W
  | None => false
  end.

(* `supported`: exactly the node kinds the code handles (decidable) *)

Definition reserved_tag (t : string) : bool :=
  existsb (String.eqb t) ["ref"; "enum"; "RailsConfig"; "SpecType"; "Action"].

Definition is_prim_str (v : val) : option string := match v with VP (PStr s) => Some s | _ => None end.

Definition head_ok (fl : flags) (C : classes) (n : node) : bool :=
  match hd n with
  | HList | HTuple | HSet | HDeque => true
  | HDict ks =>
    forallb is_json_key ks && (fx_keys fl || forallb is_str_key ks)
    && Nat.eqb (List.length ks) (List.length (kids n))
  | HData cls fs =>
    negb (reserved_tag cls)
    && match class_fields C cls with Some fs' => if list_eq_dec string_dec fs fs' then true else false | None => false end
    && Nat.eqb (List.length fs) (List.length (kids n))
  | HAction fs =>
    fx_action fl
    && (if list_eq_dec string_dec fs action_fields then true else false)
    && match kids n with
       | [_; _; _; VP (PStr m); _; _; _] => enum_member C "ActionStatus" m
       | _ => false
       end
  | HEnum cls mem => enum_member C cls mem && match kids n with [] => true | _ => false end
  | HSpecType v => spectype_value C v && match kids n with [] => true | _ => false end
  | HDatetime _ | HRailsConfig _ => match kids n with [] => true | _ => false end
  | HPartial _ => true
  | HRegex _ _ => fx_regex fl && match kids n with [] => true | _ => false end
  | HOther _ => false
  end.

(* the children the encoder follows *)
Definition tkids (n : node) : list val := match hd n with HPartial _ => [] | _ => kids n end.

Definition val_closed (h : heap) (v : val) : bool :=
  match v with VP _ => true | VO i => match lookup h i with Some _ => true | None => false end end.

Definition node_ok (fl : flags) (C : classes) (h : heap) (n : node) : bool :=
  head_ok fl C n && forallb (val_closed h) (tkids n).

(* every object of the heap is of a supported kind, well formed, and refers to objects of the heap *)
Definition supported (fl : flags) (C : classes) (h : heap) (r : val) : bool :=
  forallb (fun kn => node_ok fl C h (snd kn)) h && val_closed h r.

(* acyclicity with a depth bound: a rank that strictly decreases along every followed
   reference; the rank of the root is below the recursion limit *)
Definition rank_of (rk : id -> nat) (v : val) : nat := match v with VP _ => O | VO i => S (rk i) end.

Definition acyclic (h : heap) (rk : id -> nat) : Prop :=
  forall i n, lookup h i = Some n -> forall j, In (VO j) (tkids n) -> (rk j < rk i)%nat.

(* isomorphism of object graphs *)

Definition rel := list (id * id).

Definition is_list (h : heap) (i : id) : bool :=
  match lookup h i with Some (mk HList _) => true | _ => false end.

(* `erased` = whether a callback (functools.partial) may correspond to None *)
Inductive vrel (erased : bool) (h : heap) (M : rel) : val -> val -> Prop :=
| vr_prim p : vrel erased h M (VP p) (VP p)
| vr_obj i i' : In (i, i') M -> vrel erased h M (VO i) (VO i')
| vr_erased i n fn : erased = true -> lookup h i = Some n -> hd n = HPartial fn ->
                     vrel erased h M (VO i) (VP PNone).

Definition node_rel (erased : bool) (h : heap) (M : rel) (n n' : node) : Prop :=
  hd n = hd n' /\ Forall2 (vrel erased h M) (kids n) (kids n').

(* M is a bisimulation between (h, r) and (h', r') *)
Record bisim (erased : bool) (h : heap) (r : val) (h' : heap) (r' : val) (M : rel) : Prop := {
  bs_root : vrel erased h M r r';
  bs_step : forall i i', In (i, i') M ->
            exists n n', lookup h i = Some n /\ lookup h' i' = Some n' /\ node_rel erased h M n n'
}.

(* ... that preserves sharing: one-to-one, except that a list object may have several copies *)
Record sharing_preserved (h : heap) (M : rel) : Prop := {
  sp_inj : forall i1 i2 i', In (i1, i') M -> In (i2, i') M -> i1 = i2;
  sp_fun : forall i i1 i2, In (i, i1) M -> In (i, i2) M -> is_list h i = false -> i1 = i2
}.

(* full isomorphism: the relation is also functional on lists *)
Definition functional (M : rel) : Prop := forall i i1 i2, In (i, i1) M -> In (i, i2) M -> i1 = i2.

(* canonical form of the part of a heap reachable from a root, for the correspondence:
   objects are numbered in order of first visit (depth first, children in order) *)

Inductive ctree :=
| CP (p : prim)
| CBack (n : Z)
| CNew (n : Z) (h : head) (l : list ctree)
| CDangling.

Fixpoint canon (fuel : nat) (h : heap) (s : list (id * Z) * Z) (v : val) : option (ctree * (list (id * Z) * Z)) :=
  match fuel with
  | O => None
  | S f =>
    match v with
    | VP p => Some (CP p, s)
    | VO i =>
      match lookup (fst s) i with
      | Some n => Some (CBack n, s)
      | None =>
        match lookup h i with
        | None => Some (CDangling, s)
        | Some nd =>
          let n := snd s in
          match map_st (canon f h) ((i, n) :: fst s, n + 1) (kids nd) with
          | None => None
          | Some (cs, s') => Some (CNew n (hd nd) cs, s')
          end
        end
      end
    end
  end.

Definition canon_of (fuel : nat) (hr : option (heap * val)) : option ctree :=
  match hr with
  | None => None
  | Some (h, r) => match canon fuel h ([], 0) r with Some (c, _) => Some c | None => None end
  end.
