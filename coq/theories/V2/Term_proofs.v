(* C10 part 1: one `slide` of a guarded flow stops within |elements|+1 steps. *)
From Coq Require Import List Arith Bool Lia.
From NG Require Import V2.Term.
Import ListNotations.

Lemma eqb_labels_eq : forall a b, eqb_labels a b = true -> a = b.
Proof.
  induction a as [|x a IH]; destruct b as [|y b]; simpl; intros H; try discriminate; auto.
  apply andb_true_iff in H. destruct H as [H1 H2]. apply Nat.eqb_eq in H1. f_equal; auto.
Qed.

Lemma exec_raise_stops : forall es pos cs e, exists s, exec_elem es ORaise pos cs e = Stop s.
Proof. intros. simpl. eauto. Qed.

(* `exec_elem es o pos cs e` is a table: the three outcomes of the expression times the twelve
   elements, and inside some entries a test of the label table (`label_pos`, `all_some`), of the catch
   stack, or of the flag of a jump.  A fact about all its results is proved by going through the table:
   for H : exec_elem es o pos cs e = r, `exec_elem_cases o e H` leaves one goal for every entry that can
   yield r - the others contradict H - with the components of r substituted.  Why the goals hold is
   said where the tactic is used. *)
Ltac exec_elem_cases o e H :=
  destruct o, e; simpl in H;
  repeat match type of H with
         | context [match ?x with _ => _ end] => destruct x eqn:?; try discriminate
         end; inversion H; subst.

Lemma exec_stop_fuel : forall es o pos cs e, exec_elem es o pos cs e <> Stop OutOfFuel.
Proof. intros es o pos cs e H. exec_elem_cases o e H. Qed.   (* no entry of the table is OutOfFuel *)

Lemma exec_cont_in_conts : forall es o pos cs e pos' cs' st ni,
  exec_elem es o pos cs e = Cont pos' cs' st ni -> In (pos', cs') (conts es cs pos e).
Proof.
  intros es o pos cs e pos' cs' st ni H. unfold conts. apply in_flat_map.
  destruct o.
  - exists OTrue. split; [left; reflexivity|]. rewrite H. left; reflexivity.
  - exists OFalse. split; [right; left; reflexivity|]. rewrite H. left; reflexivity.
  - simpl in H. discriminate.
Qed.

Lemma nth_error_lt : forall A (l : list A) p a, nth_error l p = Some a -> p < length l.
Proof. intros A l p a H. apply nth_error_Some. congruence. Qed.

(* the checks run over all positions of a flow *)
Lemma forallb_seq_at : forall (f : nat -> bool) n p, forallb f (seq 0 n) = true -> p < n -> f p = true.
Proof. intros f n p H Hp. rewrite forallb_forall in H. apply H, in_seq. lia. Qed.

(* checks of the form "q lies beyond the end, or b" *)
Lemma beyond_or : forall len q b, Nat.leb len q || b = true -> q < len -> b = true.
Proof.
  intros len q b H Hq. apply orb_true_iff in H. destruct H as [H|H]; [apply Nat.leb_le in H; lia|exact H].
Qed.

(* ... and of the form "q lies before the end, and b" *)
Lemma before_and : forall len q b, Nat.ltb q len && b = true -> q < len /\ b = true.
Proof. intros len q b H. apply andb_true_iff in H. destruct H as [H Hb]. apply Nat.ltb_lt in H. auto. Qed.

Lemma stk_ok_at : forall es stk q s, stk_ok es stk q s = true -> q < length es -> stk_at stk q = Some s.
Proof.
  intros es stk q s H Hq. apply (beyond_or _ _ _ H) in Hq.
  destruct (stk_at stk q) as [s2|]; [|discriminate]. apply eqb_labels_eq in Hq. congruence.
Qed.

Lemma conts_in_succ : forall ti es stk p e s q s',
  nth_error es p = Some e -> stk_at stk p = Some s -> In (q, s') (conts es s p e) ->
  In (q, s') (succ_cfg ti es stk p).
Proof. intros. unfold succ_cfg. rewrite H, H0. apply in_or_app. left. assumption. Qed.

Lemma check_cert_at : forall ti es r stk p e s,
  check_cert ti es r stk = true -> nth_error es p = Some e -> stk_at stk p = Some s ->
  rank_at r p <= length es /\
  (forall q s', In (q, s') (succ_cfg ti es stk p) -> rank_at r (Nat.min q (length es)) < rank_at r p) /\
  (forall q s', In (q, s') (conts es s p e ++ resumes es s p e) -> q < length es -> stk_at stk q = Some s').
Proof.
  intros ti es r stk p e s H Hn Hs.
  pose proof (forallb_seq_at _ _ p H (nth_error_lt _ _ _ _ Hn)) as Hp. unfold check_pos in Hp. rewrite Hn, Hs in Hp.
  apply andb_true_iff in Hp. destruct Hp as [Hp Hok]. apply andb_true_iff in Hp. destruct Hp as [Hle Hrk].
  rewrite forallb_forall in Hrk, Hok. split; [apply Nat.leb_le; assumption|]. split.
  - intros q s' Hin. apply Nat.ltb_lt. exact (Hrk _ Hin).
  - intros q s' Hin. exact (stk_ok_at es stk q s' (Hok _ Hin)).
Qed.

(* one step of the model respects the static stack and decreases the rank *)
Lemma cert_step : forall ti es r stk o pos cs e pos' cs' st ni,
  check_cert ti es r stk = true ->
  nth_error es pos = Some e -> stk_at stk pos = Some cs ->
  exec_elem es o pos cs e = Cont pos' cs' st ni ->
  rank_at r (Nat.min pos' (length es)) < rank_at r pos /\ rank_at r pos <= length es /\
  (pos' < length es -> stk_at stk pos' = Some cs').
Proof.
  intros ti es r stk o pos cs e pos' cs' st ni Hc Hnth Hstk Hex.
  destruct (check_cert_at ti es r stk pos e cs Hc Hnth Hstk) as [Hle [Hrk Hok]].
  pose proof (exec_cont_in_conts _ _ _ _ _ _ _ _ _ Hex) as Hin.
  split; [exact (Hrk _ _ (conts_in_succ ti _ _ _ _ _ _ _ Hnth Hstk Hin))|]. split; [assumption|].
  apply Hok. apply in_or_app. left. assumption.
Qed.

(* the measure: rank of the current position *)
Lemma slide_fuel_bound : forall ti es r stk, check_cert ti es r stk = true ->
  forall fuel orc k pos cs starts ni,
    (pos < length es -> stk_at stk pos = Some cs) ->
    (pos < length es -> rank_at r pos < fuel) -> 0 < fuel ->
    s_stop (slide_fuel fuel es orc k pos cs starts ni) <> OutOfFuel.
Proof.
  intros ti es r stk Hc. induction fuel as [|fuel IH]; intros orc k pos cs starts ni Hcs Hrk Hpos.
  - lia.
  - simpl. destruct (nth_error es pos) as [e|] eqn:Hnth; [|simpl; discriminate].
    pose proof (nth_error_lt _ _ _ _ Hnth) as Hlt.
    destruct (exec_elem es (orc k) pos cs e) as [pos' cs' st ni'|s] eqn:Hex.
    + destruct (cert_step ti es r stk (orc k) pos cs e pos' cs' st ni' Hc Hnth (Hcs Hlt) Hex) as [Hdec [Hle Hstk']].
      specialize (Hrk Hlt).
      apply IH; [assumption | | lia].
      intros Hp'. rewrite Nat.min_l in Hdec by lia. lia.
    + simpl. intros ->. exact (exec_stop_fuel _ _ _ _ _ Hex).
Qed.

Theorem slide_bound_cert : forall ti es r stk, check_cert ti es r stk = true ->
  forall orc pos cs, (pos < length es -> stk_at stk pos = Some cs) ->
    s_stop (slide (length es + 1) es orc pos cs) <> OutOfFuel.
Proof.
  intros ti es r stk Hc orc pos cs Hcs. unfold slide.
  eapply slide_fuel_bound; [exact Hc | assumption | | lia].
  (* the certificate keeps every rank within the length of the flow *)
  intros Hp. destruct (nth_error es pos) as [e|] eqn:Hn; [|apply nth_error_None in Hn; lia].
  pose proof (proj1 (check_cert_at ti es r stk pos e cs Hc Hn (Hcs Hp))). lia.
Qed.

Theorem slide_bound : forall p, guardedb p = true ->
  forall es, In es p ->
  forall orc pos cs, (pos < length es -> stk_at (compute_stk es) pos = Some cs) ->
    s_stop (slide (length es + 1) es orc pos cs) <> OutOfFuel.
Proof.
  intros p Hg es Hin orc pos cs Hcs. unfold guardedb in Hg. rewrite forallb_forall in Hg.
  specialize (Hg es Hin). unfold guarded_flowb in Hg.
  eapply slide_bound_cert; eassumption.
Qed.

Lemma slide_fuel_steps : forall fuel es orc k pos cs starts ni,
  s_steps (slide_fuel fuel es orc k pos cs starts ni) <= k + fuel.
Proof.
  induction fuel as [|fuel IH]; intros; simpl; [lia|].
  destruct (nth_error es pos); [|simpl; lia].
  destruct (exec_elem es (orc k) pos cs e); [|simpl; lia].
  etransitivity; [apply IH|]. lia.
Qed.

(* an unguarded loop really spins: the hypothesis of slide_bound is not vacuous-by-weakness *)
Example unguarded_spins : exists es orc, guarded_flowb es = false /\
  forall n, s_stop (slide n es orc 1 []) = OutOfFuel.
Proof.
  pose (es := [EWaitInt true; ELabel 0 false; EStep; EJump 0 false]).
  exists es, (fun _ => OTrue). split; [reflexivity|].
  (* the slide goes round 1 -> 2 -> 3 -> 1 *)
  assert (H : forall n k st ni,
      s_stop (slide_fuel n es (fun _ => OTrue) k 2 [] st ni) = OutOfFuel /\
      s_stop (slide_fuel n es (fun _ => OTrue) k 3 [] st ni) = OutOfFuel /\
      s_stop (slide_fuel n es (fun _ => OTrue) k 1 [] st ni) = OutOfFuel).
  { induction n as [|n IH]; intros; [repeat split; reflexivity|].
    repeat split; simpl; unfold label_pos; simpl; apply IH. }
  intros n. apply H.
Qed.

(* the hypotheses of slide_bound are inhabited: a guarded flow and two of the (position, catch stack)
   configurations the verifier predicts for it *)
Example guarded_inhabited :
  let es := [EWaitInt true; ECatch (Some 0); EBlock BMatch; EJump 1 false; ELabel 0 false; EWaitHeads; ECatch None;
             EStep; EAbort; ELabel 1 false; ECatch None] in
  guardedb [es] = true /\ stk_at (compute_stk es) 1 = Some [] /\ stk_at (compute_stk es) 3 = Some [0].
Proof. repeat split. Qed.
