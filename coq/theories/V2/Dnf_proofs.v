(* C07 - the DNF normaliser of Dnf.v never raises and returns exactly `dnf (nf f)` (normalize_nf);
   `nf f` spells the same boolean function as f (nf_eval).  Equivalence and shape of the result
   follow from these two. *)
From Coq Require Import List Bool.
From NG Require Import V2.Dnf.
Import ListNotations.

Lemma existsb_map {X Y} (g : Y -> bool) (h : X -> Y) (l : list X) :
  existsb g (map h l) = existsb (fun x => g (h x)) l.
Proof. induction l as [|x l IH]; simpl; [reflexivity|]. now rewrite IH. Qed.

Lemma existsb_ext_in {X} (g h : X -> bool) (l : list X) :
  (forall x, In x l -> g x = h x) -> existsb g l = existsb h l.
Proof.
  induction l as [|x l IH]; simpl; intros H; [reflexivity|].
  rewrite (H x) by now left. rewrite IH; [reflexivity|]. intros y Hy. apply H. now right.
Qed.

Lemma existsb_false_in {X} (g : X -> bool) (l : list X) :
  existsb g l = false -> forall x, In x l -> g x = false.
Proof.
  intros H x Hx. destruct (g x) eqn:Hg; [|reflexivity].
  assert (existsb g l = true) by (apply existsb_exists; eauto). congruence.
Qed.

Lemma forallb_false_ex {X} (g : X -> bool) (l : list X) :
  forallb g l = false -> exists x, In x l /\ g x = false.
Proof.
  induction l as [|x l IH]; simpl; [discriminate|]. destruct (g x) eqn:Hg.
  - intros H. destruct (IH H) as [y [Hy Hgy]]. exists y. auto.
  - exists x. auto.
Qed.

Section Proofs.
  Variable A : Type.
  Notation formula := (formula A).

  Lemma mapM_some {X Y} (k : X -> option Y) (g : X -> Y) l :
    Forall (fun x => k x = Some (g x)) l -> mapM k l = Some (map g l).
  Proof.
    induction 1 as [|x xs Hx _ IH]; simpl; [reflexivity|].
    rewrite Hx. simpl. rewrite IH. reflexivity.
  Qed.

  Lemma flat_map_map {X Y Z} (g : X -> Y) (h : Y -> list Z) l :
    flat_map h (map g l) = flat_map (fun x => h (g x)) l.
  Proof. induction l as [|x xs IH]; simpl; [reflexivity|]. now rewrite IH. Qed.

  Lemma map_flat_map {X Y Z} (g : Y -> Z) (h : X -> list Y) l :
    map g (flat_map h l) = flat_map (fun x => map g (h x)) l.
  Proof. induction l as [|x xs IH]; simpl; [reflexivity|]. now rewrite map_app, IH. Qed.

  Lemma flat_map_singleton {X} (l : list X) : flat_map (fun x => [x]) l = l.
  Proof. induction l as [|x xs IH]; simpl; [reflexivity|]. now rewrite IH. Qed.

  Lemma flatten_conjs (alts : list (list A)) :
    flat_map (fun elem : formula => match elem with Or l' => l' | _ => [elem] end) (map conjf alts)
    = map conjf alts.
  Proof.
    induction alts as [|c cs IH]; simpl; [reflexivity|]. now rewrite IH.
  Qed.

  Lemma mapM_map_some {X Y Z} (k : Y -> option Z) (h : X -> Y) (g : X -> Z) l :
    (forall x, k (h x) = Some (g x)) -> mapM k (map h l) = Some (map g l).
  Proof. intros H. induction l as [|x xs IH]; simpl; [reflexivity|]. now rewrite H, IH. Qed.

  Lemma distribute_conjs (xs ys : list (list A)) :
    distribute (map conjf xs) (map conjf ys) = Some (map conjf (cross xs ys)).
  Proof.
    unfold distribute.
    rewrite (mapM_map_some _ conjf (fun x => map (fun y => conjf (x ++ y)) ys)).
    - cbn [bind]. f_equal. rewrite <- flat_map_concat_map. unfold cross. rewrite map_flat_map.
      apply flat_map_ext. intros x. now rewrite map_map.
    - intros x. apply mapM_map_some. intros y. unfold conjf. cbn [elements bind].
      now rewrite map_app.
  Qed.

  (* the loop of the spec_and branch, started from well-shaped results *)
  Lemma norm_and_fold (rec : formula -> option formula) (l : list formula) :
    Forall (fun e => rec e = Some (dnf (nf e))) l ->
    forall acc,
      fold_left
        (fun (acc : option (list formula)) elem =>
           bind acc (fun results =>
           bind (match elem with
                 | Atom _ => Some (Or [And [elem]])
                 | _ => rec elem
                 end) (fun normalized =>
           bind (elements normalized) (fun norm_elems =>
           distribute results norm_elems))))
        l (Some (map conjf acc))
      = Some (map conjf (fold_left (fun acc e => cross acc (nf e)) l acc)).
  Proof.
    induction 1 as [|e es He _ IH]; intros acc; simpl; [reflexivity|].
    replace (match e with Atom _ => Some (Or [And [e]]) | _ => rec e end) with (Some (dnf (nf e)))
      by (now destruct e).
    simpl. rewrite distribute_conjs. apply IH.
  Qed.

  Lemma norm_and_nf (rec : formula -> option formula) (l : list formula) :
    Forall (fun e => rec e = Some (dnf (nf e))) l ->
    norm_and rec l = Some (dnf (nf (And l))).
  Proof.
    intros H. unfold norm_and.
    change (Some [And (@nil formula)]) with (Some (map (@conjf A) [[]])).
    rewrite (norm_and_fold rec l H). simpl. unfold flatten_or. simpl.
    rewrite flatten_conjs. reflexivity.
  Qed.

  (* the spec_or branch: an element normalises to `And [e]` (a Spec) or to an or-group of
     and-groups, and or-flattening splices both into the list of and-groups of `nf e` *)
  Lemma norm_or_nf (rec : formula -> option formula) (l : list formula) :
    Forall (fun e => rec e = Some (dnf (nf e))) l ->
    bind (mapM (fun elem => match elem with Atom _ => Some (And [elem]) | _ => rec elem end) l)
         (fun els => flatten_or (Or els))
    = Some (dnf (nf (Or l))).
  Proof.
    intros H.
    rewrite (mapM_some _ (fun e : formula => match e with Atom _ => And [e] | _ => dnf (nf e) end))
      by (eapply Forall_impl; [|exact H]; intros e He; now destruct e).
    unfold flatten_or, dnf. simpl. do 2 f_equal.
    rewrite flat_map_map, map_flat_map. apply flat_map_ext. intros e. now destruct e.
  Qed.

  Theorem normalize_nf : forall f : formula, normalize f = Some (dnf (nf f)).
  Proof.
    induction f as [a | l IH | l IH] using formula_ind'.
    - reflexivity.
    - apply norm_and_nf, IH.
    - apply norm_or_nf, IH.
  Qed.

  Variable s : A -> bool.

  Lemma eval_conj (c : list A) : eval s (conjf c) = forallb s c.
  Proof. unfold conjf. simpl. induction c as [|a c IH]; simpl; [reflexivity|]. now rewrite IH. Qed.

  Lemma eval_dnf_ok (alts : list (list A)) : eval s (dnf alts) = eval_dnf s alts.
  Proof.
    unfold dnf, eval_dnf. cbn [eval]. induction alts as [|c cs IH]; cbn [map existsb]; [reflexivity|].
    now rewrite eval_conj, IH.
  Qed.

  Lemma eval_dnf_app (xs ys : list (list A)) :
    eval_dnf s (xs ++ ys) = eval_dnf s xs || eval_dnf s ys.
  Proof. unfold eval_dnf. apply existsb_app. Qed.

  Lemma eval_dnf_map_app (x : list A) (ys : list (list A)) :
    eval_dnf s (map (fun y => x ++ y) ys) = forallb s x && eval_dnf s ys.
  Proof.
    unfold eval_dnf. induction ys as [|y ys IHy]; simpl.
    - now rewrite andb_false_r.
    - rewrite IHy, forallb_app. now rewrite andb_orb_distrib_r.
  Qed.

  Lemma eval_dnf_cross (xs ys : list (list A)) :
    eval_dnf s (cross xs ys) = eval_dnf s xs && eval_dnf s ys.
  Proof.
    unfold cross. induction xs as [|x xs IH]; simpl; [reflexivity|].
    rewrite eval_dnf_app, IH, eval_dnf_map_app.
    change (eval_dnf s (x :: xs)) with (forallb s x || eval_dnf s xs).
    now rewrite andb_orb_distrib_l.
  Qed.

  Lemma nf_and_fold (l : list formula) :
    Forall (fun e => eval_dnf s (nf e) = eval s e) l ->
    forall acc,
      eval_dnf s (fold_left (fun acc e => cross acc (nf e)) l acc)
      = eval_dnf s acc && forallb (eval s) l.
  Proof.
    induction 1 as [|e es He _ IH]; intros acc; simpl.
    - now rewrite andb_true_r.
    - rewrite IH, eval_dnf_cross, He. now rewrite andb_assoc.
  Qed.

  Lemma nf_or_eval (l : list formula) :
    Forall (fun e => eval_dnf s (nf e) = eval s e) l ->
    eval_dnf s (flat_map nf l) = existsb (eval s) l.
  Proof.
    induction 1 as [|e es He _ IH]; simpl; [reflexivity|]. now rewrite eval_dnf_app, He, IH.
  Qed.

  Theorem nf_eval : forall f : formula, eval_dnf s (nf f) = eval s f.
  Proof.
    induction f as [a | l IH | l IH] using formula_ind'.
    - simpl. unfold eval_dnf. simpl. now rewrite andb_true_r, orb_false_r.
    - simpl. now rewrite nf_and_fold by exact IH.
    - apply nf_or_eval, IH.
  Qed.

  Theorem normalize_equiv : forall (f d : formula), normalize f = Some d -> eval s d = eval s f.
  Proof.
    intros f d H. rewrite normalize_nf in H. inversion H; subst.
    now rewrite eval_dnf_ok, nf_eval.
  Qed.

End Proofs.

Lemma mapM_atom_of (A : Type) (c : list A) : mapM atom_of (map Atom c) = Some c.
Proof. induction c as [|a c IHc]; simpl; [reflexivity|]. now rewrite IHc. Qed.

(* `alts_of` reads the result the way _expand_match_element / _expand_await_element /
   _expand_when_stmt_element subscript it: normalized_group["elements"][i]["elements"][j] *)
Lemma alts_of_dnf (A : Type) (alts : list (list A)) : alts_of (dnf alts) = Some alts.
Proof.
  unfold alts_of, dnf. cbn [elements bind].
  induction alts as [|c cs IH]; cbn [map mapM]; [reflexivity|].
  unfold conjf at 1. cbn [elements bind]. rewrite mapM_atom_of. cbn [bind].
  rewrite IH. reflexivity.
Qed.

Lemma nf_no_empty_alt (A : Type) (f : formula A) :
  eval (fun _ => false) f = false -> Forall (fun c => c <> []) (nf f).
Proof.
  intros H. rewrite <- nf_eval in H.
  apply Forall_forall. intros c Hc ->. discriminate (existsb_false_in _ _ H [] Hc).
Qed.

(* groups with at least one element each (what the parser produces) are false on the empty set *)
Lemma wf_eval_empty (A : Type) (f : formula A) :
  wf f = true -> eval (fun _ => false) f = false.
Proof.
  induction f as [a | l IH | l IH] using formula_ind'; intros Hwf; simpl in *.
  - reflexivity.
  - destruct l as [|e es]; [discriminate|]. simpl in *.
    apply andb_true_iff in Hwf. destruct Hwf as [He _].
    inversion IH as [|? ? IHe _]; subst. now rewrite (IHe He).
  - apply andb_true_iff in Hwf. destruct Hwf as [_ Hall].
    induction IH as [|x xs Hx _ IHxs]; simpl in *; [reflexivity|].
    apply andb_true_iff in Hall. destruct Hall as [Hx' Hxs'].
    rewrite (Hx Hx'). simpl. apply IHxs. exact Hxs'.
Qed.

Lemma eval_mono_on_atoms (A : Type) (s s' : A -> bool) (f : formula A) :
  (forall a, In a (atoms f) -> s a = true -> s' a = true) -> eval s f = true -> eval s' f = true.
Proof.
  induction f as [a | l IH | l IH] using formula_ind'; simpl; intros H.
  - apply H. now left.
  - rewrite !forallb_forall. intros Hall x Hx. rewrite Forall_forall in IH.
    apply (IH x Hx); [|exact (Hall x Hx)]. intros a Ha. apply H, in_flat_map. eauto.
  - rewrite !existsb_exists. intros [x [Hx Hs]]. exists x. split; [exact Hx|].
    rewrite Forall_forall in IH. apply (IH x Hx); [|exact Hs]. intros a Ha. apply H, in_flat_map. eauto.
Qed.

Lemma eval_mono (A : Type) (s s' : A -> bool) (f : formula A) :
  (forall a, s a = true -> s' a = true) -> eval s f = true -> eval s' f = true.
Proof. intros H. apply eval_mono_on_atoms. auto. Qed.

Lemma eval_ext_atoms (A : Type) (s s' : A -> bool) (f : formula A) :
  (forall a, In a (atoms f) -> s a = s' a) -> eval s f = eval s' f.
Proof.
  intros H. apply eq_true_iff_eq.
  split; apply eval_mono_on_atoms; intros a Ha; rewrite (H a Ha); auto.
Qed.

Lemma eval_ext (A : Type) (s s' : A -> bool) (f : formula A) :
  (forall a, s a = s' a) -> eval s f = eval s' f.
Proof. intros H. apply eval_ext_atoms. auto. Qed.

(* non-vacuity: a nested group whose DNF has four alternatives, and an assignment under
   which exactly the last alternative is satisfied *)
Example normalize_equiv_example :
  let f := And [Or [Atom 1; Atom 2]; Or [Atom 3; And [Atom 4; Atom 5]]] in
  let s := fun a => Nat.eqb a 2 || Nat.eqb a 4 || Nat.eqb a 5 in
  normalize f = Some (Or [And [Atom 1; Atom 3]; And [Atom 1; Atom 4; Atom 5];
                          And [Atom 2; Atom 3]; And [Atom 2; Atom 4; Atom 5]])
  /\ eval s f = true
  /\ eval (fun a => Nat.eqb a 2 || Nat.eqb a 4) f = false.
Proof. repeat split. Qed.
