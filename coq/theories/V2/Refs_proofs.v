(* C09 - proofs about V2/Refs.v: "every listening instance only references existing actions"
   holds initially and is preserved by every operation, hence by every finite sequence. *)
From Coq Require Import NArith List Bool.
From NG Require Import V2.Index V2.Index_proofs V2.Refs.
Import ListNotations.
Open Scope N_scope.

Definition ARefsOK (s : astate) : Prop :=
  forall f refs, aget N.eqb (a_insts s) f = Some (true, refs) ->
                 forall a, In a refs -> In a (a_actions s).

Lemma memN_In x l : memN x l = true <-> In x l.
Proof.
  unfold memN. split; intro H.
  - apply existsb_exists in H. destruct H as [y [Hin He]]. apply N.eqb_eq in He. subst. exact Hin.
  - apply existsb_exists. exists x. split; [exact H | apply N.eqb_refl].
Qed.

Lemma subsetb_spec l m : subsetb l m = true <-> (forall a, In a l -> In a m).
Proof.
  unfold subsetb. split; intro H.
  - intros a Ha. apply memN_In. exact (proj1 (forallb_forall _ _) H a Ha).
  - apply forallb_forall. intros a Ha. apply memN_In. exact (H a Ha).
Qed.

Lemma refs_okb_sound acts insts :
  refs_okb acts insts = true ->
  forall f refs, aget N.eqb insts f = Some (true, refs) -> forall a, In a refs -> In a acts.
Proof.
  intros H f refs Hg. exact (proj1 (subsetb_spec _ _) (forallb_aget _ N.eqb_eq _ _ _ _ H Hg)).
Qed.

Lemma refs_okb_mono a b insts :
  (forall x, In x a -> In x b) -> refs_okb a insts = true -> refs_okb b insts = true.
Proof.
  intros Hab H. unfold refs_okb in *. apply forallb_forall. intros p Hp.
  pose proof (proj1 (forallb_forall _ _) H p Hp) as Hs. cbv beta in Hs. destruct (fst (snd p)); [|reflexivity].
  apply subsetb_spec. intros x Hx. apply Hab. exact (proj1 (subsetb_spec _ _) Hs x Hx).
Qed.

Lemma forallb_aset {V} (P : N * V -> bool) (l : list (N * V)) (k : N) v :
  forallb P l = true -> P (k, v) = true -> forallb P (aset N.eqb l k v) = true.
Proof.
  intros Hl Hp. unfold aset. destruct (amem N.eqb l k).
  - apply forallb_forall. intros x Hx. apply in_map_iff in Hx. destruct Hx as [y [Hy Hin]].
    destruct (N.eqb (fst y) k); subst; [exact Hp | exact (proj1 (forallb_forall _ _) Hl _ Hin)].
  - rewrite forallb_app. apply andb_true_intro. split; [exact Hl | simpl; rewrite Hp; reflexivity].
Qed.

Lemma forallb_adel {V} (P : N * V -> bool) (l : list (N * V)) (k : N) :
  forallb P l = true -> forallb P (adel N.eqb l k) = true.
Proof.
  intro Hl. unfold adel. apply forallb_forall. intros x Hx.
  apply filter_In in Hx. exact (proj1 (forallb_forall _ _) Hl _ (proj1 Hx)).
Qed.

Definition AOk (s : astate) : Prop := refs_okb (a_actions s) (a_insts s) = true.

Theorem astep_ok s o s' : AOk s -> astep s o = Some s' -> AOk s'.
Proof.
  unfold AOk. intros H Hs. destruct o; simpl in Hs.
  - inversion Hs; subst; clear Hs. simpl. eapply refs_okb_mono; [|exact H].
    intros x Hx. destruct (memN a (a_actions s)); [exact Hx | apply in_or_app; left; exact Hx].
  - destruct (memN a (a_actions s)); [|discriminate].
    destruct (refs_okb (filter (fun x : N => negb (N.eqb x a)) (a_actions s)) (a_insts s)) eqn:E; inversion Hs; subst. exact E.
  - destruct (refs_okb keep (a_insts s)) eqn:E; inversion Hs; subst. exact E.
  - destruct (lis && negb (subsetb refs (a_actions s))) eqn:E; inversion Hs; subst; clear Hs. simpl.
    unfold refs_okb. apply forallb_aset; [exact H|]. simpl.
    destruct lis; [|reflexivity]. simpl in E. destruct (subsetb refs (a_actions s)); [reflexivity | discriminate].
  - inversion Hs; subst. simpl. unfold refs_okb. apply forallb_adel. exact H.
Qed.

Theorem arun_ok ops : forall s s', AOk s -> arun s ops = Some s' -> AOk s'.
Proof.
  induction ops as [|o t IH]; simpl; intros s s' H Hr.
  - inversion Hr; subst. exact H.
  - destruct (astep s o) as [s1|] eqn:E; [|discriminate]. exact (IH _ _ (astep_ok _ _ _ H E) Hr).
Qed.

(* from a snapshot of the real State that passed the check *)
Theorem continued_refs_exist s0 ops s :
  AOk s0 -> arun s0 ops = Some s -> ARefsOK s.
Proof.
  intros H0 H. unfold ARefsOK. apply refs_okb_sound. exact (arun_ok ops s0 s H0 H).
Qed.

Theorem reachable_refs_exist ops s :
  arun empty_astate ops = Some s -> ARefsOK s.
Proof. exact (continued_refs_exist empty_astate ops s eq_refl). Qed.
