(* C07 - proofs about the head protocol (model in Groups.v).
   The state of a group statement depends only on the SET s of members that have matched:
   `St s alts`.  One event takes `St s` to `St s'` with s' = s plus what the event matches, or
   completes the statement iff s' satisfies an alternative (deliver_St).  Hence a run completes
   at the first prefix of the events whose received set satisfies the formula (run_first_sat);
   `first_at` is that notion of "first prefix", and the remaining theorems are facts about it. *)
From Coq Require Import List Bool Arith Lia Permutation.
From NG Require Import V2.Dnf V2.Dnf_proofs V2.Groups.
Import ListNotations.

Lemma find_seq_shift (g h : nat -> bool) (a len : nat) :
  (forall n, g (S n) = h n) ->
  find g (seq (S a) len) = option_map S (find h (seq a len)).
Proof.
  intros Hgh. revert a. induction len as [|len IH]; intros a; simpl; [reflexivity|].
  rewrite Hgh. destruct (h a); [reflexivity|]. apply IH.
Qed.

Lemma find_seq_some (g : nat -> bool) (a len n : nat) :
  find g (seq a len) = Some n <->
  (a <= n < a + len /\ g n = true /\ forall m, a <= m < n -> g m = false).
Proof.
  revert a. induction len as [|len IH]; intros a; simpl.
  - split; [discriminate|]. intros [H _]. lia.
  - destruct (g a) eqn:Hga.
    + split.
      * intros [= <-]. repeat split; try lia; auto.
      * intros [Hr [Hgn Hlt]]. destruct (Nat.eq_dec a n) as [->|Hne]; [reflexivity|].
        rewrite Hlt in Hga by lia. discriminate.
    + rewrite IH. split; intros [Hr [Hgn Hlt]].
      * repeat split; try lia; auto.
        intros m Hm. destruct (Nat.eq_dec m a) as [->|Hne]; [exact Hga|]. apply Hlt. lia.
      * assert (Hne : a <> n) by congruence.
        repeat split; try lia; auto. intros m Hm. apply Hlt. lia.
Qed.

Lemma find_seq_none (g : nat -> bool) (a len : nat) :
  find g (seq a len) = None <-> (forall m, a <= m < a + len -> g m = false).
Proof.
  split.
  - intros H m Hm. apply (find_none _ _ H). apply in_seq. lia.
  - intros H. destruct (find g (seq a len)) as [n|] eqn:Hf; [|reflexivity].
    apply find_seq_some in Hf. destruct Hf as [Hr [Hgn _]].
    rewrite (H n Hr) in Hgn. discriminate.
Qed.

Lemma filter_map_length {X Y} (g : Y -> bool) (h : X -> Y) (k : X -> bool) (l : list X) :
  (forall x, In x l -> g (h x) = k x) -> length (filter g (map h l)) = length (filter k l).
Proof.
  induction l as [|x l IH]; simpl; intros H; [reflexivity|].
  rewrite (H x) by now left. specialize (IH (fun y Hy => H y (or_intror Hy))).
  destruct (k x); simpl; now rewrite IH.
Qed.

Lemma filter_length_le {X} (g : X -> bool) (l : list X) : length (filter g l) <= length l.
Proof. induction l as [|x l IH]; simpl; [lia|]. destruct (g x); simpl; lia. Qed.

(* WaitForHeads(number of members) passes iff all members wait *)
Lemma need_met {X} (g : X -> bool) (l : list X) :
  (length l <=? length (filter g l)) = forallb g l.
Proof.
  induction l as [|x l IH]; [reflexivity|].
  cbn [filter forallb length]. destruct (g x); cbn [length andb].
  - exact IH.
  - apply Nat.leb_gt. pose proof (filter_length_le g l). lia.
Qed.

Section FirstAt.
  Variable E : Type.

  Definition first_at (g : list E -> bool) (p r : list E) : option nat :=
    find (fun n => g (p ++ firstn n r)) (seq 1 (length r)).
  Arguments first_at : simpl never.

  Lemma first_at_nil g p : first_at g p [] = None.
  Proof. reflexivity. Qed.

  Lemma first_at_cons g p e r :
    first_at g p (e :: r)
    = if g (p ++ [e]) then Some 1 else option_map S (first_at g (p ++ [e]) r).
  Proof.
    unfold first_at. cbn [length seq find firstn]. destruct (g (p ++ [e])); [reflexivity|].
    apply find_seq_shift. intros n. cbn [firstn]. now rewrite <- app_assoc.
  Qed.

  Lemma first_at_some g p r n :
    first_at g p r = Some n <->
    (1 <= n <= length r
     /\ g (p ++ firstn n r) = true
     /\ forall m, 1 <= m < n -> g (p ++ firstn m r) = false).
  Proof.
    unfold first_at. rewrite find_seq_some.
    split; intros [Hr H]; (split; [lia | exact H]).
  Qed.

  Lemma first_at_none g p r :
    first_at g p r = None <-> (forall m, 1 <= m <= length r -> g (p ++ firstn m r) = false).
  Proof.
    unfold first_at. rewrite find_seq_none.
    split; intros H m Hm; apply H; lia.
  Qed.

  Lemma first_at_none_last g p r :
    g p = false -> first_at g p r = None -> g (p ++ r) = false.
  Proof.
    intros Hp Hn. destruct r as [|e r]; [now rewrite app_nil_r|].
    rewrite <- (firstn_all (e :: r)) at 1. apply (proj1 (first_at_none g p (e :: r)) Hn).
    simpl. lia.
  Qed.

  Lemma first_at_ext g g' p p' r :
    (forall q, g (p ++ q) = g' (p' ++ q)) -> first_at g p r = first_at g' p' r.
  Proof.
    revert p p'. induction r as [|e r IH]; intros p p' H; [reflexivity|].
    rewrite !first_at_cons, H, (IH (p ++ [e]) (p' ++ [e])); [reflexivity|].
    intros q. rewrite <- !app_assoc. apply H.
  Qed.

  Lemma first_at_app g p r1 r2 :
    first_at g p (r1 ++ r2)
    = match first_at g p r1 with
      | Some n => Some n
      | None => option_map (Nat.add (length r1)) (first_at g (p ++ r1) r2)
      end.
  Proof.
    revert p. induction r1 as [|e r1 IH]; intros p.
    - rewrite first_at_nil, app_nil_r. cbn [app]. now destruct (first_at g p r2).
    - cbn [app]. rewrite !first_at_cons, IH. destruct (g (p ++ [e])); [reflexivity|].
      rewrite <- app_assoc. destruct (first_at g (p ++ [e]) r1); [reflexivity|].
      cbn [app]. now destruct (first_at g (p ++ e :: r1) r2).
  Qed.

  (* an inserted event x that makes no difference to g moves the first moment one step, if it
     comes later than x *)
  Lemma first_at_insert g p x r :
    g [] = false ->
    (forall q, g (p ++ x :: q) = g (p ++ q)) ->
    first_at g [] (p ++ x :: r)
    = option_map (fun n => if n <=? length p then n else S n) (first_at g [] (p ++ r)).
  Proof.
    intros H0 Hx. rewrite !first_at_app. destruct (first_at g [] p) as [n|] eqn:Hp; cbn.
    - apply first_at_some in Hp. destruct Hp as [Hr _].
      destruct (Nat.leb_spec n (length p)); [reflexivity|lia].
    - pose proof (first_at_none_last g [] p H0 Hp) as Hgp. cbn in Hgp.
      rewrite first_at_cons, (Hx []), app_nil_r, Hgp.
      rewrite (first_at_ext g g (p ++ [x]) p r) by (intros q; rewrite <- app_assoc; apply Hx).
      destruct (first_at g p r) as [n|] eqn:Hr; cbn; [|reflexivity].
      apply first_at_some in Hr. destruct Hr as [Hr _].
      destruct (Nat.leb_spec (length p + n) (length p)); [lia|]. f_equal. lia.
  Qed.
End FirstAt.

Arguments first_at {E} g p r : simpl never.

(* shifting a completion step past an inserted event at position |p| *)
Definition shift_after (k : nat) (o : outcome) : outcome :=
  match o with
  | OAt n => if n <=? k then OAt n else OAt (S n)
  | o => o
  end.

Definition at_step (o : option nat) : outcome :=
  match o with Some n => OAt n | None => ONever end.

Lemma at_step_at o n : at_step o = OAt n <-> o = Some n.
Proof. destruct o; simpl; split; congruence. Qed.

Lemma at_step_never o : at_step o = ONever <-> o = None.
Proof. destruct o; simpl; split; congruence. Qed.

Lemma shift_after_at_step k o :
  shift_after k (at_step o) = at_step (option_map (fun n => if n <=? k then n else S n) o).
Proof. destruct o as [n|]; simpl; [now destruct (n <=? k) | reflexivity]. Qed.

Section Proofs.
  Variable A : Type.
  Variable E : Type.
  Variable mt : A -> E -> bool.

  Notation received := (received mt).
  Notation head := (@head A).

  Lemma nf_conj_fold (c : list A) : forall acc : list A,
    fold_left (fun acc0 e => cross acc0 (nf e)) (map Atom c) [acc] = [acc ++ c].
  Proof.
    induction c as [|a c IH]; intros acc; simpl.
    - now rewrite app_nil_r.
    - rewrite IH. now rewrite <- app_assoc.
  Qed.

  Lemma nf_conj (c : list A) : nf (And (map Atom c)) = [c].
  Proof. simpl. apply nf_conj_fold. Qed.

  Lemma branch_of_group_conj (c : list A) :
    branch_of_group (And (map Atom c)) = Some (branch_of c).
  Proof.
    unfold branch_of_group. rewrite normalize_nf. cbn [bind].
    rewrite alts_of_dnf. cbn [bind]. rewrite nf_conj. reflexivity.
  Qed.

  Lemma branches_of_groups (alts : list (list A)) :
    mapM (fun c => branch_of_group (And (map Atom c))) alts = Some (map branch_of alts).
  Proof. apply mapM_some, Forall_forall. intros c _. apply branch_of_group_conj. Qed.

  Theorem compile_spec (st : stmt) (f : formula A) :
    compile st f = Some (prog_of st (nf f)).
  Proof.
    unfold compile. rewrite normalize_nf. cbn [bind]. rewrite alts_of_dnf. cbn [bind].
    destruct st, (nf f) as [|c [|c' cs]];
      rewrite ?branches_of_groups, ?branch_of_group_conj; reflexivity.
  Qed.

  (* in every and-fork the WaitForHeads number is the number of member heads *)
  Lemma branch_of_wait (c ms : list A) (n : nat) :
    branch_of c = BAnd ms n -> ms = c /\ n = length c.
  Proof.
    destruct c as [|a [|b c]]; simpl; intros H; inversion H; auto.
  Qed.

  Definition hd_of (s : A -> bool) (a : A) : head := if s a then HWait else HMatch a.
  Definition B (s : A -> bool) (c : list A) : bstate A := mkB (map (hd_of s) c) (length c).
  Definition St (s : A -> bool) (alts : list (list A)) : gstate A := GActive (map (B s) alts).

  Lemma init_branch_of (c : list A) : init_branch (branch_of c) = B (received []) c.
  Proof. destruct c as [|a [|b c]]; reflexivity. Qed.

  Lemma init_prog_of (st : stmt) (alts : list (list A)) :
    init (prog_of st alts) = St (received []) alts.
  Proof.
    assert (HI : init (POr (map branch_of alts)) = St (received []) alts).
    { unfold St. simpl. f_equal. rewrite map_map. apply map_ext. exact init_branch_of. }
    destruct st, alts as [|c [|c' cs]]; try exact HI;
      unfold St; simpl; now rewrite init_branch_of.
  Qed.

  Lemma heads_waiting (s : A -> bool) (c : list A) :
    length (filter is_wait (map (hd_of s) c)) = length (filter s c).
  Proof. apply filter_map_length. intros a _. unfold hd_of. now destruct (s a). Qed.

  Lemma heads_adv (s s' : A -> bool) (e : E) (c : list A) :
    (forall a, In a c -> s' a = s a || mt a e) ->
    map (adv_head mt e) (map (hd_of s) c) = map (hd_of s') c.
  Proof.
    intros Hs'. rewrite map_map. apply map_ext_in. intros a Ha.
    unfold hd_of. rewrite (Hs' a Ha). destruct (s a); [reflexivity|].
    simpl. now destruct (mt a e).
  Qed.

  (* the WaitForHeads test of an alternative that was not complete before:
     it passes iff all members have matched now *)
  Lemma heads_pass (s s' : A -> bool) (e : E) (c : list A) :
    (forall a, In a c -> s' a = s a || mt a e) ->
    forallb s c = false ->
    existsb (head_moves mt e) (map (hd_of s) c)
    && (length c <=? length (filter is_wait (map (adv_head mt e) (map (hd_of s) c))))
    = forallb s' c.
  Proof.
    intros Hs' Hnot. rewrite (heads_adv s s' e c Hs'), heads_waiting, need_met.
    destruct (forallb s' c) eqn:Hall; [|apply andb_false_r]. rewrite andb_true_r.
    (* a member missing before has matched now: its head moves on e *)
    destruct (forallb_false_ex _ _ Hnot) as [a [Ha Hsa]].
    apply existsb_exists. exists (hd_of s a). split; [now apply in_map|].
    rewrite forallb_forall in Hall. specialize (Hall a Ha).
    rewrite (Hs' a Ha), Hsa in Hall. unfold hd_of. rewrite Hsa. exact Hall.
  Qed.

  Lemma adv_B (s s' : A -> bool) (e : E) (c : list A) :
    (forall a, In a c -> s' a = s a || mt a e) ->
    adv_branch mt e (B s c) = B s' c.
  Proof. intros Hs'. unfold adv_branch, B. cbn [b_heads b_need]. f_equal. now apply heads_adv. Qed.

  Lemma deliver_St (s s' : A -> bool) (e : E) (alts : list (list A)) :
    (forall a, s' a = s a || mt a e) ->
    eval_dnf s alts = false ->
    deliver mt (St s alts) e
    = if eval_dnf s' alts then (GDone, true) else (St s' alts, false).
  Proof.
    intros Hs' Hinv. unfold deliver, St.
    assert (Hex : existsb (passes mt e) (map (B s) alts) = eval_dnf s' alts).
    { rewrite existsb_map. apply existsb_ext_in. intros c Hc.
      apply heads_pass; [auto | exact (existsb_false_in _ _ Hinv c Hc)]. }
    rewrite Hex. destruct (eval_dnf s' alts); [reflexivity|].
    do 2 f_equal. rewrite map_map. apply map_ext. intros c. apply adv_B. auto.
  Qed.

  Lemma received_app (p q : list E) (a : A) :
    received (p ++ q) a = received p a || received q a.
  Proof. apply existsb_app. Qed.

  Lemma received_snoc (p : list E) (e : E) (a : A) :
    received (p ++ [e]) a = received p a || mt a e.
  Proof. rewrite received_app. simpl. now rewrite orb_false_r. Qed.

  Lemma run_from_St (g : list E -> bool) (alts : list (list A)) :
    (forall q, g q = eval_dnf (received q) alts) ->
    forall (r p : list E) (k : nat),
      g p = false ->
      run_from mt (St (received p) alts) r k
      = match first_at g p r with Some n => OAt (k + n) | None => ONever end.
  Proof.
    intros Hg. induction r as [|e r IH]; intros p k Hinv; [reflexivity|].
    cbn [run_from]. rewrite first_at_cons.
    rewrite (deliver_St (received p) (received (p ++ [e])) e alts (received_snoc p e))
      by (rewrite <- Hg; exact Hinv).
    rewrite <- Hg. destruct (g (p ++ [e])) eqn:Hsat.
    - now rewrite Nat.add_1_r.
    - rewrite (IH _ _ Hsat). destruct (first_at g (p ++ [e]) r); simpl; [|reflexivity].
      now rewrite Nat.add_succ_r.
  Qed.

  Lemma first_sat_first_at (f : formula A) (evs : list E) :
    first_sat mt f evs = at_step (first_at (fun q => eval (received q) f) [] evs).
  Proof. reflexivity. Qed.

  (* THE protocol theorem: a group statement completes exactly at the first moment the
     events received since it became active satisfy the formula *)
  Theorem run_first_sat (st : stmt) (f : formula A) (evs : list E) :
    eval (fun _ => false) f = false ->
    run mt st f evs = first_sat mt f evs.
  Proof.
    intros H0. unfold run. rewrite compile_spec, init_prog_of.
    exact (run_from_St (fun q => eval (received q) f) (nf f)
                       (fun q => eq_sym (nf_eval A (received q) f)) evs [] 0 H0).
  Qed.

  Lemma run_from_no_error (s : gstate A) (evs : list E) : forall k, run_from mt s evs k <> OErr.
  Proof.
    revert s. induction evs as [|e r IH]; intros s k; simpl; [discriminate|].
    destruct (deliver mt s e) as [s' d]. destruct d; [discriminate|apply IH].
  Qed.

  Theorem run_no_error (st : stmt) (f : formula A) (evs : list E) : run mt st f evs <> OErr.
  Proof. unfold run. rewrite compile_spec. apply run_from_no_error. Qed.

  Theorem first_sat_at (f : formula A) (evs : list E) (n : nat) :
    first_sat mt f evs = OAt n <->
    (1 <= n <= length evs
     /\ eval (received (firstn n evs)) f = true
     /\ forall m, 1 <= m < n -> eval (received (firstn m evs)) f = false).
  Proof. rewrite first_sat_first_at, at_step_at. apply first_at_some. Qed.

  Theorem first_sat_never (f : formula A) (evs : list E) :
    first_sat mt f evs = ONever <->
    (forall m, 1 <= m <= length evs -> eval (received (firstn m evs)) f = false).
  Proof. rewrite first_sat_first_at, at_step_never. apply first_at_none. Qed.

  Lemma first_sat_not_err (f : formula A) (evs : list E) : first_sat mt f evs <> OErr.
  Proof. rewrite first_sat_first_at. now destruct (first_at _ [] evs). Qed.

  (* the same for the run; step 0 is covered by the hypothesis *)
  Theorem run_at_iff (st : stmt) (f : formula A) (evs : list E) (n : nat) :
    eval (fun _ => false) f = false ->
    (run mt st f evs = OAt n <->
     (1 <= n <= length evs
      /\ eval (received (firstn n evs)) f = true
      /\ forall m, m < n -> eval (received (firstn m evs)) f = false)).
  Proof.
    intros H0. rewrite (run_first_sat st f evs H0), first_sat_at.
    split; intros [Hr [Hs Hlt]]; (split; [exact Hr|]; split; [exact Hs|]).
    - intros [|m] Hm; [exact H0|]. apply Hlt. lia.
    - intros m Hm. apply Hlt. lia.
  Qed.

  Theorem run_never_iff (st : stmt) (f : formula A) (evs : list E) :
    eval (fun _ => false) f = false ->
    (run mt st f evs = ONever <->
     (forall m, m <= length evs -> eval (received (firstn m evs)) f = false)).
  Proof.
    intros H0. rewrite (run_first_sat st f evs H0), first_sat_never. split; intros H.
    - intros [|m] Hm; [exact H0|]. apply H. lia.
    - intros m Hm. apply H. lia.
  Qed.

  Lemma received_firstn_mono (evs : list E) (n : nat) (a : A) :
    received (firstn n evs) a = true -> received evs a = true.
  Proof.
    rewrite <- (firstn_skipn n evs) at 2. rewrite received_app. intros ->. reflexivity.
  Qed.

  (* whether the statement is complete after all the events depends only on the SET received *)
  Theorem completes_iff (st : stmt) (f : formula A) (evs : list E) :
    eval (fun _ => false) f = false ->
    ((exists n, run mt st f evs = OAt n) <-> eval (received evs) f = true).
  Proof.
    intros H0. rewrite (run_first_sat st f evs H0), first_sat_first_at.
    destruct (first_at (fun q => eval (received q) f) [] evs) as [n|] eqn:Hf; cbn.
    - split; [intros _|eauto]. apply first_at_some in Hf. destruct Hf as [_ [Hs _]].
      eapply eval_mono; [|exact Hs]. intros a. apply received_firstn_mono.
    - pose proof (first_at_none_last _ _ [] evs H0 Hf) as Hs. cbn in Hs. rewrite Hs.
      split; [intros [n Hn]|]; discriminate.
  Qed.

  Lemma received_perm (evs evs' : list E) (a : A) :
    Permutation evs evs' -> received evs a = received evs' a.
  Proof.
    unfold Groups.received. induction 1 as [|x l l' _ IH|x y l|l l' l'' _ IH1 _ IH2]; simpl.
    - reflexivity.
    - now rewrite IH.
    - destruct (mt a x), (mt a y); reflexivity.
    - now rewrite IH1.
  Qed.

  Theorem order_independent (st : stmt) (f : formula A) (evs evs' : list E) :
    eval (fun _ => false) f = false ->
    Permutation evs evs' ->
    ((exists n, run mt st f evs = OAt n) <-> (exists n, run mt st f evs' = OAt n)).
  Proof.
    intros H0 HP. rewrite !completes_iff by exact H0.
    rewrite (eval_ext A (received evs) (received evs') f); [reflexivity|].
    intros a. apply received_perm. exact HP.
  Qed.

  (* an event x that matches no atom of the group, or only atoms already received before it
     (a repeated event), does not change anything: the statement completes on the same event *)
  Theorem ignored_event (st : stmt) (f : formula A) (p r : list E) (x : E) :
    eval (fun _ => false) f = false ->
    (forall a, In a (atoms f) -> mt a x = true -> received p a = true) ->
    run mt st f (p ++ x :: r) = shift_after (length p) (run mt st f (p ++ r)).
  Proof.
    intros H0 Hx. rewrite !run_first_sat, !first_sat_first_at by exact H0.
    rewrite shift_after_at_step. f_equal. apply first_at_insert; [exact H0|].
    (* x adds nothing to the received set, on the atoms of f *)
    intros q. apply eval_ext_atoms. intros a Ha. rewrite !received_app.
    change (received (x :: q) a) with (mt a x || received q a).
    destruct (mt a x) eqn:Hm; [|reflexivity]. rewrite (Hx a Ha Hm). reflexivity.
  Qed.

End Proofs.
