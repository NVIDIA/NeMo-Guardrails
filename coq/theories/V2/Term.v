(* C10 part 1: `slide` of nemoguardrails/colang/v2_x/runtime/statemachine.py as a small-step function
   over the primitive element list of one flow, abstracted to what matters for termination and for
   where an exception can occur.  Data (expression values, event arguments) is replaced by an oracle
   that says, for the k-th executed element, whether its expression is true / false / raises.
   Then the premise `guardedb` (a checked certificate per flow) with four evaluated examples; the
   theorems are in Term_proofs.v.  Parts 2 and 3 of C10 (cascade, error isolation) are Cascade.v and
   Isolate.v, which build on this file. *)
From Coq Require Import List Arith Bool.
Import ListNotations.

Definition label := nat.
Definition flowid := nat.

(* why a head rests: BMatch = match on an external event (nothing inside the same run_to_completion
   can satisfy it); BAction = action send (the head is actionable and is advanced again by the outer
   loop of the same run); BMerge = MergeHeads *)
Inductive bkind := BMatch | BAction | BMerge.

Inductive elem : Type :=
| EBlock (k : bkind)              (* slide stops *)
| EWaitInt (started_making : bool) (* match on an internal event (FlowStarted/FlowFinished/...): slide stops;
                                      started_making = false for the expansion-internal matches (info["internal"]) *)
| EWaitHeads                      (* WaitForHeads: passes when enough heads arrived, else slide stops *)
| EJump (l : label) (cond : bool) (* Goto l; cond = false when the expression is the literal True *)
| ELabel (l : label) (new_inst : bool) (* Label; new_inst = the label `start_new_flow_instance` *)
| EStep                           (* Assignment / internal send / new action / Log / Print / Priority / Global /
                                     BeginScope / EndScope: falls through, may raise *)
| EStart (f : flowid) (act : bool)(* send StartFlow(flow_id = constant f, activated = act): falls through *)
| EFork (ls : list label)         (* ForkHead: this head becomes inactive, new heads at the labels *)
| EReturn
| EAbort
| ECatch (l : option label)       (* CatchPatternFailure: push (Some l) / pop (None) *)
| EBreak (l : option label).      (* Break / Continue *)

Inductive outcome := OTrue | OFalse | ORaise.

(* element_labels: built by last-wins update over the element list *)
Fixpoint label_pos_from (es : list elem) (i : nat) (l : label) (acc : option nat) : option nat :=
  match es with
  | [] => acc
  | ELabel l' _ :: es' => label_pos_from es' (S i) l (if Nat.eqb l l' then Some i else acc)
  | _ :: es' => label_pos_from es' (S i) l acc
  end.
Definition label_pos (es : list elem) (l : label) : option nat := label_pos_from es 0 l None.

Inductive stop : Type :=
| Blocked (pos : nat)                   (* head rests on a match / action / merge / unsatisfied WaitForHeads *)
| Forked (pos : nat) (targets : list nat)
| Ended                                 (* head.position >= len(elements): finished (or returned) *)
| Aborted                               (* `abort` without catch label: flow status STOPPING *)
| Raised (pos : nat)                    (* a Python exception left slide with the head at pos *)
| OutOfFuel.

Record sres := { s_stop : stop; s_steps : nat; s_catch : list label; s_starts : list (flowid * bool);
                 s_newinst : bool }.

Fixpoint all_some {A} (l : list (option A)) : option (list A) :=
  match l with
  | [] => Some []
  | None :: _ => None
  | Some a :: l' => match all_some l' with Some r => Some (a :: r) | None => None end
  end.

(* one executed element: either stop, or continue at a new position with a new catch stack *)
Inductive step1 : Type :=
| Cont (pos : nat) (cs : list label) (st : option (flowid * bool)) (ni : bool)
| Stop (s : stop).

Definition exec_elem (es : list elem) (o : outcome) (pos : nat) (cs : list label) (e : elem) : step1 :=
  match o with
  | ORaise => Stop (Raised pos)
  | _ =>
    match e with
    | EBlock _ => Stop (Blocked pos)
    | EWaitInt _ => Stop (Blocked pos)
    | EWaitHeads => match o with OTrue => Cont (S pos) cs None false | _ => Stop (Blocked pos) end
    | EJump l c =>
        let taken := if c then (match o with OTrue => true | _ => false end) else true in
        if taken then
          match label_pos es l with
          | Some i => Cont (S i) cs None false
          | None => Cont (S pos) cs None false        (* invalid label: warning, next element *)
          end
        else Cont (S pos) cs None false
    | ELabel _ ni => Cont (S pos) cs None ni
    | EStep => Cont (S pos) cs None false
    | EStart f a => Cont (S pos) cs (Some (f, a)) false
    | EFork ls =>
        match all_some (map (label_pos es) ls) with
        | Some ts => Stop (Forked pos ts)
        | None => Stop (Raised pos)                   (* KeyError on element_labels *)
        end
    | EReturn => Stop Ended
    | EAbort =>
        match cs with
        | [] => Stop Aborted
        | l :: _ => match label_pos es l with
                    | Some i => Cont (S i) cs None false
                    | None => Stop (Raised pos)
                    end
        end
    | ECatch (Some l) => Cont (S pos) (l :: cs) None false
    | ECatch None => match cs with
                     | [] => Stop (Raised pos)        (* pop from empty list *)
                     | _ :: cs' => Cont (S pos) cs' None false
                     end
    | EBreak None => Cont (S pos) cs None false
    | EBreak (Some l) => match label_pos es l with
                         | Some i => Cont (S i) cs None false
                         | None => Stop (Raised pos)
                         end
    end
  end.

(* `orc k` = outcome of the k-th executed element of this slide *)
Fixpoint slide_fuel (fuel : nat) (es : list elem) (orc : nat -> outcome) (k : nat) (pos : nat)
         (cs : list label) (starts : list (flowid * bool)) (ni : bool) : sres :=
  match fuel with
  | O => {| s_stop := OutOfFuel; s_steps := k; s_catch := cs; s_starts := starts; s_newinst := ni |}
  | S fuel' =>
    match nth_error es pos with
    | None => {| s_stop := Ended; s_steps := k; s_catch := cs; s_starts := starts; s_newinst := ni |}
    | Some e =>
      match exec_elem es (orc k) pos cs e with
      | Stop s => {| s_stop := s; s_steps := S k; s_catch := cs; s_starts := starts; s_newinst := ni |}
      | Cont pos' cs' st ni' =>
          slide_fuel fuel' es orc (S k) pos' cs'
                     (match st with Some x => starts ++ [x] | None => starts end) (ni || ni')
      end
    end
  end.

Definition slide (fuel : nat) (es : list elem) (orc : nat -> outcome) (pos : nat) (cs : list label) : sres :=
  slide_fuel fuel es orc 0 pos cs [] false.

(* The premise, intra-flow part: every cycle of the jump graph passes a blocking element.
   Decided like a bytecode verifier: a static catch-stack per position (`stk`) that every step of
   the model respects, and a ranking (`rank`) that strictly decreases along every step that the
   SAME slide can take.  Both are computed below and then CHECKED; the theorems only rely on the
   check. *)

Definition stk_at (stk : list (option (list label))) (p : nat) : option (list label) := nth p stk None.
Definition rank_at (r : list nat) (p : nat) : nat := nth p r 0.

Fixpoint eqb_labels (a b : list label) : bool :=
  match a, b with
  | [], [] => true
  | x :: a', y :: b' => Nat.eqb x y && eqb_labels a' b'
  | _, _ => false
  end.

(* configurations the same slide can continue with after executing the element at p *)
Definition conts (es : list elem) (s : list label) (p : nat) (e : elem) : list (nat * list label) :=
  flat_map (fun o => match exec_elem es o p s e with
                     | Cont p' s' _ _ => [(p', s')]
                     | Stop _ => []
                     end) [OTrue; OFalse].

(* where a head that stopped at p is advanced from later (`_advance_head_front`: position += 1;
   forked heads start behind their label with a copy of the stack; a head whose match FAILED or
   whose action lost the conflict resolution is moved to its innermost catch label first) *)
Definition catch_resume (es : list elem) (s : list label) : list (nat * list label) :=
  match s with
  | [] => []
  | l :: _ => match label_pos es l with Some i => [(S i, s)] | None => [] end
  end.

Definition resumes (es : list elem) (s : list label) (p : nat) (e : elem) : list (nat * list label) :=
  match e with
  | EBlock BMerge | EWaitHeads => [(S p, s)]
  | EBlock _ | EWaitInt _ => (S p, s) :: catch_resume es s
  | EFork ls => flat_map (fun l => match label_pos es l with Some i => [(S i, s)] | None => [] end) ls
  | _ => []
  end.

(* can the stop at this element be left again inside the same run_to_completion? *)
Definition wakes (e : elem) : bool :=
  match e with
  | EBlock BMatch => false
  | EBlock _ | EWaitInt _ | EWaitHeads | EFork _ => true
  | _ => false
  end.

(* through_int = false: steps of one slide; true: steps of one event cascade *)
Definition succ_cfg (through_int : bool) (es : list elem) (stk : list (option (list label))) (p : nat)
  : list (nat * list label) :=
  match nth_error es p, stk_at stk p with
  | Some e, Some s => conts es s p e ++ (if through_int && wakes e then resumes es s p e else [])
  | _, _ => []
  end.

Definition stk_ok (es : list elem) (stk : list (option (list label))) (q : nat) (s : list label) : bool :=
  Nat.leb (length es) q ||
  match stk_at stk q with Some s' => eqb_labels s' s | None => false end.

Definition check_pos (ti : bool) (es : list elem) (r : list nat) (stk : list (option (list label))) (p : nat) : bool :=
  match nth_error es p, stk_at stk p with
  | Some e, Some s =>
      Nat.leb (rank_at r p) (length es) &&
      forallb (fun qs => Nat.ltb (rank_at r (Nat.min (fst qs) (length es))) (rank_at r p)) (succ_cfg ti es stk p) &&
      forallb (fun qs => stk_ok es stk (fst qs) (snd qs)) (conts es s p e ++ resumes es s p e)
  | _, _ => true
  end.

Definition check_cert (ti : bool) (es : list elem) (r : list nat) (stk : list (option (list label))) : bool :=
  forallb (check_pos ti es r stk) (seq 0 (length es)).

(* computing the static stacks: forward propagation from (0, []) until nothing changes *)
Fixpoint set_opt {A} (l : list (option A)) (n : nat) (a : A) : list (option A) :=
  match l, n with
  | [], _ => []
  | None :: l', O => Some a :: l'
  | x :: l', O => x :: l'
  | x :: l', S n' => x :: set_opt l' n' a
  end.

Definition stk_pass (es : list elem) (stk : list (option (list label))) : list (option (list label)) :=
  fold_left (fun st p =>
               match nth_error es p, stk_at st p with
               | Some e, Some s => fold_left (fun st' qs => set_opt st' (fst qs) (snd qs))
                                             (conts es s p e ++ resumes es s p e) st
               | _, _ => st
               end) (seq 0 (length es)) stk.

Definition count_some {A} (l : list (option A)) : nat :=
  length (filter (fun x => match x with Some _ => true | None => false end) l).

Fixpoint stk_iter (fuel : nat) (es : list elem) (stk : list (option (list label))) : list (option (list label)) :=
  match fuel with
  | O => stk
  | S f => let stk' := stk_pass es stk in
           if Nat.eqb (count_some stk') (count_some stk) then stk' else stk_iter f es stk'
  end.

Definition compute_stk (es : list elem) : list (option (list label)) :=
  stk_iter (S (length es)) es (Some [] :: repeat None (length es)).

(* computing a ranking: reverse Gauss-Seidel relaxation of "longest path to a sink" *)
Definition lookup_rank (old acc : list nat) (p q len : nat) : nat :=
  let q := Nat.min q len in
  if Nat.ltb p q then nth (q - p - 1) acc 0 else nth q old 0.

Fixpoint gs_pass (sf : nat -> list nat) (old : list nat) (len : nat) (n : nat) (acc : list nat) : list nat :=
  (* n = number of positions still to process; current position p = n - 1; acc = ranks of p+1 .. len *)
  match n with
  | O => acc
  | S p =>
      let qs := sf p in
      let v := match qs with
               | [] => 0
               | _ => S (fold_left (fun m q => Nat.max m (lookup_rank old acc p q len)) qs 0)
               end in
      gs_pass sf old len p (v :: acc)
  end.

Fixpoint iter_rank (ti : bool) (fuel : nat) (es : list elem) (stk : list (option (list label))) (r : list nat) : list nat :=
  match fuel with
  | O => r
  | S f =>
      if check_cert ti es r stk then r
      else iter_rank ti f es stk
                     (gs_pass (fun p => map fst (succ_cfg ti es stk p)) r (length es) (length es) [0])
  end.

Definition compute_rank (ti : bool) (es : list elem) (stk : list (option (list label))) : list nat :=
  iter_rank ti (S (length es)) es stk (repeat 0 (S (length es))).

Definition guarded_flowb (es : list elem) : bool :=
  let stk := compute_stk es in check_cert false es (compute_rank false es stk) stk.

Definition program := list (list elem).
Definition guardedb (p : program) : bool := forallb guarded_flowb p.

(* sanity: `while c: match; step` is guarded, `while c: step` is not; an `abort` behind a popped
   catch label does not create a cycle *)
Example ex_loop_guarded :
  guarded_flowb [EWaitInt true; ELabel 0 false; EJump 1 true; EBlock BMatch; EStep; EJump 0 false; ELabel 1 false; EStep] = true.
Proof. reflexivity. Qed.
Example ex_loop_unguarded :
  guarded_flowb [EWaitInt true; ELabel 0 false; EJump 1 true; EStep; EJump 0 false; ELabel 1 false] = false.
Proof. reflexivity. Qed.
Example ex_catch_guarded :
  guarded_flowb [EWaitInt true; ECatch (Some 0); EBlock BMatch; EJump 1 false; ELabel 0 false; EWaitHeads; ECatch None;
                 EStep; EAbort; ELabel 1 false; ECatch None] = true.
Proof. reflexivity. Qed.
Example ex_slide_spins :
  s_stop (slide 1000 [EWaitInt true; ELabel 0 false; EJump 1 true; EStep; EJump 0 false; ELabel 1 false]
                (fun _ => OFalse) 1 []) = OutOfFuel.
Proof. reflexivity. Qed.
