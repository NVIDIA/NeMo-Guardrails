(* C12 (Colang 2.x) - soundness of the typing discipline of Typed.v w.r.t. the head-token
   semantics of ClosedAst.v, and its structural lemmas. *)
From Coq Require Import List String Lia.
From NG Require Import V2.ClosedAst V2.Closed V2.Closed_proofs V2.Typed.
Import ListNotations.
Open Scope string_scope.
Open Scope list_scope.

Lemma firstn_S_nth {A} (l : list A) : forall q e,
  nth_error l q = Some e -> firstn (S q) l = firstn q l ++ [e].
Proof.
  induction l as [|x r IH]; intros [|q] e H; try discriminate H.
  - injection H as ->. reflexivity.
  - cbn [firstn app]. f_equal. now apply IH.
Qed.

Lemma split_nth {A} (l : list A) q e :
  nth_error l q = Some e -> l = firstn q l ++ e :: skipn (S q) l.
Proof.
  intros H. rewrite <- (firstn_skipn (S q) l) at 1.
  rewrite (firstn_S_nth l q e H), <- app_assoc. reflexivity.
Qed.

(* On a live head `tr` is a function of the state and the element, guarded by a side condition:
   `live_ok` is what is checked, `live_out` the state left behind. *)
Definition live_out (st : state) (e : elem) : option state :=
  match e with
  | ELabel _ | EMerge _ | EWait | EPlain _ | EBlock => Some st
  | EGoto _ c => if c then Some st else None
  | ECatch (Some l) => Some (fst st, l :: snd st)
  | ECatch None => Some (fst st, tl (snd st))
  | EBegin n => Some (n :: fst st, snd st)
  | EEnd n => Some (remove_s n (fst st), snd st)
  | EFork _ _ | EBreak _ | EContinue _ | EAbort | EReturn | EComposite _ => None
  end.

Lemma live_out_seq st e : sequential e = true -> live_out st e = Some st.
Proof. destruct e; try discriminate; reflexivity. Qed.

Section Struct.
  Variable G : string -> state -> Prop.

  Definition live_ok (st : state) (e : elem) : Prop :=
    match e with
    | ELabel l | EGoto l _ | EBreak (Some l) | EContinue (Some l) => G l st
    | EFork _ ls => forall l, In l ls -> G l st
    | ECatch None => match snd st with [] => False | _ :: _ => True end
    | EBegin n => mem n (fst st) = false
    | EEnd n => mem n (fst st) = true
    | EAbort | EBlock => match snd st with [] => True | l :: _ => G l st end
    | EReturn => fst st = []
    | EBreak None | EContinue None | EComposite _ => False
    | EMerge _ | EWait | EPlain _ | ECatch (Some _) => True
    end.

  (* one case analysis, without inversion: the relation is eliminated at arbitrary indices *)
  Lemma tr_inv c e c' :
    tr G c e c' ->
    match c with
    | Some st => live_ok st e /\ c' = live_out st e
    | None => match e with ELabel l => exists st, G l st /\ c' = Some st | _ => c' = None end
    end.
  Proof.
    intros H. destruct H; cbn; try (destruct e; try discriminate); try (now split); eauto.
  Qed.

  Lemma tr_live st e : live_ok st e -> tr G (Some st) e (live_out st e).
  Proof.
    (* each kind of element (with its label present or not, the handler stack empty or not) has
       its rule, which `constructor` finds *)
    destruct st as [sc ct].
    destruct e as [| | | | |[|]|[|]|[|]| | | | | | |]; cbn; intros H; try contradiction;
      try (destruct ct; [|try contradiction]); subst; constructor; easy.
  Qed.

  Lemma tr_label_inv c l c' : tr G c (ELabel l) c' -> exists st, G l st /\ c' = Some st.
  Proof.
    destruct c as [st|]; intros H; [|exact (tr_inv None _ _ H)].
    destruct (tr_inv _ _ _ H) as [Hg ->]. eauto.
  Qed.

  Lemma typed_live st e es c :
    live_ok st e -> typed G (live_out st e) es c -> typed G (Some st) (e :: es) c.
  Proof. intros H. apply typed_cons, tr_live, H. Qed.

  (* the pass over a concrete list as a function: on such a list it computes to the conjunction of
     its side conditions; `ds` supplies the declared states of the labels that are met dead *)
  Fixpoint pass (ds : list state) (c : option state) (es : list elem) (c' : option state) : Prop :=
    match es with
    | [] => c = c'
    | e :: r =>
      match c with
      | Some st => live_ok st e /\ pass ds (live_out st e) r c'
      | None =>
        match e with
        | ELabel l => match ds with st :: ds' => G l st /\ pass ds' (Some st) r c' | [] => False end
        | _ => pass ds None r c'
        end
      end
    end.

  Lemma pass_typed es : forall ds c c', pass ds c es c' -> typed G c es c'.
  Proof.
    induction es as [|e r IH]; intros ds c c' H; [rewrite H; constructor|].
    destruct c as [st|].
    - destruct H as [Hc H]. exact (typed_live _ _ _ _ Hc (IH _ _ _ H)).
    - destruct e; try (apply typed_cons with (c1 := None); [now apply T_dead|exact (IH _ _ _ H)]).
      destruct ds as [|st ds]; [contradiction|]. destruct H as [Hg H].
      exact (typed_cons _ _ _ _ _ _ (T_label_dead _ _ _ Hg) (IH _ _ _ H)).
  Qed.

  Lemma typed_app c a c1 b c2 : typed G c a c1 -> typed G c1 b c2 -> typed G c (a ++ b) c2.
  Proof.
    induction 1 as [c|c e c' es c'' Ht Hr IH]; intros Hb; [exact Hb|].
    cbn [app]. econstructor; [exact Ht|]. now apply IH.
  Qed.

  Lemma typed_app_inv a : forall c b c2,
    typed G c (a ++ b) c2 -> exists c1, typed G c a c1 /\ typed G c1 b c2.
  Proof.
    induction a as [|e r IH]; intros c b c2 H.
    - exists c. split; [constructor|exact H].
    - cbn [app] in H. inversion H as [|? ? c' ? ? Ht Hr]; subst.
      destruct (IH _ _ _ Hr) as [c1 [H1 H2]]. exists c1. split; [econstructor; eauto|exact H2].
  Qed.

  Lemma typed_one c e c' : tr G c e c' -> typed G c [e] c'.
  Proof. intros H. econstructor; [exact H|constructor]. Qed.

  (* entering a block dead instead of live can only lose the exit state *)
  Lemma typed_dead st es c :
    typed G (Some st) es c -> exists c', typed G None es c' /\ (c' = None \/ c' = c).
  Proof.
    remember (Some st) as c0 eqn:Hc0. intros H. revert st Hc0.
    induction H as [c|c e c1 es c2 Ht Hr IH]; intros st ->.
    - exists None. split; [constructor|now left].
    - destruct (is_label e) eqn:Hl.
      + destruct e; try discriminate Hl. destruct (tr_inv _ _ _ Ht) as [Hg ->].
        exists c2. split; [|now right]. econstructor; [apply T_label_dead; exact Hg|exact Hr].
      + destruct c1 as [st1|].
        * destruct (IH st1 eq_refl) as [c' [H1 H2]]. exists c'. split; [|exact H2].
          econstructor; [apply T_dead; exact Hl|exact H1].
        * exists c2. split; [|now right]. econstructor; [apply T_dead; exact Hl|exact Hr].
  Qed.

  Hypothesis Gfun : forall l s1 s2, G l s1 -> G l s2 -> s1 = s2.

  Lemma tr_det c e a b : tr G c e a -> tr G c e b -> a = b.
  Proof.
    destruct c as [st|]; intros Ha Hb.
    - destruct (tr_inv _ _ _ Ha) as [_ ->], (tr_inv _ _ _ Hb) as [_ ->]. reflexivity.
    - apply tr_inv in Ha, Hb. destruct e; try congruence.
      destruct Ha as [s1 [H1 ->]], Hb as [s2 [H2 ->]]. f_equal. eapply Gfun; eauto.
  Qed.

  Lemma typed_det es : forall c a b, typed G c es a -> typed G c es b -> a = b.
  Proof.
    induction es as [|e r IH]; intros c a b Ha Hb.
    - inversion Ha; inversion Hb; subst. reflexivity.
    - inversion Ha as [|? ? c1 ? ? Ht1 Hr1]; inversion Hb as [|? ? c1' ? ? Ht2 Hr2]; subst.
      rewrite (tr_det _ _ _ _ Ht1 Ht2) in Hr1. eapply IH; eauto.
  Qed.
End Struct.

(* the failure handlers on a reachable head's stack were pushed by an element of the flow *)
Lemma stack_origin es c :
  reach es c -> forall l, In l (snd c) -> exists p, nth_error es p = Some (ECatch (Some l)).
Proof.
  induction 1 as [|c c' Hr IH Hs]; [intros l []|].
  inversion Hs; subst; cbn [snd] in *; intros l0 Hin; try (apply IH; exact Hin).
  - destruct Hin as [<-|Hin]; [eauto|apply IH; exact Hin].
  - apply IH. now right.
Qed.

Section Sound.
  Variable G : string -> state -> Prop.
  Hypothesis Gfun : forall l s1 s2, G l s1 -> G l s2 -> s1 = s2.
  Variable es : list elem.
  Variable fin : option state.
  Hypothesis Htyped : typed G (Some ([], [])) es fin.
  Hypothesis Hfin : end_ok fin.
  Hypothesis Hlab : labels_okb es = true.

  Let init_st : option state := Some ([], []).

  Definition Inv (c : config) : Prop :=
    let '(q, sc, ct) := c in
    q <= List.length es /\
    ((q = List.length es /\ sc = []) \/ typed G init_st (firstn q es) (Some (sc, ct))).

  Lemma pass_at q e :
    nth_error es q = Some e ->
    exists c1 c2, typed G init_st (firstn q es) c1 /\ tr G c1 e c2 /\
                  typed G init_st (firstn (S q) es) c2.
  Proof.
    intros Hn. pose proof Htyped as Ht. rewrite (split_nth es q e Hn) in Ht.
    destruct (typed_app_inv G _ _ _ _ Ht) as [c1 [H1 H2]].
    inversion H2 as [|? ? c2 ? ? Htr Hrest]; subst.
    exists c1, c2. split; [exact H1|]. split; [exact Htr|].
    rewrite (firstn_S_nth es q e Hn). eapply typed_app; [exact H1|now apply typed_one].
  Qed.

  Lemma nth_lt q e : nth_error es q = Some e -> q < List.length es.
  Proof. intros H. apply nth_error_Some. congruence. Qed.

  Lemma live_at q e sc ct :
    nth_error es q = Some e -> Inv (q, sc, ct) ->
    live_ok G (sc, ct) e /\ typed G init_st (firstn (S q) es) (live_out (sc, ct) e).
  Proof.
    intros Hn [Hle [[Hq _]|Hty]].
    - apply nth_lt in Hn. lia.
    - destruct (pass_at q e Hn) as [c1 [c2 [H1 [Htr H2]]]].
      rewrite (typed_det G Gfun _ _ _ _ H1 Hty) in Htr.
      destruct (tr_inv G _ _ _ Htr) as [Hc <-]. auto.
  Qed.

  (* arriving behind a label whose declared state is the arriving head's state *)
  Lemma land l k sc ct : lbl es l = Some k -> G l (sc, ct) -> Inv (S k, sc, ct).
  Proof.
    intros Hl Hg. destruct (lbl_spec es l k Hl) as [Hk Hn].
    destruct (pass_at k _ Hn) as [c1 [c2 [_ [Htr H2]]]].
    destruct (tr_label_inv G _ _ _ Htr) as [st [Hg' ->]].
    rewrite (Gfun _ _ _ Hg' Hg) in H2. split; [lia|]. right. exact H2.
  Qed.

  Lemma fall q e sc ct :
    nth_error es q = Some e -> typed G init_st (firstn (S q) es) (Some (sc, ct)) -> Inv (S q, sc, ct).
  Proof. intros Hn H. split; [apply nth_lt in Hn; lia|]. right. exact H. Qed.

  Lemma Inv_step c c' : Inv c -> step es c c' -> Inv c'.
  Proof.
    intros Hi Hs. destruct Hs as
      [p sc ct e Hn Hseq | p sc ct l c k Hn Hl | p sc ct l Hn | p sc ct u ls l k Hn Hin Hl
      | p sc ct l Hn | p sc ct l Hn | p sc ct l k Hn Hl | p sc ct l k Hn Hl
      | p sc ct n Hn Hm | p sc ct n Hn Hm | p sc ct l k Hn Hl | p sc ct Hn | p sc ct l k Hn Hl];
      destruct (live_at _ _ _ _ Hn Hi) as [Hc H2]; cbn in Hc, H2.
    - rewrite (live_out_seq _ _ Hseq) in H2. exact (fall p _ _ _ Hn H2).
    - exact (land l k _ _ Hl Hc).
    - exact (fall p _ _ _ Hn H2).
    - exact (land l k _ _ Hl (Hc l Hin)).
    - exact (fall p _ _ _ Hn H2).
    - exact (fall p _ _ _ Hn H2).
    - exact (land l k _ _ Hl Hc).
    - exact (land l k _ _ Hl Hc).
    - exact (fall p _ _ _ Hn H2).
    - exact (fall p _ _ _ Hn H2).
    - exact (land l k _ _ Hl Hc).
    - split; [lia|]. left. split; [reflexivity|exact Hc].
    - exact (land l k _ _ Hl Hc).
  Qed.

  Lemma Inv_reach c : reach es c -> Inv c.
  Proof.
    induction 1 as [|c c' Hr IH Hs]; [|eapply Inv_step; eauto].
    split; [lia|]. right. constructor.
  Qed.

  Lemma defined_ref q e l : nth_error es q = Some e -> In l (elem_labels e) -> lbl es l <> None.
  Proof.
    intros Hn Hin. destruct (labels_okb_lbl es Hlab e l (nth_error_In _ _ Hn) Hin) as [k ->].
    discriminate.
  Qed.

  Theorem typed_sound c : reach es c -> forall x, ~ fails es c x.
  Proof.
    intros Hr x Hf. pose proof (Inv_reach c Hr) as Hi.
    destruct Hf as
      [p sc ct l c Hn Hl | p sc ct u ls l Hn Hin Hl | p sc ct l Hn Hl | p sc ct l Hn Hl
      | p sc ct l Hn Hl | p sc ct l Hn Hl | p sc ct Hn | p sc ct Hn | p sc Hn | p sc ct n Hn Hm
      | p sc ct n Hn Hm | p sc ct Hn Hsc | p sc ct w Hn].
    - apply (defined_ref p _ l Hn); [now left|exact Hl].
    - apply (defined_ref p _ l Hn); [exact Hin|exact Hl].
    - apply (defined_ref p _ l Hn); [now left|exact Hl].
    - apply (defined_ref p _ l Hn); [now left|exact Hl].
    - destruct (stack_origin es _ Hr l) as [q Hq]; [now left|].
      apply (defined_ref q _ l Hq); [now left|exact Hl].
    - destruct (stack_origin es _ Hr l) as [q Hq]; [now left|].
      apply (defined_ref q _ l Hq); [now left|exact Hl].
    - exact (proj1 (live_at _ _ _ _ Hn Hi)).
    - exact (proj1 (live_at _ _ _ _ Hn Hi)).
    - exact (proj1 (live_at _ _ _ _ Hn Hi)).
    - assert (Hc : mem n sc = false) by exact (proj1 (live_at _ _ _ _ Hn Hi)). congruence.
    - assert (Hc : mem n sc = true) by exact (proj1 (live_at _ _ _ _ Hn Hi)). congruence.
    - destruct Hi as [Hle [[_ Hs]|Hty]]; [contradiction|].
      apply nth_error_None in Hn. assert (p = List.length es) by lia. subst p.
      rewrite firstn_all in Hty.
      pose proof (typed_det G Gfun _ _ _ _ Htyped Hty) as Hf. rewrite Hf in Hfin. cbn in Hfin. contradiction.
    - exact (proj1 (live_at _ _ _ _ Hn Hi)).
  Qed.
End Sound.
