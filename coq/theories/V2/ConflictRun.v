(* Executable instance of the conflict-resolution model for the correspondence check:
   event arguments are association lists over Val.value, `args_eqb` is Python's == on such
   dicts for the value fragment the case generator uses (None, bool, int, float q/4, str,
   lists of those; bool/int/float compare numerically: True == 1 == 1.0).
   Nothing here is used by the theorems, which hold for an arbitrary args_eqb. *)
From Coq Require Import ZArith List String Bool QArith.
From NG Require Import Val.Value V2.Conflict.
Import ListNotations.
Open Scope list_scope.

(* numeric reading times 4 (floats are q/4) *)
Definition num4 (v : value) : option Z :=
  match v with
  | VBool b => Some (4 * Z_of_bool b)%Z
  | VInt z => Some (4 * z)%Z
  | VFloat q => Some q
  | _ => None
  end.

(* Python == *)
Fixpoint py_eqb (a b : value) {struct a} : bool :=
  match num4 a, num4 b with
  | Some x, Some y => Z.eqb x y
  | Some _, None | None, Some _ => false
  | None, None =>
      match a, b with
      | VNone, VNone => true
      | VStr s, VStr t => String.eqb s t
      | VList l, VList m =>
          (fix go (l : list value) (m : list value) {struct l} : bool :=
             match l, m with
             | [], [] => true
             | x :: l', y :: m' => py_eqb x y && go l' m'
             | _, _ => false
             end) l m
      | _, _ => false      (* nested dicts / sets / regexes are outside the generated fragment *)
      end
  end.

(* strict structural equality (type-sensitive), used only to compare the emitted event with
   the implementation's *)
Fixpoint same_value (a b : value) {struct a} : bool :=
  match a, b with
  | VNone, VNone => true
  | VBool x, VBool y => Bool.eqb x y
  | VInt x, VInt y => Z.eqb x y
  | VFloat x, VFloat y => Z.eqb x y
  | VStr s, VStr t => String.eqb s t
  | VList l, VList m =>
      (fix go (l : list value) (m : list value) {struct l} : bool :=
         match l, m with
         | [], [] => true
         | x :: l', y :: m' => same_value x y && go l' m'
         | _, _ => false
         end) l m
  | _, _ => false
  end.

Definition dict := list (string * value).

(* Python == on dicts with string keys: same size, every item of a present in b with an == value *)
Definition dict_eqb (a b : dict) : bool :=
  Nat.eqb (List.length a) (List.length b)
  && forallb (fun kv => match lookup (fst kv) b with
                        | Some v' => py_eqb (snd kv) v'
                        | None => false
                        end) a.

(* same keys, type-sensitive equal values, any order *)
Definition same_dict (a b : dict) : bool :=
  Nat.eqb (List.length a) (List.length b)
  && forallb (fun kv => match lookup (fst kv) b with
                        | Some v' => same_value (snd kv) v'
                        | None => false
                        end) a.

Definition cand_c := cand dict.
Definition event_c := event dict.

Definition resolve_c (pick : nat -> nat -> nat) (cands : list cand_c) : list (decision dict) :=
  resolve dict dict_eqb pick cands.

Fixpoint list_eqb {A} (eqb : A -> A -> bool) (a b : list A) : bool :=
  match a, b with
  | [], [] => true
  | x :: a', y :: b' => eqb x y && list_eqb eqb a' b'
  | _, _ => false
  end.

Definition same_event (a b : event_c) : bool :=
  String.eqb (ev_name a) (ev_name b) && same_dict (ev_args a) (ev_args b).

Definition result_eqb (a b : result dict) : bool :=
  list_eqb String.eqb (r_advancing _ a) (r_advancing _ b)
  && list_eqb same_event (r_emitted _ a) (r_emitted _ b)
  && list_eqb (fun x y => String.eqb (fst x) (fst y) && scores_eqb (snd x) (snd y))
              (r_aborted _ a) (r_aborted _ b)
  && list_eqb (fun x y => String.eqb (fst x) (fst y) && String.eqb (snd x) (snd y))
              (r_jumped _ a) (r_jumped _ b)
  && list_eqb (fun x y => String.eqb (fst (fst x)) (fst (fst y)) && String.eqb (snd (fst x)) (snd (fst y))
                          && String.eqb (snd x) (snd y))
              (r_merged _ a) (r_merged _ b).

(* random.choice call number k returns index picks[k] *)
Definition pick_of (picks : list nat) : nat -> nat -> nat := fun k _ => nth k picks 0.

Definition run_case (picks : list nat) (cands : list cand_c) : result dict :=
  result_of (resolve_c (pick_of picks) cands).

(* sizes of the tie sets, in the order of the random.choice calls *)
Definition tie_sizes (cands : list cand_c) : list nat :=
  match cands with
  | [] | [_] => []
  | _ => map (fun g => List.length (tie_set (snd g))) (group_by_loop cands)
  end.

(* a case: the indices returned by the successive random.choice calls, the lengths of the
   sequences random.choice was called with, the candidates in the order of actionable_heads,
   what the implementation did *)
Definition check_case (c : list nat * list nat * list cand_c * result dict) : bool :=
  let '(picks, lens, cands, expected) := c in
  result_eqb (run_case picks cands) expected && list_eqb Nat.eqb (tie_sizes cands) lens.

Definition mkc (h f l : string) (sc : list Q) (n : string) (a : dict) (au : option string) (ct : list string)
  : cand_c :=
  {| c_head := h; c_flow := f; c_loop := l; c_scores := sc;
     c_event := {| ev_name := n; ev_args := a |}; c_action := au; c_catch := ct |}.

(* sanity: {"x": 1, "y": "a"} == {"y": "a", "x": True} in Python *)
Example dict_eqb_python :
  dict_eqb [("x"%string, VInt 1); ("y"%string, VStr "a")] [("y"%string, VStr "a"); ("x"%string, VBool true)] = true
  /\ dict_eqb [("x"%string, VInt 1)] [("x"%string, VStr "1")] = false
  /\ dict_eqb [("x"%string, VFloat 4)] [("x"%string, VInt 1)] = true.
Proof. vm_compute. auto. Qed.
