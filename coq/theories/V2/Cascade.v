(* C10 part 2: the event cascade of ONE run_to_completion - StartFlow events creating instances,
   heads sliding to their next stop, ForkHead creating heads, MergeHeads / WaitForHeads removing
   them, FlowStarted/FlowFinished/FlowFailed/ColangError events waking or failing heads that rest
   on a match for an internal event, finished or failed ACTIVATED instances being restarted
   (`_finish_flow` / `_abort_flow`), the immediate-finish guard of `_advance_head_front`, the label
   `start_new_flow_instance`, actionable heads winning or LOSING the action conflict resolution
   when the queue is empty.  Definitions, and examples with the lemmas they need; the termination
   proof is in Cascade_proofs.v.

   Abstractions (all over-approximations of what can happen):
   * which head reacts how to an internal event is an arbitrary oracle `react`
     (ignore / advance / fail = its match failed / kill = instance aborted by a dying parent);
   * which actionable head wins or loses, which heads a merge removes: arbitrary oracles;
   * expression values: oracle `orc` as in Term.v.
   `guard` = the repaired restart logic (fixes/C10-activated-abort-restart.patch). *)
From Coq Require Import List Arith Bool Lia.
From NG Require Import V2.Term.
Import ListNotations.

Inductive cstatus := CStarting | CStarted | CDead.

Record chead := {
  h_pos : nat;                (* the element the head rests on *)
  h_catch : list label;
  h_inert : bool;             (* rests on a match for an EXTERNAL event that is not the current one or is
                                 blocked on WaitForHeads: nothing in this cascade advances it *)
  h_alts : list nat           (* where it is advanced from: behind its element; behind its catch label
                                 when its match fails / its action loses *)
}.

Record cinst := {
  c_flow : flowid;
  c_heads : list chead;
  c_status : cstatus;
  c_act : bool;               (* activated > 0 *)
  c_restarted : bool;         (* new_instance_started *)
  c_forked : bool             (* a ForkHead was executed since the instance started *)
}.

Inductive cev := CStart (f : flowid) (act : bool) | CNote.

Record cstate := { c_insts : list cinst; c_queue : list cev; c_tick : nat }.

Inductive reaction := RIgnore | RAdvance | RFail | RKill.
Inductive creaction := CWin | CLose.

Inductive cres := COk (st : cstate) | COut | CUnsup.

Definition listening (c : cinst) : bool := match c_status c with CDead => false | _ => true end.
Definition started (c : cinst) : bool := match c_status c with CStarted => true | _ => false end.

Definition fresh (f : flowid) (act : bool) : cinst :=
  {| c_flow := f; c_heads := [ {| h_pos := 0; h_catch := []; h_inert := false; h_alts := [1] |} ];
     c_status := CStarting; c_act := act; c_restarted := false; c_forked := false |}.

Definition is_stop (e : elem) : bool :=
  match e with EBlock _ | EWaitInt _ | EWaitHeads => true | _ => false end.

Record rout := { r_inst : cinst; r_right : list cev; r_left : list cev }.

Definition note_if (b : bool) : list cev := if b then [CNote] else [].
Definition start_if (b : bool) (f : flowid) (a : bool) : list cev := if b then [CStart f a] else [].

Definition dead_inst (c : cinst) (rst : bool) : cinst :=
  {| c_flow := c_flow c; c_heads := []; c_status := CDead; c_act := c_act c; c_restarted := rst;
     c_forked := c_forked c |}.

(* the instance dies by its own failure: _abort_flow(restart_flow = may_restart) *)
Definition fail_inst (c : cinst) (may_restart : bool) (colang_error : bool) (restarted0 : bool) : rout :=
  let restart := c_act c && negb restarted0 && may_restart in
  {| r_inst := dead_inst c (restarted0 || restart);
     r_right := note_if colang_error ++ [CNote];
     r_left := start_if restart (c_flow c) (c_act c) |}.

(* the repaired guard: a flow that fails by itself is restarted only if it had been STARTED *)
Definition guard_ok (guard : bool) (c : cinst) : bool := if guard then started c else true.

(* aborted from outside with deactivate_flow=True (parent finished / failed): no restart *)
Definition kill_inst (c : cinst) : rout :=
  {| r_inst := dead_inst c (c_restarted c); r_right := [CNote]; r_left := [] |}.

Fixpoint remove_nth {A} (l : list A) (n : nat) : list A :=
  match l, n with
  | [], _ => []
  | _ :: l', O => l'
  | x :: l', S n' => x :: remove_nth l' n'
  end.

(* `all heads are waiting at a match (not an expansion-internal one) or a WaitForHeads` *)
Definition head_waits (es : list elem) (h : chead) : bool :=
  negb (Nat.eqb (h_pos h) 0) &&        (* position 0 = `match StartFlow`: the head that is just being started *)
  match nth_error es (h_pos h) with
  | Some (EBlock BMatch) | Some (EWaitInt true) | Some EWaitHeads => true
  | _ => false
  end.

(* _advance_head_front for head `hd` (already taken out of `c`): slide from resume point q *)
Definition run_head (guard : bool) (es : list elem) (o : nat -> outcome) (c : cinst) (hd : chead) (q : nat)
  : option rout :=
  let r := slide (length es + 1) es o q (h_catch hd) in
  let st := started c in
  let starts := map (fun fa => CStart (fst fa) (snd fa)) (s_starts r) in
  let lbl := s_newinst r && st in                       (* start_new_flow_instance passed while STARTED *)
  let left0 := start_if lbl (c_flow c) (c_act c) in
  let restarted0 := c_restarted c || lbl in
  let mk heads status forked :=
      {| c_flow := c_flow c; c_heads := heads; c_status := status; c_act := c_act c;
         c_restarted := restarted0; c_forked := forked |} in
  match s_stop r with
  | OutOfFuel => None
  | Blocked p =>
      match nth_error es p with
      | Some e =>
          let inert := match e with EBlock BMatch | EWaitHeads => true | _ => false end in
          let hd' := {| h_pos := p; h_catch := s_catch r; h_inert := inert;
                        h_alts := map fst (resumes es (s_catch r) p e) |} in
          let heads' := hd' :: c_heads c in
          let becomes := negb st && forallb (head_waits es) heads' in
          Some {| r_inst := mk heads' (if becomes then CStarted else c_status c) (c_forked c);
                  r_right := starts ++ note_if becomes; r_left := left0 |}
      | None => None
      end
  | Forked p ts =>
      (* the new heads are recorded as resting on the fork element; they are advanced at once (`step`) *)
      let news := map (fun i => {| h_pos := p; h_catch := s_catch r; h_inert := false; h_alts := [S i] |}) ts in
      Some {| r_inst := mk (news ++ c_heads c) (c_status c) true; r_right := starts; r_left := left0 |}
  | Ended =>
      if negb st && c_act c then
        (* immediate-finish guard: FlowStarted, the flow is not finished, this head becomes inactive *)
        Some {| r_inst := mk (c_heads c) CStarted (c_forked c); r_right := starts ++ [CNote]; r_left := left0 |}
      else
        let restart := c_act c && negb restarted0 in
        Some {| r_inst := dead_inst c (restarted0 || restart);
                r_right := starts ++ note_if (negb st) ++ [CNote];
                r_left := start_if restart (c_flow c) (c_act c) ++ left0 |}
  | Aborted =>
      let f := fail_inst c (guard_ok guard c) false restarted0 in
      Some {| r_inst := r_inst f; r_right := starts ++ r_right f; r_left := r_left f ++ left0 |}
  | Raised _ =>
      let f := fail_inst c (guard_ok guard c) true restarted0 in
      Some {| r_inst := r_inst f; r_right := starts ++ r_right f; r_left := r_left f ++ left0 |}
  end.

Definition with_heads (c : cinst) (hs : list chead) : cinst :=
  {| c_flow := c_flow c; c_heads := hs; c_status := c_status c; c_act := c_act c;
     c_restarted := c_restarted c; c_forked := c_forked c |}.

Fixpoint set_nth {A} (l : list A) (n : nat) (a : A) : list A :=
  match l, n with
  | [], _ => []
  | _ :: l', O => a :: l'
  | x :: l', S n' => x :: set_nth l' n' a
  end.

Definition apply_rout (st : cstate) (i : nat) (ro : rout) : cstate :=
  {| c_insts := set_nth (c_insts st) i (r_inst ro);
     c_queue := r_left ro ++ c_queue st ++ r_right ro;
     c_tick := S (c_tick st) |}.

Definition movable (c : cinst) (h : chead) : bool := listening c && negb (h_inert h).

(* a reaction of head j of instance i;  `keep` = which OTHER heads of the instance survive when
   this head is advanced from a MergeHeads (the merge removes the heads of the fork) *)
Definition react_head (guard : bool) (prog : program) (orc : nat -> nat -> outcome) (keep : nat -> bool)
           (rc : reaction) (st : cstate) (i j : nat) : cres :=
  match nth_error (c_insts st) i with
  | None => COk st
  | Some c =>
    match rc with
    | RIgnore => COk st
    | RKill => if listening c then COk (apply_rout st i (kill_inst c)) else COk st
    | _ =>
      match nth_error (c_heads c) j, nth_error prog (c_flow c) with
      | Some hd, Some es =>
          if movable c hd then
            let others := remove_nth (c_heads c) j in
            let others' := match nth_error es (h_pos hd) with
                           | Some (EBlock BMerge) => map snd (filter (fun kh => keep (fst kh)) (combine (seq 0 (length others)) others))
                           | _ => others
                           end in
            let alt := match rc with
                       | RAdvance => nth_error (h_alts hd) 0
                       | _ => nth_error (h_alts hd) 1           (* RFail: the catch label, if any *)
                       end in
            match alt with
            | Some q =>
                match run_head guard es (orc (c_tick st)) (with_heads c others') hd q with
                | Some ro => COk (apply_rout st i ro)
                | None => CUnsup
                end
            | None =>
                match rc with
                | RFail => COk (apply_rout st i (fail_inst c (guard_ok guard c) false (c_restarted c)))
                | _ => COk (apply_rout st i {| r_inst := with_heads c others; r_right := []; r_left := [] |})
                end
            end
          else COk st
      | _, _ => COk st
      end
    end
  end.

(* the outer loop of run_to_completion (queue empty): an actionable head wins or loses the
   conflict resolution - the loser is moved to its catch label, or its flow is aborted with the
   default restart (`_abort_flow(state, flow_state, head.matching_scores)`); a merging head merges
   (removing heads of its fork) or is itself removed by the merge of another head *)
Definition outer_head (guard : bool) (prog : program) (orc : nat -> nat -> outcome) (keep : nat -> bool)
           (cr : creaction) (st : cstate) (i j : nat) : cres :=
  match cr with
  | CWin => react_head guard prog orc keep RAdvance st i j
  | CLose =>
    match nth_error (c_insts st) i with
    | None => COk st
    | Some c =>
      match nth_error (c_heads c) j, nth_error prog (c_flow c) with
      | Some hd, Some es =>
          match nth_error es (h_pos hd) with
          | Some (EBlock BAction) =>
              match nth_error (h_alts hd) 1 with
              | Some q =>
                  match run_head guard es (orc (c_tick st)) (with_heads c (remove_nth (c_heads c) j)) hd q with
                  | Some ro => COk (apply_rout st i ro)
                  | None => CUnsup
                  end
              | None => COk (apply_rout st i (fail_inst c true false (c_restarted c)))
              end
          | _ =>   (* a merging head whose fork is merged by another head *)
              COk (apply_rout st i {| r_inst := with_heads c (remove_nth (c_heads c) j); r_right := []; r_left := [] |})
          end
      | _, _ => COk st
      end
    end
  end.

(* all (instance, head) index pairs of a state *)
Definition all_heads (st : cstate) : list (nat * nat) :=
  flat_map (fun ic => map (fun j => (fst ic, j)) (seq 0 (length (c_heads (snd ic)))))
           (combine (seq 0 (length (c_insts st))) (c_insts st)).

Fixpoint react_all (guard : bool) (prog : program) (orc : nat -> nat -> outcome) (keep : nat -> nat -> bool)
         (react : nat -> nat -> reaction) (idx : list (nat * nat)) (st : cstate) : cres :=
  match idx with
  | [] => COk st
  | (i, j) :: idx' =>
      match react_head guard prog orc (keep (c_tick st)) (react i j) st i j with
      | COk st' => react_all guard prog orc keep react idx' st'
      | other => other
      end
  end.

(* first movable head whose element satisfies `p` *)
Fixpoint find_in_heads (p : elem -> bool) (es : list elem) (c : cinst) (hs : list chead) (j : nat) : option nat :=
  match hs with
  | [] => None
  | h :: hs' =>
      if movable c h && match nth_error es (h_pos h) with Some e => p e | None => false end
      then Some j else find_in_heads p es c hs' (S j)
  end.

Fixpoint find_head (p : elem -> bool) (prog : program) (l : list cinst) (i : nat) : option (nat * nat) :=
  match l with
  | [] => None
  | c :: l' =>
      match (match nth_error prog (c_flow c) with
             | Some es => find_in_heads p es c (c_heads c) 0
             | None => None
             end) with
      | Some j => Some (i, j)
      | None => find_head p prog l' (S i)
      end
  end.

Definition is_pending (e : elem) : bool := negb (is_stop e).        (* a head just created by a fork *)
Definition is_outer (e : elem) : bool := match e with EBlock BAction | EBlock BMerge => true | _ => false end.

Record oracles := {
  o_orc : nat -> nat -> outcome;
  o_react : nat -> nat -> nat -> reaction;      (* tick, instance, head *)
  o_keep : nat -> nat -> bool;                  (* tick, head index among the others *)
  o_conflict : nat -> creaction                 (* tick *)
}.

Definition step (guard : bool) (prog : program) (o : oracles) (st : cstate) : option cres :=   (* None = quiescent *)
  match find_head is_pending prog (c_insts st) 0 with
  | Some (i, j) =>        (* `_advance_head_front(new_heads)`: forked heads are advanced at once *)
      Some (react_head guard prog (o_orc o) (o_keep o (c_tick st)) RAdvance st i j)
  | None =>
    match c_queue st with
    | [] =>
        match find_head is_outer prog (c_insts st) 0 with
        | None => None
        | Some (i, j) =>
            Some (outer_head guard prog (o_orc o) (o_keep o (c_tick st)) (o_conflict o (c_tick st)) st i j)
        end
    | CNote :: q =>
        let st1 := {| c_insts := c_insts st; c_queue := q; c_tick := S (c_tick st) |} in
        Some (react_all guard prog (o_orc o) (o_keep o) (o_react o (c_tick st)) (all_heads st) st1)
    | CStart f a :: q =>
        match nth_error prog f with
        | None => Some (COk {| c_insts := c_insts st; c_queue := q; c_tick := S (c_tick st) |})
        | Some _ =>
            let st1 := {| c_insts := c_insts st ++ [fresh f a]; c_queue := q; c_tick := S (c_tick st) |} in
            Some (react_head guard prog (o_orc o) (o_keep o (c_tick st)) RAdvance st1 (length (c_insts st)) 0)
        end
    end
  end.

(* fuel = number of processed internal events + advances of forked / actionable / merging heads *)
Fixpoint cascade (guard : bool) (prog : program) (o : oracles) (fuel : nat) (st : cstate) : cres :=
  match step guard prog o st with
  | None => COk st
  | Some r =>
      match fuel with
      | O => COut
      | S f => match r with
               | COk st' => cascade guard prog o f st'
               | other => other
               end
      end
  end.

(* The premise for cascades.  Per flow: static stacks `stk`, a ranking for the cascade graph
   (matches on internal events, actions, merges, forks are crossed) and weights `w` that pay for
   every event a run from a position can still cause:
       w[p] >= 1 + cost of the StartFlow the element at p sends + w[q]   for every cascade step p -> q
       w[p] >= 1 + sum over the forked heads (1 + w[behind their label])   at a ForkHead *)

Definition wat (w : list nat) (len p : nat) : nat := if Nat.ltb p len then nth p w 0 else 0.

Record fcert := { f_rank : list nat; f_stk : list (option (list label)); f_w : list nat;
                  f_clean : list bool; f_noend : list bool }.

Definition newpot (prog : program) (certs : list fcert) (g : flowid) : nat :=
  match nth_error prog g, nth_error certs g with
  | Some es, Some ct => 4 + wat (f_w ct) (length es) 1
  | _, _ => 0
  end.

Definition ev_cost (prog : program) (certs : list fcert) (e : cev) : nat :=
  match e with CNote => 1 | CStart g _ => 1 + newpot prog certs g end.

Definition ecost (prog : program) (certs : list fcert) (self : flowid) (e : elem) : nat :=
  match e with
  | EStart g _ => 1 + newpot prog certs g
  | ELabel _ true => 1 + newpot prog certs self
  | _ => 0
  end.

Definition fork_cost (es : list elem) (w : list nat) (ls : list label) : nat :=
  list_sum (map (fun l => match label_pos es l with Some i => 1 + wat w (length es) (S i) | None => 0 end) ls).

Definition check_w (prog : program) (certs : list fcert) (f : flowid) (es : list elem) (ct : fcert) : bool :=
  forallb (fun p =>
             match nth_error es p with
             | Some e =>
                 forallb (fun qs => Nat.leb (1 + ecost prog certs f e + wat (f_w ct) (length es) (fst qs))
                                            (wat (f_w ct) (length es) p))
                         (succ_cfg true es (f_stk ct) p) &&
                 match e with
                 | EFork ls => Nat.leb (1 + fork_cost es (f_w ct) ls) (wat (f_w ct) (length es) p)
                 | _ => true
                 end
             | None => true
             end) (seq 0 (length es)).

(* Side conditions for ACTIVATED flows, on the region an instance can run through before it is
   STARTED (clean[p]: p belongs to it):
   - no user-level match on an internal event (e.g. `await child`): the instance would become
     STARTED without having waited for an external event, could finish in the same cascade and be
     restarted forever;
   - no action: a not-yet-started instance that loses the action conflict is restarted at once;
   - behind a fork the end of the flow is not reachable without a match on an external event
     (noend): the immediate-finish guard would leave the other heads running. *)
Definition check_clean (es : list elem) (ct : fcert) : bool :=
  forallb (fun p =>
             (negb (nth p (f_clean ct) false) ||
              (match nth_error es p with
               | Some (EWaitInt true) => Nat.eqb p 0
               | Some (EBlock BAction) => false
               | Some (EFork _) => forallb (fun qs => Nat.ltb (fst qs) (length es) && nth (fst qs) (f_noend ct) false)
                                           (succ_cfg true es (f_stk ct) p)
               | _ => true
               end &&
               forallb (fun qs => Nat.leb (length es) (fst qs) || nth (fst qs) (f_clean ct) false)
                       (succ_cfg true es (f_stk ct) p))) &&
             (negb (nth p (f_noend ct) false) ||
              (match nth_error es p with Some EReturn => false | _ => true end &&
               forallb (fun qs => Nat.ltb (fst qs) (length es) && nth (fst qs) (f_noend ct) false)
                       (succ_cfg true es (f_stk ct) p))))
          (seq 0 (length es)).

Definition activatable (prog : program) (g : flowid) : bool :=
  existsb (fun es => existsb (fun e => match e with EStart g' true => Nat.eqb g g' | _ => false end) es) prog.

Fixpoint forallb_i {A} (f : nat -> A -> bool) (l : list A) (i : nat) : bool :=
  match l with [] => true | a :: l' => f i a && forallb_i f l' (S i) end.

Definition cascade_cert_ok (prog : program) (certs : list fcert) : bool :=
  Nat.eqb (length certs) (length prog) &&
  forallb_i (fun f es =>
               match nth_error certs f with
               | Some ct =>
                   match es with EWaitInt true :: _ => true | _ => false end &&    (* match StartFlow(flow_id = f) *)
                   match stk_at (f_stk ct) 0 with Some [] => true | _ => false end &&
                   check_cert true es (f_rank ct) (f_stk ct) &&
                   check_w prog certs f es ct &&
                   check_clean es ct &&
                   (negb (activatable prog f) || nth 1 (f_clean ct) false || Nat.leb (length es) 1)
               | None => false
               end) prog 0.

(* computing the certificates (nothing below is trusted: only cascade_cert_ok is) *)
Definition with_w (ct : fcert) (w : list nat) : fcert :=
  {| f_rank := f_rank ct; f_stk := f_stk ct; f_w := w; f_clean := f_clean ct; f_noend := f_noend ct |}.

(* successor positions of every position in the cascade graph, computed once per flow *)
Definition succ_table (es : list elem) (stk : list (option (list label))) : list (list nat) :=
  map (fun p => map fst (succ_cfg true es stk p)) (seq 0 (length es)).

Definition w_cap : nat := 200 * 100.

Definition w_pass (prog : program) (certs : list fcert) (f : flowid) (es : list elem) (tbl : list (list nat)) (w0 : list nat)
  : list nat :=
  fold_left (fun w p =>
               match nth_error es p with
               | Some e =>
                   let c := 1 + ecost prog certs f e in
                   let need := fold_left (fun m q => Nat.max m (c + wat w (length es) q)) (nth p tbl []) 0 in
                   let need := match e with EFork ls => Nat.max need (1 + fork_cost es w ls) | _ => need end in
                   (* weights are unary numbers: give up (the check will reject) instead of exploding *)
                   if Nat.leb need (nth p w 0) || Nat.ltb w_cap need then w else set_nth w p need
               | None => w
               end) (rev (seq 0 (length es))) w0.

Fixpoint w_iter (fuel : nat) (prog : program) (tbls : list (list (list nat))) (certs : list fcert) : list fcert :=
  match fuel with
  | O => certs
  | S n =>
      let certs' := map (fun x => let '(f, (es, (tbl, ct))) := x in
                                  (* two sweeps inside a flow per round: backward jumps of loops *)
                                  with_w ct (w_pass prog certs f es tbl (w_pass prog certs f es tbl (f_w ct))))
                        (combine (seq 0 (length prog)) (combine prog (combine tbls certs))) in
      w_iter n prog tbls certs'
  end.

Definition count_true (l : list bool) : nat := length (filter (fun b => b) l).

Fixpoint iter_fix (fuel : nat) (f : list bool -> list bool) (a : list bool) : list bool :=
  match fuel with
  | O => a
  | S n => let a' := f a in if Nat.eqb (count_true a') (count_true a) then a' else iter_fix n f a'
  end.

(* greatest fixpoints of the clean / noend conditions: reverse Gauss-Seidel sweeps from all-true *)
Definition noend_pass (es : list elem) (tbl : list (list nat)) (ne0 : list bool) : list bool :=
  fold_left (fun ne p =>
               if nth p ne false then
                 if match nth_error es p with Some EReturn => false | _ => true end &&
                    forallb (fun q => Nat.ltb q (length es) && nth q ne false) (nth p tbl [])
                 then ne else set_nth ne p false
               else ne) (rev (seq 0 (length es))) ne0.

Definition clean_pass (es : list elem) (tbl : list (list nat)) (ne cl0 : list bool) : list bool :=
  fold_left (fun cl p =>
               if nth p cl false then
                 if match nth_error es p with
                    | Some (EWaitInt true) => Nat.eqb p 0
                    | Some (EBlock BAction) => false
                    | Some (EFork _) => forallb (fun q => Nat.ltb q (length es) && nth q ne false) (nth p tbl [])
                    | _ => true
                    end &&
                    forallb (fun q => Nat.leb (length es) q || nth q cl false) (nth p tbl [])
                 then cl else set_nth cl p false
               else cl) (rev (seq 0 (length es))) cl0.

Definition compute_certs (prog : program) (passes : nat) : list fcert :=
  let base := map (fun es => let stk := compute_stk es in
                             let tbl := succ_table es stk in
                             let ne := iter_fix (S (length es)) (noend_pass es tbl) (repeat true (length es)) in
                             let cl := iter_fix (S (length es)) (clean_pass es tbl ne) (repeat true (length es)) in
                             (tbl, {| f_rank := compute_rank true es stk; f_stk := stk; f_w := repeat 0 (length es);
                                      f_clean := cl; f_noend := ne |})) prog in
  w_iter passes prog (map fst base) (map snd base).

Definition cascade_guardedb (prog : program) : bool :=
  cascade_cert_ok prog (compute_certs prog (S (length prog))).

Definition hpot (w : list nat) (len : nat) (h : chead) : nat :=
  if h_inert h then 0 else 1 + list_max (map (wat w len) (h_alts h)).

Definition ipot (prog : program) (certs : list fcert) (c : cinst) : nat :=
  if listening c then
    2 + (if started c then 0 else 1) +
    match nth_error prog (c_flow c), nth_error certs (c_flow c) with
    | Some es, Some ct =>
        list_sum (map (hpot (f_w ct) (length es)) (c_heads c)) +
        (if c_act c && negb (c_restarted c) && started c && existsb (fun h => negb (h_inert h)) (c_heads c)
         then 1 + newpot prog certs (c_flow c) else 0)
    | _, _ => 0
    end
  else 0.

Definition phi (prog : program) (certs : list fcert) (st : cstate) : nat :=
  list_sum (map (ipot prog certs) (c_insts st)) + list_sum (map (ev_cost prog certs) (c_queue st)).

(* a bound that depends only on the program (through its certificate) and on the number of live
   heads, live instances and queued events *)
Definition flow_cost (prog : program) (certs : list fcert) (f : flowid) : nat :=
  match nth_error prog f, nth_error certs f with
  | Some es, Some ct => list_max (f_w ct) + newpot prog certs f + 5
  | _, _ => 3
  end.
Definition max_flow_cost (prog : program) (certs : list fcert) : nat :=
  list_max (map (flow_cost prog certs) (seq 0 (length prog))) + 3.

Definition rtc_bound (prog : program) (certs : list fcert) (live_heads live queued : nat) : nat :=
  (live_heads + live + queued) * max_flow_cost prog certs.

Definition all_true : nat -> nat -> outcome := fun _ _ => OTrue.
Definition eager : oracles :=
  {| o_orc := all_true; o_react := fun _ _ _ => RAdvance; o_keep := fun _ _ => false; o_conflict := fun _ => CWin |}.

Definition mk_head (p : nat) : chead := {| h_pos := p; h_catch := []; h_inert := false; h_alts := [S p] |}.
Definition mk_inst (f : flowid) (hs : list chead) (s : cstatus) (a : bool) : cinst :=
  {| c_flow := f; c_heads := hs; c_status := s; c_act := a; c_restarted := false; c_forked := false |}.

(* Cascades that never come to rest.  Every step appends a dead instance and an event, so a
   busy loop is not periodic; it is shown busy for every fuel from an invariant of `step`. *)
Lemma cascade_busy g prog o (I : cstate -> Prop) :
  (forall st, I st -> exists st', step g prog o st = Some (COk st') /\ I st') ->
  forall n st, I st -> cascade g prog o n st = COut.
Proof.
  intros HI n. induction n as [|n IH]; intros st H; destruct (HI st H) as (st' & E & H'); simpl; rewrite E; auto.
Qed.

Fixpoint run g prog o (k : nat) (st : cstate) : option cstate :=
  match k with
  | O => Some st
  | S k' => match step g prog o st with Some (COk st') => run g prog o k' st' | _ => None end
  end.

Lemma cascade_run g prog o n : forall k st st',
  run g prog o k st = Some st' -> cascade g prog o (k + n) st = cascade g prog o n st'.
Proof.
  induction k as [|k IH]; simpl; intros st st' H.
  - congruence.
  - destruct (step g prog o st) as [[st1| |]|]; try discriminate. auto.
Qed.

Lemma busy_after g prog o (I : cstate -> Prop) k st st' n :
  (forall st, I st -> exists st', step g prog o st = Some (COk st') /\ I st') ->
  run g prog o k st = Some st' -> I st' -> k <= n -> cascade g prog o n st = COut.
Proof.
  intros HI Hr H Hk. replace n with (k + (n - k)) by lia.
  rewrite (cascade_run _ _ _ _ _ _ _ Hr). apply (cascade_busy _ _ _ I HI). assumption.
Qed.
Arguments busy_after {g prog o I} k {st st' n} _ _ _ _.

Lemma nth_error_mid A (c : A) l' : forall l, nth_error (l ++ c :: l') (length l) = Some c.
Proof. induction l; simpl; auto. Qed.

Lemma set_nth_mid A (c x : A) l' : forall l, set_nth (l ++ c :: l') (length l) x = l ++ x :: l'.
Proof. induction l; simpl; congruence. Qed.

(* no head of the instance can be moved any more: dead instances (no heads), instances resting on
   matches for external events *)
Definition idle (c : cinst) : Prop := Forall (fun h => h_inert h = true) (c_heads c).

Lemma find_head_app p prog l' : forall l i,
  find_head p prog (l ++ l') i =
  match find_head p prog l i with Some x => Some x | None => find_head p prog l' (length l + i) end.
Proof.
  induction l as [|c l IH]; intros i; simpl; [reflexivity|].
  destruct (match nth_error prog (c_flow c) with Some es => _ | None => None end); [reflexivity|].
  rewrite IH, Nat.add_succ_r. reflexivity.
Qed.

Lemma find_head_idle p prog : forall l i, Forall idle l -> find_head p prog l i = None.
Proof.
  intros l i H. revert i. induction H as [|c l Hc _ IH]; intros i; simpl; [reflexivity|].
  rewrite IH. destruct (nth_error prog (c_flow c)) as [es|]; [|reflexivity].
  assert (E : forall j, find_in_heads p es c (c_heads c) j = None); [|rewrite E; reflexivity].
  induction Hc as [|h hs Hh _ IHh]; intros j; simpl; [reflexivity|].
  unfold movable. rewrite Hh, andb_false_r. apply IHh.
Qed.

(* `all_heads` of the instances l when they stand at positions k, k+1, ... *)
Definition heads_from (k : nat) (l : list cinst) : list (nat * nat) :=
  flat_map (fun ic => map (fun j => (fst ic, j)) (seq 0 (length (c_heads (snd ic))))) (combine (seq k (length l)) l).

Lemma heads_from_cons k c l :
  heads_from k (c :: l) = map (fun j => (k, j)) (seq 0 (length (c_heads c))) ++ heads_from (S k) l.
Proof. reflexivity. Qed.

Lemma heads_from_app l' : forall l k, heads_from k (l ++ l') = heads_from k l ++ heads_from (k + length l) l'.
Proof.
  induction l as [|c l IH]; intros k; [simpl; rewrite Nat.add_0_r; reflexivity|].
  simpl app. rewrite !heads_from_cons, IH, app_assoc. simpl. rewrite Nat.add_succ_r. reflexivity.
Qed.

(* One instance c with a single movable head among idle ones: what a reaction of every head leaves
   of the idle ones (nothing changes) and of c (what the advance of its head leaves of it). *)
Section OneLive.
Variables (g : bool) (prog : program) (o : oracles).

Lemma react_head_idle orc keep st i j c :
  nth_error (c_insts st) i = Some c -> idle c -> react_head g prog orc keep RAdvance st i j = COk st.
Proof.
  intros Hi Hc. unfold react_head. rewrite Hi.
  destruct (nth_error (c_heads c) j) as [hd|] eqn:Hj; [|reflexivity].
  destruct (nth_error prog (c_flow c)); [|reflexivity].
  apply nth_error_In in Hj. unfold idle in Hc. rewrite Forall_forall in Hc.
  unfold movable. rewrite (Hc _ Hj), andb_false_r. reflexivity.
Qed.

Lemma react_all_app orc keep react idx2 : forall idx1 st,
  react_all g prog orc keep react (idx1 ++ idx2) st =
  match react_all g prog orc keep react idx1 st with
  | COk st' => react_all g prog orc keep react idx2 st'
  | other => other
  end.
Proof.
  induction idx1 as [|[i j] idx1 IH]; intros st; simpl; [reflexivity|].
  destruct (react_head _ _ _ _ _ st i j); try reflexivity. apply IH.
Qed.

Lemma react_all_idle orc keep react (Hr : forall i j, react i j = RAdvance) post q t : forall l pre,
  Forall idle l ->
  let st := {| c_insts := pre ++ l ++ post; c_queue := q; c_tick := t |} in
  react_all g prog orc keep react (heads_from (length pre) l) st = COk st.
Proof.
  induction l as [|c l IH]; intros pre H st; [reflexivity|]. inversion_clear H as [|? ? Hc Hl].
  rewrite heads_from_cons, react_all_app.
  assert (E : forall js, react_all g prog orc keep react (map (fun j => (length pre, j)) js) st = COk st).
  { induction js as [|j js IHj]; simpl; [reflexivity|].
    rewrite Hr, (react_head_idle _ _ _ _ _ c); [exact IHj|apply nth_error_mid|exact Hc]. }
  rewrite E. specialize (IH (pre ++ [c]) Hl). rewrite last_length, <- app_assoc in IH. exact IH.
Qed.

(* the heads of c rest on stop elements: none was just created by a fork *)
Definition resting (c : cinst) : Prop := forall i, find_head is_pending prog [c] i = None.

Lemma pending_one l c l' : Forall idle l -> Forall idle l' -> resting c ->
  find_head is_pending prog (l ++ c :: l') 0 = None.
Proof.
  intros Hl Hl' Hc. rewrite find_head_app, (find_head_idle _ _ l) by assumption.
  change (c :: l') with ([c] ++ l'). rewrite find_head_app, Hc. apply find_head_idle. assumption.
Qed.

Definition advance (orc : nat -> outcome) (c : cinst) : option rout :=
  match c_heads c, nth_error prog (c_flow c) with
  | [hd], Some es =>
      match nth_error (h_alts hd) 0 with
      | Some p => if movable c hd then run_head g es orc (with_heads c []) hd p else None
      | None => None
      end
  | _, _ => None
  end.

Lemma advance_inv orc c ro : advance orc c = Some ro ->
  exists hd es p, c_heads c = [hd] /\ movable c hd = true /\ nth_error prog (c_flow c) = Some es /\
                  nth_error (h_alts hd) 0 = Some p /\ run_head g es orc (with_heads c []) hd p = Some ro.
Proof.
  unfold advance. destruct (c_heads c) as [|hd [|]]; try discriminate.
  destruct (nth_error prog (c_flow c)) as [es|]; [|discriminate].
  destruct (nth_error (h_alts hd) 0) as [p|] eqn:Hp; [|discriminate].
  destruct (movable c hd) eqn:Hm; [|discriminate]. intros H. exists hd, es, p. auto 6.
Qed.

Lemma react_advance orc keep st i c ro :
  nth_error (c_insts st) i = Some c -> advance (orc (c_tick st)) c = Some ro ->
  react_head g prog orc keep RAdvance st i 0 = COk (apply_rout st i ro).
Proof.
  intros Hi Ha. destruct (advance_inv _ _ _ Ha) as (hd & es & p & Hh & Hm & He & Hp & Hr).
  unfold react_head. rewrite Hi, Hh. change (nth_error [hd] 0) with (Some hd).
  cbn [remove_nth length seq combine filter map]. rewrite He, Hm, Hp.
  (* no other head for a merge to remove *)
  replace (match nth_error es (h_pos hd) with Some (EBlock BMerge) => _ | _ => [] end) with (@nil chead)
    by (destruct (nth_error es (h_pos hd)) as [e|]; [destruct e; try reflexivity|reflexivity];
        match goal with k : bkind |- _ => destruct k end; reflexivity).
  rewrite Hr. reflexivity.
Qed.

Lemma step_start l q t f a ro :
  find_head is_pending prog l 0 = None -> advance (o_orc o (S t)) (fresh f a) = Some ro ->
  step g prog o {| c_insts := l; c_queue := CStart f a :: q; c_tick := t |} =
  Some (COk {| c_insts := l ++ [r_inst ro]; c_queue := r_left ro ++ q ++ r_right ro; c_tick := S (S t) |}).
Proof.
  intros Hp Ha. unfold step. cbn [c_insts c_queue c_tick]. rewrite Hp.
  destruct (advance_inv _ _ _ Ha) as (_ & es & _ & _ & _ & He & _). cbn [fresh c_flow] in He. rewrite He.
  rewrite (react_advance _ _ _ _ (fresh f a) ro); [|apply nth_error_mid|exact Ha].
  unfold apply_rout. cbn [c_insts c_queue c_tick]. rewrite set_nth_mid. reflexivity.
Qed.

End OneLive.

(* The shape of the states of such a loop: idle instances around at most one other instance; what
   one event does to the shape.  The statements end in a continuation so that an invariant I of a
   loop is shown preserved event by event. *)
Section Lives.
Variables (g : bool) (prog : program) (o : oracles) (orc : nat -> outcome).
Hypothesis Hadv : forall t i j, o_react o t i j = RAdvance.
Hypothesis Horc : forall t, o_orc o t = orc.

Definition lives (oc : option cinst) (q : list cev) (st : cstate) : Prop :=
  exists l l', c_insts st = l ++ match oc with Some c => c :: l' | None => l' end /\ c_queue st = q /\
               Forall idle l /\ Forall idle l'.

Lemma lives_idle c q st : lives (Some c) q st -> idle c -> lives None q st.
Proof.
  intros (l & l' & Hi & Hq & Hl & Hl') Hc. exists l, (c :: l'). auto.
Qed.

Lemma start_alone (I : cstate -> Prop) f a q st ro :
  lives None (CStart f a :: q) st -> advance g prog orc (fresh f a) = Some ro ->
  (forall st', lives (Some (r_inst ro)) (r_left ro ++ q ++ r_right ro) st' -> I st') ->
  exists st', step g prog o st = Some (COk st') /\ I st'.
Proof.
  destruct st as [insts q0 t]. intros (l & l' & Hi & Hq & Hl & Hl') Ha HI. cbn in Hi, Hq. subst.
  eexists. split.
  - apply step_start; [apply find_head_idle, Forall_app; auto|rewrite Horc; exact Ha].
  - apply HI. exists (l ++ l'), []. rewrite Forall_app. auto.
Qed.

Lemma start_beside (I : cstate -> Prop) c f a q st ro :
  lives (Some c) (CStart f a :: q) st -> resting prog c -> advance g prog orc (fresh f a) = Some ro ->
  idle (r_inst ro) ->
  (forall st', lives (Some c) (r_left ro ++ q ++ r_right ro) st' -> I st') ->
  exists st', step g prog o st = Some (COk st') /\ I st'.
Proof.
  destruct st as [insts q0 t]. intros (l & l' & Hi & Hq & Hl & Hl') Hc Ha Hro HI. cbn in Hi, Hq. subst.
  eexists. split.
  - apply step_start; [apply pending_one; assumption|rewrite Horc; exact Ha].
  - apply HI. exists l, (l' ++ [r_inst ro]). cbn. rewrite Forall_app, <- app_assoc. auto 7.
Qed.

Lemma note_wakes (I : cstate -> Prop) c q st ro :
  lives (Some c) (CNote :: q) st -> resting prog c -> advance g prog orc c = Some ro ->
  (forall st', lives (Some (r_inst ro)) (r_left ro ++ q ++ r_right ro) st' -> I st') ->
  exists st', step g prog o st = Some (COk st') /\ I st'.
Proof.
  destruct st as [insts q0 t]. intros (l & l' & Hi & Hq & Hl & Hl') Hc Ha HI. cbn in Hi, Hq. subst.
  exists {| c_insts := l ++ r_inst ro :: l'; c_queue := r_left ro ++ q ++ r_right ro; c_tick := S (S t) |}.
  split; [|apply HI; exists l, l'; auto]. rewrite <- (Horc (S t)) in Ha.
  unfold step. cbn [c_insts c_queue c_tick]. rewrite pending_one by assumption.
  unfold all_heads. cbn [c_insts]. fold (heads_from 0 (l ++ c :: l')).
  rewrite heads_from_app, heads_from_cons, !react_all_app.
  rewrite (react_all_idle _ _ _ _ _ (Hadv t) (c :: l') q (S t) l []) by assumption.
  destruct (advance_inv _ _ _ _ _ Ha) as (hd & _ & _ & Hh & _). rewrite Hh.
  cbn [length seq map app react_all c_tick Nat.add].
  rewrite Hadv, (react_advance _ _ _ _ _ _ c ro); [|apply nth_error_mid|exact Ha].
  unfold apply_rout. cbn [c_insts c_queue c_tick app]. rewrite set_nth_mid.
  replace (l ++ r_inst ro :: l') with ((l ++ [r_inst ro]) ++ l' ++ []) by (rewrite <- app_assoc, app_nil_r; reflexivity).
  rewrite <- (last_length l (r_inst ro)). f_equal. apply (react_all_idle _ _ _ _ _ (Hadv t)). assumption.
Qed.
End Lives.
Arguments start_alone {g prog o orc} Horc {I f a q st} ro.
Arguments start_beside {g prog o orc} Horc {I c f a q st} ro.
Arguments note_wakes {g prog o orc} Hadv Horc {I c q st} ro.

Lemma eager_adv : forall t i j, o_react eager t i j = RAdvance.
Proof. reflexivity. Qed.
Lemma eager_orc : forall t, o_orc eager t = all_true 0.
Proof. reflexivity. Qed.

(* main: activate a; match X()      a: abort *)
Definition f4_prog : program :=
  [ [EWaitInt true; EStep; EStart 1 true; EWaitInt false; EBlock BMatch];
    [EWaitInt true; EAbort] ].
Definition f4_state : cstate :=
  {| c_insts := [ mk_inst 0 [mk_head 0] CStarting false ]; c_queue := [CNote]; c_tick := 0 |}.

Example f4_guarded : cascade_guardedb f4_prog = true.
Proof. vm_compute. reflexivity. Qed.

Example f4_repaired_terminates :
  match cascade true f4_prog eager 20 f4_state with COk st => c_queue st = [] | _ => False end.
Proof. vm_compute. reflexivity. Qed.

(* every restart of `a` dies at once and is queued again in front of everything else *)
Definition f4_inv (st : cstate) : Prop :=
  exists q, lives (Some (mk_inst 0 [mk_head 3] CStarting false)) (CStart 1 true :: q) st.

Lemma f4_loop : forall st, f4_inv st -> exists st', step false f4_prog eager st = Some (COk st') /\ f4_inv st'.
Proof.
  intros st [q H].
  apply (start_beside eager_orc
           {| r_inst := dead_inst (fresh 1 true) true; r_right := [CNote]; r_left := [CStart 1 true] |} H);
    [intros i; reflexivity|reflexivity|constructor|].
  intros st' H'. eexists. exact H'.
Qed.

Lemma f4_busy : forall n, 1 <= n -> cascade false f4_prog eager n f4_state = COut.
Proof.
  intros n. eapply (busy_after 1 f4_loop); [vm_compute; reflexivity|]. exists []. exists [], []. auto.
Qed.

Example f4_unchanged_busy : cascade false f4_prog eager 2000 f4_state = COut.
Proof. apply f4_busy, Nat.leb_le. reflexivity. Qed.

(* main: activate a; match X()      a: send Out(); abort
   the failing advance of `a` is its SECOND one (after the action), its status is STARTING;
   an activated flow with an action before its first match is outside the certificate class
   (side condition 2), the model still shows the repaired / unrepaired behaviour *)
Definition f5_prog : program :=
  [ [EWaitInt true; EStep; EStart 1 true; EWaitInt false; EBlock BMatch];
    [EWaitInt true; EBlock BAction; EAbort] ].
Definition f5_state : cstate :=
  {| c_insts := [ mk_inst 0 [mk_head 3] CStarting false ]; c_queue := [CStart 1 true]; c_tick := 0 |}.

Example f5_repaired_terminates :
  match cascade true f5_prog eager 20 f5_state with
  | COk st => c_queue st = [] /\ length (c_insts st) = 2
  | _ => False
  end.
Proof. vm_compute. split; reflexivity. Qed.

(* the restarted `a` rests on its action until the next event, then fails and is queued again *)
Definition f5_live : cinst := mk_inst 1 [mk_head 1] CStarting true.

Definition f5_inv (st : cstate) : Prop :=
  lives None [CStart 1 true; CNote; CNote] st \/ lives (Some f5_live) [CNote; CNote] st.

Lemma f5_loop : forall st, f5_inv st -> exists st', step false f5_prog eager st = Some (COk st') /\ f5_inv st'.
Proof.
  intros st [H|H].
  - apply (start_alone eager_orc
             {| r_inst := f5_live; r_right := []; r_left := [] |} H); [reflexivity|].
    intros st' H'. right. exact H'.
  - apply (note_wakes eager_adv eager_orc
             {| r_inst := dead_inst f5_live true; r_right := [CNote]; r_left := [CStart 1 true] |} H);
      [intros i; reflexivity|reflexivity|].
    intros st' H'. left. apply (lives_idle _ _ _ H'). constructor.
Qed.

Lemma f5_busy : forall n, 4 <= n -> cascade false f5_prog eager n f5_state = COut.
Proof.
  intros n. eapply (busy_after 4 f5_loop); [vm_compute; reflexivity|]. left. eexists [_; _; _], []. repeat constructor.
Qed.

Example f5_unguarded_busy : cascade false f5_prog eager 2000 f5_state = COut.
Proof. apply f5_busy, Nat.leb_le. reflexivity. Qed.

(* an or-group: main: match A() or B(); step     (fork, two heads, merge) *)
Definition f6_prog : program :=
  [ [EWaitInt true; ECatch (Some 0); EFork [1; 2]; ELabel 1 false; EBlock BMatch; EJump 3 false;
     ELabel 2 false; EBlock BMatch; EJump 3 false; ELabel 0 false; EWaitHeads; EBlock BMerge; ECatch None; EAbort;
     ELabel 3 false; EBlock BMerge; ECatch None; EStep] ].
Example f6_guarded : cascade_guardedb f6_prog = true.
Proof. vm_compute. reflexivity. Qed.
Example f6_forks :
  match cascade true f6_prog eager 20 {| c_insts := []; c_queue := [CStart 0 false]; c_tick := 0 |} with
  | COk st => map (fun c => (map h_pos (c_heads c), c_status c)) (c_insts st) = [([7; 4], CStarted)]
  | _ => False
  end.
Proof. vm_compute. reflexivity. Qed.

(* The implicit loop:  main: activate a; match X()     a: await b     b: $x = 1
   `a` becomes STARTED on its match for FlowFinished(b) - an event produced inside the same
   cascade - finishes, is restarted, ... : busy forever also under the repaired guard.  The
   certificate rejects it (side condition: no user-level match on an internal event before the
   first external match of an activated flow).  The same holds for the explicit loop
   `while True: await b`: a loop whose only waits are satisfied inside the same processing step is
   a loop without waiting statement. *)
Definition f7_prog : program :=
  [ [EWaitInt true; EStart 1 true; EWaitInt false; EBlock BMatch];
    [EWaitInt true; EStep; EStart 2 false; EWaitInt false; EStep; EWaitInt true];
    [EWaitInt true; EStep] ].
Definition f7_explicit : program :=
  [ [EWaitInt true; EStart 1 false; EWaitInt false; EBlock BMatch];
    [EWaitInt true; ELabel 0 false; EStep; EStart 2 false; EWaitInt false; EStep; EWaitInt true; EJump 0 false];
    [EWaitInt true; EStep] ].
Definition f7_state : cstate :=
  {| c_insts := []; c_queue := [CStart 0 false]; c_tick := 0 |}.

Example f7_rejected : cascade_guardedb f7_prog = false /\ cascade_guardedb f7_explicit = false.
Proof. vm_compute. split; reflexivity. Qed.

(* The queue only holds what wakes `a`: notes, and starts of `b`, which ends at once leaving two
   notes; `fval` counts the notes it is worth, `fed k q`: at least k.  `a` never waits in vain: every
   event taken from the queue puts at least its worth back. *)
Definition fval (q : list cev) : nat := list_sum (map (fun e => match e with CNote => 1 | CStart _ _ => 2 end) q).
Definition feeds (e : cev) : bool := match e with CNote | CStart 2 false => true | _ => false end.
Definition fed (k : nat) (q : list cev) : Prop := forallb feeds q = true /\ k <= fval q.

Lemma fed_head k q : fed (S k) q -> exists q', q = CNote :: q' \/ q = CStart 2 false :: q'.
Proof.
  intros [Hq Hk]. destruct q as [|e q]; [inversion Hk|]. exists q. simpl in Hq. apply andb_true_iff in Hq.
  destruct e as [[|[|[|f]]] []|]; simpl in Hq; destruct Hq; try discriminate; auto.
Qed.

Lemma fed_app k k' q r : fed k q -> forallb feeds r = true -> Nat.leb k' (k + fval r) = true -> fed k' (q ++ r).
Proof.
  unfold fed, fval. rewrite forallb_app, map_app, list_sum_app. intros [Hq Hk] Hr Hk'. apply Nat.leb_le in Hk'.
  rewrite Hq, Hr. split; [reflexivity|lia].
Qed.

(* the event e is taken from the queue, r is appended *)
Lemma fed_next k k' e q r : fed k (e :: q) -> forallb feeds r = true ->
  Nat.leb (k' + fval [e]) (k + fval r) = true -> fed k' (q ++ r).
Proof.
  intros [Hq Hk] Hr Hk'. apply Nat.leb_le in Hk'. apply (fed_app (k - fval [e])); [|exact Hr|apply Nat.leb_le; lia].
  simpl in Hq. apply andb_true_iff in Hq. unfold fed, fval in *. simpl in *. split; [apply Hq|lia].
Qed.

Definition f7_b_ends : rout := {| r_inst := dead_inst (fresh 2 false) false; r_right := [CNote; CNote]; r_left := [] |}.

(* implicit loop: `a` is queued for restart, or waits for b (STARTING), or for its end (STARTED) *)
Definition f7_a (started : bool) : cinst :=
  mk_inst 1 [mk_head (if started then 5 else 3)] (if started then CStarted else CStarting) true.

Definition f7_inv (st : cstate) : Prop :=
  exists q, (fed 0 q /\ lives None (CStart 1 true :: q) st) \/
            exists s, fed 1 q /\ lives (Some (f7_a s)) q st.

Lemma f7_loop : forall st, f7_inv st -> exists st', step true f7_prog eager st = Some (COk st') /\ f7_inv st'.
Proof.
  intros st (q & [[Hq H]|(s & Hq & H)]).
  - apply (start_alone eager_orc {| r_inst := f7_a false; r_right := [CStart 2 false]; r_left := [] |} H); [reflexivity|].
    intros st' H'. exists (q ++ [CStart 2 false]). right. exists false.
    split; [apply (fed_app 0 1 _ _ Hq); reflexivity|exact H'].
  - assert (Hr : resting f7_prog (f7_a s)) by (intros i; destruct s; reflexivity).
    destruct (fed_head _ _ Hq) as [q' [->| ->]]; [destruct s|].
    + apply (note_wakes eager_adv eager_orc
               {| r_inst := dead_inst (f7_a true) true; r_right := [CNote]; r_left := [CStart 1 true] |} H Hr); [reflexivity|].
      intros st' H'. exists (q' ++ [CNote]). left.
      split; [apply (fed_next 1 0 _ _ _ Hq); reflexivity|apply (lives_idle _ _ _ H'); constructor].
    + apply (note_wakes eager_adv eager_orc {| r_inst := f7_a true; r_right := [CNote]; r_left := [] |} H Hr); [reflexivity|].
      intros st' H'. exists (q' ++ [CNote]). right. exists true.
      split; [apply (fed_next 1 1 _ _ _ Hq); reflexivity|exact H'].
    + apply (start_beside eager_orc f7_b_ends H Hr); [reflexivity|constructor|].
      intros st' H'. exists (q' ++ [CNote; CNote]). right. exists s.
      split; [apply (fed_next 1 1 _ _ _ Hq); reflexivity|exact H'].
Qed.

(* explicit loop: the one instance of `a` waits for b (at 4; the start of b it sent may still be
   queued: worth 2) or for its end (at 6) *)
Definition f7x_a (at4 : bool) : cinst := mk_inst 1 [mk_head (if at4 then 4 else 6)] CStarted false.

Definition f7x_inv (st : cstate) : Prop :=
  exists q (at4 : bool), fed (if at4 then 2 else 1) q /\ lives (Some (f7x_a at4)) q st.

Lemma f7x_loop : forall st, f7x_inv st -> exists st', step true f7_explicit eager st = Some (COk st') /\ f7x_inv st'.
Proof.
  intros st (q & at4 & Hq & H).
  assert (Hr : resting f7_explicit (f7x_a at4)) by (intros i; destruct at4; reflexivity).
  assert (Hh : exists q', q = CNote :: q' \/ q = CStart 2 false :: q') by (destruct at4; exact (fed_head _ _ Hq)).
  destruct Hh as [q' [->| ->]]; [destruct at4|].
  - apply (note_wakes eager_adv eager_orc {| r_inst := f7x_a false; r_right := []; r_left := [] |} H Hr); [reflexivity|].
    intros st' H'. exists (q' ++ []), false.
    split; [apply (fed_next 2 1 _ _ _ Hq); reflexivity|exact H'].
  - apply (note_wakes eager_adv eager_orc {| r_inst := f7x_a true; r_right := [CStart 2 false]; r_left := [] |} H Hr);
      [reflexivity|].
    intros st' H'. exists (q' ++ [CStart 2 false]), true.
    split; [apply (fed_next 1 2 _ _ _ Hq); reflexivity|exact H'].
  - apply (start_beside eager_orc f7_b_ends H Hr); [reflexivity|constructor|].
    intros st' H'. exists (q' ++ [CNote; CNote]), at4.
    split; [destruct at4; apply (fed_next _ _ _ _ _ Hq); reflexivity|exact H'].
Qed.

Lemma f7_busy_ever : forall n, 5 <= n ->
  cascade true f7_prog eager n f7_state = COut /\ cascade true f7_explicit eager n f7_state = COut.
Proof.
  intros n Hn. split.
  - eapply (busy_after 5 f7_loop); [vm_compute; reflexivity| |exact Hn].
    exists [CNote; CNote; CNote]. left. split; [|eexists [_; _; _], []]; repeat constructor.
  - eapply (busy_after 5 f7x_loop); [vm_compute; reflexivity| |exact Hn].
    exists [CNote; CNote; CStart 2 false], true. split; [|eexists [_], [_]]; repeat constructor.
Qed.

Example f7_busy :
  cascade true f7_prog eager 3000 f7_state = COut /\ cascade true f7_explicit eager 3000 f7_state = COut.
Proof. apply f7_busy_ever, Nat.leb_le. reflexivity. Qed.

(* with a child that waits for an external event both are accepted and quiescent at once *)
Definition f7_waiting : program :=
  [ [EWaitInt true; EStart 1 false; EWaitInt false; EBlock BMatch];
    [EWaitInt true; ELabel 0 false; EStep; EStart 2 false; EWaitInt false; EStep; EWaitInt true; EJump 0 false];
    [EWaitInt true; EBlock BMatch] ].
Example f7_waiting_ok :
  match cascade true f7_waiting eager 40 f7_state with COk st => c_queue st = [] | _ => False end.
Proof. vm_compute. reflexivity. Qed.
