(* C12 (Colang 2.x) - static closedness of the modelled expansions (V2/Expand.v), for source
   trees of any nesting: every label an expanded element refers to is defined in the same
   expansion, every MergeHeads has its ForkHead, no composite element is produced, and (in a
   source where break / continue occur only inside loops) every Break / Continue carries the
   label of its loop.

   `scoped L M e`: e refers only to labels in L and fork uids in M; `own L M e`: what e defines is
   in L / M.  Every construct is scoped in ANY environment that owns it (and holds the labels of
   the enclosing loop), so the environment is never extended.  On a concrete element list both
   compute to conjunctions of atoms `L name`, `M uid`: the references of a fragment are matched
   against the definitions of its neighbours propositionally. *)
From Coq Require Import List String Bool Arith.
From NG Require Import V2.ClosedAst V2.Closed V2.Closed_proofs V2.Expand.
Import ListNotations.
Open Scope string_scope.
Open Scope list_scope.

Definition forks (es : list elem) : list string :=
  flat_map (fun e => match e with EFork u _ => [u] | _ => [] end) es.
Definition merges (es : list elem) : list string :=
  flat_map (fun e => match e with EMerge u => [u] | _ => [] end) es.
Definition refs (es : list elem) : list string := flat_map elem_labels es.

Lemma forks_cons e a : forks (e :: a) = forks [e] ++ forks a.
Proof. unfold forks. cbn [flat_map]. now rewrite app_nil_r. Qed.
Lemma merges_cons e a : merges (e :: a) = merges [e] ++ merges a.
Proof. unfold merges. cbn [flat_map]. now rewrite app_nil_r. Qed.
Lemma refs_cons e a : refs (e :: a) = refs [e] ++ refs a.
Proof. unfold refs. cbn [flat_map]. now rewrite app_nil_r. Qed.

(* Forall as a function, so that it computes to a conjunction on a concrete list *)
Fixpoint all {A} (P : A -> Prop) (l : list A) : Prop :=
  match l with [] => True | x :: r => P x /\ all P r end.

Lemma all_app {A} (P : A -> Prop) a b : all P (a ++ b) <-> all P a /\ all P b.
Proof. induction a as [|x a IH]; cbn [all app]; tauto. Qed.

Lemma all_In {A} (P : A -> Prop) l : all P l <-> forall x, In x l -> P x.
Proof.
  induction l as [|y r IH]; cbn [all In]; [split; [intros _ x []|trivial]|].
  rewrite IH. split; [intros [Hy Hr] x [<-|Hx]; auto|auto].
Qed.

Lemma all_flat_map {A B} (P : B -> Prop) (f : A -> list B) l :
  (forall x, all P (f x)) -> all P (flat_map f l).
Proof. intros H. induction l as [|x r IH]; [exact I|]. cbn [flat_map]. apply all_app. auto. Qed.

(* `all P (a ++ b ++ ..)`: one subgoal per segment; hypothesis H into one hypothesis per segment *)
Ltac all_split := repeat (apply all_app; split).
Ltac all_split_in H := repeat (apply all_app in H; let H' := fresh in destruct H as [H' H]).

Lemma mapi_from_in {A B} (f : nat -> A -> B) l : forall i y,
  In y (mapi_from f i l) -> exists j x, y = f j x.
Proof.
  induction l as [|x r IH]; intros i y H; [contradiction|].
  destruct H as [<-|H]; [eauto|eapply IH; eauto].
Qed.

Section StmtInd.
  Variable P : stmt -> Prop.
  Hypothesis HPlain : P SPlain.
  Hypothesis HBlock : P SBlock.
  Hypothesis HBreak : P SBreak.
  Hypothesis HContinue : P SContinue.
  Hypothesis HReturn : P SReturn.
  Hypothesis HAbort : P SAbort.
  Hypothesis HIf : forall th el, Forall P th -> Forall P el -> P (SIf th el).
  Hypothesis HWhile : forall b, Forall P b -> P (SWhile b).
  Hypothesis HMatch : forall ks, P (SMatch ks).
  Hypothesis HStart : forall gs, P (SStart gs).
  Hypothesis HAwait : forall gs, P (SAwait gs).
  Hypothesis HActivate : forall n, P (SActivate n).
  Hypothesis HWhen : forall cases els,
      Forall (fun c => Forall P (snd c)) cases -> (forall el, els = Some el -> Forall P el) -> P (SWhen cases els).

  Fixpoint stmt_ind' (s : stmt) : P s :=
    let fl := fix fl (ss : list stmt) : Forall P ss :=
      match ss with
      | [] => Forall_nil P
      | s :: r => Forall_cons s (stmt_ind' s) (fl r)
      end in
    match s with
    | SPlain => HPlain | SBlock => HBlock | SBreak => HBreak | SContinue => HContinue
    | SReturn => HReturn | SAbort => HAbort
    | SIf th el => HIf th el (fl th) (fl el)
    | SWhile b => HWhile b (fl b)
    | SMatch ks => HMatch ks
    | SStart gs => HStart gs
    | SAwait gs => HAwait gs
    | SActivate n => HActivate n
    | SWhen cases els =>
        HWhen cases els
          ((fix fc (cs : list (list member * list stmt)) : Forall (fun c => Forall P (snd c)) cs :=
              match cs with
              | [] => Forall_nil _
              | c :: r => Forall_cons c (fl (snd c)) (fc r)
              end) cases)
          (match els as o return (forall el, o = Some el -> Forall P el) with
           | None => fun el H => match H in (_ = y) return (match y with None => True | Some _ => Forall P el end) with eq_refl => I end
           | Some el0 => fun el H => match H in (_ = y) return (match y with None => True | Some e => Forall P e end) with eq_refl => fl el0 end
           end)
    end.
End StmtInd.

(* the local fixes of xstmt are the top-level xlist / xcases *)
Lemma xstmt_if cb p th el :
  xstmt cb p (SIf th el) =
  match el with
  | [] => EGoto (if_D p) true :: xlist cb p 0 0 th ++ [ELabel (if_D p)]
  | _ => EGoto (if_E p) true :: xlist cb p 0 0 th
         ++ [EGoto (if_D p) false; ELabel (if_E p)] ++ xlist cb p 1 0 el ++ [ELabel (if_D p)]
  end.
Proof. reflexivity. Qed.

Lemma xstmt_while cb p body :
  xstmt cb p (SWhile body) =
  ELabel (wh_B p) :: EGoto (wh_D p) true
    :: xlist (Some (wh_B p, wh_D p)) p 2 0 body ++ [EGoto (wh_B p) false; ELabel (wh_D p)].
Proof. reflexivity. Qed.

Lemma xstmt_when cb p cases els :
  xstmt cb p (SWhen cases els) =
  EBegin (wn_S p)
    :: EFork (wn_K p) (map (cs_I p) (seq 0 (List.length cases)))
    :: xcases cb p 0 cases
    ++ when_tail p (match els with None => None | Some el => Some (xlist cb p 3 0 el) end).
Proof. reflexivity. Qed.

Lemma xcases_nil cb p i : xcases cb p i [] = [].
Proof. reflexivity. Qed.
Lemma xcases_cons cb p i tr body r :
  xcases cb p i ((tr, body) :: r) = when_case p i tr (xlist cb (p ++ [4; i]) 5 0 body) ++ xcases cb p (S i) r.
Proof. reflexivity. Qed.

Lemma wf_if inl th el : wf_loops inl (SIf th el) = wf_list inl th && wf_list inl el.
Proof. reflexivity. Qed.
Lemma wf_while inl b : wf_loops inl (SWhile b) = wf_list true b.
Proof. reflexivity. Qed.
Lemma wf_when inl cases els :
  wf_loops inl (SWhen cases els) =
  wf_cases inl cases && match els with None => true | Some el => wf_list inl el end.
Proof. reflexivity. Qed.

Lemma wf_cases_cons inl tr c r : wf_cases inl ((tr, c) :: r) = wf_list inl c && wf_cases inl r.
Proof. reflexivity. Qed.

Definition is_some (cb : cb_t) : bool := match cb with Some _ => true | None => false end.

Section Scope.
  (* lx = true: a Break / Continue without a label is not accepted either *)
  Variables (lx : bool) (L M : string -> Prop).

  Definition scoped (e : elem) : Prop :=
    match e with
    | EGoto l _ | ECatch (Some l) | EBreak (Some l) | EContinue (Some l) => L l
    | EFork _ ls => all L ls
    | EMerge u => M u
    | EBreak None | EContinue None => lx = false
    | EComposite _ => False
    | _ => True
    end.

  Definition own (e : elem) : Prop :=
    match e with ELabel n => L n | EFork u _ => M u | _ => True end.

  Local Notation sc := (all scoped).
  Local Notation owns := (all own).

  (* scoped in this environment as soon as the environment owns it *)
  Definition ok (es : list elem) : Prop := owns es -> sc es.

  (* the labels of the enclosing loop are in scope *)
  Definition cb_in (cb : cb_t) : Prop := match cb with Some (a, b) => L a /\ L b | None => True end.

  Lemma start_atom_sc a : sc (start_atom a).
  Proof. destruct a; cbn; tauto. Qed.

  Lemma starts_sc g : sc (starts g).
  Proof. apply all_flat_map, start_atom_sc. Qed.

  Lemma case_pre_sc tr : sc (case_pre tr).
  Proof. apply all_flat_map. intros []; [exact I|apply start_atom_sc|apply start_atom_sc]. Qed.

  Lemma x_activate_sc n : sc (x_activate n).
  Proof. induction n as [|n IH]; [exact I|]. cbn [x_activate app all scoped]. tauto. Qed.

  Lemma group_body_owns en gs : owns (group_body en gs) -> all L gs.
  Proof. induction gs as [|g r IH]; cbn; tauto. Qed.

  Lemma and_group_ok p n : ok (and_group p n).
  Proof.
    unfold and_group. cbv zeta. generalize (group_labels p n) as gs. intros gs.
    intros H. apply all_app in H. destruct H as [Hpre H]. apply all_app in H. destruct H as [Hgs Hpost].
    apply group_body_owns in Hgs.
    cbn [all scoped own] in *. all_split; [cbn; tauto|apply all_flat_map; intros g; cbn; tauto|cbn; tauto].
  Qed.

  Lemma match_all_ok p tag i k : ok (match_all p tag i k).
  Proof. unfold match_all. destruct (k <=? 1)%nat; [cbv [ok]; cbn; tauto|apply and_group_ok]. Qed.

  Lemma or_branches_owns sb p bodies : forall i,
    owns (or_branches sb p i bodies) -> all L (map (or_G sb p) (seq i (List.length bodies))).
  Proof.
    induction bodies as [|b r IH]; intros i; [trivial|].
    cbn [or_branches List.length seq map all own]. intros [Hg H]. apply all_app in H.
    split; [exact Hg|]. apply IH, H.
  Qed.

  Lemma or_branches_ok sb p bodies : forall i,
    L (or_N sb p) -> (forall b, In b bodies -> ok b) -> ok (or_branches sb p i bodies).
  Proof.
    induction bodies as [|b r IH]; intros i HN Hb; [exact (fun H => H)|].
    cbn [or_branches all own scoped ok]. intros [_ H]. apply all_app in H. destruct H as [H1 [_ Hr]].
    split; [exact I|]. apply all_app. split; [apply Hb; [now left|exact H1]|].
    split; [exact HN|]. exact (IH (S i) HN (fun b' Hb' => Hb b' (or_intror Hb')) Hr).
  Qed.

  Lemma or_struct_ok sb p bodies :
    (forall b, In b bodies -> ok b) -> ok (or_struct sb p bodies).
  Proof.
    intros Hb. unfold or_struct. intros H. apply all_app in H. destruct H as [Hs H].
    apply all_app in H. destruct H as [Hpre H]. apply all_app in H. destruct H as [Hbr Htail].
    pose proof (or_branches_owns _ _ _ _ Hbr) as HG.
    pose proof (or_branches_ok sb p bodies 0) as HB. unfold ok in HB.
    unfold or_tail in *. destruct sb; cbn [all scoped own] in *; all_split; cbn [all scoped]; tauto.
  Qed.

  Lemma x_match_ok p ks : ok (x_match p ks).
  Proof.
    unfold x_match.
    assert (H : ok (or_struct false p (mapi_from (fun i k => match_all p 6 i k) 0 ks))).
    { apply or_struct_ok. intros b Hb. destruct (mapi_from_in _ _ _ _ Hb) as [j [k ->]]. apply match_all_ok. }
    destruct ks as [|k [|k2 r]]; [exact H|apply match_all_ok|exact H].
  Qed.

  Lemma x_start_ok p gs : ok (x_start p gs).
  Proof.
    unfold x_start.
    assert (H : ok (or_struct false p (map starts gs))).
    { apply or_struct_ok. intros b Hb _. apply in_map_iff in Hb. destruct Hb as [g [<- _]]. apply starts_sc. }
    destruct gs as [|g [|g2 r]]; [exact H|intros _; apply starts_sc|exact H].
  Qed.

  Lemma awaited_ok p tag i g : ok (starts g ++ match_all p tag i (List.length g)).
  Proof. intros H. apply all_app in H. apply all_app. split; [apply starts_sc|apply match_all_ok, H]. Qed.

  Lemma x_await_ok p gs : ok (x_await p gs).
  Proof.
    unfold x_await.
    assert (H : ok (or_struct true p (mapi_from (fun i g => starts g ++ match_all p 7 i (List.length g)) 0 gs))).
    { apply or_struct_ok. intros b Hb. destruct (mapi_from_in _ _ _ _ Hb) as [j [g ->]]. apply awaited_ok. }
    destruct gs as [|g [|g2 r]]; [exact H|apply awaited_ok|exact H].
  Qed.

  Definition Pok (s : stmt) : Prop :=
    forall cb p, implb lx (wf_loops (is_some cb) s) = true -> cb_in cb -> ok (xstmt cb p s).

  Lemma implb_andb a b : implb lx (a && b) = true -> implb lx a = true /\ implb lx b = true.
  Proof. destruct lx, a, b; auto. Qed.

  Lemma xlist_ok ss : Forall Pok ss ->
    forall cb p t i, implb lx (wf_list (is_some cb) ss) = true -> cb_in cb -> ok (xlist cb p t i ss).
  Proof.
    induction 1 as [|s r Hs Hr IH]; intros cb p t i Hw Hcb; [exact (fun H => H)|].
    cbn [xlist wf_list] in *. apply implb_andb in Hw. destruct Hw as [H1 H2].
    intros H. apply all_app in H. destruct H as [Ha Hb]. apply all_app. split; [apply Hs|apply IH]; assumption.
  Qed.

  Lemma when_case_ok p i tr body :
    L (wn_D p) -> L (wn_E p) -> M (wn_K p) -> ok body -> ok (when_case p i tr body).
  Proof.
    intros HD HE HK Hb. unfold when_case.
    pose proof (match_all_ok p 9 i (List.length tr)) as Hm. pose proof (case_pre_sc tr) as Hp. unfold ok in Hb, Hm.
    intros H. apply all_app in H. destruct H as [Hhead H]. apply all_app in H. destruct H as [Htrig H].
    apply all_app in Htrig. all_split_in H. cbn [all scoped own] in *.
    all_split; cbn [all scoped]; tauto.
  Qed.

  Lemma when_tail_owns p els : owns (when_tail p els) -> L (wn_E p) /\ L (wn_D p).
  Proof. unfold when_tail. intros H. all_split_in H. cbn [all own] in *. tauto. Qed.

  Lemma when_tail_ok p els :
    (forall el, els = Some el -> ok el) -> ok (when_tail p els).
  Proof.
    unfold when_tail. intros Hel H. apply all_app in H. destruct H as [_ H]. apply all_app in H. destruct H as [H _].
    all_split; [exact (conj I (conj I (conj I I)))| |exact (conj I I)].
    destruct els as [el|]; [|exact (conj I I)]. specialize (Hel el eq_refl). unfold ok in Hel.
    cbn [app all own scoped] in *. tauto.
  Qed.

  Lemma xcases_owns cb p cs : forall i,
    owns (xcases cb p i cs) -> all L (map (cs_I p) (seq i (List.length cs))).
  Proof.
    induction cs as [|[tr c] r IH]; intros i; [trivial|].
    rewrite xcases_cons. intros H. apply all_app in H. destruct H as [[Hi _] Hr].
    split; [exact Hi|]. apply IH, Hr.
  Qed.

  Lemma xcases_ok cb p cs : Forall (fun c => Forall Pok (snd c)) cs ->
    cb_in cb -> L (wn_D p) -> L (wn_E p) -> M (wn_K p) ->
    forall i, implb lx (wf_cases (is_some cb) cs) = true -> ok (xcases cb p i cs).
  Proof.
    intros H Hcb HD HE HK. induction H as [|[tr c] r Hc Hr IH]; intros i Hw; [exact (fun H => H)|]. cbn [snd] in Hc.
    rewrite xcases_cons. rewrite wf_cases_cons in Hw. apply implb_andb in Hw. destruct Hw as [H1 H2].
    intros H. apply all_app in H. destruct H as [Ha Hb]. apply all_app. split; [|apply IH; assumption].
    apply when_case_ok; try assumption. now apply xlist_ok.
  Qed.

  Lemma xstmt_ok : forall s, Pok s.
  Proof.
    apply stmt_ind'; unfold Pok, ok.
    - intros; exact (conj I I).
    - intros; exact (conj I I).
    - intros [[a b]|] p Hw Hcb _; cbn in *; [tauto|]. destruct lx; [discriminate Hw|tauto].
    - intros [[a b]|] p Hw Hcb _; cbn in *; [tauto|]. destruct lx; [discriminate Hw|tauto].
    - intros; exact (conj I I).
    - intros; exact (conj I I).
    - (* if *) intros th el Hth Hel cb p Hw Hcb. rewrite wf_if in Hw. apply implb_andb in Hw.
      destruct Hw as [H1 H2]. rewrite xstmt_if.
      pose proof (xlist_ok th Hth cb p 0 0 H1 Hcb) as HT.
      pose proof (xlist_ok el Hel cb p 1 0 H2 Hcb) as HE.
      destruct el as [|e0 el0].
      + intros [_ H]. apply all_app in H. destruct H as [Hth' [HD _]].
        split; [exact HD|]. apply all_app. split; [exact (HT Hth')|exact (conj I I)].
      + revert HE. generalize (xlist cb p 1 0 (e0 :: el0)) as EL. intros EL HE [_ H].
        apply all_app in H. destruct H as [Hth' H]. apply all_app in H. destruct H as [[_ [HEl _]] H].
        apply all_app in H. destruct H as [Hel' [HD _]].
        split; [exact HEl|]. apply all_app. split; [exact (HT Hth')|].
        apply all_app. split; [exact (conj HD (conj I I))|].
        apply all_app. split; [exact (HE Hel')|exact (conj I I)].
    - (* while *) intros body Hb cb p Hw Hcb. rewrite wf_while in Hw. rewrite xstmt_while.
      pose proof (xlist_ok body Hb (Some (wh_B p, wh_D p)) p 2 0 Hw) as HB. unfold ok in HB.
      intros [HB' [_ H]]. apply all_app in H. cbn [all scoped own cb_in] in *.
      split; [exact I|]. split; [tauto|]. all_split; cbn [all scoped]; tauto.
    - intros ks cb p _ _. apply x_match_ok.
    - intros gs cb p _ _. apply x_start_ok.
    - intros gs cb p _ _. apply x_await_ok.
    - intros n cb p _ _ _. apply x_activate_sc.
    - (* when *) intros cases els Hc He cb p Hw Hcb. rewrite wf_when in Hw. apply implb_andb in Hw.
      destruct Hw as [H1 H2]. rewrite xstmt_when.
      intros [_ [HK H]]. apply all_app in H. destruct H as [Hx Ht].
      destruct (when_tail_owns _ _ Ht) as [HE HD].
      split; [exact I|]. split; [exact (xcases_owns _ _ _ 0 Hx)|]. apply all_app. split.
      + exact (xcases_ok cb p cases Hc Hcb HD HE HK 0 H1 Hx).
      + apply when_tail_ok; [|exact Ht].
        destruct els as [el|]; intros el' [= <-]. apply xlist_ok; auto.
  Qed.
End Scope.

Lemma lbl_from_In l es : forall i, In (ELabel l) es -> lbl_from l es i <> None.
Proof.
  induction es as [|e r IH]; intros i Hin; [contradiction|].
  cbn [lbl_from]. destruct (lbl_from l r (S i)) eqn:Hr; [discriminate|].
  destruct Hin as [->|Hin]; [now rewrite String.eqb_refl|]. exfalso. exact (IH (S i) Hin Hr).
Qed.

Lemma own_self es : all (own (fun l => definedb es l = true) (fun u => has_fork es u = true)) es.
Proof.
  apply all_In. intros e He. destruct e; try exact I; cbn [own].
  - unfold definedb, lbl. pose proof (lbl_from_In n es 0 He).
    destruct (lbl_from n es 0); [reflexivity|contradiction].
  - apply existsb_exists. eexists. split; [exact He|apply String.eqb_refl].
Qed.

Lemma expand_scoped lx ss :
  implb lx (wf_list false ss) = true ->
  forall e, In e (expand ss) ->
            scoped lx (fun l => definedb (expand ss) l = true) (fun u => has_fork (expand ss) u = true) e.
Proof.
  intros Hw. apply all_In. destruct (own_self (expand ss)) as [_ Ho]. split; [exact I|].
  apply xlist_ok with (cb := None); [|exact Hw|exact I|exact Ho].
  apply Forall_forall. intros s _. apply xstmt_ok.
Qed.

Lemma scoped_labels lx L M e : scoped lx L M e -> forall l, In l (elem_labels e) -> L l.
Proof.
  destruct e as [| | | | |[|]|[|]|[|]| | | | | | |]; cbn; intros H x Hx;
    try contradiction; try (destruct Hx as [<-|[]]; exact H).
  revert x Hx. now apply all_In.
Qed.

(* C12 for the modelled expansions, static part: for source trees of ANY nesting every label a
   Goto / ForkHead / CatchPatternFailure / Break / Continue refers to is defined in the expanded
   flow, every MergeHeads has its ForkHead, only primitives remain. *)
Theorem expand_static_closed ss :
  labels_okb (expand ss) = true /\ no_compositeb (expand ss) = true /\ merges_okb (expand ss) = true.
Proof.
  pose proof (expand_scoped false ss eq_refl) as H.
  split; [|split]; apply forallb_forall; intros e He; specialize (H e He).
  - apply forallb_forall. exact (scoped_labels _ _ _ _ H).
  - destruct e; try reflexivity. contradiction.
  - destruct e; try reflexivity. exact H.
Qed.

(* consequence through the checker's soundness: the referenced labels are positions of the flow *)
Corollary expand_labels_exist ss :
  forall i e l, nth_error (expand ss) i = Some e -> In l (elem_labels e) ->
                exists k, k < List.length (expand ss) /\ nth_error (expand ss) k = Some (ELabel l).
Proof. apply labels_okb_sound. apply expand_static_closed. Qed.

(* in a source where break/continue occur only inside loops, every expanded Break / Continue
   carries the label of its loop *)
Theorem expand_loop_exits ss : wf_list false ss = true -> loop_exits_okb (expand ss) = true.
Proof.
  intros Hw. apply forallb_forall. intros e He.
  pose proof (expand_scoped true ss Hw e He) as H.
  destruct e as [| | | | | |[|]|[|]| | | | | | |]; try reflexivity; discriminate H.
Qed.
